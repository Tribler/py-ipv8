(* C09, path level - positions on a path: nodes and link ids are pairwise distinct, so a node name or an
   id determines its position. *)
From Coq Require Import ZArith List Bool Lia ZifyBool.
From IPV8V Require Import lib.Lists model.M09_reclaim model.M09_network proofs.P09_alist.
Import ListNotations.
Open Scope Z_scope.

Lemma inI_in ids x : inI ids x = true <-> In x ids.
Proof. apply existsb_eqb_in. Qed.

Lemma inI_not_in ids x : inI ids x = false <-> ~ In x ids.
Proof.
  split; intro H.
  - intro Hin. apply inI_in in Hin. congruence.
  - destruct (inI ids x) eqn:E; [|reflexivity]. exfalso. apply H. apply inI_in. exact E.
Qed.

Lemma nodup_b_sound l : nodup_b l = true -> NoDup l.
Proof.
  induction l as [|x tl IH]; simpl; intro H; [constructor|].
  apply andb_true_iff in H. destruct H as [H1 H2]. constructor; [|apply IH; exact H2].
  intro Hin. apply existsb_eqb_in in Hin. rewrite Hin in H1. discriminate.
Qed.

Lemma forallb_aget {A} {f : Z * A -> bool} {l x v} : forallb f l = true -> aget x l = Some v -> f (x, v) = true.
Proof. intros H Hg. apply aget_in in Hg. rewrite forallb_forall in H. apply H. exact Hg. Qed.

(* The measure.  On a path of h links whose datagrams live at most D, a cell sent by the bound of its link and
   direction is passed on, or turned round, by the bound of the link it goes out on. *)
Lemma sent_down_next tq D l sent t :
  sent <= tq + (Z.of_nat l - 1) * D -> t <= sent + D -> t <= tq + (Z.of_nat (S l) - 1) * D.
Proof. lia. Qed.

Lemma sent_up_next tq D h l sent t :
  sent <= tq + (2 * Z.of_nat h - Z.of_nat (S l)) * D -> t <= sent + D -> t <= tq + (2 * Z.of_nat h - Z.of_nat l) * D.
Proof. lia. Qed.

Lemma sent_turn tq D h l sent t :
  0 <= D -> (l <= h)%nat -> sent <= tq + (Z.of_nat l - 1) * D -> t <= sent + D ->
  t <= tq + (2 * Z.of_nat h - Z.of_nat l) * D.
Proof. nia. Qed.

Section Path.
Variable p : path.
Hypothesis Hp : path_ok_b p = true.

Let h := p_len p.

Lemma nodes_nodup : NoDup (p_nodes p).
Proof. unfold path_ok_b in Hp. apply andb_true_iff in Hp. apply nodup_b_sound. tauto. Qed.

Lemma ids_nodup : NoDup (p_ids p).
Proof. unfold path_ok_b in Hp. apply andb_true_iff in Hp. apply nodup_b_sound. tauto. Qed.

Lemma len_nodes : length (p_nodes p) = S h.
Proof. unfold p_nodes, h, p_len. simpl. rewrite map_length. reflexivity. Qed.

Lemma len_ids : length (p_ids p) = h.
Proof. unfold p_ids, h, p_len. apply map_length. Qed.

Lemma nd_inj i j : (i <= h)%nat -> (j <= h)%nat -> nd p i = nd p j -> i = j.
Proof.
  intros Hi Hj E. unfold nd in E.
  apply (proj1 (NoDup_nth (p_nodes p) (-1)) nodes_nodup); try (rewrite len_nodes; lia). exact E.
Qed.

Lemma below_origin n k : (1 <= k <= h)%nat -> n = nd p k -> n <> nd p 0.
Proof.
  intros Hk Hn E. assert (k = 0%nat) by (apply nd_inj; [exact (proj2 Hk) | apply Nat.le_0_l | congruence]). lia.
Qed.

Lemma idk_S k : idk p (S k) = nth k (p_ids p) 0.
Proof. reflexivity. Qed.

Lemma idk_inj i j : (1 <= i <= h)%nat -> (1 <= j <= h)%nat -> idk p i = idk p j -> i = j.
Proof.
  intros Hi Hj E. destruct i as [|i]; [lia|]. destruct j as [|j]; [lia|].
  rewrite !idk_S in E. f_equal.
  apply (proj1 (NoDup_nth (p_ids p) 0) ids_nodup); try (rewrite len_ids; lia). exact E.
Qed.

Lemma idk_in k : (1 <= k <= h)%nat -> inI (p_ids p) (idk p k) = true.
Proof.
  intro Hk. apply inI_in. destruct k as [|k]; [lia|]. rewrite idk_S. apply nth_In. rewrite len_ids. lia.
Qed.

Lemma in_idk x : inI (p_ids p) x = true -> exists k, (1 <= k <= h)%nat /\ x = idk p k.
Proof.
  intro H. apply inI_in in H. destruct (In_nth _ _ 0 H) as (k & Hk & E). rewrite len_ids in Hk.
  exists (S k). split; [lia|]. rewrite idk_S. symmetry; exact E.
Qed.

End Path.
