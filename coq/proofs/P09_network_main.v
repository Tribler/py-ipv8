(* C09, path level - every network step after the quiet point preserves the cross-node invariant;
   the path-level reclamation bound. *)
From Coq Require Import ZArith List Bool Lia.
From IPV8V Require Import gen.G09_rules model.M09_reclaim model.M09_network spec.S09_reclaim proofs.P09_alist
  proofs.P09_inv proofs.P09_special proofs.P09_main
  proofs.P09_network_node proofs.P09_network_step proofs.P09_network_path proofs.P09_network_inv.
Import ListNotations.
Open Scope Z_scope.

(* P09_network_inv.wgood and P09_network_binv.wgoodF unfold to net_good at their own NG and MG *)
Section NetGood.
Variable st : settings.
Variable NG : Z -> node -> Prop.
Variable MG : msg -> Prop.
Hypothesis MG_destroy : forall src dst cid reason sent, MG (FDestroy src dst cid reason sent).

Definition net_good (w : net) : Prop :=
  (forall n s, aget n (nodes w) = Some s -> NG n s) /\ (forall m, In m (flight w) -> MG m).

Lemma take_msg_nodes w i keep : nodes (take_msg w i keep) = nodes w.
Proof. unfold take_msg. destruct keep; reflexivity. Qed.

Lemma net_good_drop w i : net_good w -> net_good (mkNet (nodes w) (remove_nth i (flight w))).
Proof. intros [Wn Wf]. split; [exact Wn|]. simpl. intros m H. apply Wf. eapply in_remove_nth; eauto. Qed.

Lemma net_good_take w i keep : net_good w -> net_good (take_msg w i keep).
Proof. intro W. unfold take_msg. destruct keep; [exact W | apply net_good_drop; exact W]. Qed.

Lemma net_good_event w n t e inherit :
  net_good w ->
  (forall s, aget n (nodes w) = Some s ->
     NG n (fst (step st s (t, e)))
     /\ forall d c early mm, In (OCell d c early mm) (snd (step st s (t, e))) ->
          MG (FCell n d c early (if mm =? 0 then inherit else mm) t)) ->
  net_good (node_event st w n t e inherit).
Proof.
  intros [Wn Wf] Hok. unfold node_event. destruct (aget n (nodes w)) as [s|] eqn:En; [|split; assumption].
  destruct (Hok s eq_refl) as [G' O']. split; simpl.
  - intros n' s1 Hg. rewrite aget_aset in Hg. destruct (n' =? n) eqn:E; [|apply Wn; exact Hg].
    apply Z.eqb_eq in E. subst n'. inversion Hg; subst s1. exact G'.
  - intros m Hin. apply in_app_or in Hin. destruct Hin as [Hin|Hin]; [apply Wf; exact Hin|].
    apply in_flat_map in Hin. destruct Hin as (o1 & Ho1 & Hm).
    destruct o1; simpl in Hm; try contradiction; destruct Hm as [Hm|[]]; subst m; [|apply MG_destroy].
    exact (O' _ _ _ _ Ho1).
Qed.

End NetGood.

Lemma typed_unrelayed w dst cid s mid m :
  aget dst (nodes w) = Some s -> aget cid (relays s) = None ->
  (mid =? 0) || (msg_id m =? mid) || relaying w dst cid = true -> mid = 0 \/ msg_id m = mid.
Proof.
  intros Hs Hnr Hty. unfold relaying, ahas in Hty. rewrite Hs, Hnr, orb_false_r in Hty.
  apply orb_true_iff in Hty. destruct Hty as [E|E]; apply Z.eqb_eq in E; auto.
Qed.

Section Served.
Variable st : settings.
Variable D : Z.
Hypothesis Hst : settings_ok st.

Definition winv (w : net) : Prop := forall n s, aget n (nodes w) = Some s -> inv st s.

Lemma node_event_inv w n t e inherit :
  winv w -> (forall s, aget n (nodes w) = Some s -> on_time st s t = true) -> winv (node_event st w n t e inherit).
Proof.
  intros Wi Hon. unfold node_event. destruct (aget n (nodes w)) as [s|] eqn:En; [|exact Wi].
  intros n' s1 Hg. simpl in Hg. rewrite aget_aset in Hg. destruct (n' =? n) eqn:E; [|apply (Wi _ _ Hg)].
  inversion Hg; subst s1. apply step_inv; [exact Hst | apply Hon; reflexivity | apply (Wi _ _ En)].
Qed.

Lemma nstep_inv w tl : winv w -> step_timely st w tl = true -> winv (nstep st w tl).
Proof.
  intros Wi Ht. destruct tl as [t l]. unfold step_timely in Ht. simpl fst in Ht. simpl snd in Ht.
  unfold nstep. simpl fst. simpl snd. destruct l as [i keep plain len cr ls|i|n e].
  - simpl in Ht. destruct (nth_error (flight w) i) as [m|]; [|exact Wi].
    destruct m as [src dst cid early mid sent|src dst cid reason sent]; apply node_event_inv;
      try (intros n s; rewrite take_msg_nodes; apply Wi); intros s Hs; rewrite take_msg_nodes in Hs; rewrite Hs in Ht; exact Ht.
  - exact Wi.
  - apply node_event_inv; [exact Wi|]. intros s Hs. simpl in Ht. rewrite Hs in Ht. exact Ht.
Qed.

Lemma nrun_inv tr : forall w, winv w -> nrun_timely st w tr = true -> winv (nrun st w tr).
Proof.
  induction tr as [|tl rest IH]; intros w W H; [exact W|].
  simpl in H. apply andb_true_iff in H. destruct H as [H1 H2]. simpl. apply IH; [|exact H2].
  apply nstep_inv; assumption.
Qed.

Lemma step_ok_timely ids dd w tl : step_ok st D ids dd w tl = true -> step_timely st w tl = true.
Proof. unfold step_ok. intro H. repeat (apply andb_true_iff in H; destruct H as [H ?]). exact H. Qed.

Lemma nrun_ok_timely ids dd tr : forall w, nrun_ok st D ids dd w tr = true -> nrun_timely st w tr = true.
Proof.
  induction tr as [|tl rest IH]; intros w H; [reflexivity|].
  simpl in H. apply andb_true_iff in H. destruct H as [H1 H2]. simpl. rewrite (IH _ H2), andb_true_r.
  eapply step_ok_timely; eauto.
Qed.

Lemma init_winv names t0 : winv (init_net names t0).
Proof.
  intros n s Hg. apply aget_in in Hg. simpl in Hg. apply in_map_iff in Hg. destruct Hg as (x & E & _).
  inversion E; subst. apply inv_init.
Qed.

End Served.

Section Expired.
Variable st : settings.
Hypothesis Hst : settings_ok st.

Lemma expired s T x Tm :
  inv st s -> on_time st s T = true -> Tm + B_entry st < T ->
  (forall c, aget x (circuits s) = Some c -> exists due, In (due, KCirc, x) (sleeping s) /\ due < T) ->
  (forall r, aget x (relays s) = Some r -> la (r_ro r) <= Tm) ->
  (forall e, aget x (exits s) = Some e -> la (e_ro e) <= Tm) ->
  holds_id s x = false.
Proof.
  intros Iv Hon HT Hc Hr He. unfold holds_id, ahas.
  destruct (aget x (circuits s)) as [c|].
  { destruct (Hc c eq_refl) as (due & Hin & Hlt). apply on_time_facts in Hon. destruct Hon as (_ & _ & _ & Hsl & _).
    specialize (Hsl _ Hin). simpl in Hsl. lia. }
  destruct (aget x (relays s)) as [r|] eqn:Er.
  { pose proof (relay_bound_l st Hst s T x r Iv Hon Er). specialize (Hr r eq_refl). lia. }
  destruct (aget x (exits s)) as [e|] eqn:Ee; [|reflexivity].
  pose proof (exit_bound_l st Hst s T x e Iv Hon Ee). specialize (He e eq_refl). lia.
Qed.

End Expired.

Section Main.
Variable st : settings.
Variable D : Z.
Variable p : path.
Variable tq : Z.
Variable j : nat.
Variable dead : list Z.
Hypothesis Hst : settings_ok st.
Hypothesis HD : 0 <= D.
Hypothesis Hp : path_ok_b p = true.
Hypothesis Hj : (j <= p_len p)%nat.

Let h := p_len p.
Let I := inI (p_ids p).
Notation ngood := (ngood st D p tq j dead).
Notation mgood := (mgood st D p tq j dead).
Notation wgood := (wgood st D p tq j dead).
Notation cut := (cut p j dead).
Notation Tmax := (Tmax D p tq).
Notation Lq := (Lq st tq).

(* while an own circuit is alive and ready, the node's events happen within B_entry of its last activity *)
Lemma alive_time s t x c :
  inv st s -> on_time st s t = true -> aget x (circuits s) = Some c -> c_closing c = false ->
  c_goal c <= c_hops c -> t <= la (c_ro c) + B_entry st.
Proof.
  intros (_ & _ & _ & _ & _ & Hc) Hon Hg Hcl Hgoal. specialize (Hc _ _ Hg). unfold circ_ok in Hc.
  rewrite Hcl in Hc. assert (E : (c_goal c <=? c_hops c) = true) by lia. rewrite E in Hc.
  destruct Hc as [[]|Hc]. eapply entry_bound; eauto.
Qed.

Lemma event_good w n t e inherit :
  wgood w -> winv st w ->
  (forall s, aget n (nodes w) = Some s -> on_time st s t = true) ->
  (forall s, aget n (nodes w) = Some s -> ev_ok I (set_now t s) e) ->
  (forall s0, ngood n s0 -> now s0 = t -> forall x, I x = true -> ev_touch s0 e x -> t <= Tmax) ->
  (forall s0, ngood n s0 -> now s0 = t -> forall x, I x = true -> ev_touch s0 e x -> alive_at s0 x -> t <= Lq) ->
  (forall s o, aget n (nodes w) = Some s -> ngood n (set_now t s) ->
     (forall x, I x = true -> alive_at (set_now t s) x -> t <= tq) ->
     ev_outs I (set_now t s) e o ->
     forall d c early mm, In (OCell d c early mm) o -> I c = true ->
       mgood (FCell n d c early (if mm =? 0 then inherit else mm) t)) ->
  wgood (node_event st w n t e inherit).
Proof.
  intros W Wi Hon Hok Htouch Halive Hout.
  apply (net_good_event st ngood mgood); [exact (fun _ _ _ _ _ => Logic.I) | exact W|].
  intros s En. change (step st s (t, e)) with (step_at st (set_now t s) e). set (s0 := set_now t s).
  assert (G0 : ngood n s0) by (apply ngood_set_now; [apply Hon; exact En | apply (proj1 W); exact En]).
  assert (A2 : forall x, I x = true -> alive_at s0 x -> t <= tq).
  { intros x Hi (c & Hc & Hcl).
    destruct (g_circ G0 _ _ Hi Hc) as (_ & _ & [(K & _)|(_ & _ & Hg & _ & Hla)]); [congruence|].
    pose proof (alive_time s t x c (Wi _ _ En) (Hon _ En) Hc Hcl Hg). unfold P09_network_inv.Lq in Hla. lia. }
  destruct (step_at_frame st I s0 e (g_closed G0) (Hok _ En)) as [F O]. split.
  - eapply (ngood_frame st D p tq j dead Hp Hj); [exact G0 | exact F | | |].
    + intros x Hi Hx. eapply Htouch; eauto.
    + exact A2.
    + intros x Hi Hx Ha. eapply Halive; eauto.
  - intros d c early mm Hin Hi. exact (Hout s _ En G0 A2 O d c early mm Hin Hi Hi).
Qed.

(* an event that is not a cell for an id of the path: nothing of the path is touched; the only cells for the
   path it can send are the pings of an originator whose circuit is still alive *)
Lemma event_good_other w n t e inherit :
  wgood w -> winv st w -> (forall s, aget n (nodes w) = Some s -> on_time st s t = true) ->
  (forall s, ev_ok I s e) -> other_event I e -> wgood (node_event st w n t e inherit).
Proof.
  intros W Wi Hon Hok Hnp.
  assert (Open : forall s0, ngood n s0 -> forall x, I x = true -> ev_touch s0 e x -> now s0 <= Tmax /\ n <> nd p 0).
  { intros s0 G0 x Hi Hx. apply (g_open G0 x Hi).
    exact (other_event_touch I s0 e x Hnp (k_rel _ _ (g_closed G0)) Hi Hx). }
  apply event_good; auto.
  - intros s0 G0 Hnow x Hi Hx. rewrite <- Hnow. exact (proj1 (Open s0 G0 x Hi Hx)).
  - intros s0 G0 Hnow x Hi Hx (c & Hc & _). destruct (proj2 (Open s0 G0 x Hi Hx)).
    exact (proj1 (g_circ G0 _ _ Hi Hc)).
  - (* the pings of a live originator: downwards on the first link, sent by tq *)
    intros s1 o Hs1 G0 A2 O d c early mm Hin Hi.
    destruct (other_event_outs I _ e o Hnp (k_rel _ _ (g_closed G0)) O _ _ _ _ Hin Hi)
      as (circ & Hc & Hcl & Hd & Hm). subst d mm.
    destruct (g_circ G0 _ _ Hi Hc) as (Hn0 & Hx1 & [(K & _)|(_ & Hj1 & _ & Hf & _)]); [congruence|].
    intros _. exists 1%nat. split; [unfold h; lia|]. split; [exact Hx1|]. left.
    split; [exact Hn0|]. split; [exact Hf|]. split; [reflexivity|].
    assert (t <= tq) by (apply (A2 c Hi); exists circ; auto). lia.
Qed.

Lemma kind_down_facts mid : kind_down_b mid = true -> mid <> 0 /\ mid <> MSG_CREATE /\ mid <> MSG_EXTEND.
Proof. unfold kind_down_b, MSG_CREATE, MSG_EXTEND. simpl. lia. Qed.

Lemma kind_up_down mid : kind_up_b mid = true -> kind_down_b mid = true.
Proof. unfold kind_up_b, kind_down_b. simpl. lia. Qed.

Section Cell.
Variables (n : Z) (s : node) (src cid : Z) (early : bool) (mid sent t : Z).
Hypothesis G : ngood n s.
Hypothesis M : mgood (FCell src n cid early mid sent).
Hypothesis Hi : I cid = true.
Hypothesis Hlife : t <= sent + D.
Hypothesis Hlive : ~ (cut /\ cid = idk p j).

(* the originator's live circuit is stamped only by what travelled upwards above the break *)
Lemma touch_alive_early x : I x = true -> cell_touch s cid x -> alive_at s x -> t <= Lq.
Proof.
  intros Hix Hx (c & Hc & Hcl).
  destruct (g_circ G _ _ Hix Hc) as (Hn0 & Hx1 & [(K & _)|(_ & Hj1 & _)]); [congruence|].
  destruct Hx as [Hx|(nxt & Hr & _)].
  - subst x. destruct (M Hi) as (k & Hk & Hcid & [(_ & Hdst & _)|(_ & Hdst & _ & _ & Hup)]).
    + destruct (below_origin p Hp n k Hk Hdst Hn0).
    + assert (k = 1%nat) by (apply (idk_inj p Hp); [exact Hk | fold h; lia | congruence]). subst k.
      destruct Hup as [Hup|[Hup|(Hcut & Hkj)]]; [lia | lia | destruct Hlive; split; congruence].
  - destruct (g_rel G _ _ Hi Hr) as [(k & Hk & Hn & _) _].
    destruct (below_origin p Hp n k ltac:(fold h; lia) Hn Hn0).
Qed.

Lemma relayed_good r early' :
  aget cid (relays s) = Some r -> mgood (FCell n (r_peer r) (r_next r) early' mid t).
Proof.
  intros Hr _. destruct (g_rel G _ _ Hi Hr) as [Hroute _].
  destruct (M Hi) as (k & Hk & Hcid & [(Hs & Hdst & Hmid & Hsent)|(Hs & Hdst & Hup & Hsent & Hbr)]).
  - destruct (route_at p j dead Hp Hj _ _ _ k k Hroute Hdst (proj2 Hk) Hcid Hk) as [Hk' [(_ & Hnx & Hpe)|(Hkk & _)]];
      [|lia].
    exists (S k). split; [lia|]. split; [exact Hnx|]. left.
    split; [exact Hdst|]. split; [exact Hpe|]. split; [exact Hmid|]. exact (sent_down_next _ _ _ _ _ Hsent Hlife).
  - destruct k as [|k']; [lia|]. simpl pred in *.
    destruct (route_at p j dead Hp Hj _ _ _ k' (S k') Hroute Hdst ltac:(lia) Hcid Hk)
      as [Hk' [(Hkk & _)|(_ & Hnx & Hpe & Hnj)]]; [lia|].
    exists k'. split; [lia|]. split; [exact Hnx|]. right.
    split; [exact Hdst|]. split; [exact Hpe|]. split; [exact Hup|]. split; [exact (sent_up_next _ _ _ _ _ _ Hsent Hlife)|].
    destruct Hbr as [Hbr|[Hbr|(Hcut & Hkj)]]; [|right; left; nia | destruct Hlive; split; congruence].
    destruct Hnj as [Hnj|Hnj]; [left; lia|].
    destruct (Nat.eq_dec k' j) as [Ej|Ej]; [right; right; split; [exact Hnj | exact Ej] | left; lia].
Qed.

(* the node answers the ping because it holds an exit socket for the id, so it is below the break *)
Lemma pong_good early' :
  aget cid (relays s) = None -> holds_id s cid = true -> mid = MSG_PING ->
  mgood (FCell n src cid early' MSG_PONG t).
Proof.
  intros Hr Hh Hping _.
  destruct (M Hi) as (k & Hk & Hcid & [(Hs & Hdst & _ & Hsent)|(_ & _ & Hup & _)]);
    [|subst mid; discriminate].
  exists k. split; [exact Hk|]. split; [exact Hcid|]. right.
  split; [exact Hdst|]. split; [exact Hs|]. split; [reflexivity|]. split; [exact (sent_turn _ _ _ _ _ _ HD (proj2 Hk) Hsent Hlife)|].
  unfold holds_id, ahas in Hh. rewrite Hr in Hh.
  destruct (aget cid (circuits s)) as [c|] eqn:Ec.
  { destruct (below_origin p Hp n k Hk Hdst). exact (proj1 (g_circ G _ _ Hi Ec)). }
  destruct (aget cid (exits s)) as [e|] eqn:Ee; [|discriminate].
  destruct (g_exit G _ _ Hi Ee) as [(k2 & Hbr2 & Hk2 & Hn2 & _) _].
  assert (k2 = k) by (apply (nd_inj p Hp); [exact (proj2 Hk2) | exact (proj2 Hk) | congruence]). subst k2.
  destruct Hbr2 as [Hbr2|Hbr2]; [left; exact Hbr2 | right; right; exact Hbr2].
Qed.

End Cell.

Lemma deliver_good w dst t src cid plain early len cr ls mid sent :
  wgood w -> winv st w -> (forall s, aget dst (nodes w) = Some s -> on_time st s t = true) ->
  I cid = true -> mgood (FCell src dst cid early mid sent) -> t <= sent + D ->
  (forall s m, aget dst (nodes w) = Some s -> aget cid (relays s) = None -> cr = COk m -> mid = 0 \/ msg_id m = mid) ->
  ~ (cut /\ cid = idk p j) ->
  wgood (node_event st w dst t (ERecvCell src cid plain early len cr ls) mid).
Proof.
  intros W Wi Hon Hi M Hlife Htyped Hlive.
  assert (Hmid : kind_down_b mid = true).
  { destruct (M Hi) as (k & _ & _ & [(_ & _ & Hm & _)|(_ & _ & Hm & _)]); [exact Hm | apply kind_up_down; exact Hm]. }
  destruct (kind_down_facts _ Hmid) as (M0 & M2 & M4).
  apply event_good; auto.
  - intros s Hs. simpl. intros Hnr m Hm _. destruct (Htyped _ _ Hs Hnr Hm) as [E|E]; [congruence|]. rewrite E. auto.
  - intros s0 _ _ x _ _. exact (mgood_deadline st D p tq j dead HD Hp Hj _ _ _ _ _ _ t M Hi Hlife).
  - intros s0 G0 _. exact (touch_alive_early dst s0 src cid early mid sent t G0 M Hi Hlife Hlive).
  - intros s1 o Hs1 G0 _ O d c early' mm Hin Hic. simpl in O.
    destruct (O _ _ _ _ Hin Hic) as [(nxt & Hr & Hd & Hc & Hmm)|(Hr & Hd & Hc & Hmm & Hcr & Hh)]; subst d c mm.
    + exact (relayed_good dst _ src cid early mid sent t G0 M Hi Hlife Hlive nxt early' Hr).
    + destruct (Htyped _ _ Hs1 Hr Hcr) as [E|E]; [congruence|].
      exact (pong_good dst _ src cid early mid sent t G0 M Hi Hlife early' Hr Hh (eq_sym E)).
Qed.

Lemma quiet_ev_ok n e :
  quiet_label (p_ids p) (NLocal n e) = true -> (forall s, ev_ok I s e) /\ other_event I e.
Proof.
  destruct e; simpl; intro H; try (split; [intro s; exact Logic.I | exact Logic.I]); fold I in H;
    apply negb_true_iff in H; try (split; [intro s; exact H | exact Logic.I]).
  split; [|exact H]. intros s _ m _ Hi. congruence.
Qed.

Lemma nstep_good w tl : wgood w -> winv st w -> step_ok st D (p_ids p) dead w tl = true -> wgood (nstep st w tl).
Proof.
  intros W Wi Hok. destruct tl as [t l]. unfold step_ok in Hok.
  repeat (apply andb_true_iff in Hok; destruct Hok as [Hok ?]).
  rename Hok into Htime, H into Hal, H0 into Hq, H1 into Hty, H2 into Hlife.
  unfold step_timely, step_within, step_typed, step_alive in *. simpl fst in *. simpl snd in *. unfold nstep. simpl fst. simpl snd.
  destruct l as [i keep plain len cr ls|i|n e].
  - simpl in Htime. destruct (nth_error (flight w) i) as [m|] eqn:En; [|exact W].
    assert (Hm : mgood m) by (apply (proj2 W); eapply nth_error_In; eauto).
    pose proof (net_good_take ngood mgood w i keep W) as W1.
    assert (Wi1 : winv st (take_msg w i keep)) by (intros n s; rewrite take_msg_nodes; apply Wi).
    destruct m as [src dst cid early mid sent|src dst cid reason sent].
    + assert (Hon : forall s, aget dst (nodes (take_msg w i keep)) = Some s -> on_time st s t = true).
      { intros s Hs. rewrite take_msg_nodes in Hs. rewrite Hs in Htime. exact Htime. }
      destruct (I cid) eqn:Hi.
      * eapply deliver_good; eauto. apply Z.leb_le. exact Hlife.
        intros s m Hs Hnr Hc. rewrite take_msg_nodes in Hs. subst cr. exact (typed_unrelayed w dst cid s mid m Hs Hnr Hty).
        intros (Hcut & Hc). simpl in Hal. unfold P09_network_inv.cut, cutj in Hcut. apply andb_true_iff in Hcut.
        destruct Hcut as [_ Hcut]. subst cid. rewrite Hcut in Hal. discriminate.
      * apply event_good_other; auto. intro s. simpl. intros _ m _ Hc. congruence.
    + apply event_good_other; auto; try exact Logic.I; try (intro s; exact Logic.I).
      intros s Hs. rewrite take_msg_nodes in Hs. rewrite Hs in Htime. exact Htime.
  - exact (net_good_drop ngood mgood w i W).
  - destruct (quiet_ev_ok n e Hq) as [He Hn]. apply event_good_other; auto.
    intros s Hs. simpl in Htime. rewrite Hs in Htime. exact Htime.
Qed.

Lemma nrun_good tr : forall w,
  wgood w -> winv st w -> nrun_ok st D (p_ids p) dead w tr = true -> wgood (nrun st w tr) /\ winv st (nrun st w tr).
Proof.
  induction tr as [|tl rest IH]; intros w W Wi H; [split; assumption|].
  simpl in H. apply andb_true_iff in H. destruct H as [H1 H2]. simpl. apply IH; [| |exact H2].
  - apply nstep_good; assumption.
  - apply (nstep_inv st Hst); [exact Wi | eapply step_ok_timely; eauto].
Qed.

Lemma reclaimed_node w T n s x :
  wgood w -> winv st w -> aget n (nodes w) = Some s -> on_time st s T = true ->
  tq + B_path st D h < T -> I x = true -> holds_id s x = false.
Proof.
  intros [Wn _] Wi Hg Hon HT Hi. pose proof (Wn _ _ Hg) as G. pose proof (Wi _ _ Hg) as Iv.
  pose proof Hst as (Hmi & Hsw & Hdl & _). pose proof (Tmax_ge D p tq j HD Hp Hj) as TG.
  assert (HT' : Tmax + B_entry st < T) by (unfold P09_network_inv.Tmax, B_entry; unfold B_path in HT; fold h; lia).
  unfold B_entry in HT'.
  apply (expired st Hst s T x Tmax Iv Hon); [exact HT' | |intros r Er|intros e Ee].
  - intros c Ec. destruct (g_circ G _ _ Hi Ec) as (_ & _ & [(_ & due & Hin & Hle)|(Hcl & _ & Hgo & _ & Hla)]).
    + exists due. split; [exact Hin | lia].
    + pose proof (alive_time s T x c Iv Hon Ec Hcl Hgo). unfold P09_network_inv.Lq in Hla. lia.
  - exact (proj2 (g_rel G _ _ Hi Er)).
  - exact (proj2 (g_exit G _ _ Hi Ee)).
Qed.

End Main.

Section FromInit.
Variable st : settings.
Hypothesis Hst : settings_ok st.

Lemma aset_keys {A} k (v : A) l : ahas k l = true -> map fst (aset k v l) = map fst l.
Proof.
  unfold ahas. induction l as [|[k0 v0] tl IH]; simpl; [discriminate|].
  destruct (k =? k0) eqn:E; simpl; [apply Z.eqb_eq in E; subst; reflexivity|].
  intro H. f_equal. apply IH. exact H.
Qed.

Lemma node_event_keys w n t e inh : map fst (nodes (node_event st w n t e inh)) = map fst (nodes w).
Proof.
  unfold node_event. destruct (aget n (nodes w)) eqn:E; [|reflexivity]. simpl.
  apply aset_keys. unfold ahas. rewrite E. reflexivity.
Qed.

Lemma nstep_keys w tl : map fst (nodes (nstep st w tl)) = map fst (nodes w).
Proof.
  destruct tl as [t l]. unfold nstep. simpl fst. simpl snd. destruct l as [i keep plain len cr ls|i|n e].
  - destruct (nth_error (flight w) i) as [m|]; [|reflexivity].
    destruct m; rewrite node_event_keys, take_msg_nodes; reflexivity.
  - reflexivity.
  - apply node_event_keys.
Qed.

Lemma nrun_keys tr : forall w, map fst (nodes (nrun st w tr)) = map fst (nodes w).
Proof. induction tr as [|tl rest IH]; intro w; [reflexivity|]. simpl. rewrite IH. apply nstep_keys. Qed.

Lemma in_aget_nodup {A} k (v : A) l : NoDup (map fst l) -> In (k, v) l -> aget k l = Some v.
Proof.
  induction l as [|[k0 v0] tl IH]; simpl; [tauto|]. intros Hn [H|H].
  - inversion H; subst. rewrite Z.eqb_refl. reflexivity.
  - inversion Hn; subst. destruct (k =? k0) eqn:E; [|apply IH; assumption].
    apply Z.eqb_eq in E. subst k0. exfalso. apply H2. apply in_map_iff. exists (k, v). auto.
Qed.

Lemma init_keys names t0 : map fst (nodes (init_net names t0)) = names.
Proof. unfold init_net. simpl. rewrite map_map. simpl. apply map_id. Qed.

(* node names are distinct and never change, so what holds node by node holds of the node list *)
Lemma from_init names t0 tr1 tr2 T ids :
  nodup_b names = true -> nrun_timely st (init_net names t0) tr1 = true ->
  let wq := nrun st (init_net names t0) tr1 in
  let wT := nrun st wq tr2 in
  all_on_time st wT T = true ->
  (winv st wq -> forall n s x, aget n (nodes wT) = Some s -> on_time st s T = true -> In x ids -> holds_id s x = false) ->
  net_holds wT ids = false.
Proof.
  intros Hnd Ht1 wq wT Hall Hnode.
  assert (Keys : NoDup (map fst (nodes wT))).
  { unfold wT, wq. rewrite !nrun_keys, init_keys. apply nodup_b_sound. exact Hnd. }
  unfold net_holds. destruct (existsb _ (nodes wT)) eqn:E; [|reflexivity]. exfalso.
  apply existsb_exists in E. destruct E as ([n s] & Hin & E). unfold holds_any in E. simpl in E.
  apply existsb_exists in E. destruct E as (x & Hx & E).
  unfold all_on_time in Hall. rewrite forallb_forall in Hall.
  pose proof (Hnode (nrun_inv st Hst tr1 _ (init_winv st names t0) Ht1) n s x
                (in_aget_nodup _ _ _ Keys Hin) (Hall (n, s) Hin) Hx) as R.
  unfold holds_id in R. rewrite R in E. discriminate.
Qed.

End FromInit.
