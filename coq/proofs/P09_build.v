(* C09 - circuit construction (retry caches, retries, created / extended) and the invariant. *)
From Coq Require Import ZArith List Bool Lia.
From IPV8V Require Import gen.G09_rules model.M09_reclaim spec.S09_reclaim proofs.P09_alist
  proofs.P09_inv proofs.P09_ext proofs.P09_special proofs.P09_remove.
Import ListNotations.
Open Scope Z_scope.

Section Build.
Variable st : settings.
Hypothesis Hst : settings_ok st.

Lemma inv_local w' cid s s' :
  inv st s ->
  now s' = now s -> last_sweep s' = last_sweep s ->
  (forall x, relevant x -> In x (starts s) -> (forall t i, x <> DRetry cid t i) -> In x (starts s')) ->
  (forall c t i, In (DRetry c t i) (starts s') -> c <> cid -> In (DRetry c t i) (starts s)) ->
  (forall x, In x (sleeping s) -> In x (sleeping s')) -> relays s' = relays s -> exits s' = exits s ->
  (forall c, c <> cid -> aget c (circuits s') = aget c (circuits s)) ->
  (forall c, c <> cid -> aget c (retries s') = aget c (retries s)) ->
  (forall x, aget cid (circuits s') = Some x ->
     0 <= c_hops x /\ la (c_ro x) <= now s /\ circ_ok st w' s' cid x
     /\ (forall rt, aget cid (retries s') = Some rt -> retry_ok st x rt)) ->
  (forall t i, In (DRetry cid t i) (starts s') ->
     1 <= t /\ t < tries0 st /\ forall x, aget cid (circuits s') = Some x -> dretry_ok st s' x t) ->
  inv_gen st w' s'.
Proof.
  intros Hi En Ew Hs Hs' Hsl Er Ee Hco Hro Hcid Hdcid.
  assert (Hne : forall c, Some (KCirc, cid) <> Some (KCirc, c) -> c <> cid).
  { intros c H E; subst; apply H; reflexivity. }
  apply (inv_but st w' (Some (KCirc, cid)) s); auto.
  - intros k c T _. apply scheduled_incl; [exact En | | auto].
    intros dd rn H. apply Hs; [exact I | exact H | discriminate].
  - intros c t i H. split; intro Hin; [|apply Hs'; [exact Hin | exact (Hne _ H)]].
    apply Hs; [exact I | exact Hin|]. intros t' i' E. inversion E; subst. exact (Hne _ H eq_refl).
  - intros c r H. rewrite Er in H. split; [discriminate | exact H].
  - intros c e H. rewrite Ee in H. split; [discriminate | exact H].
  - intros c x H H'. rewrite (Hco _ (Hne _ H)) in H'. exact H'.
  - intros c x E. inversion E; subst c. apply Hcid.
  - intros c t i E. inversion E; subst c. apply Hdcid.
Qed.

Lemma build_bound_nonneg goal : 1 <= goal -> 0 <= build_bound st goal.
Proof.
  intro H. unfold build_bound. pose proof (tries0_pos st Hst). destruct Hst as (_ & _ & _ & Hn & _).
  apply Z.mul_nonneg_nonneg; lia.
Qed.

(* the entry of circuit cid stays as it is (or is absent); left to show: its retry tasks are within their
   bounds, and something vouches for the circuit while it is extending *)
Lemma inv_requeue cid s ns nr :
  inv st s ->
  (forall x, relevant x -> In x (starts s) -> (forall t i, x <> DRetry cid t i) -> In x ns) ->
  (forall c t i, In (DRetry c t i) ns -> c <> cid -> In (DRetry c t i) (starts s)) ->
  (forall c, c <> cid -> aget c nr = aget c (retries s)) ->
  (forall rt, aget cid nr = Some rt -> aget cid (retries s) = Some rt) ->
  (forall t i, In (DRetry cid t i) ns ->
     1 <= t /\ t < tries0 st /\ forall c, aget cid (circuits s) = Some c -> dretry_ok st s c t) ->
  (forall c, aget cid (circuits s) = Some c -> c_closing c = false -> c_hops c < c_goal c ->
     ahas cid nr = true \/ (exists t i, In (DRetry cid t i) ns)
     \/ In (DRemove KCirc cid 0 false) ns /\ now s <= creation (c_ro c) + build_bound st (c_goal c)) ->
  inv st (set_starts ns (set_retries nr s)).
Proof.
  intros Hi Hs Hs' Hro Hr Hd Hev. pose proof Hi as ((S1 & S2) & _ & _ & Hrt & _ & Hc).
  apply (inv_local None cid s); auto.
  intros x Hx. simpl in Hx. destruct (S2 _ _ Hx) as [Hh Hla]. split; [exact Hh|]. split; [exact Hla|]. split.
  - specialize (Hc _ _ Hx). unfold circ_ok in *. destruct (c_closing x) eqn:Ecl; [exact Hc|].
    destruct (c_goal x <=? c_hops x) eqn:Erd.
    + destruct Hc as [[]|Hc]. right. revert Hc. apply entry_ok_incl; auto.
      intros dd rn H. apply Hs; [exact I | exact H | discriminate].
    + destruct (Hev _ Hx Ecl (proj1 (Z.leb_gt _ _) Erd)) as [H|[H|[H Hle]]]; [left; exact H | right; left; exact H | right; right; left].
      exists 0, false. split; [exact H | apply Z.add_le_mono_r; exact Hle].
  - intros rt H. simpl in H. exact (Hrt _ _ _ (Hr _ H) Hx).
Qed.

Lemma inv_retry_timeout s cid :
  tfacts st s -> inv st s -> inv st (fst (step_at st s (ERetryTimeout cid))).
Proof.
  intros (T1 & T2 & T3) Hi. pose proof Hi as ((S1 & S2) & _ & _ & Hrt & Hdr & _).
  cbn [step_at]. destruct (aget cid (retries s)) as [rt|] eqn:Er; [|exact Hi].
  assert (Hro : forall c, c <> cid -> aget c (adel cid (retries s)) = aget c (retries s)).
  { intros c E. apply aget_adel_other; exact E. }
  assert (Hr : forall rt', aget cid (adel cid (retries s)) = Some rt' -> aget cid (retries s) = Some rt').
  { intros rt' H. rewrite aget_adel, Z.eqb_refl in H. discriminate. }
  assert (Hq : forall d x, In x (starts s) -> In x (starts s ++ [d])) by (intros; apply in_or_app; left; assumption).
  change (circuits (set_retries (adel cid (retries s)) s)) with (circuits s). destruct (aget cid (circuits s)) as [c|] eqn:Ec; pose proof (Hdr cid) as Hd0.
  2:{ apply (inv_requeue cid s (starts s) (adel cid (retries s)) Hi); auto. intros c0 H0; congruence. }
  destruct (c_closing c) eqn:Ecl.
  { apply (inv_requeue cid s (starts s) (adel cid (retries s)) Hi); auto. intros c0 H0; congruence. }
  pose proof (Hrt _ _ _ Er Ec) as Hrok. specialize (T3 _ _ Er). destruct (S2 _ _ Ec) as [Hh Hla].
  destruct (retry_gives_up (rt_cands rt) (rt_tries rt)) eqn:Eg.
  - apply (inv_requeue cid s (starts s ++ [DRemove KCirc cid 0 false]) (adel cid (retries s)) Hi); auto.
    + intros c0 t i Hin _. apply in_app_or in Hin. destruct Hin as [Hin|[Hin|[]]]; [exact Hin | discriminate].
    + intros t i Hin. apply in_app_or in Hin. destruct Hin as [Hin|[Hin|[]]]; [exact (Hdr _ _ _ Hin) | discriminate].
    + intros c0 H0 _ Hlt. rewrite Ec in H0. inversion H0; subst c0. right; right.
      split; [apply in_or_app; right; left; reflexivity|]. exact (Z.le_trans _ _ _ T3 (retry_due_bound st Hst c rt Hrok Hlt)).
  - assert (Htr : 1 <= rt_tries rt) by (unfold retry_gives_up in Eg; lia).
    destruct Hrok as (R1 & R2 & R3).
    apply (inv_requeue cid s (starts s ++ [DRetry cid (rt_tries rt) (rt_initial rt)]) (adel cid (retries s)) Hi); auto.
    + intros c0 t i Hin Hne. apply in_app_or in Hin. destruct Hin as [Hin|[Hin|[]]]; [exact Hin|].
      inversion Hin; subst. contradiction.
    + intros t i Hin. apply in_app_or in Hin. destruct Hin as [Hin|[Hin|[]]]; [exact (Hdr _ _ _ Hin)|].
      inversion Hin; subst. split; [exact Htr|]. split; [exact R3|].
      intros x Hx. rewrite Ec in Hx. inversion Hx; subst x. unfold dretry_ok.
      pose proof (Z.mul_add_distr_l (s_next_hop_timeout st) (tries0 st - rt_tries rt) 1). lia.
    + intros c0 H0 _ _. right; left. exists (rt_tries rt), (rt_initial rt). apply in_or_app; right; left; reflexivity.
Qed.

Definition hop_circ (c : circuit) (nxt : Z) : circuit :=
  mkCirc (c_ro c) (c_goal c) (c_hops c) (c_closing c) (Some nxt) (if c_hops c =? 0 then nxt else c_first c) (c_early c).
Definition hop_retry (s : node) (tries : Z) (ini : bool) (p : pick) : retry :=
  mkRetry (p_ident p) (next_tries tries) (p_alts p) ini (now s + s_next_hop_timeout st).
Definition hop_state (s : node) (cid : Z) (c : circuit) (tries : Z) (ini : bool) (p : pick) (nxt : Z) : node :=
  set_retries (aset cid (hop_retry s tries ini p) (adel cid (retries s)))
              (set_circuits (aset cid (hop_circ c nxt) (circuits s)) s).

Lemma start_hop_some s cid c tries ini p ls nxt :
  p_next p = Some nxt ->
  start_hop st s cid c tries ini p ls =
  send_cell st (hop_state s cid c tries ini p nxt) (c_first (hop_circ c nxt)) cid
            (if ini then MSG_CREATE else MSG_EXTEND) ls.
Proof. intro H. unfold start_hop. rewrite H. reflexivity. Qed.

Lemma start_hop_none s cid c tries ini p ls :
  p_next p = None -> start_hop st s cid c tries ini p ls = (defer (DRemove KCirc cid 0 false) s, [], ls).
Proof. intro H. unfold start_hop. rewrite H. reflexivity. Qed.

Lemma hop_inv w' cid s s2 c' rt' :
  inv st s ->
  now s2 = now s -> last_sweep s2 = last_sweep s ->
  (forall x, relevant x -> In x (starts s) -> (forall t i, x <> DRetry cid t i) -> In x (starts s2)) ->
  (forall c t i, In (DRetry c t i) (starts s2) -> In (DRetry c t i) (starts s)) ->
  sleeping s2 = sleeping s -> relays s2 = relays s -> exits s2 = exits s ->
  (forall c, aget c (circuits s2) = if c =? cid then Some c' else aget c (circuits s)) ->
  (forall c, aget c (retries s2) = if c =? cid then Some rt' else aget c (retries s)) ->
  0 <= c_hops c' -> la (c_ro c') <= now s -> retry_ok st c' rt' ->
  (c_closing c' = true -> exists due, In (due, KCirc, cid) (sleeping s) /\ due <= circuit_deadline st c') ->
  (c_closing c' = false -> c_goal c' <= c_hops c' -> w' = Some cid \/ entry_ok st KCirc cid (c_ro c') s) ->
  (forall t i, In (DRetry cid t i) (starts s) ->
     now s + s_next_hop_timeout st <= creation (c_ro c') + s_next_hop_timeout st * (tries0 st - t + 1)) ->
  inv_gen st w' s2.
Proof.
  intros Hi En Ew Hs Hs' Esl Er Ee Hco Hro Hh Hla Hrok Hcl Hrd Hdc.
  pose proof Hi as (Hside & Hrel & Hex & Hrt & Hdr & Hc).
  apply (inv_local w' cid s s2); auto.
  - intros x Hin. rewrite Esl. exact Hin.
  - intros c E. rewrite Hco. destruct (Z.eqb_spec c cid); [contradiction | reflexivity].
  - intros c E. rewrite Hro. destruct (Z.eqb_spec c cid); [contradiction | reflexivity].
  - intros x Hx. rewrite Hco, Z.eqb_refl in Hx. inversion Hx; subst x.
    split; [exact Hh|]. split; [exact Hla|]. split.
    + unfold circ_ok. destruct (c_closing c') eqn:Ecl.
      * destruct (Hcl eq_refl) as (due & Hin & Hle). exists due. rewrite Esl. auto.
      * destruct (c_goal c' <=? c_hops c') eqn:Erd.
        -- destruct (Hrd eq_refl ltac:(lia)) as [Hw|Hent]; [left; subst w'; reflexivity | right].
           destruct Hent as [[(dd & rn & Hin & Hle)|(due & Hin & Hle)]|Hls]; [left; left | left; right | right].
           ++ exists dd, rn. split; [apply Hs; [exact I | exact Hin | intros; discriminate] | rewrite En; exact Hle].
           ++ exists due. rewrite Esl. auto.
           ++ rewrite Ew. exact Hls.
        -- left. unfold ahas. rewrite Hro, Z.eqb_refl. reflexivity.
    + intros rt Hr. rewrite Hro, Z.eqb_refl in Hr. inversion Hr; subst rt. exact Hrok.
  - intros t i Hin. apply Hs' in Hin. destruct (Hdr _ _ _ Hin) as (D1 & D2 & _).
    split; [exact D1|]. split; [exact D2|]. intros x Hx. rewrite Hco, Z.eqb_refl in Hx. inversion Hx; subst x.
    unfold dretry_ok. rewrite En. exact (Hdc _ _ Hin).
Qed.

Lemma inv_run_retry s i cid tries ini eo tg tc nb p ls :
  nth_error (starts s) i = Some (DRetry cid tries ini) -> inv st s ->
  inv st (fst (run_deferred st (set_starts (remove_nth i (starts s)) s) (DRetry cid tries ini) eo tg tc nb p ls)).
Proof.
  intros Hn Hi. pose proof Hi as (Hside & Hrel & Hex & Hrt & Hdr & Hc).
  set (s0 := set_starts (remove_nth i (starts s)) s).
  assert (Hs0 : forall x, relevant x -> In x (starts s) -> (forall t i0, x <> DRetry cid t i0) -> In x (starts s0)).
  { intros x R Hin Hne. simpl. eapply in_remove_nth_other; eauto. }
  assert (Hs0' : forall c t i0, In (DRetry c t i0) (starts s0) -> In (DRetry c t i0) (starts s)).
  { intros c t i0 Hin. simpl in Hin. eapply in_remove_nth; eauto. }
  destruct (Hdr _ _ _ (nth_error_In _ _ Hn)) as (D1 & D2 & D3).
  cbn [run_deferred]. change (circuits s0) with (circuits s).
  destruct (aget cid (circuits s)) as [c|] eqn:Ec.
  - specialize (D3 _ eq_refl). specialize (Hc _ _ Ec).
    destruct Hside as [S1 S2]. destruct (S2 _ _ Ec) as [Hh Hla].
    destruct (p_next p) as [nxt|] eqn:Ep.
    + rewrite (start_hop_some s0 cid c tries ini p ls nxt Ep). cbv zeta.
      rewrite fst_let3.
      set (s2 := hop_state s0 cid c tries ini p nxt).
      assert (G : inv st s2).
      { apply (hop_inv None cid s s2 (hop_circ c nxt) (hop_retry s0 tries ini p)); try reflexivity; auto.
        - intros c0. simpl. rewrite aget_aset. reflexivity.
        - intros c0. simpl. rewrite aget_aset, aget_adel. destruct (c0 =? cid); reflexivity.
        - unfold retry_ok. simpl. unfold next_tries. unfold dretry_ok in D3. split; [|split]; lia.
        - simpl. intro Ecl. unfold circ_ok in Hc. rewrite Ecl in Hc. exact Hc.
        - simpl. intros Ecl Erd. right. unfold circ_ok in Hc. rewrite Ecl in Hc.
          rewrite (proj2 (Z.leb_le _ _) Erd) in Hc. destruct Hc as [[]|Hc]. exact Hc.
        - simpl. intros t i0 Hin. destruct (Hdr _ _ _ Hin) as (_ & _ & D3'). exact (D3' _ Ec). }
      apply inv_send_cell; assumption.
    + rewrite (start_hop_none s0 cid c tries ini p ls Ep). simpl.
      apply (inv_requeue cid s (remove_nth i (starts s) ++ [DRemove KCirc cid 0 false]) (retries s) Hi); auto.
      * intros x R Hin Hne. apply in_or_app; left. apply Hs0; assumption.
      * intros c0 t i0 Hin _. apply in_app_or in Hin. destruct Hin as [Hin|[Hin|[]]]; [|discriminate].
        eapply in_remove_nth; eauto.
      * intros t i0 Hin. apply in_app_or in Hin. destruct Hin as [Hin|[Hin|[]]]; [|discriminate].
        apply in_remove_nth in Hin. exact (Hdr _ _ _ Hin).
      * intros c0 H0 _ Hlt. rewrite Ec in H0. inversion H0; subst c0. right; right.
        split; [apply in_or_app; right; left; reflexivity|]. exact (dretry_bound st Hst s c tries D3 D1 Hh Hlt).
  - simpl. apply (inv_requeue cid s (remove_nth i (starts s)) (retries s) Hi); auto.
    + intros t i0 Hin. apply in_remove_nth in Hin. exact (Hdr _ _ _ Hin).
    + intros c0 H0. congruence.
Qed.

Lemma inv_create_circuit s cid goal p ls :
  inv st s -> inv st (fst (step_at st s (ECreateCircuit cid goal p ls))).
Proof.
  intros Hi. pose proof Hi as (Hside & Hrel & Hex & Hrt & Hdr & Hc). destruct Hside as [S1 S2].
  cbn [step_at]. destruct (p_next p) as [nxt|] eqn:Ep; [|exact Hi].
  set (c0 := mkCirc (ro_new (now s)) goal 0 false None 0 CIRCUIT_EARLY_INIT).
  set (s1 := set_circuits (aset cid c0 (circuits s)) s).
  rewrite (start_hop_some s1 cid c0 _ true p ls nxt Ep). rewrite fst_let3.
  set (s2 := hop_state s1 cid c0 (initial_tries (s_circuit_timeout st) (s_next_hop_timeout st)) true p nxt).
  pose proof (tries0_pos st Hst) as Htp. destruct Hst as (Hmi & Hsw & Hd & Hn & Hct).
  assert (G : inv st s2).
  { apply (hop_inv None cid s s2 (hop_circ c0 nxt)
                   (hop_retry s1 (initial_tries (s_circuit_timeout st) (s_next_hop_timeout st)) true p));
      try reflexivity; auto.
    - intros c. simpl. rewrite !aget_aset. destruct (c =? cid); reflexivity.
    - intros c. simpl. rewrite aget_aset, aget_adel. destruct (c =? cid); reflexivity.
    - unfold retry_ok. simpl. unfold next_tries. fold (tries0 st). split; [|split]; lia.
    - simpl. discriminate.
    - simpl. intros _ _. right. right. simpl. lia.
    - simpl. intros t i Hin. destruct (Hdr _ _ _ Hin) as (D1 & D2 & _).
      pose proof (mul_le_nht st Hst 1 (tries0 st - t + 1)). lia. }
  apply inv_send_cell; assumption.
Qed.

Lemma c_state_cases c :
  (c_state c = CIRCUIT_STATE_EXTENDING /\ c_closing c = false /\ c_hops c < c_goal c)
  \/ (c_state c = CIRCUIT_STATE_READY /\ c_closing c = false /\ c_goal c <= c_hops c)
  \/ (c_state c = CIRCUIT_STATE_CLOSING /\ c_closing c = true).
Proof.
  unfold c_state, circuit_state, CIRCUIT_STATE_EXTENDING, CIRCUIT_STATE_READY, CIRCUIT_STATE_CLOSING.
  destruct (c_closing c); [right; right; auto|].
  destruct (c_hops c <? c_goal c) eqn:E; [left | right; left]; repeat split; lia.
Qed.

Lemma ours_inv s cid v p ls rt :
  tfacts st s -> inv st s -> aget cid (retries s) = Some rt ->
  inv_gen st (Some cid) (fst (fst (ours st s cid v p ls))).
Proof.
  intros (T1 & T2 & T3) Hi Hr. pose proof Hi as (Hside & Hrel & Hex & Hrt & Hdr & Hc). destruct Hside as [S1 S2].
  unfold ours. destruct (aget cid (circuits s)) as [c|] eqn:Ec; [|apply inv_waive; exact Hi].
  destruct (c_unver c) as [h|] eqn:Eu; [|apply inv_waive; exact Hi].
  destruct v; [| |apply inv_waive; exact Hi].
  2:{ simpl. eapply inv_ext; [exact Hst | apply inv_waive; exact Hi|]. apply ext_defer; [split; assumption | exact I]. }
  set (c1 := mkCirc (c_ro c) (c_goal c) (c_hops c + 1) (c_closing c) None (if c_hops c =? 0 then h else c_first c) (c_early c)).
  set (s1 := set_circuits (aset cid c1 (circuits s)) s).
  destruct (S2 _ _ Ec) as [Hh Hla]. pose proof (Hrt _ _ _ Hr Ec) as (R1 & R2 & R3). specialize (T3 _ _ Hr).
  specialize (Hc _ _ Ec).
  (* the hop is recorded in the entry; what the branches differ in is the queue, the retry cache and the
     clause of the circuit *)
  assert (Gq : forall ns nr,
            (forall x, relevant x -> In x (starts s) -> (forall t i, x <> DRetry cid t i) -> In x ns) ->
            (forall c0 t i, In (DRetry c0 t i) ns -> In (DRetry c0 t i) (starts s)) ->
            (forall c0, c0 <> cid -> aget c0 nr = aget c0 (retries s)) ->
            circ_ok st (Some cid) (set_starts ns (set_retries nr s1)) cid c1 ->
            (forall rt', aget cid nr = Some rt' -> retry_ok st c1 rt') ->
            inv_gen st (Some cid) (set_starts ns (set_retries nr s1))).
  { intros ns nr Hs Hs' Hro Hok Hrk. apply (inv_local (Some cid) cid s); auto.
    - intros c0 E. simpl. apply aget_aset_other; exact E.
    - intros x Hx. simpl in Hx. rewrite aget_aset, Z.eqb_refl in Hx. inversion Hx; subst x.
      split; [simpl; lia|]. split; [exact Hla|]. split; assumption.
    - intros t i Hin. destruct (Hdr _ _ _ (Hs' _ _ _ Hin)) as (D1 & D2 & D3). split; [exact D1|]. split; [exact D2|].
      intros x Hx. simpl in Hx. rewrite aget_aset, Z.eqb_refl in Hx. inversion Hx; subst x. exact (D3 _ Ec). }
  assert (Hro : forall c0, c0 <> cid -> aget c0 (adel cid (retries s)) = aget c0 (retries s)).
  { intros c0 E. apply aget_adel_other; exact E. }
  assert (Hnone : forall rt', aget cid (adel cid (retries s)) = Some rt' -> retry_ok st c1 rt').
  { intros rt' Hr'. rewrite aget_adel, Z.eqb_refl in Hr'. discriminate. }
  destruct (c_state_cases c1) as [(Es & Ecl & Elt)|[(Es & Ecl & Ege)|(Es & Ecl)]]; rewrite Es.
  - cbn [Z.eqb CIRCUIT_STATE_EXTENDING Pos.eqb]. change (retries s1) with (retries s). rewrite Hr.
    simpl in Ecl, Elt.
    set (sa := set_retries (adel cid (retries s)) s1).
    destruct (p_next p) as [nxt|] eqn:Ep.
    + rewrite (start_hop_some sa cid c1 (rt_tries rt) false p ls nxt Ep).
      set (s2 := hop_state sa cid c1 (rt_tries rt) false p nxt).
      assert (G : inv_gen st (Some cid) s2).
      { apply (hop_inv (Some cid) cid s s2 (hop_circ c1 nxt) (hop_retry sa (rt_tries rt) false p)); try reflexivity; auto.
        - intros c0. simpl. rewrite !aget_aset. destruct (c0 =? cid); reflexivity.
        - intros c0. simpl. rewrite aget_aset, !aget_adel. destruct (c0 =? cid); reflexivity.
        - simpl. lia.
        - unfold retry_ok. simpl. unfold next_tries. split; [|split]; lia.
        - simpl. intro E. congruence.
        - simpl. intros t i Hin. destruct (Hdr _ _ _ Hin) as (_ & _ & D3). exact (D3 _ Ec). }
      apply inv_send_cell; assumption.
    + rewrite (start_hop_none sa cid c1 (rt_tries rt) false p ls Ep). simpl.
      apply (Gq (starts s ++ [DRemove KCirc cid 0 false]) (adel cid (retries s))); auto.
      * intros x R Hin _. apply in_or_app; left; exact Hin.
      * intros c0 t i Hin. apply in_app_or in Hin. destruct Hin as [Hin|[Hin|[]]]; [exact Hin | discriminate].
      * unfold circ_ok. simpl c_closing. rewrite Ecl. simpl c_goal. simpl c_hops.
        rewrite (proj2 (Z.leb_gt _ _) Elt).
        right; right. left. exists 0, false. split; [simpl; apply in_or_app; right; left; reflexivity|].
        simpl. pose proof (retry_due_bound st Hst c rt (conj R1 (conj R2 R3)) ltac:(lia)). lia.
  - (* the circuit is complete: the retry cache goes; the ready-clause is left to the refresh *)
    change (CIRCUIT_STATE_READY =? CIRCUIT_STATE_EXTENDING) with false.
    change (CIRCUIT_STATE_READY =? CIRCUIT_STATE_READY) with true. cbv iota. simpl fst.
    simpl in Ecl, Ege.
    apply (Gq (starts s) (adel cid (retries s))); auto.
    unfold circ_ok. simpl c_closing. rewrite Ecl. simpl c_goal. simpl c_hops.
    rewrite (proj2 (Z.leb_le _ _) Ege). left; reflexivity.
  - change (CIRCUIT_STATE_CLOSING =? CIRCUIT_STATE_EXTENDING) with false.
    change (CIRCUIT_STATE_CLOSING =? CIRCUIT_STATE_READY) with false. cbv iota. simpl fst.
    simpl in Ecl.
    apply (Gq (starts s) (retries s)); auto.
    + unfold circ_ok in *. simpl c_closing. rewrite Ecl in *. exact Hc.
    + intros rt' Hr'. rewrite Hr in Hr'. inversion Hr'; subst rt'.
      unfold retry_ok. simpl. split; [exact R1|]. split; [lia | exact R3].
Qed.

Lemma unwaive cid s :
  inv_gen st (Some cid) s ->
  (forall c, aget cid (circuits s) = Some c -> now s <= la (c_ro c)) ->
  inv st s.
Proof.
  intros (H1 & H2 & H3 & H4 & H5 & H6) Hla.
  split; [exact H1|]. split; [exact H2|]. split; [exact H3|]. split; [exact H4|]. split; [exact H5|].
  intros c x Hx. specialize (H6 _ _ Hx). unfold circ_ok in *.
  destruct (c_closing x); [exact H6|]. destruct (c_goal x <=? c_hops x); [|exact H6].
  destruct H6 as [E|H6]; [|right; exact H6]. subst c. right.
  apply entry_ok_fresh; [exact Hst | exact H1 | apply Hla; exact Hx].
Qed.

Lemma refresh_inv cid len s :
  inv_gen st (Some cid) s ->
  inv st match aget cid (circuits s) with
         | Some c => set_circuits (aset cid (c_with_ro (fun r => ro_down len (ro_beat (now s) r)) c) (circuits s)) s
         | None => s
         end.
Proof.
  intros Hi. destruct (aget cid (circuits s)) as [c|] eqn:Ec.
  - pose proof Hi as (Hside & _). destruct Hside as [S1 S2]. destruct (S2 _ _ Ec) as [Hh Hla].
    apply (unwaive cid).
    + eapply inv_ext; [exact Hst | exact Hi|].
      eapply ext_set_circuit; eauto; try reflexivity; simpl; try lia. split; assumption.
    + intros x Hx. simpl in Hx. rewrite aget_aset, Z.eqb_refl in Hx. inversion Hx; subst x. simpl. lia.
  - apply (unwaive cid); [exact Hi|]. intros x Hx. congruence.
Qed.

End Build.
