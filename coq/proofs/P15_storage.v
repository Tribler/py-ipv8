(* C15 - lemmas about the Storage model: put / clean / get, versions, expiry. *)
From Coq Require Import ZArith List Bool Lia Permutation.
From IPV8V Require Import lib.Lists lib.Bytes model.M15_dht_store.
Import ListNotations.
Open Scope Z_scope.

Lemma sget_sset s k l k' : sget (sset s k l) k' = if bytes_eqb k k' then l else sget s k'.
Proof.
  induction s as [|[k1 l1] s IH]; cbn [sset sget]; [reflexivity|].
  destruct (bytes_eqb_spec k1 k) as [->|Hne]; cbn [sget].
  - destruct (bytes_eqb k k'); reflexivity.
  - rewrite IH. destruct (bytes_eqb_spec k1 k') as [->|]; [|reflexivity].
    destruct (bytes_eqb_spec k k'); [congruence | reflexivity].
Qed.

Lemma sset_sset s k a b : sset (sset s k a) k b = sset s k b.
Proof.
  induction s as [|[k' l'] s IH]; cbn [sset].
  - rewrite bytes_eqb_refl. reflexivity.
  - destruct (bytes_eqb k' k) eqn:E; cbn [sset]; rewrite E; [reflexivity|]. rewrite IH. reflexivity.
Qed.

Lemma sset_same_present s k : In k (map fst s) -> sset s k (sget s k) = s.
Proof.
  induction s as [|[k' l] s IH]; cbn [map fst sset sget]; intros H; [destruct H|].
  destruct (bytes_eqb k' k) eqn:E; [reflexivity|]. rewrite IH; [reflexivity|].
  destruct H as [H|H]; [subst; rewrite bytes_eqb_refl in E; discriminate | exact H].
Qed.

Lemma sset_keys_present s k l : In k (map fst s) -> map fst (sset s k l) = map fst s.
Proof.
  induction s as [|[k' l'] s IH]; cbn [map fst sset]; intros H; [destruct H|].
  destruct (bytes_eqb k' k) eqn:E; cbn [map fst]; [reflexivity|]. rewrite IH; [reflexivity|].
  destruct H as [H|H]; [subst; rewrite bytes_eqb_refl in E; discriminate | exact H].
Qed.

Lemma sget_app_fresh done k l t : ~ In k (map fst done) -> sget (done ++ (k, l) :: t) k = l.
Proof.
  induction done as [|[k' l'] d IH]; cbn [app map fst sget]; intros H; [rewrite bytes_eqb_refl; reflexivity|].
  destruct (bytes_eqb k' k) eqn:E; [apply bytes_eqb_eq in E; subst; exfalso; apply H; left; reflexivity|].
  apply IH. intro F. apply H. right. exact F.
Qed.

Lemma sset_app_fresh done k l t l' : ~ In k (map fst done) -> sset (done ++ (k, l) :: t) k l' = done ++ (k, l') :: t.
Proof.
  induction done as [|[k0 l0] d IH]; cbn [app map fst sset]; intros H; [rewrite bytes_eqb_refl; reflexivity|].
  destruct (bytes_eqb k0 k) eqn:E; [apply bytes_eqb_eq in E; subst; exfalso; apply H; left; reflexivity|].
  rewrite IH; [reflexivity|]. intro F. apply H. right. exact F.
Qed.

Lemma sset_keys s k l :
  map fst (sset s k l) = if existsb (fun e => bytes_eqb (fst e) k) s then map fst s else map fst s ++ [k].
Proof.
  induction s as [|[k' l'] s IH]; cbn [sset existsb map fst]; [reflexivity|].
  destruct (bytes_eqb k' k); cbn [orb map fst]; [reflexivity|]. rewrite IH. destruct (existsb _ s); reflexivity.
Qed.

Lemma sset_nodup s k l : NoDup (map fst s) -> NoDup (map fst (sset s k l)).
Proof.
  intros H. rewrite sset_keys. destruct (existsb (fun e => bytes_eqb (fst e) k) s) eqn:E; [exact H|].
  apply NoDup_snoc; [exact H|]. intro Hin. apply in_map_iff in Hin as [e [He Hin]].
  assert (F : existsb (fun e => bytes_eqb (fst e) k) s = true).
  { apply existsb_exists. exists e. split; [exact Hin | apply bytes_eqb_eq; exact He]. }
  congruence.
Qed.

Lemma sget_clean now s k : sget (clean now s) k = filter (fun v => negb (expired now v)) (sget s k).
Proof.
  induction s as [|[k' l'] s IH]; cbn [clean map sget fst snd]; [reflexivity|].
  destruct (bytes_eqb k' k); [reflexivity | exact IH].
Qed.

Lemma clean_keys now s : map fst (clean now s) = map fst s.
Proof. unfold clean. rewrite map_map. reflexivity. Qed.

Definition has (id : bytes) (v : value) : bool := bytes_eqb (v_id v) id.

Lemma has_spec id v : reflect (v_id v = id) (has id v).
Proof. apply bytes_eqb_spec. Qed.

Lemma find_has_cons i v l : find (has i) (v :: l) = if bytes_eqb i (v_id v) then Some v else find (has i) l.
Proof. cbn [find]. unfold has at 1. rewrite bytes_eqb_sym. reflexivity. Qed.

(* list.index(new_value) finds the first value with the id: the list splits there *)
Lemma index_of_split id l :
  match index_of id l with
  | Some i => exists a old b, l = a ++ old :: b /\ v_id old = id /\ (forall v, In v a -> v_id v <> id)
                              /\ nth_error l i = Some old /\ remove_nth i l = a ++ b
  | None => forall v, In v l -> v_id v <> id
  end.
Proof.
  induction l as [|x l IH]; cbn [index_of]; [intros v []|].
  destruct (bytes_eqb_spec (v_id x) id) as [E|E].
  - exists [], x, l. repeat split; [exact E | intros v []].
  - destruct (index_of id l) as [i|]; cbn [option_map].
    + destruct IH as (a & old & b & -> & H1 & H2 & H3 & H4). exists (x :: a), old, b.
      cbn [app nth_error remove_nth]. rewrite H4. repeat split; [exact H1 | | exact H3].
      intros v [<-|Hv]; [exact E | apply H2, Hv].
    + intros v [<-|Hv]; [exact E | apply IH, Hv].
Qed.

Lemma sort_key_perm key l : Permutation (sort_key key l) l.
Proof.
  unfold sort_key. induction l as [|x l IH]; cbn [filter]; [constructor|].
  destruct (bytes_eqb (v_id x) key); cbn [negb app].
  - symmetry. apply Permutation_cons_app. symmetry. exact IH.
  - constructor. exact IH.
Qed.

Lemma In_sort_key key l v : In v (sort_key key l) <-> In v l.
Proof. split; apply Permutation_in; [|symmetry]; apply sort_key_perm. Qed.

Lemma find_has_split i a old b :
  (forall v, In v a -> v_id v <> v_id old) ->
  find (has i) (a ++ old :: b) = if bytes_eqb i (v_id old) then Some old else find (has i) (a ++ b).
Proof.
  intros Ha. rewrite !find_app, find_has_cons. destruct (bytes_eqb_spec i (v_id old)) as [->|]; [|reflexivity].
  rewrite find_none_intro; [reflexivity|]. intros x Hx. destruct (has_spec (v_id old) x); [exfalso; eapply Ha; eauto | reflexivity].
Qed.

Lemma find_filter_imp {A} (p q : A -> bool) l :
  (forall x, p x = true -> q x = true) -> find p (filter q l) = find p l.
Proof.
  intros H. induction l as [|x l IH]; cbn [filter find]; [reflexivity|].
  destruct (q x) eqn:Eq; cbn [find].
  - destruct (p x); auto.
  - destruct (p x) eqn:Ep; [apply H in Ep; congruence | exact IH].
Qed.

(* the stable sort by (id == key) keeps, for every id, the first value carrying it: the values with one id all
   land in the same half *)
Lemma find_sort_key key id l : find (has id) (sort_key key l) = find (has id) l.
Proof.
  unfold sort_key. rewrite find_app.
  destruct (bytes_eqb_spec id key) as [->|Hne].
  - rewrite find_none_intro.
    + apply find_filter_imp. auto.
    + intros x Hx. apply filter_In in Hx as [_ Hx]. apply negb_true_iff, Hx.
  - rewrite find_filter_imp.
    + destruct (find _ l); [reflexivity|]. apply find_none_intro. intros x Hx. apply filter_In in Hx as [_ Hx].
      destruct (has_spec id x) as [<-|]; [|reflexivity]. apply bytes_eqb_eq in Hx. contradiction.
    + intros x Hx. destruct (has_spec id x) as [<-|]; [|discriminate]. apply negb_true_iff. destruct (bytes_eqb_spec (v_id x) key); congruence.
Qed.

Section Put.
Variable hash : bytes -> bytes.

Definition eff_id (id : option bytes) (data : bytes) : bytes :=
  match id with Some (x :: r) => x :: r | _ => hash data end.

Notation put := (put hash).

Definition stored (s : storage) (key id : bytes) : option value := find (has id) (sget s key).

(* what Storage.put does to the list of its key *)
Definition lput (key : bytes) (nv : value) (l : list value) : list value :=
  match index_of (v_id nv) l with
  | Some i => match nth_error l i with
              | Some old => if v_version old <=? v_version nv then sort_key key (nv :: remove_nth i l) else l
              | None => l
              end
  | None => sort_key key (nv :: l)
  end.

Lemma sget_put s now key data id ma ver k :
  sget (put s now key data id ma ver) k =
  if bytes_eqb key k then lput key (mkV (eff_id id data) data now ma ver) (sget s key) else sget s k.
Proof.
  unfold M15_dht_store.put, lput. fold (eff_id id data). cbn [v_id v_version].
  destruct (index_of _ _) as [i|]; [destruct (nth_error _ i) as [old|]; [destruct (_ <=? _)|]|];
    rewrite ?sget_sset; try reflexivity; destruct (bytes_eqb_spec key k) as [<-|]; reflexivity.
Qed.

Lemma put_keys_nodup s now key data id ma ver : NoDup (map fst s) -> NoDup (map fst (put s now key data id ma ver)).
Proof.
  intros H. unfold M15_dht_store.put. cbv zeta.
  destruct (index_of _ _); [destruct (nth_error _ _); [destruct (_ <=? _)|]|]; try exact H; apply sset_nodup, H.
Qed.

(* either an older value with the id is replaced (or, having a higher version, stays), or there was none *)
Lemma lput_spec key nv l :
  (exists a old b, l = a ++ old :: b /\ v_id old = v_id nv /\ (forall v, In v a -> v_id v <> v_id nv)
                   /\ lput key nv l = if v_version old <=? v_version nv then sort_key key (nv :: a ++ b) else l)
  \/ ((forall v, In v l -> v_id v <> v_id nv) /\ lput key nv l = sort_key key (nv :: l)).
Proof.
  unfold lput. pose proof (index_of_split (v_id nv) l) as H. destruct (index_of _ l) as [i|]; [left | right; auto].
  destruct H as (a & old & b & E & Hid & Ha & Hn & Hr). rewrite Hn, Hr. exists a, old, b. auto.
Qed.

Lemma lput_keeps key nv l v :
  In v l -> exists v', In v' (lput key nv l) /\ v_id v' = v_id v /\ v_version v <= v_version v'.
Proof.
  intros Hin. assert (Hself : forall l', In v l' -> exists v', In v' l' /\ v_id v' = v_id v /\ v_version v <= v_version v')
    by (intros l' H; exists v; split; [exact H | split; [reflexivity | lia]]).
  destruct (lput_spec key nv l) as [(a & old & b & -> & Hid & _ & ->)|[_ ->]].
  - destruct (Z.leb_spec (v_version old) (v_version nv)); [|apply Hself, Hin].
    apply in_elt_inv in Hin as [<-|Hin].
    + exists nv. split; [apply In_sort_key; left; reflexivity | split; [symmetry; exact Hid | lia]].
    + apply Hself, In_sort_key. right. exact Hin.
  - apply Hself, In_sort_key. right. exact Hin.
Qed.

Lemma lput_sound key nv l v : In v (lput key nv l) -> v = nv \/ In v l.
Proof.
  destruct (lput_spec key nv l) as [(a & old & b & -> & _ & _ & ->)|[_ ->]].
  - destruct (_ <=? _); [|auto]. rewrite In_sort_key. cbn [In]. rewrite !in_app_iff. cbn [In]. intuition auto.
  - rewrite In_sort_key. cbn [In]. intuition auto.
Qed.

Lemma lput_ids key nv l : NoDup (map v_id l) -> NoDup (map v_id (lput key nv l)).
Proof.
  intros Hnd. assert (Hcons : forall l', NoDup (map v_id (nv :: l')) -> NoDup (map v_id (sort_key key (nv :: l')))).
  { intros l'. apply Permutation_NoDup, Permutation_map. symmetry. apply sort_key_perm. }
  destruct (lput_spec key nv l) as [(a & old & b & -> & Hid & _ & ->)|[Hn ->]].
  - destruct (_ <=? _); [|exact Hnd]. apply Hcons. rewrite map_app in Hnd. cbn [map] in *. rewrite map_app, <- Hid.
    constructor; [eapply NoDup_remove_2 | eapply NoDup_remove_1]; exact Hnd.
  - apply Hcons. cbn [map]. constructor; [|exact Hnd]. intros Hin. apply in_map_iff in Hin as (x & Hx & Hin).
    exact (Hn x Hin Hx).
Qed.

Lemma find_lput key nv l i :
  find (has i) (lput key nv l) =
  if bytes_eqb i (v_id nv)
  then match find (has (v_id nv)) l with
       | Some old => Some (if v_version old <=? v_version nv then nv else old)
       | None => Some nv
       end
  else find (has i) l.
Proof.
  destruct (lput_spec key nv l) as [(a & old & b & -> & Hid & Ha & ->)|[Hn ->]].
  - rewrite <- Hid in Ha. rewrite !(find_has_split _ a old b Ha), Hid, bytes_eqb_refl.
    destruct (_ <=? _); [rewrite find_sort_key, find_has_cons | rewrite (find_has_split i a old b Ha), Hid];
      destruct (bytes_eqb i (v_id nv)); reflexivity.
  - rewrite find_sort_key, find_has_cons, (find_none_intro (has (v_id nv)) l); [destruct (bytes_eqb i (v_id nv)); reflexivity|].
    intros x Hx. destruct (has_spec (v_id nv) x); [exfalso; eapply Hn; eauto | reflexivity].
Qed.

(* every value stored in s is still represented in s' by a value with its id and a version at least as high *)
Definition keeps (s s' : storage) : Prop :=
  forall k v, In v (sget s k) -> exists v', In v' (sget s' k) /\ v_id v' = v_id v /\ v_version v <= v_version v'.

Lemma keeps_refl s : keeps s s.
Proof. intros k v H. exists v. split; [exact H | split; [reflexivity | lia]]. Qed.

Lemma keeps_trans a b c : keeps a b -> keeps b c -> keeps a c.
Proof.
  intros H1 H2 k v H. destruct (H1 k v H) as (v1 & Hv1 & E1 & L1). destruct (H2 k v1 Hv1) as (v2 & Hv2 & E2 & L2).
  exists v2. split; [exact Hv2 | split; [congruence | lia]].
Qed.

Lemma put_keeps s now key data id ma ver : keeps s (put s now key data id ma ver).
Proof.
  intros k v H. rewrite sget_put. destruct (bytes_eqb_spec key k) as [->|]; [apply lput_keeps, H | apply keeps_refl, H].
Qed.

Lemma put_sound s now key data id ma ver k v :
  In v (sget (put s now key data id ma ver) k) ->
  In v (sget s k) \/ (k = key /\ v = mkV (eff_id id data) data now ma ver).
Proof.
  rewrite sget_put. destruct (bytes_eqb_spec key k) as [->|]; [|auto]. intros H. apply lput_sound in H. tauto.
Qed.

Definition ids_unique (s : storage) : Prop := forall k, NoDup (map v_id (sget s k)).

Lemma put_ids_unique s now key data id ma ver : ids_unique s -> ids_unique (put s now key data id ma ver).
Proof. intros Hu k. rewrite sget_put. destruct (bytes_eqb key k); [apply lput_ids|]; apply Hu. Qed.

Lemma clean_ids_unique now s : ids_unique s -> ids_unique (clean now s).
Proof.
  intros Hu k. rewrite sget_clean. specialize (Hu k). induction (sget s k) as [|x l IH]; cbn [filter map]; [constructor|].
  inversion Hu as [|? ? Hx Hl]; subst. destruct (negb (expired now x)); cbn [map]; [|auto].
  constructor; [|auto]. intro Hin. apply Hx. apply in_map_iff in Hin as (y & Hy & Hin).
  apply filter_In in Hin as [Hin _]. rewrite <- Hy. apply in_map. exact Hin.
Qed.

Lemma stored_put s now key data id ma ver k i :
  stored (put s now key data id ma ver) k i =
  if bytes_eqb k key && bytes_eqb i (eff_id id data)
  then match stored s key (eff_id id data) with
       | Some old => if v_version old <=? ver then Some (mkV (eff_id id data) data now ma ver) else Some old
       | None => Some (mkV (eff_id id data) data now ma ver)
       end
  else stored s k i.
Proof.
  unfold stored. rewrite sget_put, (bytes_eqb_sym k key). destruct (bytes_eqb_spec key k) as [->|]; [|reflexivity].
  rewrite find_lput. cbn [andb v_id v_version]. destruct (bytes_eqb i _); [|reflexivity].
  destruct (find _ _) as [old|]; [destruct (_ <=? _)|]; reflexivity.
Qed.

Definition put_args := (Z * bytes * bytes * option bytes * Z * Z)%type.
Definition apply_put (s : storage) (p : put_args) : storage :=
  let '(now, key, data, id, ma, ver) := p in put s now key data id ma ver.
Definition put_hits (p : put_args) (k i : bytes) : bool :=
  let '(_, key, data, id, _, _) := p in bytes_eqb k key && bytes_eqb i (eff_id id data).
Definition put_version (p : put_args) : Z := let '(_, _, _, _, _, ver) := p in ver.

Definition omax (a : option Z) (b : Z) : Z := match a with Some x => Z.max x b | None => b end.
Fixpoint max_put (acc : option Z) (ps : list put_args) (k i : bytes) : option Z :=
  match ps with
  | [] => acc
  | p :: tl => max_put (if put_hits p k i then Some (omax acc (put_version p)) else acc) tl k i
  end.

Definition stored_version (s : storage) (k i : bytes) : option Z := option_map v_version (stored s k i).

Lemma stored_version_put s p k i :
  stored_version (apply_put s p) k i =
  if put_hits p k i then Some (omax (stored_version s k i) (put_version p)) else stored_version s k i.
Proof.
  destruct p as [[[[[now key] data] id] ma] ver]. unfold apply_put, put_hits, put_version, stored_version.
  rewrite stored_put. destruct (bytes_eqb_spec k key) as [->|]; cbn [andb]; [|reflexivity].
  destruct (bytes_eqb_spec i (eff_id id data)) as [->|]; [|reflexivity].
  destruct (stored s key (eff_id id data)) as [old|]; cbn [option_map omax]; [|reflexivity].
  destruct (Z.leb_spec (v_version old) ver); cbn [option_map v_version]; f_equal; lia.
Qed.

Lemma stored_version_fold_put ps : forall s k i,
  stored_version (fold_left apply_put ps s) k i = max_put (stored_version s k i) ps k i.
Proof.
  induction ps as [|p ps IH]; intros s k i; cbn [fold_left max_put]; [reflexivity|].
  rewrite IH, stored_version_put. reflexivity.
Qed.

(* max_put really is the maximum: it is at least the accumulator, bounds every hitting put and is attained *)
Lemma max_put_acc ps : forall a k i, exists m, max_put (Some a) ps k i = Some m /\ a <= m.
Proof.
  induction ps as [|q ps IH]; intros a k i; cbn [max_put omax]; [exists a; split; [reflexivity | lia]|].
  destruct (put_hits q k i); [|apply IH].
  destruct (IH (Z.max a (put_version q)) k i) as (m & Hm & Hle). exists m. split; [exact Hm | lia].
Qed.

Lemma max_put_ge ps : forall acc k i p,
  In p ps -> put_hits p k i = true -> exists m, max_put acc ps k i = Some m /\ put_version p <= m.
Proof.
  induction ps as [|q ps IH]; intros acc k i p Hin Hh; [destruct Hin|].
  cbn [max_put]. destruct Hin as [->|Hin]; [|apply IH; assumption].
  rewrite Hh. destruct (max_put_acc ps (omax acc (put_version p)) k i) as (m & Hm & Hle).
  exists m. split; [exact Hm|]. destruct acc; cbn [omax] in Hle; lia.
Qed.

Lemma max_put_attained ps : forall acc k i m,
  max_put acc ps k i = Some m ->
  acc = Some m \/ exists p, In p ps /\ put_hits p k i = true /\ put_version p = m.
Proof.
  induction ps as [|q ps IH]; intros acc k i m H; cbn [max_put] in H; [left; exact H|].
  apply IH in H as [H|(p & H1 & H2)]; [|right; exists p; split; [right; exact H1 | exact H2]].
  destruct (put_hits q k i) eqn:Eh; [|left; exact H].
  assert (Hq : exists p, In p (q :: ps) /\ put_hits p k i = true /\ put_version p = put_version q)
    by (exists q; split; [left; reflexivity | split; [exact Eh | reflexivity]]).
  injection H as <-. destruct acc as [a|]; cbn [omax]; [|right; exact Hq].
  destruct (Z.max_spec a (put_version q)) as [[_ ->]|[_ ->]]; [right; exact Hq | left; reflexivity].
Qed.

End Put.
