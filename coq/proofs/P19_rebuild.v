(* C19 - the pseudonym rebuilt from what survived a kill verifies.
   PseudonymManager.__init__ puts every stored token of the key into tree.elements (no check, any order);
   the tokens of an honest workload are inserted parent first (add_credential only inserts what
   gather_token chained), so what survives - the tokens of a prefix of the workload - is closed under
   predecessors and every element passes TokenTree.verify (model and lemmas of C16). *)
From Coq Require Import ZArith List Lia Permutation.
From IPV8V Require Import lib.Lists lib.Bytes model.M16_tokentree proofs.P16_gather proofs.P16_props
  model.M19_crash spec.S19_durable proofs.P19_base proofs.P19_crash.
Import ListNotations.
Open Scope Z_scope.

Lemma apply_insert_rows d ig t r :
  exists ex, d_rows (snd (apply_stmt d (SInsert ig t r))) = d_rows d ++ ex.
Proof.
  cbn [apply_stmt]. destruct (find_table d t); [|exists []; rewrite app_nil_r; reflexivity].
  destruct (has_key d t (t_pk t0) (key_of (t_pk t0) r)); cbn [snd d_rows].
  - exists []. rewrite app_nil_r. reflexivity.
  - eexists. reflexivity.
Qed.

Lemma effect_rows cfg : forall l d, exists ex, d_rows (effect cfg d l) = d_rows d ++ ex.
Proof.
  induction l as [|c l IH]; intros d; cbn [effect].
  - exists []. rewrite app_nil_r. reflexivity.
  - unfold call_stmt. destruct (nth_error (cfg_inserts cfg) (fst c)) as [[|[ig t| |] ops]|]; try apply IH.
    destruct (apply_insert_rows d ig t (snd c)) as [ex1 E1].
    destruct (IH (snd (apply_stmt d (SInsert ig t (snd c))))) as [ex2 E2].
    exists (ex1 ++ ex2). rewrite E2, E1, app_assoc. reflexivity.
Qed.

Lemma table_rows_app tabs r1 r2 t :
  table_rows (mkD tabs (r1 ++ r2)) t = table_rows (mkD tabs r1) t ++ map snd (filter (fun tr => fst tr =? t) r2).
Proof. unfold table_rows. cbn [d_rows]. rewrite filter_app, map_app. reflexivity. Qed.

Lemma table_rows_prefix cfg d wl j t :
  exists ex, table_rows (effect cfg d wl) t = table_rows (effect cfg d (firstn j wl)) t ++ ex.
Proof.
  assert (Es : effect cfg d wl = effect cfg (effect cfg d (firstn j wl)) (skipn j wl)).
  { rewrite <- effect_app, firstn_skipn. reflexivity. }
  rewrite Es.
  destruct (effect_rows cfg (skipn j wl) (effect cfg d (firstn j wl))) as [ex E].
  unfold table_rows. rewrite E, filter_app, map_app. eexists. reflexivity.
Qed.

Section Rebuild.
Variable hash : bytes -> bytes.
Variable sigverify : bytes -> bytes -> bytes -> bool.
Variable pk : bytes.

Lemma chain_ok_app_l : forall b a, chain_ok hash pk (a ++ b) -> chain_ok hash pk a.
Proof.
  induction b as [|x b IH] using rev_ind; intros a H.
  - rewrite app_nil_r in H. exact H.
  - rewrite app_assoc in H. inversion H as [E|e t He Hr E].
    + destruct (a ++ b); discriminate.
    + apply app_inj_tail in E as [E _]. subst e. apply IH. exact He.
Qed.

Lemma NoDup_app_l {A} (a b : list A) : NoDup (a ++ b) -> NoDup a.
Proof.
  induction a as [|x a IH]; cbn; intros H; [constructor|].
  inversion H; subst. constructor; [|apply IH; assumption].
  intros Hin. apply H2. apply in_or_app. left. exact Hin.
Qed.

(* with distinct hashes, lookup by hash does not depend on the order of the dict *)
Lemma find_key_perm e e' h :
  NoDup (keys hash e) -> Permutation e e' -> find_key hash h e' = find_key hash h e.
Proof.
  intros N Pm.
  assert (N' : NoDup (keys hash e')).
  { unfold keys in *. eapply Permutation_NoDup; [apply Permutation_map; exact Pm|exact N]. }
  destruct (find_key hash h e) as [x|] eqn:E.
  - destruct (find_key_Some hash _ _ _ E) as [Hx Hh].
    assert (Hin : In h (keys hash e')).
    { unfold keys. rewrite <- Hh. apply in_map. eapply Permutation_in; eauto. }
    destruct (find_key_In hash _ _ Hin) as [y Ey]. rewrite Ey.
    destruct (find_key_Some hash _ _ _ Ey) as [Hy Hh'].
    f_equal. apply (NoDup_map_inj (thash hash) e'); auto.
    + eapply Permutation_in; eauto.
    + congruence.
  - apply find_key_notin. intros Hin. apply (find_key_None hash _ _ E).
    unfold keys in *. apply in_map_iff in Hin as [y [Hy Iy]]. apply in_map_iff. exists y. split; [exact Hy|].
    eapply Permutation_in; [apply Permutation_sym; exact Pm|exact Iy].
Qed.

Lemma verify_loop_perm e e' :
  NoDup (keys hash e) -> Permutation e e' ->
  forall n t, verify_loop hash sigverify pk n e' t = verify_loop hash sigverify pk n e t.
Proof.
  intros N Pm. induction n as [|n IH]; intros t; cbn [verify_loop]; [reflexivity|].
  destruct (negb (tverify sigverify pk t)); [reflexivity|].
  destruct (bytes_eqb (t_prev t) (genesis hash pk)); [reflexivity|].
  rewrite (find_key_perm e e' _ N Pm). destruct (find_key hash (t_prev t) e); [apply IH|reflexivity].
Qed.

(* a prefix of a parent-first chain of validly signed tokens with distinct hashes, loaded in any order:
   TokenTree.verify answers True for every element *)
Lemma prefix_any_order_verifies p rest els c e md :
  chain_ok hash pk (p ++ rest) -> Forall (fun x => tverify sigverify pk x = true) (p ++ rest) ->
  NoDup (keys hash (p ++ rest)) -> Permutation els p -> In e els -> Z.of_nat (length els) <= md ->
  tree_verify hash sigverify pk (mkTree els [] c) e md = true.
Proof.
  intros C V N Pm He L.
  apply chain_ok_app_l in C. apply Forall_app in V as [V _].
  unfold keys in N. rewrite map_app in N. apply NoDup_app_l in N. fold (keys hash p) in N.
  unfold tree_verify. cbn [elements].
  destruct (md <? 0) eqn:Em; [apply Z.ltb_lt in Em; lia|].
  rewrite (verify_loop_perm p els N (Permutation_sym Pm)).
  assert (Hp : In e p) by (eapply Permutation_in; eauto).
  apply in_split in Hp as [e1 [e2 Ep]].
  apply verify_loop_mono with (n := Datatypes.S (length e1)).
  - rewrite (Permutation_length Pm), Ep, app_length in L. cbn [length] in L. lia.
  - eapply verify_elements; eauto.
Qed.

End Rebuild.

Section RebuildCrash.
Context {S : Type}.
Variable O : store_ops S.
Hypothesis K : contract O.
Variable cfg : dbcfg.
Hypothesis W : cfg_wf cfg.
Variable hash : bytes -> bytes.
Variable sigverify : bytes -> bytes -> bytes -> bool.
Variable pk : bytes.
Variable tok : row -> token.       (* Token.from_database_tuple on the columns of a stored row *)
Variable T : Z.                    (* the Tokens table *)

Definition stored_tokens (d : dstate) : list token := map tok (table_rows d T).

(* the tokens an uninterrupted run of the workload stores, in order, are a parent-first chain under
   the key, validly signed, with distinct hashes *)
Definition honest (d0 : dstate) (wl : list (nat * row)) : Prop :=
  let ts := stored_tokens (effect cfg d0 wl) in
  chain_ok hash pk ts /\ Forall (fun x => tverify sigverify pk x = true) ts /\ NoDup (keys hash ts).

Theorem pseudonym_rebuild_verifies_l : forall wl m tr m',
  ms_pend m = 0 -> du O m = vw O m -> honest (vw O m) wl ->
  run_actions O cfg m (map (fun c => ACall (fst c) (snd c)) wl) = (tr, m') ->
  forall snap, In snap (m :: tr) ->
  forall els c e md,
    Permutation els (stored_tokens (du O (reboot O snap))) ->
    In e els -> Z.of_nat (length els) <= md ->
    tree_verify hash sigverify pk (mkTree els [] c) e md = true.
Proof.
  intros wl m tr m' P C [H1 [H2 H3]] E snap Hs els c e md Pm He L. rewrite (du_reboot O K) in Pm.
  (* what a kill instant has published is the effect of a prefix of the workload *)
  assert (Hj : exists j, du O snap = effect cfg (vw O m) (firstn j wl)).
  { destruct Hs as [Hs|Hs].
    - subst snap. exists 0%nat. exact C.
    - destruct (crash_prefix_exact_l O K cfg W wl m P C) as [tr2 [m2 [E2 [_ F]]]].
      rewrite E in E2. injection E2 as <- <-.
      rewrite Forall_forall in F. destruct (F _ Hs) as [a [j [s [_ [_ [_ [_ [Dx _]]]]]]]].
      exists j. rewrite Dx, C. reflexivity. }
  destruct Hj as [j Ej]. rewrite Ej in Pm.
  destruct (table_rows_prefix cfg (vw O m) wl j T) as [ex Ex].
  unfold stored_tokens in H1, H2, H3. rewrite Ex, map_app in H1, H2, H3.
  eapply prefix_any_order_verifies; eauto.
Qed.

End RebuildCrash.
