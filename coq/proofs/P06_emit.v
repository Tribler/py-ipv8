(* C06: the hand model of the exit socket (model/M06_emit.v): the invariant sock_ok of its queue and flags, kept by every
   operation; what is sent is permitted and goes to an IP destination; a closed, disabled socket is left unchanged. *)
From Coq Require Import ZArith List Bool Lia.
From IPV8V Require Import lib.Bytes gen.G06_datachecker spec.S06_policy
  model.M06_emit proofs.P06_classifier.
Import ListNotations.
Open Scope Z_scope.

Section Emit.
Variable flags : list Z.
Variable prefix : bytes.
Variable prev_ip : Z.

Notation sendto := (sendto flags prefix).
Notation step := (step flags prefix prev_ip).
Notation run := (run flags prefix prev_ip).
Notation drain := (drain flags prefix).
Notation allowed := (allowed flags prefix).

Definition out_ok (o : out) : Prop :=
  match o with
  | Sendto data d => permitted flags prefix data = true /\ d <> DNull
  | SendData _ data => permitted flags prefix data = true
  end.

Definition ip_dest (d : dest) : Prop := match d with DV4 _ _ | DV6 _ _ => True | _ => False end.

Definition op_ok (o : op) : Prop :=
  match o with
  | ExitData _ _ _ data => bytes_ok data
  | TransportsCreated => True
  | Resolved _ _ d => ip_dest d          (* the resolver yields IP addresses (environment hypothesis) *)
  | Outside _ _ _ data => bytes_ok data
  end.

Definition qitem_ok (x : bytes * dest) : Prop := bytes_ok (fst x) /\ snd x <> DNull.

Record sock_ok (s : sock) : Prop := {
  ok_queue : Forall qitem_ok (queue s);
  ok_pending : Forall bytes_ok (pending s);
  ok_qlen : Z.of_nat (length (queue s)) <= EXIT_QUEUE_MAXLEN;
  ok_open : opened s = true -> enabled s = true /\ queue s = [];
  ok_quiet : enabled s = false -> pending s = [] /\ queue s = []
}.

Lemma allowed_permitted data : bytes_ok data -> allowed data = permitted flags prefix data.
Proof. intros H. unfold M06_emit.allowed. rewrite is_allowed_correct by assumption. reflexivity. Qed.

Lemma ip_dest_not_null d : ip_dest d -> d <> DNull.
Proof. destruct d; simpl; intros H; try contradiction; discriminate. Qed.

Lemma q_append_forall (P : bytes * dest -> Prop) q x : Forall P q -> P x -> Forall P (q_append q x).
Proof.
  intros Hq Hx. unfold q_append. destruct (Z.of_nat (length q) <? EXIT_QUEUE_MAXLEN);
    apply Forall_app; (split; [|constructor; [assumption|constructor]]); [assumption|].
  destruct q; [constructor|]. inversion Hq; assumption.
Qed.

Lemma q_append_len q x : Z.of_nat (length q) <= EXIT_QUEUE_MAXLEN ->
  Z.of_nat (length (q_append q x)) <= EXIT_QUEUE_MAXLEN.
Proof.
  intros H. unfold q_append. destruct (Z.of_nat (length q) <? EXIT_QUEUE_MAXLEN) eqn:E; rewrite app_length.
  - simpl. lia.
  - destruct q; simpl in *; unfold EXIT_QUEUE_MAXLEN in *; lia.
Qed.

Lemma q_append_nonempty q x : q_append q x <> [].
Proof. unfold q_append. destruct (_ <? _); intros H; apply app_eq_nil in H as [_ H]; discriminate. Qed.

Definition set_queue (s : sock) (q : list (bytes * dest)) : sock :=
  mkSock (enabled s) (opened s) q (pending s) (bytes_up s) (bytes_down s).

Lemma sendto_forbidden s data d : allowed data = false -> sendto s data d = (s, []).
Proof. intros Ha. unfold M06_emit.sendto. rewrite Ha. reflexivity. Qed.

Lemma sendto_enabled s data d : enabled (fst (sendto s data d)) = enabled s.
Proof.
  unfold M06_emit.sendto. destruct (negb (allowed data)); [reflexivity|].
  destruct d; try reflexivity; destruct (negb (opened s)); reflexivity.
Qed.

Lemma sendto_opened s data d : opened (fst (sendto s data d)) = opened s.
Proof.
  unfold M06_emit.sendto. destruct (negb (allowed data)); [reflexivity|].
  destruct d; try reflexivity; destruct (negb (opened s)); reflexivity.
Qed.

(* once the transports exist sendto neither reads nor writes the queue *)
Lemma sendto_set_queue s q data d : opened s = true ->
  sendto (set_queue s q) data d = (set_queue (fst (sendto s data d)) q, snd (sendto s data d)).
Proof.
  intros Ho. unfold M06_emit.sendto. cbn [set_queue opened]. rewrite Ho. cbn [negb].
  destruct (allowed data); cbn [negb]; [|reflexivity]. destruct d; reflexivity.
Qed.

Lemma sendto_open_queue s data d : opened s = true -> queue (fst (sendto s data d)) = queue s.
Proof.
  intros Ho. unfold M06_emit.sendto. rewrite Ho. destruct (allowed data); cbn [negb]; [|reflexivity].
  destruct d; reflexivity.
Qed.

Lemma sendto_open_out s data d : opened s = true -> ip_dest d ->
  snd (sendto s data d) = if allowed data then [Sendto data d] else [].
Proof.
  intros Ho Hd. unfold M06_emit.sendto. rewrite Ho. destruct (allowed data); [|reflexivity].
  destruct d; try contradiction; reflexivity.
Qed.

Lemma sendto_ok s data d :
  sock_ok s -> enabled s = true -> bytes_ok data -> d <> DNull ->
  sock_ok (fst (sendto s data d)) /\ Forall out_ok (snd (sendto s data d)).
Proof.
  intros Hs Hen Hd Hn. pose proof Hs as [Hq Hp Hl Ho Hqu]. unfold M06_emit.sendto.
  destruct (allowed data) eqn:Ha; cbn [negb]; [|split; [exact Hs|constructor]].
  assert (Hperm : permitted flags prefix data = true) by (rewrite <- allowed_permitted; assumption).
  (* an IP destination: to the transport if it exists, else into the queue *)
  set (r := if negb (opened s) then _ else _).
  assert (Hip : sock_ok (fst r) /\ Forall out_ok (snd r)).
  { subst r. destruct (opened s) eqn:Hop; cbn [negb fst snd]; split.
    - constructor; assumption.
    - constructor; [|constructor]. split; assumption.
    - constructor; cbn [queue pending enabled opened]; try assumption; try congruence.
      + apply q_append_forall; [assumption|split; assumption].
      + apply q_append_len; assumption.
    - constructor. }
  clearbody r. destruct d as [|ip port|ip port|nm port]; [congruence|exact Hip|exact Hip|].
  split; [|constructor]. constructor; cbn [fst queue pending enabled opened]; try assumption.
  - apply Forall_app; split; [assumption|constructor; [assumption|constructor]].
  - congruence.
Qed.

Lemma drain_flags q : forall s,
  enabled (fst (drain s q)) = enabled s /\ opened (fst (drain s q)) = opened s.
Proof.
  induction q as [|[data d] tl IH]; intros s; cbn [M06_emit.drain]; [split; reflexivity|].
  rewrite <- (sendto_enabled s data d), <- (sendto_opened s data d). destruct (sendto s data d) as [s1 o1].
  specialize (IH s1). destruct (drain s1 tl) as [s2 o2]. exact IH.
Qed.

Lemma drain_ok q : forall s,
  sock_ok s -> enabled s = true -> Forall qitem_ok q ->
  sock_ok (fst (drain s q)) /\ Forall out_ok (snd (drain s q)).
Proof.
  induction q as [|[data d] tl IH]; intros s Hs Hen Hq; cbn [M06_emit.drain].
  - split; [assumption|constructor].
  - inversion Hq as [|? ? [Hd Hn] Hq']; subst. simpl in Hd, Hn.
    destruct (sendto_ok s data d Hs Hen Hd Hn) as (Hs1 & Ho1). pose proof (sendto_enabled s data d) as Hen1.
    destruct (sendto s data d) as [s1 o1]. cbn [fst snd] in *.
    specialize (IH s1 Hs1 ltac:(congruence) Hq').
    destruct (drain s1 tl) as [s2 o2]. cbn [fst snd] in *.
    destruct IH as [IH1 IH2]. split; [assumption|]. apply Forall_app; split; assumption.
Qed.

Lemma remove_nth_forall {A} (P : A -> Prop) i l : Forall P l -> Forall P (remove_nth i l).
Proof.
  revert i; induction l as [|x l IH]; intros i H; destruct i; simpl; try assumption.
  - inversion H; assumption.
  - inversion H; subst. constructor; [assumption|]. apply IH; assumption.
Qed.

Lemma step_ok s o :
  sock_ok s -> op_ok o -> sock_ok (fst (step s o)) /\ Forall out_ok (snd (step s o)).
Proof.
  intros Hs Ho. pose proof Hs as [Hq Hp Hl Hop Hqu].
  destruct o as [known src d data| |i ok d|v6 mapped src data]; cbn [M06_emit.step]; simpl in Ho.
  - destruct (is_null d) eqn:Hn; [split; [assumption|constructor]|].
    assert (Hd : d <> DNull) by (intros ->; discriminate).
    destruct known; cbn [negb]; [|split; [assumption|constructor]].
    destruct (enabled s) eqn:Hen; [apply sendto_ok; assumption|].
    destruct (src =? prev_ip); [|split; [assumption|constructor]].
    destruct (Hqu eq_refl) as [Ep Eq].
    apply sendto_ok; try assumption; [|reflexivity].
    constructor; cbn [queue pending enabled opened]; try assumption; [|discriminate].
    intros _. split; [reflexivity|exact Eq].
  - destruct (enabled s && negb (opened s)) eqn:E; [|split; [assumption|constructor]].
    apply andb_true_iff in E as [Hen Hopn].
    apply drain_ok; [|reflexivity|assumption].
    constructor; cbn [queue pending enabled opened]; auto; discriminate.
  - destruct (nth_error (pending s) i) as [data|] eqn:En; [|split; [assumption|constructor]].
    assert (Hen : enabled s = true).
    { destruct (enabled s); [reflexivity|]. destruct (Hqu eq_refl) as [Ep _]. rewrite Ep in En. destruct i; discriminate. }
    assert (Hs' : sock_ok (mkSock (enabled s) (opened s) (queue s) (remove_nth i (pending s)) (bytes_up s) (bytes_down s))).
    { constructor; cbn [queue pending enabled opened]; try assumption; [|congruence].
      apply remove_nth_forall; assumption. }
    destruct ok; [|split; [assumption|constructor]].
    apply sendto_ok; [assumption|assumption| |apply ip_dest_not_null; assumption].
    apply (proj1 (Forall_forall _ _) Hp), (nth_error_In _ _ En).
  - destruct (opened s) eqn:Hopn; cbn [negb]; [|split; [assumption|constructor]].
    destruct (v6 && mapped); [split; [assumption|constructor]|].
    assert (Hs' : sock_ok (mkSock (enabled s) true (queue s) (pending s) (bytes_up s) (bytes_down s + blen data))).
    { constructor; cbn [queue pending enabled opened]; assumption. }
    destruct (allowed data) eqn:Ha; cbn [fst snd]; (split; [assumption|]); [|constructor].
    constructor; [|constructor]. simpl. rewrite <- allowed_permitted; assumption.
Qed.

Lemma run_ok ops : forall s,
  sock_ok s -> Forall op_ok ops -> sock_ok (fst (run s ops)) /\ Forall out_ok (snd (run s ops)).
Proof.
  induction ops as [|o tl IH]; intros s Hs Hops; cbn [M06_emit.run].
  - split; [assumption|constructor].
  - inversion Hops as [|? ? Ho Htl]; subst.
    destruct (step_ok s o Hs Ho) as [H1 H2].
    destruct (step s o) as [s1 o1]. cbn [fst snd] in *.
    specialize (IH s1 H1 Htl). destruct (run s1 tl) as [s2 o2]. cbn [fst snd] in *.
    destruct IH as [IH1 IH2]. split; [assumption|]. apply Forall_app; split; assumption.
Qed.

Lemma init_ok : sock_ok init_sock.
Proof.
  constructor; cbn; auto; try discriminate; try (unfold EXIT_QUEUE_MAXLEN; lia).
Qed.

Definition opening (o : op) : bool :=
  match o with
  | ExitData true src d _ => negb (is_null d) && (src =? prev_ip)
  | _ => false
  end.

Lemma opening_spec o : opening o = true <-> exists d data, o = ExitData true prev_ip d data /\ d <> DNull.
Proof.
  split.
  - destruct o as [[|] src d data| | |]; cbn [opening]; try discriminate. intros H.
    apply andb_true_iff in H as [A B]. apply Z.eqb_eq in B. subst. exists d, data. split; [reflexivity|].
    intros ->; discriminate.
  - intros (d & data & -> & Hd). cbn [opening]. rewrite Z.eqb_refl. destruct d; try reflexivity. congruence.
Qed.

Lemma step_enabled s o : enabled (fst (step s o)) = enabled s || opening o.
Proof.
  destruct o as [known src d data| |i ok d|v6 mapped src data]; cbn [M06_emit.step opening];
    rewrite ?orb_false_r.
  - destruct known; cbn [negb]; [|destruct (is_null d); symmetry; apply orb_false_r].
    destruct (is_null d); cbn [negb andb]; [symmetry; apply orb_false_r|].
    destruct (enabled s) eqn:Hen; cbn [orb]; [rewrite sendto_enabled; exact Hen|].
    destruct (src =? prev_ip); [rewrite sendto_enabled; reflexivity|exact Hen].
  - destruct (enabled s) eqn:Hen; [|exact Hen].
    destruct (negb (opened s)); [|exact Hen]. apply drain_flags.
  - destruct (nth_error (pending s) i); [|reflexivity].
    destruct ok; [|reflexivity]. rewrite sendto_enabled. reflexivity.
  - destruct (negb (opened s)); [reflexivity|]. destruct (v6 && mapped); [reflexivity|].
    destruct (allowed data); reflexivity.
Qed.

Lemma step_closed s o : sock_ok s -> enabled s = false -> opening o = false -> step s o = (s, []).
Proof.
  intros [_ _ _ Hop Hqu] Hen Hno. destruct (Hqu Hen) as [Ep _].
  assert (Ho : opened s = false).
  { destruct (opened s); [|reflexivity]. destruct (Hop eq_refl). congruence. }
  destruct o as [known src d data| |i ok d|v6 mapped src data]; cbn [M06_emit.step opening] in *.
  - destruct (is_null d); [reflexivity|]. destruct known; [|reflexivity]. cbn [negb andb] in *.
    rewrite Hen, Hno. reflexivity.
  - rewrite Hen. reflexivity.
  - rewrite Ep. destruct i; reflexivity.
  - rewrite Ho. reflexivity.
Qed.

Lemma run_closed s ops : sock_ok s -> enabled s = false -> existsb opening ops = false -> run s ops = (s, []).
Proof.
  intros Hs Hen. induction ops as [|o tl IH]; cbn [M06_emit.run existsb]; [reflexivity|].
  intros H. apply orb_false_iff in H as [Ho Htl]. rewrite (step_closed s o Hs Hen Ho), (IH Htl). reflexivity.
Qed.

(* a forbidden packet changes nothing but the download counter *)

Lemma forbidden_outside_l s v6 mapped src data :
  allowed data = false ->
  snd (step s (Outside v6 mapped src data)) = [] /\
  let s' := fst (step s (Outside v6 mapped src data)) in
  enabled s' = enabled s /\ opened s' = opened s /\ queue s' = queue s /\ pending s' = pending s
  /\ bytes_up s' = bytes_up s.
Proof.
  intros Ha. cbn [M06_emit.step]. destruct (negb (opened s)); [cbn; auto 6|].
  destruct (v6 && mapped); [cbn; auto 6|]. rewrite Ha. cbn. auto 6.
Qed.

End Emit.
