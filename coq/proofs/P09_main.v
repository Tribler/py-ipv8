(* C09 - every event of a properly timed history preserves the freshness invariant; the bounds. *)
From Coq Require Import ZArith List Bool Lia.
From IPV8V Require Import gen.G09_rules model.M09_reclaim spec.S09_reclaim proofs.P09_alist
  proofs.P09_inv proofs.P09_ext proofs.P09_special proofs.P09_remove proofs.P09_build proofs.P09_frames.
Import ListNotations.
Open Scope Z_scope.

Section Main.
Variable st : settings.
Hypothesis Hst : settings_ok st.

Lemma inv_side w s : inv_gen st w s -> side_inv s.
Proof. intros (H & _); exact H. Qed.

Lemma handle_now s src cid m ls : now (fst (fst (handle st s src cid m ls))) = now s.
Proof. exact (handle_now' st s src cid m ls). Qed.

Lemma handle_inv s src cid m ls :
  tfacts st s -> inv st s -> inv_gen st (Some cid) (fst (fst (handle st s src cid m ls))).
Proof.
  intros Tf Hi. pose proof (inv_side _ _ Hi) as Hs.
  assert (W : forall s', ext s s' -> inv_gen st (Some cid) s').
  { intros s' X. eapply inv_ext; [exact Hst | apply inv_waive; exact Hi | exact X]. }
  destruct m as [ident|ident v p|ident|ident v p|a b c len| | |mid]; simpl.
  - apply W. apply ext_defer; [exact Hs | exact I].
  - destruct (aget ident (creates s)) as [cc|] eqn:Ecc.
    + set (s1 := set_creates (adel ident (creates s)) s).
      assert (X1 : ext s s1) by (apply ext_set_creates; exact Hs).
      destruct (ahas (cc_from cc) (relays s)); [apply W; exact X1|].
      destruct (aget (cc_from cc) (exits s)) as [e|] eqn:Ee; [|apply W; exact X1].
      apply W.
      eapply ext_step; [exact Hs | exact X1|]. intro Hs1.
      set (s2 := defer (DRemove KExit (cc_from cc) 0 true) s1).
      assert (X2 : ext s1 s2) by (apply ext_defer; [exact Hs1 | exact I]).
      eapply ext_step; [exact Hs1 | exact X2|]. intro Hs2.
      match goal with |- ext s2 (fst (fst (send_cell st ?S3 _ _ _ _))) => set (s3 := S3) end.
      assert (X3 : ext s2 s3).
      { unfold s3.
        set (bw := mkRelay (ro_new (now s)) (cc_from cc) (cc_peer cc) false RELAY_EARLY_INIT).
        set (fw := mkRelay (ro_new (now s)) (cc_to cc) (cc_to_peer cc) true RELAY_EARLY_INIT).
        assert (Xa : ext s2 (set_relays (aset (cc_to cc) bw (relays s2)) s2)).
        { apply ext_set_relay; [exact Hs2|]. right. simpl. lia. }
        eapply ext_step; [exact Hs2 | exact Xa|]. intro Hsa.
        pose proof (ext_set_relay (set_relays (aset (cc_to cc) bw (relays s2)) s2) (cc_from cc) fw Hsa) as Xb.
        simpl in Xb. apply Xb. right. simpl. lia. }
      eapply ext_step; [exact Hs2 | exact X3|]. intro Hs3. apply send_cell_ext; exact Hs3.
    + destruct (aget cid (retries s)) as [rt|] eqn:Er; [|apply inv_waive; exact Hi].
      destruct (rt_ident rt =? ident); [|apply inv_waive; exact Hi].
      eapply ours_inv; eauto.
  - apply W. apply ext_defer; [exact Hs | exact I].
  - destruct (aget cid (retries s)) as [rt|] eqn:Er; [|apply inv_waive; exact Hi].
    destruct (rt_ident rt =? ident); [|apply inv_waive; exact Hi].
    eapply ours_inv; eauto.
  - apply inv_waive; exact Hi.
  - destruct (ahas cid (circuits s) || ahas cid (exits s) || ahas cid (relays s)); [|apply inv_waive; exact Hi].
    apply W. destruct (aget cid (exits s)) as [e|] eqn:Ee.
    + eapply ext_step; [exact Hs | |intro Hs1; apply send_cell_ext; exact Hs1].
      apply ext_set_exit; [exact Hs|]. right. simpl. lia.
    + apply send_cell_ext; exact Hs.
  - apply inv_waive; exact Hi.
  - apply inv_waive; exact Hi.
Qed.

Lemma recv_cell_inv s src cid plain early len cr ls :
  tfacts st s -> inv st s -> inv st (fst (recv_cell st s src cid plain early len cr ls)).
Proof.
  intros Tf Hi. pose proof (inv_side _ _ Hi) as Hs. unfold recv_cell.
  assert (E : forall s', ext s s' -> inv st s').
  { intros s' X. eapply inv_ext; [exact Hst | exact Hi | exact X]. }
  destruct (aget cid (relays s)) as [nxt|] eqn:En.
  - set (s1 := match aget (r_next nxt) (relays s) with
               | Some this => set_relays (aset (r_next nxt) (r_with_ro (fun r => ro_down len (ro_beat (now s) r)) this) (relays s)) s
               | None => s end).
    assert (X1 : ext s s1).
    { unfold s1. destruct (aget (r_next nxt) (relays s)) as [this|]; [|apply ext_refl; exact Hs].
      apply ext_set_relay; [exact Hs|]. right. simpl. lia. }
    destruct plain; [apply E; exact X1|].
    destruct (aget cid (relays s1)) as [nxt1|] eqn:En1; [|apply E; exact X1].
    destruct (relay_drops_early early (r_early nxt1) (s_max_early st)); [apply E; exact X1|].
    destruct cr as [| |m]; try (apply E; exact X1).
    destruct (take ls) as [n ls']. simpl. apply E.
    eapply ext_step; [exact Hs | exact X1|]. intro Hs1.
    apply ext_set_relay; [exact Hs1|]. left. exists nxt1. split; [exact En1 | simpl; lia].
  - destruct (negb (ahas cid (circuits s)) && negb (ahas cid (exits s)) && negb plain); [exact Hi|].
    destruct cr as [| |m]; try exact Hi.
    destruct (recv_drops_early early (msg_id m) (s_max_early st)); [exact Hi|].
    destruct (plain && negb (existsb (Z.eqb (msg_id m)) NO_CRYPTO_PACKETS)); [exact Hi|].
    assert (G : forall s1 (o : list out), inv_gen st (Some cid) s1 -> now s1 = now s ->
              inv st (fst match aget cid (circuits s1) with
                          | Some c => (set_circuits (aset cid (c_with_ro (fun r => ro_down len (ro_beat (now s) r)) c) (circuits s1)) s1, o)
                          | None => (s1, o)
                          end)).
    { intros s1 o H1 En1. pose proof (refresh_inv st Hst cid len s1 H1) as R. rewrite En1 in R.
      destruct (aget cid (circuits s1)); exact R. }
    assert (GH : forall M, inv st (fst (let '(s1, o) := (let '(s', o', _) := handle st s src cid M ls in (s', o')) in
                              match aget cid (circuits s1) with
                              | Some c => (set_circuits (aset cid (c_with_ro (fun r => ro_down len (ro_beat (now s) r)) c) (circuits s1)) s1, o)
                              | None => (s1, o)
                              end))).
    { intro M. pose proof (handle_inv s src cid M ls Tf Hi) as H1. pose proof (handle_now s src cid M ls) as H2.
      destruct (handle st s src cid M ls) as [[s' o'] l']. simpl in H1, H2. apply G; assumption. }
    destruct m as [ident|ident v p|ident|ident v p|a b c dl| | |mid]; try apply GH.
    pose proof (handle_data_ext s src cid a b c dl Hs) as X.
    destruct (handle_data s src cid a b c dl) as [s1 o]. simpl in X.
    apply G; [|exact (x_now _ _ X)].
    eapply inv_ext; [exact Hst | apply inv_waive; exact Hi | exact X].
Qed.

Lemma run_other_ext s d eo tg tc nb p ls :
  side_inv s -> ~ relevant d -> ext s (fst (run_deferred st s d eo tg tc nb p ls)).
Proof.
  intros Hs Hd. destruct d as [k c dd rn|src cid ident|src cid ident|c t i|cid]; simpl in Hd; try (exfalso; apply Hd; exact I).
  - simpl. destruct (negb (s_any_flag st)); [apply ext_refl; exact Hs|].
    destruct (ahas cid (createds s)); [apply ext_refl; exact Hs|].
    destruct (ahas cid (circuits s) || ahas cid (relays s) || ahas cid (exits s)); [apply ext_refl; exact Hs|].
    destruct (negb (should_join (s_max_joined st) (zlen (relays s)) (zlen (exits s)))); [apply ext_refl; exact Hs|].
    set (s1 := set_createds (aset cid (now s + s_unstable_timeout st) (createds s)) s).
    set (s2 := set_exits (aset cid (mkExit (ro_new (now s)) src false false []) (exits s1)) s1).
    rewrite fst_let3.
    assert (X1 : ext s s1) by (apply ext_set_createds; exact Hs).
    eapply ext_step; [exact Hs | exact X1|]. intro Hs1.
    assert (X2 : ext s1 s2) by (apply ext_set_exit; [exact Hs1 | right; simpl; lia]).
    eapply ext_step; [exact Hs1 | exact X2|]. intro Hs2. apply send_cell_ext; exact Hs2.
  - simpl. destruct (negb (s_relay_flag st)); [apply ext_refl; exact Hs|].
    destruct (negb (ahas cid (createds s))); [apply ext_refl; exact Hs|].
    destruct (negb eo); [apply ext_refl; exact Hs|].
    match goal with |- context [match ?x with Some _ => _ | None => _ end] => destruct x as [prev|] end;
      [|apply ext_refl; exact Hs].
    rewrite fst_let3.
    eapply ext_step; [exact Hs | apply ext_set_creates; exact Hs|]. intro Hs1. apply send_cell_ext; exact Hs1.
  - simpl. destruct (aget cid (exits s)) as [e|] eqn:Ee; [|apply ext_refl; exact Hs].
    destruct (e_enabled e && negb (e_open e)); [|apply ext_refl; exact Hs].
    pose proof (drain_la cid (e_queue e) (mkExit (e_ro e) (e_peer e) true true []) (now s)) as Hl.
    destruct (drain cid (mkExit (e_ro e) (e_peer e) true true []) (e_queue e) (now s)) as [e2 o]. simpl in Hl. simpl.
    apply ext_set_exit; [exact Hs|]. destruct Hl as [Hl|Hl]; [left; exists e; split; [exact Ee | lia] | right; lia].
Qed.

Lemma step_at_inv s e : tfacts st s -> inv st s -> inv st (fst (step_at st s e)).
Proof.
  intros Tf Hi. pose proof (inv_side _ _ Hi) as Hs.
  assert (E : forall s', ext s s' -> inv st s').
  { intros s' X. eapply inv_ext; [exact Hst | exact Hi | exact X]. }
  destruct e as [src cid plain early len cr ls|src cid reason| |ls|i eo tg tc nb p ls|i|cid|cid|number
                 |cid goal p ls|k cid dd rn|dst cid ls|cid len allowed ls].
  - apply recv_cell_inv; assumption.
  - simpl. apply E. apply recv_destroy_ext; exact Hs.
  - simpl. apply inv_sweep; [apply Tf | exact Hi].
  - simpl. apply E. apply ping_all_ext; exact Hs.
  - cbn [step_at]. destruct (nth_error (starts s) i) as [d|] eqn:En; [|exact Hi].
    destruct d as [k c dd rn|src cid ident|src cid ident|c t ini|cid].
    1: apply inv_run_remove; assumption.
    3: apply inv_run_retry; assumption.
    all: assert (Hi0 : inv st (set_starts (remove_nth i (starts s)) s)) by (eapply inv_drop_start; eauto);
      eapply inv_ext; [exact Hst | exact Hi0|]; apply run_other_ext; [apply Hi0 | simpl; tauto].
  - cbn [step_at]. destruct (nth_error (sleeping s) i) as [[[due k] cid]|] eqn:En; [|exact Hi].
    eapply inv_wake; eauto.
  - apply inv_retry_timeout; assumption.
  - simpl. apply E. apply ext_set_createds; exact Hs.
  - simpl. apply E. apply ext_set_creates; exact Hs.
  - apply inv_create_circuit; assumption.
  - simpl. apply E. apply ext_defer; [exact Hs | exact I].
  - simpl. rewrite fst_let3. apply E. apply send_cell_ext; exact Hs.
  - simpl. destruct (aget cid (exits s)) as [e|] eqn:Ee; [|exact Hi].
    assert (X1 : ext s (set_exits (aset cid (e_with_ro (ro_down len) e) (exits s)) s)).
    { apply ext_set_exit; [exact Hs|]. left. exists e. split; [exact Ee | simpl; lia]. }
    destruct allowed; [|apply E; exact X1].
    rewrite fst_let3. apply E. eapply ext_step; [exact Hs | exact X1|]. intro Hs1. apply send_cell_ext; exact Hs1.
Qed.

Lemma step_inv s t e : on_time st s t = true -> inv st s -> inv st (fst (step st s (t, e))).
Proof.
  intros Ht Hi. apply on_time_facts in Ht. destruct Ht as (Hle & Hor & Tf).
  unfold step. simpl fst. simpl snd. apply step_at_inv; [exact Tf|].
  apply inv_set_now; assumption.
Qed.

Lemma fst_run_cons s te tl : fst (run st s (te :: tl)) = fst (run st (fst (step st s te)) tl).
Proof.
  simpl. destruct (step st s te) as [s1 o1]. simpl. destruct (run st s1 tl) as [s2 o2]. reflexivity.
Qed.

Lemma run_inv tr : forall s, timely st s tr = true -> inv st s -> inv st (fst (run st s tr)).
Proof.
  induction tr as [|[t e] tl IH]; intros s Ht Hi; [exact Hi|].
  simpl in Ht. apply andb_true_iff in Ht. destruct Ht as [H1 H2].
  rewrite fst_run_cons. apply IH; [exact H2|]. apply step_inv; assumption.
Qed.

Lemma inv_init t : inv st (init_node t).
Proof.
  unfold inv, inv_gen, init_node, side_inv, relay_inv, exit_inv, retries_inv, dretries_inv, circ_inv; simpl.
  repeat split; try lia; try (intros; discriminate); try (intros; contradiction).
Qed.

Lemma entry_bound k cid r s t :
  on_time st s t = true -> entry_ok st k cid r s -> t <= la r + B_entry st.
Proof.
  intros Ht Hok. apply on_time_facts in Ht. destruct Ht as (Hle & Hor & (T1 & T2 & T3)). simpl in T1, T2, T3.
  destruct Hst as (Hmi & Hsw & Hd & _).
  destruct Hok as [[(dd & rn & Hin & Hb)|(due & Hin & Hb)]|Hls]; unfold B_entry in *.
  - destruct Hor as [Hor|Hor]; [lia | rewrite Hor in Hin; destruct Hin].
  - specialize (T2 _ Hin). simpl in T2. lia.
  - lia.
Qed.

Lemma relay_bound_l s t cid r :
  inv st s -> on_time st s t = true -> aget cid (relays s) = Some r -> t <= la (r_ro r) + B_entry st.
Proof. intros (_ & Hrel & _) Ht H. eapply entry_bound; eauto. Qed.

Lemma exit_bound_l s t cid e :
  inv st s -> on_time st s t = true -> aget cid (exits s) = Some e -> t <= la (e_ro e) + B_entry st.
Proof. intros (_ & _ & Hex & _) Ht H. eapply entry_bound; eauto. Qed.

Lemma circuit_bound_l s t cid c :
  inv st s -> on_time st s t = true -> aget cid (circuits s) = Some c -> t <= circuit_deadline st c.
Proof.
  intros Hi Ht H. pose proof Hi as (Hside & _ & _ & Hrt & Hdr & Hc).
  pose proof Ht as Ht'. apply on_time_facts in Ht'. destruct Ht' as (Hle & Hor & Tf).
  specialize (Hc _ _ H). destruct (c_closing c) eqn:Ecl.
  - unfold circ_ok in Hc. rewrite Ecl in Hc. destruct Hc as (due & Hin & Hb).
    destruct Tf as (_ & T2 & _). specialize (T2 _ Hin). simpl in T2. lia.
  - (* use the same reasoning as when a circuit closes, at time t *)
    assert (Hi' : inv st (set_now t s)) by (apply inv_set_now; assumption).
    pose proof Hi' as (Hside' & _ & _ & Hrt' & Hdr' & Hc').
    specialize (Hc' _ _ H).
    destruct (open_circuit_within st Hst (set_now t s) cid c Tf Hside' Hrt' Hdr' H Ecl Hc') as [Hw|(due & Hin & Hb)].
    + simpl in Hw. destruct Hst as (_ & _ & Hd & _). lia.
    + destruct Tf as (_ & T2 & _). specialize (T2 _ Hin). simpl in T2. lia.
Qed.

Lemma reach_inv t0 tr : timely st (init_node t0) tr = true -> inv st (fst (run st (init_node t0) tr)).
Proof. intro Ht. apply run_inv; [exact Ht | apply inv_init]. Qed.

Lemma node_clear s t t_quiet cid :
  inv st s -> on_time st s t = true ->
  (forall r, aget cid (relays s) = Some r -> la (r_ro r) <= t_quiet) ->
  (forall e, aget cid (exits s) = Some e -> la (e_ro e) <= t_quiet) ->
  (forall c, aget cid (circuits s) = Some c -> circuit_deadline st c <= t_quiet + B_entry st) ->
  t_quiet + B_entry st < t ->
  holds_id s cid = false.
Proof.
  intros Hi Hon Hr He Hc Hlt. unfold holds_id, ahas.
  destruct (aget cid (circuits s)) as [c|] eqn:Ec.
  { pose proof (circuit_bound_l s t cid c Hi Hon Ec). specialize (Hc _ eq_refl). lia. }
  destruct (aget cid (relays s)) as [r|] eqn:Er.
  { pose proof (relay_bound_l s t cid r Hi Hon Er). specialize (Hr _ eq_refl). lia. }
  destruct (aget cid (exits s)) as [e|] eqn:Ee; [|reflexivity].
  pose proof (exit_bound_l s t cid e Hi Hon Ee). specialize (He _ eq_refl). lia.
Qed.

End Main.
