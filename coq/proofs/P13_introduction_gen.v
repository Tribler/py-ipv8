(* C13 (translated handlers) - the generated handlers compute exactly what the hand model computes.

   Method: the interpreter returns a decision tree (M13_intro_gen.T); for an arbitrary node state the tree of a
   handler is computed by `lazy` (the primitives of M13_nat stay folded, so the state is symbolic data), `run`
   then turns it into nested conditionals over the actual tests, which are case-split one by one - the same
   tests occur in the hand model's `handle`, so each leaf closes by reflexivity up to arithmetic. *)
From Coq Require Import ZArith List Bool String Lia ZifyBool.
From IPV8V Require Import lib.PyErr gen.G13_lan model.M13_nat model.M13_py gen.G13_introduction model.M13_intro_gen.
Import ListNotations.
Open Scope Z_scope.

Ltac norm :=
  lazy -[add_verified discover find has_addr pick_sel filter walkable is_new_style in_lan_subnets touch put_peer
         Z.eqb Z.ltb Z.leb Z.add Z.sub Z.modulo Z.of_nat Z.to_nat List.length map addr_eqb].

Ltac head_scrut t :=
  lazymatch t with
  | match ?x with _ => _ end => head_scrut x
  | negb ?x => head_scrut x
  | _ => t
  end.

Ltac fold_ground x :=
  let v := eval lazy in x in
  lazymatch v with
  | true => change x with true
  | false => change x with false
  end.

(* one case split on the first test the run of the tree is waiting for; the leaves use the equation of one kind of test
   only, the comparison of max_peers with the number of peers (against node_ok) *)
Ltac split_head :=
  lazymatch goal with
  | |- ?L = _ =>
      lazymatch L with
      | Ok _ => fail "done"
      | Raise _ => fail "done"
      | _ => let x := head_scrut L in
             first [ fold_ground x
                   | lazymatch x with (_ <? _) => destruct x eqn:? | _ => destruct x end ]
      end
  end.

(* at a leaf all tests are decided; what is left of stuck matches are projections of opaque results (records,
   pairs): destructing those loses nothing *)
Ltac leaf :=
  try reflexivity;
  try match goal with
      | H : (_ <? Z.of_nat (List.length (map _ _))) = true |- _ => exfalso; rewrite map_length in H; lia
      end;
  rewrite ?Z.mod_mod by lia;
  try match goal with Hi : 0 <= ?i < 65536 |- _ => rewrite ?(Z.mod_small i 65536 Hi) end;
  try reflexivity;
  repeat (match goal with |- context [match ?X with _ => _ end] => destruct X end; lazy beta iota zeta);
  try reflexivity;
  repeat match goal with
         | |- Ok _ = Ok _ => f_equal
         | |- (_, _) = (_, _) => f_equal
         | |- mkNode _ _ _ _ _ _ _ = mkNode _ _ _ _ _ _ _ => f_equal
         | |- set_gt _ _ = set_gt _ _ => f_equal
         end;
  try reflexivity; try lia.

(* the node after add_verified is opaque to the evaluation and occurs all over the tree: a variable stands for it
   while the tests are split, and is put back at the leaves *)
Ltac hide_node :=
  repeat match goal with
         | |- context [add_verified ?a ?b ?c] => let N := fresh "N" in remember (add_verified a b c) as N
         end.

Ltac crunch := norm; hide_node; repeat (split_head; norm); subst; leaf.
(* on_introduction_response first decides whether the WAN estimate is replaced, and add_verified receives the one node
   or the other: that test is split before the node is hidden *)
Ltac crunch_after_first := norm; split_head; norm; hide_node; repeat (split_head; norm); subst; leaf.

Definition node_ok (n : node) : Prop := Z.of_nat (List.length (n_peers n)) <= MAX_PEERS.
Definition msg_ok (m : msg) : Prop :=
  match m with
  | IntroReq _ _ _ _ _ _ i | IntroResp _ _ _ _ _ _ _ _ _ i | PunctReq _ _ _ i | Punct _ _ _ _ i => 0 <= i < 65536
  end.

Lemma refines_punct_req : forall n src new lanw wanw ident, 0 <= ident < 65536 ->
  handle_g n src (PunctReq new lanw wanw ident) = Ok (handle n src (PunctReq new lanw wanw ident)).
Proof.
  intros [k [lani lanp] [wani wanp] g sel ps ads] [si sp] new [li lp] [wi wp] ident Hi.
  destruct new; crunch.
Qed.

Lemma touch_spec n key src p known : touch n key src = (p, known) -> p_key p = key /\ p_v4 p = src.
Proof.
  unfold touch. destruct (find_peer key (n_peers n)) as [q|] eqn:F; intros H; inversion H; subst; cbn; [|tauto].
  split; [|reflexivity]. unfold find_peer in F. apply find_some in F. destruct F as [_ F]. lia.
Qed.

Ltac use_touch Et :=
  let Hk := fresh in let Hv := fresh in
  destruct (touch_spec _ _ _ _ _ Et) as [Hk Hv]; cbn [p_key p_v4] in Hk, Hv; inversion Hv; subst.

Lemma refines_punct : forall n src new key slan swan ident, 0 <= ident < 65536 ->
  handle_g n src (Punct new key slan swan ident) = Ok (handle n src (Punct new key slan swan ident)).
Proof.
  intros [k [lani lanp] [wani wanp] g sel ps ads] [si sp] new key [li lp] [wi wp] ident Hi.
  unfold handle_g, handle. cbn [payload_of sender_of].
  destruct (touch _ key (si, sp)) as [[pk [pvi pvp] pl pn] known] eqn:Et. use_touch Et.
  destruct new, known; crunch.
Qed.

Lemma refines_intro_resp : forall n src new key dest slan swan ilan iwan sup inew ident, 0 <= ident < 65536 ->
  handle_g n src (IntroResp new key dest slan swan ilan iwan sup inew ident)
  = Ok (handle n src (IntroResp new key dest slan swan ilan iwan sup inew ident)).
Proof.
  intros [k [lani lanp] [wani wanp] g sel ps ads] [si sp] new key [di dp] [li lp] [wi wp] [ili ilp] [iwi iwp]
         sup inew ident Hi.
  unfold handle_g, handle. cbn [payload_of sender_of].
  destruct (touch _ key (si, sp)) as [[pk [pvi pvp] pl pn] known] eqn:Et. use_touch Et.
  destruct new; [|destruct sup; [|destruct pn]]; crunch_after_first.
Qed.

Lemma refines_intro_req : forall n src new key dest slan swan sup ident, node_ok n -> 0 <= ident < 65536 ->
  handle_g n src (IntroReq new key dest slan swan sup ident)
  = Ok (handle n src (IntroReq new key dest slan swan sup ident)).
Proof.
  intros [k [lani lanp] [wani wanp] g sel ps ads] [si sp] new key [di dp] [li lp] [wi wp] sup ident Hn Hi.
  unfold node_ok, MAX_PEERS in Hn. cbn [n_peers] in Hn.
  unfold handle_g, handle. cbn [payload_of sender_of].
  destruct (touch _ key (si, sp)) as [[pk [pvi pvp] pl pn] known] eqn:Et. use_touch Et.
  destruct new; [|destruct sup; [|destruct pn]]; crunch.
Qed.

Lemma gen_refines_hand_model_l : forall n src m,
  node_ok n -> msg_ok m -> handle_g n src m = Ok (handle n src m).
Proof.
  intros n src m Hn Hm. destruct m; cbn [msg_ok] in Hm.
  - apply refines_intro_req; assumption.
  - apply refines_intro_resp; assumption.
  - apply refines_punct_req; assumption.
  - apply refines_punct; assumption.
Qed.

Lemma refines_create_request : forall n dst new,
  create_introduction_request_g n dst new = Ok (make_request n dst new).
Proof.
  intros [k [lani lanp] [wani wanp] g sel ps ads] [di dp] new. destruct new; crunch.
Qed.

Lemma refines_walk_to : forall n dst,
  walk_to_g n dst = Ok (let '(n', m) := make_request n dst (is_new_style n dst) in (n', [(dst, m)])).
Proof.
  intros [k [lani lanp] [wani wanp] g sel ps ads] [di dp]. crunch.
Qed.

Lemma refines_send_introduction_request : forall n p,
  send_introduction_request_g n p
  = Ok (let '(n', m) := make_request n (p_v4 p) (p_new p) in (n', [(p_v4 p, m)])).
Proof.
  intros [k [lani lanp] [wani wanp] g sel ps ads] [pk [pvi pvp] pl pn]. destruct pn; crunch.
Qed.

Lemma flat_addrs l : flat_map (fun v => match as_addr v with Some a => [a] | None => [] end) (map (VAddr APlain) l) = l.
Proof. induction l as [|a tl IH]; cbn; [reflexivity | rewrite IH; reflexivity]. Qed.
Lemma flat_keys l : flat_map (fun v => match v with VPeer p => [p_key p] | _ => [] end) (map VPeer l) = map p_key l.
Proof. induction l as [|a tl IH]; cbn; [reflexivity | rewrite IH; reflexivity]. Qed.

Lemma refines_walkable : forall n, walkable_g n = Ok (walkable n).
Proof.
  intros [k [lani lanp] [wani wanp] g sel ps ads]. norm. rewrite flat_addrs. reflexivity.
Qed.
