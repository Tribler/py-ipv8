(* C18 - lemmas about the arithmetic translated from value.py (gen/G18_fp2.v) against the
   intended semantics spec/S18_field.v.  `cg` (spec/S18_field) is made opaque here, for every file that
   imports this one; cg_iff unfolds it. *)
From Coq Require Import ZArith List Bool Lia ZifyBool Znumtheory Setoid Morphisms Ring.
From IPV8V Require Import lib.PyErr model.M18_base gen.G18_fp2 model.M18_fexpr spec.S18_field.
Import ListNotations.
Open Scope Z_scope.

Lemma cg_iff p a b : cg p a b <-> a mod p = b mod p.
Proof. reflexivity. Qed.
Global Instance cg_equiv p : Equivalence (cg p).
Proof. split; red; unfold cg; intros; congruence. Qed.
Global Instance cg_add p : Proper (cg p ==> cg p ==> cg p) Z.add.
Proof. exact (Zplus_eqm p). Qed.
Global Instance cg_sub p : Proper (cg p ==> cg p ==> cg p) Z.sub.
Proof. exact (Zminus_eqm p). Qed.
Global Instance cg_mul p : Proper (cg p ==> cg p ==> cg p) Z.mul.
Proof. exact (Zmult_eqm p). Qed.
Global Instance cg_opp p : Proper (cg p ==> cg p) Z.opp.
Proof. exact (Zopp_eqm p). Qed.
Lemma cg_mod p a : cg p (a mod p) a.
Proof. exact (Zmod_eqm p a). Qed.
Lemma cg_of_eq p a b : a = b -> cg p a b.
Proof. intros ->; reflexivity. Qed.
Lemma cg_eqb p a b : (a mod p =? b mod p) = true <-> cg p a b.
Proof. unfold cg. apply Z.eqb_eq. Qed.
Global Opaque cg.

Global Instance req_equiv p : Equivalence (req p).
Proof.
  split; red; unfold req.
  - intros; split; reflexivity.
  - intros x y [H1 H2]; split; symmetry; assumption.
  - intros x y z [H1 H2] [H3 H4]; split; etransitivity; eassumption.
Qed.

Global Instance rmul_proper p : Proper (req p ==> req p ==> req p) rmul.
Proof.
  intros [a b] [a' b'] [H1 H2] [c d] [c' d'] [H3 H4]. unfold req, rmul, red3 in *; cbn [fst snd] in *.
  split; rewrite H1, H2, H3, H4; reflexivity.
Qed.
Global Instance radd_proper p : Proper (req p ==> req p ==> req p) radd.
Proof.
  intros [a b] [a' b'] [H1 H2] [c d] [c' d'] [H3 H4]. unfold req, radd in *; cbn [fst snd] in *.
  split; rewrite ?H1, ?H2, ?H3, ?H4; reflexivity.
Qed.
Global Instance rsub_proper p : Proper (req p ==> req p ==> req p) rsub.
Proof.
  intros [a b] [a' b'] [H1 H2] [c d] [c' d'] [H3 H4]. unfold req, rsub in *; cbn [fst snd] in *.
  split; rewrite ?H1, ?H2, ?H3, ?H4; reflexivity.
Qed.
Global Instance rscale_proper p k : Proper (req p ==> req p) (rscale k).
Proof.
  intros [a b] [a' b'] [H1 H2]. unfold req, rscale in *; cbn [fst snd] in *.
  split; rewrite ?H1, ?H2; reflexivity.
Qed.

Ltac r2ring := unfold rmul, radd, rsub, rscale, red3, rone, rzero; cbn [fst snd]; f_equal; ring.

(* Z[x]/(x^2+x+1) is a commutative ring already over Z: these are equalities, not congruences *)
Lemma rmul_comm s t : rmul s t = rmul t s.
Proof. destruct s, t; r2ring. Qed.
Lemma rmul_assoc s t u : rmul (rmul s t) u = rmul s (rmul t u).
Proof. destruct s, t, u; r2ring. Qed.
Lemma rmul_one_l s : rmul rone s = s.
Proof. destruct s; r2ring. Qed.
Lemma rmul_one_r s : rmul s rone = s.
Proof. destruct s; r2ring. Qed.
Lemma rmul_zero_l s : rmul rzero s = rzero.
Proof. destruct s; r2ring. Qed.
Lemma radd_comm s t : radd s t = radd t s.
Proof. destruct s, t; r2ring. Qed.
Lemma radd_assoc s t u : radd (radd s t) u = radd s (radd t u).
Proof. destruct s, t, u; r2ring. Qed.
Lemma rmul_add_distr_r s t u : rmul (radd s t) u = radd (rmul s u) (rmul t u).
Proof. destruct s, t, u; r2ring. Qed.
Lemma rmul_sub_distr_r s t u : rmul (rsub s t) u = rsub (rmul s u) (rmul t u).
Proof. destruct s, t, u; r2ring. Qed.
Lemma rmul_rscale k s t : rmul (rscale k s) t = rscale k (rmul s t).
Proof. destruct s, t; r2ring. Qed.
Lemma radd_zero_l s : radd rzero s = s.
Proof. destruct s; r2ring. Qed.

(* registered as a ring, so that an identity between elements of R (each field law is one) is closed by `ring` *)
Definition ropp (s : r2) : r2 := rsub rzero s.

Lemma r2_ring_theory : ring_theory rzero rone radd rmul rsub ropp eq.
Proof.
  constructor.
  - exact radd_zero_l.
  - exact radd_comm.
  - intros s t u. symmetry. apply radd_assoc.
  - exact rmul_one_l.
  - exact rmul_comm.
  - intros s t u. symmetry. apply rmul_assoc.
  - exact rmul_add_distr_r.
  - intros [a b] [c d]. r2ring.
  - intros [a b]. unfold ropp. r2ring.
Qed.
Add Ring r2_ring : r2_ring_theory.

Lemma reqb_req p s t : reqb p s t = true <-> req p s t.
Proof.
  unfold reqb, req. rewrite andb_true_iff, !cg_eqb. reflexivity.
Qed.

Lemma fp2_init_ok m a b c aC bC cC : m <> 0 ->
  fp2_init m a b c aC bC cC = Ok (MkFP2 m (a mod m) (b mod m) (c mod m) (aC mod m) (bC mod m) (cC mod m)).
Proof.
  intros Hm. unfold fp2_init. destruct (m =? 0) eqn:E; [lia|]. reflexivity.
Qed.

Lemma fp2_init_zero a b c aC bC cC : fp2_init 0 a b c aC bC cC = Raise ZeroDivisionError.
Proof. reflexivity. Qed.

Lemma represents_init p a b c aC bC cC f :
  req p (red3 a b c) (fst f) -> req p (red3 aC bC cC) (snd f) ->
  represents p (MkFP2 p (a mod p) (b mod p) (c mod p) (aC mod p) (bC mod p) (cC mod p)) f.
Proof.
  intros [Hn1 Hn2] [Hd1 Hd2]. unfold represents, num, den, req, red3 in *; cbn [fst snd fmod fa fb fc faC fbC fcC] in *.
  split; [reflexivity|]. split; split; rewrite ?cg_mod; assumption.
Qed.

(* the constructor returns a representative of whatever its arguments reduce to *)
Lemma fp2_init_represents p a b c aC bC cC f : p <> 0 ->
  req p (red3 a b c) (fst f) -> req p (red3 aC bC cC) (snd f) ->
  exists r, fp2_init p a b c aC bC cC = Ok r /\ represents p r f.
Proof.
  intros Hp Hn Hd. rewrite fp2_init_ok by exact Hp. eexists. split; [reflexivity|].
  apply represents_init; assumption.
Qed.

(* after the guard, each operator is the constructor applied to four polynomials in the twelve coefficients;
   the represented fractions are congruent to the operands' own numerators and denominators, and for those the four
   polynomials are the coefficients of the textbook fraction by an identity over Z *)
Ltac op_represents Hp Rx Ry :=
  destruct Rx as (Hx & Hxn & Hxd), Ry as (Hy & Hyn & Hyd);
  rewrite Hx, Hy, Z.eqb_refl; cbv zeta; apply fp2_init_represents; [exact Hp| |];
  unfold fr_add, fr_sub, fr_mul, fr_div; cbn [fst snd]; rewrite <- ?Hxn, <- ?Hxd, <- ?Hyn, <- ?Hyd;
  unfold num, den, req, rmul, radd, rsub, red3; cbn [fst snd]; split; apply cg_of_eq; ring.

Lemma fp2_add_represents p : p <> 0 -> forall x y fx fy, represents p x fx -> represents p y fy ->
  exists r, fp2_add x y = Ok r /\ represents p r (fr_add fx fy).
Proof. intros Hp x y fx fy Rx Ry. unfold fp2_add. op_represents Hp Rx Ry. Qed.

Lemma fp2_sub_represents p : p <> 0 -> forall x y fx fy, represents p x fx -> represents p y fy ->
  exists r, fp2_sub x y = Ok r /\ represents p r (fr_sub fx fy).
Proof. intros Hp x y fx fy Rx Ry. unfold fp2_sub. op_represents Hp Rx Ry. Qed.

Lemma fp2_mul_represents p : p <> 0 -> forall x y fx fy, represents p x fx -> represents p y fy ->
  exists r, fp2_mul x y = Ok r /\ represents p r (fr_mul fx fy).
Proof. intros Hp x y fx fy Rx Ry. unfold fp2_mul. op_represents Hp Rx Ry. Qed.

Lemma fp2_div_represents p : p <> 0 -> forall x y fx fy, represents p x fx -> represents p y fy ->
  exists r, fp2_floordiv x y = Ok r /\ represents p r (fr_div fx fy).
Proof. intros Hp x y fx fy Rx Ry. unfold fp2_floordiv. op_represents Hp Rx Ry. Qed.

Lemma fp2_inverse_represents p : p <> 0 -> forall x fx, represents p x fx ->
  exists r, fp2_inverse x = Ok r /\ represents p r (fr_inv fx).
Proof.
  intros Hp x fx (Hx & Hn & Hd). unfold fp2_inverse. rewrite Hx.
  apply fp2_init_represents; [exact Hp|exact Hd|exact Hn].
Qed.

(* FP2Value(p, a) *)
Lemma fp2_int_represents p a : p <> 0 ->
  exists r, fp2_init p a 0 0 1 0 0 = Ok r /\ represents p r ((a, 0), rone).
Proof.
  intros Hp. apply fp2_init_represents; [exact Hp| |]; unfold red3, rone, req; cbn [fst snd]; split; apply cg_of_eq; ring.
Qed.

(* the binary operators raise exactly when Python does: different moduli, or modulus 0 *)
Lemma fp2_ops_raise x y :
  (fmod x <> fmod y ->
     fp2_add x y = Raise AssertionError /\ fp2_sub x y = Raise AssertionError /\
     fp2_mul x y = Raise AssertionError /\ fp2_floordiv x y = Raise AssertionError) /\
  (fmod x = 0 -> fmod y = 0 ->
     fp2_add x y = Raise ZeroDivisionError /\ fp2_sub x y = Raise ZeroDivisionError /\
     fp2_mul x y = Raise ZeroDivisionError /\ fp2_floordiv x y = Raise ZeroDivisionError).
Proof.
  split.
  - intros H. unfold fp2_add, fp2_sub, fp2_mul, fp2_floordiv.
    destruct (fmod x =? fmod y) eqn:E; [lia|]. auto.
  - intros Hx Hy. unfold fp2_add, fp2_sub, fp2_mul, fp2_floordiv. rewrite Hx, Hy. cbn. auto.
Qed.

Lemma modinv_loop_step f a b x1 x2 : 0 < b ->
  modinv_loop (S f) a b x1 x2 = modinv_loop f b (a mod b) x2 (x1 - a / b * x2).
Proof.
  intros Hb. cbn [modinv_loop]. destruct (b >? 0) eqn:E1; [|lia]. destruct (b =? 0) eqn:E2; [lia|].
  reflexivity.
Qed.

Lemma modinv_loop_done f a b x1 x2 : b <= 0 ->
  modinv_loop (S f) a b x1 x2 = Ok (a, b, x1, x2).
Proof. intros Hb. cbn [modinv_loop]. destruct (b >? 0) eqn:E1; [lia|]. reflexivity. Qed.

Definition euclid_inv (e m a b x1 x2 : Z) : Prop :=
  cg m (x1 * e) a /\ cg m (x2 * e) b /\ Z.gcd a b = Z.gcd e m /\ 0 <= a /\ 0 <= b.

Lemma euclid_inv_step e m a b x1 x2 : 0 < b ->
  euclid_inv e m a b x1 x2 -> euclid_inv e m b (a mod b) x2 (x1 - a / b * x2).
Proof.
  intros Hb (H1 & H2 & H3 & H4 & H5). unfold euclid_inv. split; [exact H2|]. split.
  - rewrite Z.mul_sub_distr_r, <- Z.mul_assoc, H1, H2. apply cg_of_eq. rewrite (Z.mod_eq a b) by lia. ring.
  - split; [|split; [lia|apply Z.mod_pos_bound; lia]].
    rewrite Z.gcd_comm, Z.gcd_mod by lia. rewrite Z.gcd_comm. exact H3.
Qed.

(* a > b >= 0 from the first round on, so the product a * b at least halves in every round *)
Lemma modinv_loop_spec e m : forall f k a b x1 x2,
  0 <= b < a -> a * b < 2 ^ Z.of_nat f -> euclid_inv e m a b x1 x2 ->
  exists a' x1' x2', modinv_loop (S f + k) a b x1 x2 = Ok (a', 0, x1', x2') /\ euclid_inv e m a' 0 x1' x2'.
Proof.
  induction f as [|f IH]; intros k a b x1 x2 Hb Hab Hinv;
    (destruct (Z.eq_dec b 0) as [->|Hb0];
      [exists a, x1, x2; split; [apply modinv_loop_done; lia|exact Hinv]|]).
  - change (2 ^ Z.of_nat 0) with 1 in Hab. nia.
  - cbn [Nat.add]. rewrite modinv_loop_step by lia.
    pose proof (Z.mod_pos_bound a b ltac:(lia)) as Hr. pose proof (Z.div_mod a b Hb0) as Hdm.
    assert (1 <= a / b) by (apply Z.div_le_lower_bound; lia).
    apply IH; [lia| |apply euclid_inv_step; [lia|exact Hinv]].
    rewrite Nat2Z.inj_succ, Z.pow_succ_r in Hab by lia. nia.
Qed.

Lemma modinv_spec e m : 0 < m -> 0 <= e ->
  exists x, modinv e m = Ok x /\ 0 <= x < m /\ cg m (x * e) (Z.gcd e m).
Proof.
  intros Hm He. unfold modinv. cbv zeta.
  change (let '(x1, x2) := (1, 0) in ?f) with (let x1 := 1 in let x2 := 0 in f).
  cbv zeta. unfold modinv_fuel.
  set (n := Z.to_nat (Z.log2_up m)).
  rewrite modinv_loop_step by lia.
  assert (Hinv0 : euclid_inv e m e m 1 0).
  { unfold euclid_inv. split; [apply cg_of_eq; ring|]. split; [|split; [reflexivity|lia]].
    rewrite Z.mul_0_l. apply cg_iff. rewrite Z.mod_0_l, Z.mod_same by lia. reflexivity. }
  pose proof (euclid_inv_step _ _ _ _ _ _ Hm Hinv0) as Hinv1.
  pose proof (Z.mod_pos_bound e m Hm) as Hr.
  assert (Hb : m * (e mod m) < 2 ^ Z.of_nat (2 * n)).
  { pose proof (Z.log2_log2_up_spec m Hm) as [_ Hup]. pose proof (Z.log2_up_nonneg m) as Hl.
    replace (Z.of_nat (2 * n)) with (Z.log2_up m + Z.log2_up m) by lia.
    rewrite Z.pow_add_r by exact Hl. nia. }
  destruct (modinv_loop_spec e m (2 * n) 1%nat _ _ _ _ Hr Hb Hinv1) as (a' & x1' & x2' & Hrun & Hinv).
  replace (S (S (2 * n))) with (S (2 * n) + 1)%nat by lia.
  rewrite Hrun. cbn [bind]. destruct (m =? 0) eqn:E; [lia|].
  exists (x1' mod m). split; [reflexivity|]. split; [apply Z.mod_pos_bound; lia|].
  destruct Hinv as (H1 & _ & H3 & H4 & _).
  rewrite cg_mod, H1. apply cg_of_eq. rewrite <- H3, Z.gcd_0_r. lia.
Qed.

Lemma modinv_zero m : 0 < m -> modinv 0 m = Ok 0.
Proof.
  intros Hm. unfold modinv. cbv zeta.
  change (let '(x1, x2) := (1, 0) in ?f) with (let x1 := 1 in let x2 := 0 in f).
  cbv zeta. unfold modinv_fuel. rewrite modinv_loop_step by lia.
  rewrite Z.mod_0_l by lia. rewrite modinv_loop_done by lia. cbn [bind].
  destruct (m =? 0) eqn:E; [lia|]. rewrite Z.mod_0_l by lia. reflexivity.
Qed.

Lemma modinv_correct_l e m : 1 < m -> 0 <= e -> Z.gcd e m = 1 ->
  exists x, modinv e m = Ok x /\ 0 < x < m /\ (x * e) mod m = 1.
Proof.
  intros Hm He Hg. destruct (modinv_spec e m ltac:(lia) He) as (x & Hx & Hr & Hc).
  rewrite Hg in Hc. apply cg_iff in Hc. rewrite (Z.mod_small 1 m) in Hc by lia.
  exists x. split; [exact Hx|]. split; [|exact Hc].
  assert (x <> 0) by (intros ->; rewrite Z.mul_0_l, Z.mod_0_l in Hc; lia). lia.
Qed.

Definition normalized (p mp : Z) (v : fp2) : fp2 :=
  if mp >? 0 then
    MkFP2 p ((fa v * mp) mod p mod p) ((fb v * mp) mod p mod p) ((fc v * mp) mod p mod p)
          (1 mod p) ((fbC v * mp) mod p mod p) ((fcC v * mp) mod p mod p)
  else MkFP2 p (fa v mod p) (fb v mod p) (fc v mod p) (faC v mod p) (fbC v mod p) (fcC v mod p).

Lemma fp2_normalize_unfold p v mp : p <> 0 -> fmod v = p -> modinv (faC v mod p) p = Ok mp ->
  fp2_normalize v = Ok (normalized p mp v).
Proof.
  intros Hp Hv Hm. unfold fp2_normalize, normalized. rewrite Hv.
  destruct (p =? 0) eqn:E; [lia|]. cbn [bind]. rewrite Hm. cbn [bind].
  destruct (mp >? 0); rewrite fp2_init_ok by exact Hp; reflexivity.
Qed.

Lemma prime_gcd1 p a : prime p -> a mod p <> 0 -> Z.gcd (a mod p) p = 1.
Proof.
  intros Hp Ha. pose proof (prime_ge_2 p Hp). pose proof (Z.mod_pos_bound a p ltac:(lia)).
  apply Zgcd_1_rel_prime. apply rel_prime_le_prime; [exact Hp|lia].
Qed.

(* the inverse found by normalize, for a prime modulus *)
Lemma modinv_prime_cases p a : prime p ->
  exists mp, modinv (a mod p) p = Ok mp /\ 0 <= mp < p /\
    ((a mod p = 0 /\ mp = 0) \/ (a mod p <> 0 /\ 0 < mp /\ cg p (mp * a) 1)).
Proof.
  intros Hp. pose proof (prime_ge_2 p Hp) as H1.
  destruct (Z.eq_dec (a mod p) 0) as [E|E].
  - rewrite E. exists 0. split; [apply modinv_zero; lia|]. split; [lia|]. left; auto.
  - pose proof (Z.mod_pos_bound a p ltac:(lia)).
    destruct (modinv_correct_l (a mod p) p ltac:(lia) ltac:(lia) (prime_gcd1 p a Hp E)) as (x & Hx & Hr & Hc).
    exists x. split; [exact Hx|]. split; [lia|]. right. split; [exact E|]. split; [lia|].
    apply cg_iff. rewrite (Z.mod_small 1 p) by lia. rewrite <- Hc.
    rewrite Zmult_mod_idemp_r. reflexivity.
Qed.

Lemma normalize_equiv_l p v : prime p -> fmod v = p ->
  exists r k, fp2_normalize v = Ok r /\ represents p r (rscale k (num v), rscale k (den v)) /\
              fr_eq p (denote r) (denote v) /\ (faC v mod p <> 0 -> faC r = 1).
Proof.
  intros Hp Hv. pose proof (prime_ge_2 p Hp) as H1.
  destruct (modinv_prime_cases p (faC v) Hp) as (mp & Hm & Hr & Hcase).
  rewrite (fp2_normalize_unfold p v mp ltac:(lia) Hv Hm).
  assert (Hfr : forall r k, represents p r (rscale k (num v), rscale k (den v)) -> fr_eq p (denote r) (denote v)).
  { intros r k (_ & Hn & Hd). unfold fr_eq, denote in *; cbn [fst snd] in *. rewrite Hn, Hd.
    rewrite rmul_rscale, (rmul_comm (num v) (rscale k (den v))), rmul_rscale, (rmul_comm (den v)). reflexivity. }
  destruct Hcase as [[E ->]|(E & Hpos & Hinv)].
  - exists (normalized p 0 v), 1.
    assert (Hrep : represents p (normalized p 0 v) (rscale 1 (num v), rscale 1 (den v))).
    { apply represents_init; unfold num, den, rscale, red3, req; cbn [fst snd]; split; apply cg_of_eq; ring. }
    split; [reflexivity|]. split; [exact Hrep|]. split; [exact (Hfr _ _ Hrep)|]. intros; contradiction.
  - exists (normalized p mp v), mp. unfold normalized. destruct (mp >? 0) eqn:E2; [|lia].
    match goal with |- _ /\ represents p ?r ?f /\ _ => assert (Hrep : represents p r f) end.
    { apply represents_init; unfold num, den, rscale, red3, req; cbn [fst snd]; split;
        rewrite ?cg_mod; try (apply cg_of_eq; ring).
      rewrite Z.mul_sub_distr_l, Hinv. apply cg_of_eq; ring. }
    split; [reflexivity|]. split; [exact Hrep|]. split; [exact (Hfr _ _ Hrep)|].
    intros _. cbn [faC]. apply Z.mod_small; lia.
Qed.

Lemma fp2_floordiv_fields p x y : p <> 0 -> fmod x = p -> fmod y = p ->
  exists q, fp2_floordiv x y = Ok q /\ fmod q = p /\ fc q = 0 /\ fcC q = 0 /\
    cg p (fa q) (fst (rmul (num x) (den y))) /\ cg p (fb q) (snd (rmul (num x) (den y))) /\
    cg p (faC q) (fst (rmul (den x) (num y))) /\ cg p (fbC q) (snd (rmul (den x) (num y))).
Proof.
  intros Hp Hx Hy. unfold fp2_floordiv. rewrite Hx, Hy, Z.eqb_refl. cbv zeta.
  rewrite (fp2_init_ok _ _ _ _ _ _ _ Hp). eexists; split; [reflexivity|].
  cbn [fmod fa fb fc faC fbC fcC]. rewrite Z.mod_0_l by exact Hp.
  split; [reflexivity|]. split; [reflexivity|]. split; [reflexivity|].
  unfold num, den, rmul, red3; cbn [fst snd].
  split; [|split; [|split]]; rewrite cg_mod; apply cg_of_eq; ring.
Qed.

(* a factor that is invertible modulo p can be cancelled *)
Lemma cg_unit_cancel p u v x y : cg p (u * v) 1 -> (cg p (x * u) (y * u) <-> cg p x y).
Proof.
  intros Hu. assert (Hz : forall z, cg p (z * u * v) z).
  { intros z. rewrite <- Z.mul_assoc, Hu. apply cg_of_eq. ring. }
  split; intros H; [|rewrite H; reflexivity]. rewrite <- (Hz x), <- (Hz y), H. reflexivity.
Qed.

(* The code's equality decides exactly equality of fractions (cross-multiplication in R_p),
   for every prime modulus. *)
Lemma fp2_eq_correct_l p x y : prime p -> fmod x = p -> fmod y = p ->
  fp2_eq x y = Ok (fr_eqb p (denote x) (denote y)).
Proof.
  intros Hp Hx Hy. pose proof (prime_ge_2 p Hp) as H1.
  unfold fp2_eq. replace (negb true) with false by reflexivity.
  destruct (fp2_floordiv_fields p x y ltac:(lia) Hx Hy) as (q & Hq & Hqm & Hc & HcC & Ha & Hb & HaC & HbC).
  rewrite Hq. cbn [bind].
  destruct (modinv_prime_cases p (faC q) Hp) as (mp & Hm & Hr & Hcase).
  rewrite (fp2_normalize_unfold p q mp ltac:(lia) Hqm Hm). cbn [bind]. f_equal.
  unfold fr_eqb, reqb, denote; cbn [fst snd].
  rewrite (rmul_comm (num y) (den x)).
  set (N := rmul (num x) (den y)) in *. set (D := rmul (den x) (num y)) in *.
  apply eq_true_iff_eq. rewrite !andb_true_iff, !cg_eqb. rewrite <- Ha, <- Hb, <- HaC, <- HbC.
  unfold normalized.
  destruct Hcase as [[E ->]|(E & Hpos & Hinv)].
  - replace (0 >? 0) with false by reflexivity. cbn [fa fb fc faC fbC fcC].
    rewrite !Z.eqb_eq, Hc, HcC, <- !cg_iff. intuition. (* the third comparison is 0 with 0 *)
  - (* x//y was scaled by mp, the inverse of its aC: compare fa*mp with 1 = faC*mp, fb*mp with fbC*mp *)
    destruct (mp >? 0) eqn:E2; [|lia]. cbn [fa fb fc faC fbC fcC].
    rewrite !Z.eqb_eq, Hc, HcC, <- !cg_iff, !cg_mod.
    rewrite <- (cg_unit_cancel p mp (faC q) (fa q) (faC q) Hinv), <- (cg_unit_cancel p mp (faC q) (fb q) (fbC q) Hinv).
    rewrite (Z.mul_comm (faC q) mp), Hinv. intuition.
Qed.

Definition freq (p : Z) (f g : frac) : Prop := req p (fst f) (fst g) /\ req p (snd f) (snd g).

Global Instance freq_equiv p : Equivalence (freq p).
Proof.
  split; red; unfold freq.
  - intros; split; reflexivity.
  - intros x y [H1 H2]; split; symmetry; assumption.
  - intros x y z [H1 H2] [H3 H4]; split; etransitivity; eassumption.
Qed.

Lemma represents_freq p v f : represents p v f <-> fmod v = p /\ freq p (denote v) f.
Proof. unfold represents, freq, denote; cbn [fst snd]. tauto. Qed.

Lemma represents_freq_r p v f : represents p v f -> freq p (denote v) f.
Proof. intros H. apply represents_freq in H. exact (proj2 H). Qed.

Global Instance fr_add_proper p : Proper (freq p ==> freq p ==> freq p) fr_add.
Proof. intros f f' [H1 H2] g g' [H3 H4]. unfold fr_add, freq; cbn [fst snd]. rewrite H1, H2, H3, H4. split; reflexivity. Qed.
Global Instance fr_sub_proper p : Proper (freq p ==> freq p ==> freq p) fr_sub.
Proof. intros f f' [H1 H2] g g' [H3 H4]. unfold fr_sub, freq; cbn [fst snd]. rewrite H1, H2, H3, H4. split; reflexivity. Qed.
Global Instance fr_mul_proper p : Proper (freq p ==> freq p ==> freq p) fr_mul.
Proof. intros f f' [H1 H2] g g' [H3 H4]. unfold fr_mul, freq; cbn [fst snd]. rewrite H1, H2, H3, H4. split; reflexivity. Qed.
Global Instance fr_div_proper p : Proper (freq p ==> freq p ==> freq p) fr_div.
Proof. intros f f' [H1 H2] g g' [H3 H4]. unfold fr_div, freq; cbn [fst snd]. rewrite H1, H2, H3, H4. split; reflexivity. Qed.
Global Instance fr_inv_proper p : Proper (freq p ==> freq p) fr_inv.
Proof. intros f f' [H1 H2]. unfold fr_inv, freq; cbn [fst snd]. split; assumption. Qed.
Global Instance fr_eq_proper p : Proper (freq p ==> freq p ==> iff) (fr_eq p).
Proof. intros f f' [H1 H2] g g' [H3 H4]. unfold fr_eq. rewrite H1, H2, H3, H4. reflexivity. Qed.

Lemma fr_eqb_eq p f g : fr_eqb p f g = true <-> fr_eq p f g.
Proof. unfold fr_eqb, fr_eq. apply reqb_req. Qed.

Lemma fr_eqb_freq p f f' g g' : freq p f f' -> freq p g g' -> fr_eqb p f g = fr_eqb p f' g'.
Proof.
  intros Hf Hg. apply eq_true_iff_eq. rewrite !fr_eqb_eq. rewrite Hf, Hg. reflexivity.
Qed.

Lemma represents_denote p x : fmod x = p -> represents p x (denote x).
Proof. intros Hx. apply represents_freq. split; [exact Hx|reflexivity]. Qed.

(* through the two binds of feval *)
Lemma bind2_represents p (op : fp2 -> fp2 -> res fp2) fop :
  (forall x y fx fy, represents p x fx -> represents p y fy -> exists r, op x y = Ok r /\ represents p r (fop fx fy)) ->
  forall ea eb fx fy, (exists x, ea = Ok x /\ represents p x fx) -> (exists y, eb = Ok y /\ represents p y fy) ->
  exists r, bind ea (fun x => bind eb (fun y => op x y)) = Ok r /\ represents p r (fop fx fy).
Proof. intros Hop ea eb fx fy (x & -> & Rx) (y & -> & Ry). exact (Hop x y fx fy Rx Ry). Qed.

Lemma feval_represents_l p env e : p <> 0 -> Forall (fun v => fmod v = p) env ->
  fvars_ok (length env) e = true ->
  exists r, feval p env e = Ok r /\ represents p r (fsem (map denote env) e).
Proof.
  intros Hp Henv. induction e as [i|a|a IHa b IHb|a IHa b IHb|a IHa b IHb|a IHa b IHb|a IHa];
    cbn [fvars_ok feval fsem]; intros Hv.
  - apply Nat.ltb_lt in Hv. destruct (nth_error env i) as [v|] eqn:E.
    + exists v. split; [reflexivity|]. rewrite Forall_forall in Henv.
      erewrite nth_indep by (rewrite map_length; exact Hv).
      rewrite (map_nth denote env v i), (nth_error_nth env i v E).
      apply represents_denote. exact (Henv v (nth_error_In _ _ E)).
    + apply nth_error_None in E. lia.
  - apply fp2_int_represents. exact Hp.
  - apply andb_true_iff in Hv as [Hva Hvb].
    exact (bind2_represents p _ _ (fp2_add_represents p Hp) _ _ _ _ (IHa Hva) (IHb Hvb)).
  - apply andb_true_iff in Hv as [Hva Hvb].
    exact (bind2_represents p _ _ (fp2_sub_represents p Hp) _ _ _ _ (IHa Hva) (IHb Hvb)).
  - apply andb_true_iff in Hv as [Hva Hvb].
    exact (bind2_represents p _ _ (fp2_mul_represents p Hp) _ _ _ _ (IHa Hva) (IHb Hvb)).
  - apply andb_true_iff in Hv as [Hva Hvb].
    exact (bind2_represents p _ _ (fp2_div_represents p Hp) _ _ _ _ (IHa Hva) (IHb Hvb)).
  - destruct (IHa Hv) as (x & -> & Rx). exact (fp2_inverse_represents p Hp x _ Rx).
Qed.

(* Every comparison of two arithmetic expressions is decided by the code exactly as by the
   textbook fraction semantics. *)
Lemma feq_sound_l p env e1 e2 : prime p -> Forall (fun v => fmod v = p) env ->
  fvars_ok (length env) e1 = true -> fvars_ok (length env) e2 = true ->
  feq p env e1 e2 = Ok (fr_eqb p (fsem (map denote env) e1) (fsem (map denote env) e2)).
Proof.
  intros Hp Henv H1 H2. pose proof (prime_ge_2 p Hp) as Hgt.
  destruct (feval_represents_l p env e1 ltac:(lia) Henv H1) as (x & Hx & Rx).
  destruct (feval_represents_l p env e2 ltac:(lia) Henv H2) as (y & Hy & Ry).
  unfold feq. rewrite Hx, Hy. cbn [bind].
  rewrite (fp2_eq_correct_l p x y Hp (proj1 Rx) (proj1 Ry)). f_equal.
  apply fr_eqb_freq; apply represents_freq_r; assumption.
Qed.

Definition V0 := FVar 0. Definition V1 := FVar 1. Definition V2 := FVar 2.

Definition law_list : list (fexpr * fexpr) :=
  [ (FAdd V0 V1, FAdd V1 V0);                                   (* + commutative *)
    (FAdd (FAdd V0 V1) V2, FAdd V0 (FAdd V1 V2));               (* + associative *)
    (FMul V0 V1, FMul V1 V0);                                   (* * commutative *)
    (FMul (FMul V0 V1) V2, FMul V0 (FMul V1 V2));               (* * associative *)
    (FMul V0 (FAdd V1 V2), FAdd (FMul V0 V1) (FMul V0 V2));     (* distributive *)
    (FAdd V0 (FInt 0), V0);                                     (* 0 neutral *)
    (FMul V0 (FInt 1), V0);                                     (* 1 neutral *)
    (FAdd V0 (FSub (FInt 0) V0), FInt 0);                       (* additive inverse *)
    (FSub V0 V1, FAdd V0 (FMul (FInt (-1)) V1));                (* - is + of the negation *)
    (FMul V0 (FInv V0), FInt 1);                                (* multiplicative inverse *)
    (FDiv V0 V1, FMul V0 (FInv V1));                            (* // is * by the inverse *)
    (FMul (FDiv V0 V1) V1, V0) ].                               (* (x // y) * y == x *)

(* Each law holds already in Z[x]/(x^2+x+1), before any reduction modulo p: the two cross products
   are equal elements of that ring. *)
Lemma fr_eq_of_eq p x y : rmul (fst x) (snd y) = rmul (fst y) (snd x) -> fr_eq p x y.
Proof. unfold fr_eq. intros ->. reflexivity. Qed.

Lemma law_list_sem p (f0 f1 f2 : frac) :
  Forall (fun l => fr_eq p (fsem [f0; f1; f2] (fst l)) (fsem [f0; f1; f2] (snd l))) law_list.
Proof.
  destruct f0 as [n0 d0], f1 as [n1 d1], f2 as [n2 d2].
  unfold law_list, V0, V1, V2.
  repeat (apply Forall_cons; [apply fr_eq_of_eq|]); [..|apply Forall_nil].
  all: cbn [fst snd fsem nth]; unfold fr_add, fr_sub, fr_mul, fr_div, fr_inv; cbn [fst snd].
  (* the integer constants of the laws, as ring constants *)
  all: change (0, 0) with rzero; change (1, 0) with rone; change (-1, 0) with (ropp rone).
  all: ring.
Qed.

Lemma fp2_laws_l p x y z : prime p -> fmod x = p -> fmod y = p -> fmod z = p ->
  Forall (fun l => feq p [x; y; z] (fst l) (snd l) = Ok true) law_list.
Proof.
  intros Hp Hx Hy Hz.
  assert (Henv : Forall (fun v => fmod v = p) [x; y; z]) by (repeat constructor; assumption).
  pose proof (law_list_sem p (denote x) (denote y) (denote z)) as Hsem.
  rewrite Forall_forall in Hsem. apply Forall_forall. intros l Hl.
  assert (Hvars : fvars_ok 3 (fst l) = true /\ fvars_ok 3 (snd l) = true).
  { revert l Hl. apply Forall_forall. unfold law_list. repeat constructor. }
  rewrite (feq_sound_l p [x; y; z] (fst l) (snd l) Hp Henv (proj1 Hvars) (proj2 Hvars)).
  f_equal. apply fr_eqb_eq. exact (Hsem l Hl).
Qed.

Lemma rpow_nat_double s k : rpow_nat s (2 * k) = rpow_nat (rmul s s) k.
Proof.
  induction k as [|k IH]; [reflexivity|].
  replace (2 * S k)%nat with (S (S (2 * k))) by lia. cbn [rpow_nat]. rewrite IH, rmul_assoc. reflexivity.
Qed.

Lemma rpow_even s q : rpow_nat s (Z.to_nat (2 * q)) = rpow_nat (rmul s s) (Z.to_nat q).
Proof. replace (Z.to_nat (2 * q)) with (2 * Z.to_nat q)%nat by lia. apply rpow_nat_double. Qed.

Lemma rpow_odd s q : 0 <= q -> rpow_nat s (Z.to_nat (2 * q + 1)) = rmul s (rpow_nat (rmul s s) (Z.to_nat q)).
Proof.
  intros Hq. replace (Z.to_nat (2 * q + 1)) with (S (2 * Z.to_nat q)) by lia.
  cbn [rpow_nat]. rewrite rpow_nat_double. reflexivity.
Qed.

Lemma fr_pow_even fR fU q :
  fr_mul fR (fr_pow_nat fU (Z.to_nat (2 * q))) = fr_mul fR (fr_pow_nat (fr_mul fU fU) (Z.to_nat q)).
Proof. unfold fr_mul, fr_pow_nat; cbn [fst snd]. rewrite !rpow_even. reflexivity. Qed.

Lemma fr_pow_odd fR fU q : 0 <= q ->
  fr_mul fR (fr_pow_nat fU (Z.to_nat (2 * q + 1))) = fr_mul (fr_mul fR fU) (fr_pow_nat (fr_mul fU fU) (Z.to_nat q)).
Proof.
  intros Hq. unfold fr_mul, fr_pow_nat; cbn [fst snd]. rewrite !rpow_odd by exact Hq. rewrite !rmul_assoc. reflexivity.
Qed.

Lemma fr_mul_pow_0 f g : fr_mul f (fr_pow_nat g (Z.to_nat 0)) = f.
Proof. destruct f. unfold fr_mul, fr_pow_nat; cbn [fst snd Z.to_nat rpow_nat]. rewrite !rmul_one_r. reflexivity. Qed.

Lemma fr_mul_one_l f : fr_mul fr_one f = f.
Proof. destruct f. unfold fr_mul, fr_one; cbn [fst snd]. rewrite !rmul_one_l. reflexivity. Qed.

Lemma fp2_intpow_loop_done f R U n : n <= 0 -> fp2_intpow_loop (S f) R U n = Ok (R, U, n).
Proof. intros H. cbn [fp2_intpow_loop]. destruct (n >? 0) eqn:E; [lia|reflexivity]. Qed.

Lemma fp2_intpow_loop_step f R U n : 0 < n ->
  fp2_intpow_loop (S f) R U n =
  if n mod 2 =? 1 then bind (fp2_mul R U) (fun R => bind (fp2_mul U U) (fun U => fp2_intpow_loop f R U (n / 2)))
  else bind (fp2_mul U U) (fun U => fp2_intpow_loop f R U (n / 2)).
Proof. intros H. cbn [fp2_intpow_loop]. destruct (n >? 0) eqn:E; [reflexivity|lia]. Qed.

(* invariant of square-and-multiply: R * U^n is unchanged *)
Lemma fp2_intpow_loop_spec p : p <> 0 -> forall f n R U fR fU,
  0 <= n < 2 ^ Z.of_nat f -> represents p R fR -> represents p U fU ->
  exists R' U', fp2_intpow_loop (S f) R U n = Ok (R', U', 0) /\
                represents p R' (fr_mul fR (fr_pow_nat fU (Z.to_nat n))).
Proof.
  intros Hp. induction f as [|f IH]; intros n R U fR fU Hn HR HU;
    (destruct (Z.eq_dec n 0) as [->|Hn0];
      [exists R, U; split; [apply fp2_intpow_loop_done; lia|rewrite fr_mul_pow_0; exact HR]|]).
  - change (2 ^ Z.of_nat 0) with 1 in Hn. lia.
  - assert (Hh : 0 <= n / 2 < 2 ^ Z.of_nat f).
    { rewrite Nat2Z.inj_succ, Z.pow_succ_r in Hn by lia. split; [apply Z.div_pos; lia|].
      apply Z.div_lt_upper_bound; lia. }
    pose proof (Z.div_mod n 2 ltac:(lia)) as Hdm. pose proof (Z.mod_pos_bound n 2 ltac:(lia)) as Hmb.
    destruct (fp2_mul_represents p Hp U U _ _ HU HU) as (U2 & HU2 & RU2).
    rewrite fp2_intpow_loop_step, HU2 by lia. destruct (n mod 2 =? 1) eqn:E2.
    + destruct (fp2_mul_represents p Hp R U _ _ HR HU) as (R2 & -> & RR2). cbn [bind].
      destruct (IH (n / 2) R2 U2 _ _ Hh RR2 RU2) as (R' & U' & Hrun & Hrep).
      exists R', U'. split; [exact Hrun|].
      replace n with (2 * (n / 2) + 1) at 1 by lia. rewrite fr_pow_odd by lia. exact Hrep.
    + cbn [bind]. destruct (IH (n / 2) R U2 _ _ Hh HR RU2) as (R' & U' & Hrun & Hrep).
      exists R', U'. split; [exact Hrun|].
      replace n with (2 * (n / 2)) at 1 by lia. rewrite fr_pow_even. exact Hrep.
Qed.

Lemma pow_fuel_enough n : 0 <= n -> exists f, pow_fuel n = S f /\ n < 2 ^ Z.of_nat f.
Proof.
  intros Hn. unfold pow_fuel. eexists; split; [reflexivity|].
  rewrite Nat2Z.inj_succ, Z2Nat.id by apply Z.log2_nonneg.
  destruct (Z.eq_dec n 0) as [->|H0]; [reflexivity|]. apply Z.log2_spec. lia.
Qed.

(* what both signs of the exponent share: from R = 1, U = x the loop ends with R = x^n *)
Lemma fp2_intpow_abs p x n : p <> 0 -> fmod x = p -> 0 <= n ->
  exists one R U, fp2_init p 1 0 0 1 0 0 = Ok one /\ fp2_intpow_loop (pow_fuel n) one x n = Ok (R, U, 0) /\
                  represents p R (fr_pow_nat (denote x) (Z.to_nat n)).
Proof.
  intros Hp Hx Hn. destruct (fp2_int_represents p 1 Hp) as (one & H1 & R1).
  destruct (pow_fuel_enough n Hn) as (f & -> & Hlt).
  destruct (fp2_intpow_loop_spec p Hp f n one x _ _ ltac:(lia) R1 (represents_denote p x Hx)) as (R & U & Hrun & Hrep).
  exists one, R, U. split; [exact H1|]. split; [exact Hrun|]. rewrite <- fr_mul_one_l. exact Hrep.
Qed.

Lemma fp2_intpow_nonneg_l p x k : p <> 0 -> fmod x = p -> 0 <= k ->
  exists r, fp2_intpow x k = Ok r /\ represents p r (fr_pow_nat (denote x) (Z.to_nat k)).
Proof.
  intros Hp Hx Hk. destruct (fp2_intpow_abs p x k Hp Hx Hk) as (one & R & U & H1 & Hrun & Hrep).
  unfold fp2_intpow. destruct (k <? 0) eqn:E; [lia|]. cbv zeta. rewrite Hx, H1. cbn [bind]. rewrite Hrun. cbn [bind].
  exists R. split; [reflexivity|exact Hrep].
Qed.

Lemma fp2_intpow_is_power_l p x k : prime p -> fmod x = p ->
  exists r, fp2_intpow x k = Ok r /\ fmod r = p /\ fr_eq p (denote r) (fr_pow (denote x) k).
Proof.
  intros Hp Hx. pose proof (prime_ge_2 p Hp) as Hgt. unfold fr_pow. destruct (k <? 0) eqn:E.
  - destruct (fp2_intpow_abs p x (- k) ltac:(lia) Hx ltac:(lia)) as (one & R & U & H1 & Hrun & Hrep).
    unfold fp2_intpow. rewrite E. cbv zeta. rewrite Hx, H1. cbn [bind]. rewrite Hrun. cbn [bind].
    destruct (fp2_inverse_represents p ltac:(lia) R _ Hrep) as (I & -> & RI). cbn [bind].
    destruct (normalize_equiv_l p I Hp (proj1 RI)) as (r & c & Hr & Rr & Heq & _).
    exists r. split; [exact Hr|]. split; [exact (proj1 Rr)|].
    rewrite <- (represents_freq_r _ _ _ RI). exact Heq.
  - destruct (fp2_intpow_nonneg_l p x k ltac:(lia) Hx ltac:(lia)) as (r & Hr & Rr).
    exists r. split; [exact Hr|]. split; [exact (proj1 Rr)|].
    rewrite (represents_freq_r _ _ _ Rr). unfold fr_eq. rewrite rmul_comm. reflexivity.
Qed.
