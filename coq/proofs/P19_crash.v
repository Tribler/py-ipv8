(* C19 - the machine over any store meeting the durability contract: open, insert calls, kill, reopen.
   A name ending in `_l` is the theorem of that name in props/C19.v, in the terms of this section (du, vw, cfg_wf)
   and with everything the proof gives; history_reopen_l is behind reopen_ok, acked_durable and no_partial_rows. *)
From Coq Require Import ZArith List Bool Lia.
From IPV8V Require Import lib.Bytes model.M19_crash spec.S19_durable proofs.P19_base.
Import ListNotations.
Open Scope Z_scope.

(* outside a `with` block Database.commit() is a real COMMIT *)
Lemma db_commit_idle {S : Type} (O : store_ops S) (m : ms S) : ms_pend m = 0 -> db_commit O m = real_commit O m.
Proof. intros P. unfold db_commit. rewrite P. reflexivity. Qed.

Section Crash.
Context {S : Type}.
Variable O : store_ops S.
Hypothesis K : contract O.
Variable cfg : dbcfg.
Hypothesis W : cfg_wf cfg.

Definition vw (m : ms S) : dstate := s_view O (ms_st m).
Definition du (m : ms S) : dstate := s_durable O (ms_st m).

Definition same_meta (m m' : ms S) : Prop :=
  ms_pend m' = ms_pend m /\ ms_started m' = ms_started m /\ ms_acks m' = ms_acks m.

Lemma same_meta_refl m : same_meta m m.
Proof. unfold same_meta. auto. Qed.

Lemma same_meta_trans a b c : same_meta a b -> same_meta b c -> same_meta a c.
Proof. unfold same_meta. intros [A1 [A2 A3]] [B1 [B2 B3]]. repeat split; congruence. Qed.

Lemma du_add_ack m c : du (add_ack m c) = du m.
Proof. reflexivity. Qed.
Lemma vw_add_ack m c : vw (add_ack m c) = vw m.
Proof. reflexivity. Qed.

Lemma exec_spec m q r s1 :
  s_exec O (ms_st m) q = (r, s1) ->
  r = fst (apply_stmt (vw m) q) /\ vw (set_st m s1) = snd (apply_stmt (vw m) q) /\ du (set_st m s1) = du m.
Proof.
  intros E. pose proof (k_exec_res O K (ms_st m) q) as A.
  pose proof (k_exec_view O K (ms_st m) q) as B. pose proof (k_exec_durable O K (ms_st m) q) as C.
  rewrite E in A, B, C. cbn [fst snd] in *. unfold vw, du. auto.
Qed.

Lemma real_commit_spec m :
  vw (real_commit O m) = vw m /\ du (real_commit O m) = vw m /\ same_meta m (real_commit O m).
Proof.
  unfold real_commit, set_st, vw, du, same_meta. cbn.
  rewrite (k_commit_view O K), (k_commit_durable O K). auto.
Qed.

(* a script that succeeds on the content: in autocommit mode every statement is published at once *)
Lemma run_script_spec : forall sc m ds d',
  script_pure (vw m) sc = (ds, d', Done) -> du m = vw m ->
  exists tr m',
    run_script O m sc = (tr, m', Done) /\ map vw tr = ds /\ vw m' = d' /\ du m' = vw m' /\
    same_meta m m' /\ Forall (fun x => du x = vw x /\ same_meta m x) tr.
Proof.
  induction sc as [|q sc IH]; intros m ds d' E C; cbn [script_pure run_script] in *.
  - injection E as <- <-. exists [], m. repeat split; auto using same_meta_refl.
  - destruct (s_exec O (ms_st m) q) as [r s1] eqn:Ex.
    destruct (exec_spec m q r s1 Ex) as [Er [Ev _]]. rewrite <- Er in E.
    destruct (sres_err r); [discriminate|].
    destruct (real_commit_spec (set_st m s1)) as [V1 [D1 M1]].
    change (real_commit O (set_st m s1)) with (set_st m (s_commit O s1)) in *.
    set (m1 := set_st m (s_commit O s1)) in *. rewrite <- V1 in D1. rewrite Ev in V1. rewrite <- V1 in E.
    destruct (script_pure (vw m1) sc) as [[ds2 d2] o2] eqn:E2. injection E as <- <- ->.
    destruct (IH m1 ds2 d2 E2 D1) as [tr [m' [R [Mp [Vf [Df [Mf F]]]]]]].
    rewrite R. exists (m1 :: tr), m'. split; [reflexivity|].
    split; [cbn [map]; rewrite Mp; reflexivity|].
    split; [exact Vf|]. split; [exact Df|]. split; [exact (same_meta_trans _ _ _ M1 Mf)|].
    constructor; [auto|]. eapply Forall_impl; [|exact F]. cbn. intros x [A B].
    split; [exact A|exact (same_meta_trans _ _ _ M1 B)].
Qed.

Record disk_good (started acks : list (nat * row)) (d : dstate) : Prop := {
  g_valid : valid_disk cfg d;
  g_acks : Forall (ack_stored cfg d) acks;
  g_rows : rows_started cfg started d
}.

(* a kill keeps the published content and the two logs, so this is what every kill instant must satisfy;
   U: every call the workload can ever make *)
Record SInv (U : list (nat * row)) (x : ms S) : Prop := {
  i_good : disk_good (ms_started x) (ms_acks x) (du x);
  i_acks : incl (ms_acks x) (ms_started x);
  i_started : incl (ms_started x) U
}.

(* between two calls, moreover, nothing is pending *)
Record MInv (U : list (nat * row)) (m : ms S) : Prop := {
  i_snap : SInv U m;
  i_pub : du m = vw m;
  i_pend : ms_pend m = 0
}.

Lemma call_stmt_wf fn r q : call_stmt cfg (fn, r) = Some q ->
  exists ig t, q = SInsert ig t r /\ call_table cfg fn = Some t.
Proof.
  unfold call_stmt, call_table. cbn [fst snd].
  destruct (nth_error (cfg_inserts cfg) fn) as [ops|] eqn:E; [|discriminate].
  destruct (w_inserts _ W _ _ E) as [ig [t [td [Eo H]]]]. subst ops.
  intros Hq. injection Hq as <-. eauto.
Qed.

Lemma call_table_wf fn t : call_table cfg fn = Some t ->
  t <> T_OPTION /\ exists td, In td (schema_tables cfg) /\ t_id td = t.
Proof.
  unfold call_table. destruct (nth_error (cfg_inserts cfg) fn) as [ops|] eqn:E; [|discriminate].
  destruct (w_inserts _ W _ _ E) as [ig [t' [td [Eo [Nt [Hin Hid]]]]]]. subst ops.
  intros H. injection H as <-. eauto.
Qed.

Lemma ack_stored_data d1 d2 c : data_rows d1 = data_rows d2 -> ack_stored cfg d1 c -> ack_stored cfg d2 c.
Proof.
  intros E [t [td [r' [A [B [C [D F]]]]]]]. exists t, td, r'.
  destruct (call_table_wf _ _ A) as [Nt _].
  repeat split; auto. apply (in_data_rows d2 t r' Nt). rewrite <- E. apply (in_data_rows d1 t r' Nt). exact D.
Qed.

Lemma rows_started_data st d1 d2 : data_rows d1 = data_rows d2 -> rows_started cfg st d1 -> rows_started cfg st d2.
Proof.
  intros E H t r Hin Nt. apply (H t r); [|exact Nt].
  apply (in_data_rows d1 t r Nt). rewrite E. apply (in_data_rows d2 t r Nt). exact Hin.
Qed.

Lemma good_data_eq st ak d1 d2 : valid_disk cfg d2 -> data_rows d1 = data_rows d2 -> disk_good st ak d1 -> disk_good st ak d2.
Proof.
  intros V E [G1 G2 G3]. constructor; [exact V| |eapply rows_started_data; eauto].
  eapply Forall_impl; [|exact G2]. intros c. apply ack_stored_data. exact E.
Qed.

Lemma good_more_started st st' ak d : incl st st' -> disk_good st ak d -> disk_good st' ak d.
Proof.
  intros I [G1 G2 G3]. constructor; auto. intros t r Hin Nt. destruct (G3 t r Hin Nt) as [fn [A B]]. eauto.
Qed.

Lemma good_acks_app st ak ak' d :
  disk_good st (ak ++ ak') d <-> disk_good st ak d /\ Forall (ack_stored cfg d) ak'.
Proof.
  split.
  - intros [G1 G2 G3]. apply Forall_app in G2 as [G2 G2']. split; [constructor|]; assumption.
  - intros [[G1 G2 G3] G2']. constructor; [|apply Forall_app|]; auto.
Qed.

(* the same logs over a published content with the same data rows *)
Lemma sinv_data U m x :
  SInv U m -> same_meta m x -> valid_disk cfg (du x) -> data_rows (du x) = data_rows (du m) -> SInv U x.
Proof.
  intros [G A St] [_ [E2 E3]] V E. constructor; rewrite ?E2, ?E3; auto.
  eapply good_data_eq; [exact V|symmetry; exact E|exact G].
Qed.

Lemma prepare_version_valid d :
  valid_disk cfg d -> exists v, prepare_version false d = inl v /\ (v = 0 \/ v = cfg_latest cfg).
Proof.
  intros [[V|V] _]; unfold prepare_version; destruct (find_table d T_OPTION); rewrite ?V; eauto.
Qed.

Lemma open_spec U m :
  MInv U m ->
  exists tr m',
    open O cfg false m = (tr, m', Done) /\ Forall (SInv U) tr /\ MInv U m' /\
    opened cfg (vw m) (vw m') /\ same_meta m m'.
Proof.
  intros [I C P]. pose proof (g_valid _ _ _ (i_good _ _ I)) as V. rewrite C in V.
  unfold open. destruct (prepare_version_valid _ V) as [v [Ev Hv]]. fold (vw m). rewrite Ev.
  assert (Hb : (v =? 0) || (v =? cfg_latest cfg) = true).
  { destruct Hv; subst; rewrite ?Z.eqb_refl, ?orb_true_r; reflexivity. }
  rewrite Hb, (w_check _ W). cbn [run_ops].
  destruct (real_commit_spec m) as [V0 [D0 M0]]. set (m0 := real_commit O m) in *.
  destruct (schema_script_pure cfg (vw m) W V) as [ds [d' [Ep [Fp Op]]]].
  rewrite <- V0 in Ep. assert (C0 : du m0 = vw m0) by congruence.
  destruct (run_script_spec _ m0 ds d' Ep C0) as [tr1 [m1 [R [Mp [V1 [D1 [M1 F1]]]]]]].
  rewrite R. cbn [run_ops].
  rewrite db_commit_idle by (destruct M0 as [A _], M1 as [B _]; congruence).
  destruct (real_commit_spec m1) as [V2 [D2 M2]]. set (m2 := real_commit O m1) in *.
  exists (m0 :: tr1 ++ [m2]), m2. split; [reflexivity|].
  assert (M02 : same_meta m m2) by exact (same_meta_trans _ _ _ M0 (same_meta_trans _ _ _ M1 M2)).
  (* every instant has published a valid disk with the data rows of the start *)
  assert (mk : forall x, same_meta m x -> valid_disk cfg (du x) /\ data_rows (du x) = data_rows (vw m) -> SInv U x).
  { intros x Mx [Vx Ex]. apply (sinv_data U m); [exact I|exact Mx|exact Vx|rewrite C; exact Ex]. }
  assert (I2 : SInv U m2).
  { apply mk; [exact M02|]. rewrite D2, V1. split; [split; [right; apply Op|apply Op]|apply Op]. }
  rewrite <- Mp in Fp. apply Forall_map in Fp.
  split; [|split; [constructor; [exact I2|congruence|destruct M02 as [A _]; congruence]|]].
  - constructor; [apply mk; [exact M0|rewrite D0; auto]|].
    apply Forall_app. split; [|constructor; [exact I2|constructor]].
    eapply Forall_impl; [|exact (Forall_and F1 Fp)]. cbn. intros x [[A B] H].
    apply mk; [exact (same_meta_trans _ _ _ M0 B)|rewrite A; exact H].
  - split; [rewrite V2, V1; exact Op|exact M02].
Qed.

(* the trace of a call, whatever _pending_commits is: the call is logged; an unknown function or a failing INSERT
   ends it there; otherwise INSERT, Database.commit(), acknowledgement *)
Lemma call_shape m fn r :
  let m0 := add_start m (fn, r) in
  match call_stmt cfg (fn, r) with
  | None => run_action O cfg m (ACall fn r) = ([m0], m0, Raised EOutOfModel)
  | Some q =>
      exists m1, vw m1 = snd (apply_stmt (vw m) q) /\ du m1 = du m /\ same_meta m0 m1 /\
        ((fst (apply_stmt (vw m) q) = SOk /\
          run_action O cfg m (ACall fn r) =
          ([m0; m1; db_commit O m1; add_ack (db_commit O m1) (fn, r)], add_ack (db_commit O m1) (fn, r), Done)) \/
         (fst (apply_stmt (vw m) q) <> SOk /\ exists e, run_action O cfg m (ACall fn r) = ([m0], m1, Raised e)))
  end.
Proof.
  intros m0. cbn [run_action]. fold m0. unfold call_stmt. cbn [fst snd].
  destruct (nth_error (cfg_inserts cfg) fn) as [ops|] eqn:En; [|reflexivity].
  destruct (w_inserts _ W _ _ En) as [ig [t [td [Eo _]]]]. subst ops. cbn [run_ops].
  destruct (s_exec O (ms_st m0) (SInsert ig t r)) as [res s1] eqn:Ex.
  destruct (exec_spec m0 _ res s1 Ex) as [Er [Ev Ed]]. change (vw m0) with (vw m) in Er, Ev.
  exists (set_st m0 s1). split; [exact Ev|]. split; [exact Ed|]. split; [repeat split|].
  rewrite <- Er. destruct res; cbn [sres_err]; [left|right; split; [discriminate|eauto]..].
  split; reflexivity.
Qed.

Lemma insert_good st ak d ig t r fn :
  disk_good st ak d -> In (fn, r) st -> call_table cfg fn = Some t ->
  fst (apply_stmt d (SInsert ig t r)) = SOk ->
  disk_good st ak (snd (apply_stmt d (SInsert ig t r))) /\ ack_stored cfg (snd (apply_stmt d (SInsert ig t r))) (fn, r).
Proof.
  intros [[G1 G1'] G2 G3] Hst Hct. destruct (call_table_wf _ _ Hct) as [Nt [td [Htd Hid]]]. cbn [apply_stmt].
  destruct (find_table d t) as [td0|] eqn:Ef; [|cbn; discriminate].
  assert (td0 = td) by (eapply valid_find; eauto). subst td0.
  destruct (has_key d t (t_pk td) (key_of (t_pk td) r)) eqn:Hk.
  - intros _. cbn [snd]. split; [constructor; [split|..]; auto|].
    unfold has_key in Hk. apply existsb_exists in Hk as [[t' r'] [Hin Hm]].
    unfold row_has_key in Hm. cbn [fst snd] in Hm. apply andb_true_iff in Hm as [A B].
    apply Z.eqb_eq in A. apply bytes_eqb_eq in B. subst t'.
    exists t, td, r'. cbn [fst snd]. auto.
  - intros _. cbn [snd]. split.
    + constructor.
      * split; [|exact G1']. rewrite version_row_app_data; [exact G1|exact Nt].
      * eapply Forall_impl; [|exact G2]. intros c [t1 [td1 [r1 [A [B [C [D E]]]]]]].
        exists t1, td1, r1. repeat split; auto. cbn [d_rows]. apply in_or_app. left. exact D.
      * intros t1 r1 Hin N1. cbn [d_rows] in Hin. apply in_app_or in Hin as [Hin|[Hin|[]]].
        { apply (G3 t1 r1 Hin N1). }
        { inversion Hin; subst. exists fn. auto. }
    + exists t, td, r. cbn [fst snd d_rows]. repeat split; auto. apply in_or_app. right. left. reflexivity.
Qed.

(* the logical effect of a started call keeps the invariant, with the call acknowledged if it returns *)
Lemma effect_good st ak d c :
  disk_good st ak d -> In c st -> disk_good st (ak ++ returned cfg d [c]) (effect cfg d [c]).
Proof.
  intros G Hc. rewrite effect_one, returned_one. destruct c as [fn r].
  destruct (call_stmt cfg (fn, r)) as [q|] eqn:Eq; [|rewrite app_nil_r; exact G].
  destruct (call_stmt_wf _ _ _ Eq) as [ig [t [-> Hct]]].
  destruct (fst (apply_stmt d (SInsert ig t r))) eqn:Er;
    [|rewrite app_nil_r, apply_stmt_fail by congruence; exact G..].
  apply good_acks_app. destruct (insert_good _ _ _ ig t r fn G Hc Hct Er). auto.
Qed.

(* from m, with everything published, the calls wl have run to m' *)
Definition calls_post (m : ms S) (wl : list (nat * row)) (m' : ms S) : Prop :=
  du m' = vw m' /\ ms_pend m' = 0 /\
  vw m' = effect cfg (vw m) wl /\
  ms_acks m' = ms_acks m ++ returned cfg (vw m) wl /\
  ms_started m' = ms_started m ++ wl.

Lemma calls_post_cons m c m1 wl m2 : calls_post m [c] m1 -> calls_post m1 wl m2 -> calls_post m (c :: wl) m2.
Proof.
  intros [_ [_ [V1 [A1 S1]]]] [C2 [P2 [V2 [A2 S2]]]]. split; [exact C2|]. split; [exact P2|].
  rewrite effect_cons, returned_cons, <- V1, app_assoc, <- A1.
  split; [exact V2|]. split; [exact A2|]. rewrite S2, S1, <- app_assoc. reflexivity.
Qed.

(* an instant of the call c that ends in m': the call is logged; the old content or the new one is published;
   the call is acknowledged only after the new one *)
Definition call_snap (m : ms S) (c : nat * row) (m' x : ms S) : Prop :=
  ms_started x = ms_started m ++ [c] /\
  ((du x = du m /\ ms_acks x = ms_acks m) \/ (du x = vw m' /\ (ms_acks x = ms_acks m \/ ms_acks x = ms_acks m'))).

Lemma call_exact m fn r :
  ms_pend m = 0 -> du m = vw m ->
  exists tr m' o, run_action O cfg m (ACall fn r) = (tr, m', o) /\
                  calls_post m [(fn, r)] m' /\ Forall (call_snap m (fn, r) m') tr.
Proof.
  intros P C. pose proof (call_shape m fn r) as H. cbn zeta in H.
  unfold calls_post. rewrite effect_one, returned_one.
  assert (S0 : forall m', call_snap m (fn, r) m' (add_start m (fn, r))).
  { split; [reflexivity|]. left. split; reflexivity. }
  destruct (call_stmt cfg (fn, r)) as [q|].
  2:{ eexists _, _, _. split; [exact H|]. rewrite app_nil_r. repeat split; auto. }
  destruct H as [m1 [V1 [D1 [[M1a [M1b M1c]] [[Ok E]|[Err [e E]]]]]]]; eexists _, _, _; (split; [exact E|]);
    cbn [add_start ms_pend ms_started ms_acks] in M1a, M1b, M1c.
  - (* INSERT, COMMIT, acknowledgement *)
    rewrite Ok, db_commit_idle by (rewrite M1a; exact P).
    destruct (real_commit_spec m1) as [V2 [D2 [M2a [M2b M2c]]]]. set (m2 := real_commit O m1) in *.
    rewrite vw_add_ack, du_add_ack. cbn [add_ack ms_pend ms_acks ms_started].
    split; [repeat split; congruence|].
    assert (call_snap m (fn, r) (add_ack m2 (fn, r)) m1) by (split; [exact M1b|left; split; assumption]).
    assert (call_snap m (fn, r) (add_ack m2 (fn, r)) m2).
    { split; [congruence|]. right. rewrite vw_add_ack. split; [congruence|left; congruence]. }
    assert (call_snap m (fn, r) (add_ack m2 (fn, r)) (add_ack m2 (fn, r))).
    { split; [cbn [add_ack ms_started]; congruence|]. right. split; [rewrite du_add_ack, vw_add_ack; congruence|auto]. }
    repeat (apply Forall_cons; [solve [auto]|]). apply Forall_nil.
  - (* the INSERT raised: nothing changed *)
    rewrite V1, D1, M1a, M1b, M1c, apply_stmt_fail by exact Err.
    destruct (fst (apply_stmt (vw m) q)); [congruence|..]; rewrite app_nil_r; repeat split; auto.
Qed.

Lemma call_inv U m fn r :
  MInv U m -> In (fn, r) U ->
  exists tr m' o, run_action O cfg m (ACall fn r) = (tr, m', o) /\ Forall (SInv U) tr /\ MInv U m'.
Proof.
  intros [[G A St] C P] HU.
  destruct (call_exact m fn r P C) as [tr [m' [o [E [[C' [P' [V' [A' S']]]] F]]]]].
  exists tr, m', o. split; [exact E|].
  assert (St' : incl (ms_started m ++ [(fn, r)]) U) by (apply incl_app; [exact St|intros x [<-|[]]; exact HU]).
  assert (G0 : disk_good (ms_started m ++ [(fn, r)]) (ms_acks m) (du m)).
  { eapply good_more_started; [apply incl_appl, incl_refl|exact G]. }
  assert (G1 : disk_good (ms_started m ++ [(fn, r)]) (ms_acks m') (vw m')).
  { rewrite A', V', <- C. apply effect_good; [exact G0|apply in_or_app; right; left; reflexivity]. }
  assert (A0 : incl (ms_acks m) (ms_started m ++ [(fn, r)])) by (apply incl_appl; exact A).
  assert (A1 : incl (ms_acks m') (ms_started m ++ [(fn, r)])).
  { rewrite A'. apply incl_app; [exact A0|]. apply incl_appr, returned_one_incl. }
  assert (G1' : disk_good (ms_started m ++ [(fn, r)]) (ms_acks m) (vw m')).
  { rewrite A' in G1. apply good_acks_app in G1. apply G1. }
  split.
  - eapply Forall_impl; [|exact F]. intros x [Sx [[Dx Ax]|[Dx [Ax|Ax]]]]; constructor; rewrite ?Sx, ?Dx, ?Ax; auto.
  - constructor; [constructor; rewrite ?S', ?C'; auto|exact C'|exact P'].
Qed.

Lemma calls_spec U : forall acts m,
  forallb is_call acts = true -> incl (calls_of acts) U -> MInv U m ->
  exists tr m', run_actions O cfg m acts = (tr, m') /\ Forall (SInv U) tr /\ MInv U m'.
Proof.
  induction acts as [|a acts IH]; intros m Hc HU I; cbn [run_actions].
  - exists [], m. auto.
  - cbn [forallb] in Hc. apply andb_true_iff in Hc as [Ha Hc].
    destruct a as [fn r| | | |]; try discriminate.
    apply incl_app_inv in HU as [HU1 HU2].
    destruct (call_inv U m fn r I (HU1 _ (or_introl eq_refl))) as [tr1 [m1 [o [E1 [F1 I1]]]]]. rewrite E1.
    destruct (IH m1 Hc HU2 I1) as [tr2 [m2 [E2 [F2 I2]]]]. rewrite E2.
    exists (tr1 ++ tr2), m2. split; [reflexivity|]. split; [apply Forall_app; auto|exact I2].
Qed.

Lemma du_reboot x : du (reboot O x) = du x.
Proof. apply (k_crash_durable O K). Qed.

Lemma vw_reboot x : vw (reboot O x) = du x.
Proof. apply (k_crash_view O K). Qed.

Lemma reboot_inv U x : SInv U x -> MInv U (reboot O x).
Proof.
  intros [G A St]. constructor; [constructor|..]; rewrite ?vw_reboot, ?du_reboot; auto.
Qed.

Lemma process_spec U m acts :
  forallb is_call acts = true -> incl (calls_of acts) U -> MInv U m ->
  exists snaps mf, run_process O cfg false m acts = (snaps, mf) /\ Forall (SInv U) (mf :: snaps).
Proof.
  intros Hc HU I. unfold run_process.
  destruct (open_spec U m I) as [tr0 [m1 [E0 [F0 [I1 _]]]]]. rewrite E0.
  destruct (calls_spec U acts m1 Hc HU I1) as [tr [m2 [E [F I2]]]]. rewrite E.
  exists (m :: tr0 ++ tr), m2. split; [reflexivity|].
  constructor; [apply I2|]. constructor; [apply I|apply Forall_app; auto].
Qed.

Lemma history_inv U : forall h m,
  only_calls h -> incl (all_calls h) U -> MInv U m -> MInv U (run_history O cfg false m h).
Proof.
  induction h as [|[acts k] h IH]; intros m Hc HU I; cbn [run_history]; [exact I|].
  inversion Hc as [|? ? Hc1 Hc2]; subst. cbn [fst] in Hc1.
  unfold all_calls in HU. cbn [flat_map fst] in HU. apply incl_app_inv in HU as [HU1 HU2].
  destruct (process_spec U m acts Hc1 HU1 I) as [snaps [mf [E F]]]. rewrite E.
  apply IH; auto. apply reboot_inv. rewrite Forall_forall in F. apply F.
  destruct (nth_in_or_default k snaps mf) as [Hin|Hd]; [right; exact Hin|left; symmetry; exact Hd].
Qed.

Lemma good_empty : disk_good [] [] empty_d.
Proof.
  constructor.
  - split; [left; reflexivity|intros x []].
  - constructor.
  - intros t r [].
Qed.

Lemma fresh_inv U m :
  fresh O (ms_st m) -> ms_pend m = 0 -> ms_started m = [] -> ms_acks m = [] -> MInv U m.
Proof.
  intros [Fv Fd] P St Ak.
  constructor; [constructor|..]; unfold du, vw; rewrite ?Fv, ?Fd, ?St, ?Ak; auto.
  - exact good_empty.
  - intros x [].
  - intros x [].
Qed.

Theorem history_reopen_l : forall s0 h,
  fresh O s0 -> only_calls h ->
  let m := run_history O cfg false (mkMs s0 0 [] []) h in
  exists tr m',
    open O cfg false m = (tr, m', Done) /\
    version_row (vw m') = Some (cfg_latest cfg) /\
    (forall td, In td (schema_tables cfg) -> find_table (vw m') (t_id td) = Some td) /\
    du m' = vw m' /\ data_rows (vw m') = data_rows (vw m) /\
    Forall (ack_stored cfg (vw m')) (ms_acks m) /\
    rows_started cfg (ms_started m) (vw m') /\
    incl (ms_acks m) (ms_started m) /\ incl (ms_started m) (all_calls h).
Proof.
  intros s0 h Fr Hc m.
  assert (I : MInv (all_calls h) m).
  { apply history_inv; [exact Hc|apply incl_refl|]. apply fresh_inv; auto. }
  destruct (open_spec _ m I) as [tr [m' [E [_ [[[[_ G2 G3] Ia Is] C _] [Op [_ [M2 M3]]]]]]]].
  exists tr, m'. split; [exact E|]. split; [apply Op|]. split; [apply Op|]. split; [exact C|].
  split; [apply Op|]. rewrite M2, M3, C in *. auto.
Qed.

(* with keys that identify records, the acknowledged record itself is there, unchanged *)
Lemma ack_present_of_stored d st c :
  key_consistent cfg st -> rows_started cfg st d -> In c st -> ack_stored cfg d c -> ack_present cfg d c.
Proof.
  intros KC RS Hc [t [td [r' [A [B [C [D E]]]]]]]. exists t. split; [exact A|].
  destruct (call_table_wf _ _ A) as [Nt _].
  destruct (RS t r' D Nt) as [fn' [Hin' Hct']].
  assert (r' = snd c).
  { apply (KC (fn', r') c t td); auto. }
  subst r'. exact D.
Qed.

(* an instant x of the calls wl from m: a calls have been acknowledged or have raised, the effect of j is
   published, s have started *)
Definition snap_rel (m : ms S) (wl : list (nat * row)) (x : ms S) : Prop :=
  exists a j s, (a <= j)%nat /\ (j <= s)%nat /\ (s <= a + 1)%nat /\ (s <= length wl)%nat /\
    du x = effect cfg (du m) (firstn j wl) /\
    ms_acks x = ms_acks m ++ returned cfg (du m) (firstn a wl) /\
    ms_started x = ms_started m ++ firstn s wl.

Lemma call_snap_rel m c wl m' x :
  du m = vw m -> calls_post m [c] m' -> call_snap m c m' x -> snap_rel m (c :: wl) x.
Proof.
  intros C [_ [_ [V' [A' _]]]] [Sx [[Dx Ax]|[Dx [Ax|Ax]]]]; rewrite <- C in V', A'.
  - exists 0%nat, 0%nat, 1%nat. cbn [firstn effect returned length]. rewrite app_nil_r. repeat split; auto; lia.
  - exists 0%nat, 1%nat, 1%nat. cbn [firstn returned length]. rewrite app_nil_r.
    repeat split; auto; try lia. congruence.
  - exists 1%nat, 1%nat, 1%nat. cbn [firstn length]. repeat split; auto; try lia; congruence.
Qed.

Lemma snap_rel_shift m c m1 wl x :
  du m = vw m -> calls_post m [c] m1 -> snap_rel m1 wl x -> snap_rel m (c :: wl) x.
Proof.
  intros C [C1 [_ [V1 [A1 S1]]]] [a [j [s [L1 [L2 [L3 [L4 [Dx [Ax Sx]]]]]]]]].
  exists (Datatypes.S a), (Datatypes.S j), (Datatypes.S s). rewrite !firstn_cons.
  split; [exact (le_n_S _ _ L1)|]. split; [exact (le_n_S _ _ L2)|]. split; [exact (le_n_S _ _ L3)|].
  split; [exact (le_n_S _ _ L4)|]. split; [|split].
  - rewrite effect_cons, C, <- V1, <- C1. exact Dx.
  - rewrite returned_cons, C, <- V1, <- C1, app_assoc, <- A1. exact Ax.
  - rewrite Sx, S1, <- app_assoc. reflexivity.
Qed.

Theorem crash_prefix_exact_l : forall wl m,
  ms_pend m = 0 -> du m = vw m ->
  exists tr m',
    run_actions O cfg m (map (fun c => ACall (fst c) (snd c)) wl) = (tr, m') /\
    calls_post m wl m' /\ Forall (snap_rel m wl) tr.
Proof.
  induction wl as [|[fn r] wl IH]; intros m P C; cbn [map run_actions fst snd].
  - exists [], m. unfold calls_post. cbn [effect returned]. rewrite !app_nil_r. repeat split; auto.
  - destruct (call_exact m fn r P C) as [tr1 [m1 [o [E1 [Q1 F1]]]]]. rewrite E1.
    pose proof Q1 as [C1 [P1 _]].
    destruct (IH m1 P1 C1) as [tr2 [m2 [E2 [Q2 F2]]]]. rewrite E2.
    exists (tr1 ++ tr2), m2. split; [reflexivity|]. split; [exact (calls_post_cons _ _ _ _ _ Q1 Q2)|].
    apply Forall_app. split; [eapply Forall_impl; [|exact F1]|eapply Forall_impl; [|exact F2]]; intros x.
    + apply call_snap_rel; assumption.
    + apply snap_rel_shift; assumption.
Qed.

(* inside a with block every commit is deferred: whatever insert calls return, nothing is published *)
Lemma with_call_durable m fn r :
  0 < ms_pend m ->
  exists tr m' o, run_action O cfg m (ACall fn r) = (tr, m', o) /\ 0 < ms_pend m' /\ du m' = du m /\
                  Forall (fun x => du x = du m) tr.
Proof.
  intros P. pose proof (call_shape m fn r) as H. cbn zeta in H.
  destruct (call_stmt cfg (fn, r)) as [q|]; [|eexists _, _, _; split; [exact H|]; repeat split; auto].
  destruct H as [m1 [_ [D1 [[P1 _] H]]]]. cbn [add_start ms_pend] in P1.
  destruct H as [[_ E]|[_ [e E]]]; eexists _, _, _; (split; [exact E|]).
  - unfold db_commit. destruct (ms_pend m1 =? 0) eqn:Ez; [apply Z.eqb_eq in Ez; lia|].
    split; [cbn; lia|]. split; [exact D1|]. repeat constructor; auto.
  - rewrite P1. repeat split; auto.
Qed.

Lemma with_calls_durable : forall wl m,
  0 < ms_pend m ->
  exists tr m', run_actions O cfg m (map (fun c => ACall (fst c) (snd c)) wl) = (tr, m') /\
                Forall (fun x => du x = du m) tr /\ du m' = du m /\ 0 < ms_pend m'.
Proof.
  induction wl as [|[fn r] wl IH]; intros m P; cbn [map run_actions fst snd].
  - exists [], m. auto.
  - destruct (with_call_durable m fn r P) as [tr1 [m1 [o [E1 [P1 [D1 F1]]]]]]. rewrite E1.
    destruct (IH m1 P1) as [tr2 [m2 [E2 [F2 [D2 P2]]]]]. rewrite E2, D1 in *.
    exists (tr1 ++ tr2), m2. split; [reflexivity|]. split; [apply Forall_app; auto|auto].
Qed.

Theorem with_block_defers_l : forall wl m,
  exists tr m',
    run_actions O cfg m (AEnter :: map (fun c => ACall (fst c) (snd c)) wl) = (tr, m') /\
    Forall (fun x => du x = du m) tr /\ du m' = du m /\ 0 < ms_pend m'.
Proof.
  intros wl m. cbn [run_actions run_action].
  (* AEnter touches _pending_commits only *)
  destruct (with_calls_durable wl (set_pend m (Z.max 1 (ms_pend m)))) as [tr [m' [E [F [D P]]]]]; [cbn; lia|].
  rewrite E. exists (set_pend m (Z.max 1 (ms_pend m)) :: tr), m'. split; [reflexivity|].
  split; [constructor; [reflexivity|exact F]|split; [exact D|exact P]].
Qed.

(* leaving the block normally publishes everything the block did, if any commit was requested *)
Lemma with_block_exit_publishes_l m :
  1 < ms_pend m ->
  exists m', run_action O cfg m (AExit XNone) = ([m'], m', Done) /\ du m' = vw m /\ vw m' = vw m /\ ms_pend m' = 0.
Proof.
  intros P. cbn [run_action]. assert (E : (1 <? ms_pend m) = true) by (apply Z.ltb_lt; exact P). rewrite E.
  unfold db_commit. cbn [set_pend ms_pend Z.eqb].
  destruct (real_commit_spec (set_pend m 0)) as [V [D [M _]]].
  eexists. split; [reflexivity|]. split; [exact D|]. split; [exact V|exact M].
Qed.

Fixpoint fold_stmts (d : dstate) (sc : list stmt) : dstate :=
  match sc with [] => d | q :: tl => fold_stmts (snd (apply_stmt d q)) tl end.

Lemma run_tx_spec : forall sc m,
  exists tr m' o, run_tx O m sc = (tr, m', o) /\ du m' = du m /\
                  Forall (fun x => du x = du m) tr /\ (o = Done -> vw m' = fold_stmts (vw m) sc).
Proof.
  induction sc as [|q sc IH]; intros m; cbn [run_tx fold_stmts].
  - exists [], m, Done. auto.
  - destruct (s_exec O (ms_st m) q) as [r s1] eqn:Ex.
    destruct (exec_spec m q r s1 Ex) as [_ [V1 D1]].
    destruct (sres_err r) as [e|].
    + exists [], (set_st m s1), (Raised e). repeat split; auto. discriminate.
    + destruct (IH (set_st m s1)) as [tr [m' [o [E [D [F V]]]]]]. rewrite E, D1 in *.
      exists (set_st m s1 :: tr), m', o. split; [reflexivity|]. split; [exact D|]. split.
      * constructor; [exact D1|exact F].
      * intros Ho. rewrite (V Ho), V1. reflexivity.
Qed.

(* at every kill instant the published content is the old one, except after the final COMMIT, where it is
   the old one with every statement applied; a failing statement publishes nothing *)
Theorem atomic_script_all_or_nothing_l : forall sc m,
  exists tr m' o,
    run_atomic O m sc = (tr, m', o) /\
    (o = Done ->
       du m' = fold_stmts (vw m) sc /\ vw m' = fold_stmts (vw m) sc /\
       exists tr0, tr = tr0 ++ [m'] /\ Forall (fun x => du x = vw m) tr0) /\
    (o <> Done -> Forall (fun x => du x = vw m) tr /\ du m' = vw m).
Proof.
  intros sc m. unfold run_atomic.
  destruct (real_commit_spec m) as [V0 [D0 _]]. set (m0 := real_commit O m) in *.
  destruct (run_tx_spec sc m0) as [tr [m1 [o [E [D [F V]]]]]]. rewrite E.
  rewrite D0 in F, D.
  destruct o as [|e].
  - destruct (real_commit_spec m1) as [V2 [D2 _]]. set (m2 := real_commit O m1) in *.
    exists (m0 :: tr ++ [m2]), m2, Done. split; [reflexivity|]. split; [|intros H; congruence].
    intros _. specialize (V eq_refl). rewrite V0 in V.
    split; [congruence|]. split; [congruence|].
    exists (m0 :: tr). split; [reflexivity|]. constructor; [exact D0|exact F].
  - exists (m0 :: tr), m1, (Raised e). split; [reflexivity|]. split; [discriminate|].
    intros _. split; [constructor; [exact D0|exact F]|exact D].
Qed.

End Crash.
