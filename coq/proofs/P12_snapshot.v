(* C12 / C12x - snapshot() and load_snapshot() over the `address` packer of the C02 wire model.  pack_address /
   unpack_address are M02_wire.pack / unpack at FAddr false; the round trip of a record is P02_roundtrip.pack_unpack_fmt_l. *)
From Coq Require Import ZArith List Bool Lia Arith.
From IPV8V Require Import lib.PyErr lib.Bytes lib.BE model.M02_wire proofs.P02_roundtrip
  model.M12_network spec.S12_graph proofs.P12_base proofs.P12_inv proofs.P12_queries.
Import ListNotations.
Open Scope Z_scope.

Lemma firstn_skipn_app {A} n off (d ext : list A) :
  (off + n <= length d)%nat -> firstn n (skipn off (d ++ ext)) = firstn n (skipn off d).
Proof.
  intros H. rewrite skipn_app, firstn_app, skipn_length.
  replace (n - (length d - off))%nat with 0%nat by lia. apply app_nil_r.
Qed.

Lemma take_bound n off d b : take n off d = Ok b -> (off + n <= length d)%nat.
Proof. unfold take. destruct (off + n <=? length d)%nat eqn:E; [|discriminate]. intros _. apply Nat.leb_le. exact E. Qed.

Lemma take_app n off (d ext : bytes) b : take n off d = Ok b -> take n off (d ++ ext) = Ok b.
Proof.
  intros H. pose proof (take_bound _ _ _ _ H) as B. unfold take in *.
  destruct (off + n <=? length d)%nat; [|discriminate].
  assert (E : (off + n <=? length (d ++ ext))%nat = true) by (apply Nat.leb_le; rewrite app_length; lia).
  rewrite E, firstn_skipn_app by exact B. exact H.
Qed.

Lemma unpack_address_span d off a o : unpack_address d off = Ok (a, o) -> (off < o <= length d)%nat.
Proof.
  unfold unpack_address. cbn [unpack]. unfold addr_unpack, bind.
  destruct (take 1 off d) as [t|]; [|discriminate].
  destruct (be_decode t =? 1).
  { destruct (take 6 (off + 1) d) eqn:T; [|discriminate]. apply take_bound in T. intros H. inversion H. lia. }
  destruct (be_decode t =? 3).
  { destruct (take 18 (off + 1) d) eqn:T; [|discriminate]. apply take_bound in T. intros H. inversion H. lia. }
  destruct (negb false && (be_decode t =? 2)); [|discriminate].
  destruct (take 2 (off + 1) d) as [l|]; [|discriminate].
  destruct (negb (utf8_valid (firstn (Z.to_nat (be_decode l)) (skipn (off + 3) d)))); [discriminate|].
  destruct (take 2 (off + 3 + Z.to_nat (be_decode l)) d) eqn:T; [|discriminate]. apply take_bound in T.
  intros H. inversion H. lia.
Qed.

Lemma unpack_address_ext d ext off a o :
  unpack_address d off = Ok (a, o) -> unpack_address (d ++ ext) off = Ok (a, o).
Proof.
  unfold unpack_address. cbn [unpack]. unfold addr_unpack, bind.
  destruct (take 1 off d) as [t|] eqn:T1; [|discriminate]. rewrite (take_app _ _ _ ext _ T1).
  destruct (be_decode t =? 1).
  { destruct (take 6 (off + 1) d) eqn:T; [|discriminate]. rewrite (take_app _ _ _ ext _ T). auto. }
  destruct (be_decode t =? 3).
  { destruct (take 18 (off + 1) d) eqn:T; [|discriminate]. rewrite (take_app _ _ _ ext _ T). auto. }
  destruct (negb false && (be_decode t =? 2)); [|discriminate].
  destruct (take 2 (off + 1) d) as [l|] eqn:T2; [|discriminate]. rewrite (take_app _ _ _ ext _ T2).
  destruct (negb (utf8_valid (firstn (Z.to_nat (be_decode l)) (skipn (off + 3) d)))) eqn:U; [discriminate|].
  destruct (take 2 (off + 3 + Z.to_nat (be_decode l)) d) eqn:T3; [|discriminate].
  rewrite (take_app _ _ _ ext _ T3). apply take_bound in T3. rewrite firstn_skipn_app, U by lia. auto.
Qed.

(* load_snapshot always terminates by itself: the fuel (one unit per byte) never runs out *)
Lemma load_loop_total fuel : forall d off all c,
  (length d - off <= fuel)%nat -> snd (load_loop fuel d off all c) = false.
Proof.
  induction fuel as [|f IH]; intros d off all c Hf; cbn [load_loop];
    destruct (off <? length d)%nat eqn:L; cbn [snd]; try reflexivity.
  - apply Nat.ltb_lt in L. lia.
  - destruct (unpack_address d off) as [[a o]|e] eqn:U; [|reflexivity].
    apply IH. apply unpack_address_span in U. apply Nat.ltb_lt in L. lia.
Qed.

Definition heap_ok (h : list obj) : Prop := Forall (fun o => am_ok (snd o)) h.

Lemma heap_ok_get h i : heap_ok h -> am_ok (haddrs h i).
Proof.
  intros H. unfold haddrs, hget. destruct (nth_in_or_default i h null_obj) as [Hin|E].
  - exact (proj1 (Forall_forall _ _) H _ Hin).
  - rewrite E. cbn. repeat split.
Qed.

Lemma am_ok_update m m' : am_ok m -> am_ok m' -> am_ok (am_update m m').
Proof.
  unfold am_ok, am_update, opt_or. intros (H1 & H2 & H3) (H4 & H5 & H6). cbn [am4 am6 amd].
  repeat split; [destruct (am4 m')|destruct (am6 m')|destruct (amd m')]; assumption.
Qed.

Lemma heap_ok_hset h j o : heap_ok h -> am_ok (snd o) -> heap_ok (hset h j o).
Proof.
  unfold heap_ok. revert j. induction h as [|x h IH]; intros [|j] H Ho; simpl; try assumption.
  - inversion H; subst. constructor; assumption.
  - inversion H; subst. constructor; [assumption|]. apply IH; assumption.
Qed.

Lemma heap_ok_add_verified_peer n i : heap_ok (heap n) -> heap_ok (heap (add_verified_peer n i)).
Proof.
  intros H. unfold add_verified_peer. destruct (blacklisted _ _ _); [assumption|].
  destruct (d_get _ _ _) as [j|].
  - cbn [heap set_heap]. apply heap_ok_hset; [assumption|]. cbn [snd].
    apply am_ok_update; apply heap_ok_get; assumption.
  - destruct (existsb _ _); rewrite verify_heap; assumption.
Qed.

Lemma heap_ok_step n o : op_ok o -> heap_ok (heap n) -> heap_ok (heap (fst (step n o))).
Proof.
  intros Ho H. destruct o; cbn [step op_ok] in *; try assumption.
  - unfold alloc. cbn [fst]. apply heap_ok_add_verified_peer. cbn [heap set_heap].
    apply Forall_app. split; [assumption|]. constructor; [exact Ho|constructor].
  - unfold alloc. cbn [fst].
    assert (H1 : heap_ok (heap (set_heap n (heap n ++ [(k, am)])))).
    { cbn [heap set_heap]. apply Forall_app. split; [assumption|]. constructor; [exact Ho|constructor]. }
    unfold discover_address. destruct (mem_addr a _); [apply heap_ok_add_verified_peer; assumption|].
    destruct (negb _ || negb _); apply heap_ok_add_verified_peer; assumption.
  - unfold alloc. cbn [fst]. unfold discover_services. cbn [heap set_heap set_services set_svc_cache].
    apply Forall_app. split; [assumption|]. constructor; [exact Ho|constructor].
  - rewrite get_verified_by_address_eq. assumption.
  - destruct s; assumption.
  - unfold get_introductions_from. destruct (d_get Z.eqb k (intro_cache n)); assumption.
  - unfold load_snapshot. destruct (load_loop _ _ _ _ _) as [[? ?] ?]. assumption.
Qed.

Lemma heap_ok_run ops : forall n, Forall op_ok ops -> heap_ok (heap n) -> heap_ok (heap (run n ops)).
Proof.
  induction ops as [|o ops IH]; intros n Ho H; simpl; [assumption|]. inversion Ho; subst.
  apply IH; [assumption|]. apply heap_ok_step; assumption.
Qed.

Lemma heap_ok_reachable ipc intc svcc bla blm ops :
  Forall op_ok ops -> heap_ok (heap (run (init_net ipc intc svcc bla blm) ops)).
Proof. intros Ho. apply heap_ok_run; [exact Ho|constructor]. Qed.

Lemma packable_preferred m : am_ok m -> packable (am_preferred m).
Proof.
  unfold am_ok, am_preferred, opt_packable. intros (H1 & H2 & H3).
  destruct (am6 m); [assumption|]. destruct (am4 m); [assumption|]. destruct (amd m); [assumption|].
  reflexivity.
Qed.

Lemma snapshot_addrs_packable n : heap_ok (heap n) -> Forall packable (snapshot_addrs n).
Proof.
  intros HH. unfold snapshot_addrs. apply Forall_forall. intros a Ha. apply filter_In in Ha as [Ha _].
  apply in_map_iff in Ha as (i & E & _). subst a. apply packable_preferred. apply heap_ok_get. assumption.
Qed.

Lemma pack_address_eq a : pack_address a = addr_pack false a.
Proof. reflexivity. Qed.

(* C02: a packed address unpacks to itself at any offset, whatever follows *)
Lemma record_roundtrip a bs (pre suf : bytes) :
  packable a -> pack_address a = Ok bs ->
  unpack_address (pre ++ bs ++ suf) (length pre) = Ok (a, (length pre + length bs)%nat).
Proof.
  intros Hok Hp. unfold unpack_address.
  rewrite (pack_unpack_fmt_l wire_keys (FAddr false) (VAddr a) bs pre suf); [reflexivity|reflexivity|exact Hok|exact Hp|left; reflexivity].
Qed.

Lemma packable_packs a : packable a -> exists bs, pack_address a = Ok bs /\ (5 <= length bs)%nat.
Proof.
  unfold packable. rewrite pack_address_eq. destruct a as [ip port|ip port|host port]; cbn [addr_ok addr_pack negb andb]; intros H.
  - rewrite H. eexists. split; [reflexivity|]. apply andb_true_iff in H as [H _]. apply andb_true_iff in H as [H _].
    apply Nat.eqb_eq in H. cbn [length]. rewrite app_length, be_encode_length. lia.
  - rewrite H. eexists. split; [reflexivity|]. apply andb_true_iff in H as [H _]. apply andb_true_iff in H as [H _].
    apply Nat.eqb_eq in H. cbn [length]. rewrite app_length, be_encode_length. lia.
  - rewrite H. eexists. split; [reflexivity|]. cbn [length]. rewrite !app_length, !be_encode_length. lia.
Qed.

(* a record cut short does not unpack: it would unpack the same from the whole record, and end behind the cut *)
Lemma record_cut_raises a ba (pre : bytes) j :
  packable a -> pack_address a = Ok ba -> (j < length ba)%nat ->
  exists e, unpack_address (pre ++ firstn j ba) (length pre) = Raise e.
Proof.
  intros Hok Hp Hj. destruct (unpack_address (pre ++ firstn j ba) (length pre)) as [[a' o]|e] eqn:U; [exfalso|eauto].
  pose proof (proj2 (unpack_address_span _ _ _ _ U)) as B. rewrite app_length, firstn_length_le in B by lia.
  apply unpack_address_ext with (ext := skipn j ba) in U. rewrite <- app_assoc, firstn_skipn in U.
  pose proof (record_roundtrip a ba pre [] Hok Hp) as R. rewrite app_nil_r in R. rewrite R in U.
  inversion U. lia.
Qed.

Lemma snapshot_is_packed n : snapshot n = packed (snapshot_addrs n).
Proof. reflexivity. Qed.

Lemma packed_cons a l bs :
  packed (a :: l) = Ok bs -> exists ba bl, pack_address a = Ok ba /\ packed l = Ok bl /\ bs = ba ++ bl.
Proof.
  unfold packed. cbn [map concat_res]. destruct (pack_address a) as [ba|]; cbn [bind]; [|discriminate].
  destruct (concat_res (map pack_address l)) as [bl|]; cbn [bind]; [|discriminate].
  intros H. inversion H. eauto.
Qed.

Lemma packed_ok l : Forall packable l -> exists bs, packed l = Ok bs.
Proof.
  induction l as [|a l IH]; intros H; [exists []; reflexivity|]. inversion H; subst.
  destruct (packable_packs a H2) as (ba & Ea & _). destruct (IH H3) as (bl & El).
  exists (ba ++ bl). unfold packed in *. cbn [map concat_res]. rewrite Ea, El. reflexivity.
Qed.

Definition loaded (l : list addr) (all : list (addr * walk)) : list (addr * walk) :=
  fold_left (fun al a => d_set addr_eqb a blank al) l all.
Definition forgotten (l : list addr) (c : list (key * list addr)) : list (key * list addr) :=
  fold_left (fun c a => forget_intro a c) l c.

Lemma packed_length l bs : Forall packable l -> packed l = Ok bs -> (length l <= length bs)%nat.
Proof.
  revert bs. induction l as [|a l IH]; intros bs Hok Hp; [simpl; lia|].
  inversion Hok; subst. apply packed_cons in Hp as (ba & bl & Ea & El & ->).
  destruct (packable_packs a H1) as (ba' & Ea' & Hlen). rewrite Ea in Ea'. inversion Ea'; subst ba'.
  specialize (IH bl H2 El). rewrite app_length. simpl. lia.
Qed.

(* records packed in front of anything are read one per iteration; the loop goes on at their end *)
Lemma load_packed_prefix l : forall bs (pre rest : bytes) fuel all c,
  Forall packable l -> packed l = Ok bs -> (length l <= fuel)%nat ->
  load_loop fuel (pre ++ bs ++ rest) (length pre) all c
  = load_loop (fuel - length l) (pre ++ bs ++ rest) (length pre + length bs) (loaded l all) (forgotten l c).
Proof.
  induction l as [|a l IH]; intros bs pre rest fuel all c Hok Hp Hf.
  - inversion Hp; subst. cbn [length]. rewrite Nat.sub_0_r, Nat.add_0_r. reflexivity.
  - inversion Hok; subst. apply packed_cons in Hp as (ba & bl & Ea & El & ->).
    destruct (packable_packs a H1) as (ba' & Ea' & Hlen). rewrite Ea in Ea'. inversion Ea'; subst ba'.
    destruct fuel as [|f]; [simpl in Hf; lia|]. cbn [load_loop].
    assert (L : (length pre <? length (pre ++ (ba ++ bl) ++ rest))%nat = true).
    { apply Nat.ltb_lt. rewrite !app_length. lia. }
    rewrite L, <- (app_assoc ba bl), (record_roundtrip a ba pre (bl ++ rest) H1 Ea).
    rewrite (app_assoc pre ba), <- (app_length pre ba), (IH bl (pre ++ ba) rest f) by (simpl in Hf; auto; lia).
    rewrite !app_length, Nat.add_assoc. reflexivity.
Qed.

Lemma load_packed_stop l bs rest n :
  Forall packable l -> packed l = Ok bs ->
  (rest <> [] -> exists e, unpack_address (bs ++ rest) (length bs) = Raise e) ->
  all_addrs (load_snapshot n (bs ++ rest)) = loaded l (all_addrs n) /\
  intro_cache (load_snapshot n (bs ++ rest)) = forgotten l (intro_cache n).
Proof.
  intros Hok Hp Hr. unfold load_snapshot. pose proof (packed_length l bs Hok Hp) as HL.
  rewrite (load_packed_prefix l bs [] rest) by (rewrite ?app_length; auto; lia). cbn [app length Nat.add].
  destruct rest as [|b rest].
  - rewrite app_nil_r. destruct (_ - _)%nat; cbn [load_loop]; rewrite Nat.ltb_irrefl; auto.
  - destruct (Hr ltac:(discriminate)) as (e & E). rewrite app_length. cbn [length].
    replace (length bs + S (length rest) - length l)%nat with (S (length bs + length rest - length l)) by lia.
    cbn [load_loop]. rewrite E. destruct (_ <? _)%nat; auto.
Qed.

Lemma d_mem_keys a (all : list (addr * walk)) : d_mem addr_eqb a all = mem_addr a (map fst all).
Proof.
  destruct (mem_addr a (map fst all)) eqn:M.
  - apply (d_mem_In addr_eqb addr_eqb_eq). apply mem_addr_In. assumption.
  - apply (d_mem_false addr_eqb addr_eqb_eq). apply mem_addr_false. assumption.
Qed.

Lemma keys_d_set_exact a w (all : list (addr * walk)) :
  map fst (d_set addr_eqb a w all) = add_key (map fst all) a.
Proof.
  unfold d_set, add_key. rewrite <- d_mem_keys. destruct (d_mem addr_eqb a all).
  - rewrite map_map. apply map_ext. intros [k v]. cbn [fst]. destruct (addr_eqb k a); reflexivity.
  - rewrite map_app. reflexivity.
Qed.

Lemma keys_loaded_exact l : forall all, map fst (loaded l all) = fold_left add_key l (map fst all).
Proof.
  unfold loaded. induction l as [|a l IH]; intros all; simpl; [reflexivity|].
  rewrite IH, keys_d_set_exact. reflexivity.
Qed.

Lemma loaded_entries l : forall all a w, In (a, w) (loaded l all) -> w = blank \/ In (a, w) all.
Proof.
  unfold loaded. induction l as [|x l IH]; intros all a w H; simpl in H; [auto|].
  apply IH in H as [H|H]; [auto|]. apply (In_d_set addr_eqb addr_eqb_eq) in H as [[_ H]|[_ H]]; auto.
Qed.

Lemma In_fold_add_key l : forall acc x, In x (fold_left add_key l acc) <-> In x acc \/ In x l.
Proof.
  induction l as [|a l IH]; intros acc x; simpl; [tauto|]. rewrite IH. unfold add_key.
  destruct (mem_addr a acc) eqn:M.
  - apply mem_addr_In in M. split; [tauto|]. intros [H|[H|H]]; subst; auto.
  - rewrite in_app_iff. simpl. tauto.
Qed.

Lemma load_into_empty l bs ipc intc svcc bla blm :
  Forall packable l -> packed l = Ok bs ->
  let m := load_snapshot (init_net ipc intc svcc bla blm) bs in
  map fst (all_addrs m) = uniq l /\
  (forall a w, In (a, w) (all_addrs m) -> w = blank) /\
  (forall x, In x (snd (get_walkable_addresses m None false)) <-> In x l).
Proof.
  intros Hok Hp m.
  assert (V : verified m = []) by (unfold m, load_snapshot; destruct (load_loop _ _ _ _ _) as [[? ?] ?]; reflexivity).
  destruct (load_packed_stop l bs [] (init_net ipc intc svcc bla blm) Hok Hp ltac:(congruence)) as [E _].
  rewrite app_nil_r in E. fold m in E. cbn [all_addrs init_net] in E.
  assert (K : map fst (all_addrs m) = uniq l) by (rewrite E; apply keys_loaded_exact). split; [exact K|]. split.
  - intros a w H. rewrite E in H. destruct (loaded_entries _ _ _ _ H) as [B|[]]. exact B.
  - intros x. unfold get_walkable_addresses. cbn [snd]. rewrite V. unfold addrs_of. cbn [flat_map].
    rewrite filter_In. cbn [mem_addr existsb negb]. rewrite K. unfold uniq. rewrite In_fold_add_key. cbn [In]. tauto.
Qed.
