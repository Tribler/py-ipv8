(* C09 - what each kind of event can and cannot touch: activity stamps move only when a cell is
   processed; an open exit socket leaves the table only closed; the relay_early counter of a live route
   never goes down. *)
From Coq Require Import ZArith List Bool.
From IPV8V Require Import gen.G09_rules model.M09_reclaim proofs.P09_alist proofs.P09_more.
Import ListNotations.
Open Scope Z_scope.

Section Frames.
Variable st : settings.

Lemma send_cell_exits s dst cid mid ls : exits (fst (fst (send_cell st s dst cid mid ls))) = exits s.
Proof.
  unfold send_cell. destruct (take ls) as [n ls'].
  destruct (aget cid (circuits s)); [reflexivity|]. destruct (aget cid (relays s)); reflexivity.
Qed.

Lemma recv_destroy_tables s src cid reason :
  let s' := recv_destroy s src cid reason in
  now s' = now s /\ circuits s' = circuits s /\ relays s' = relays s /\ exits s' = exits s.
Proof.
  rewrite recv_destroy_eq.
  destruct (relay_adjacent s src cid); [destruct (aget cid (relays s)); repeat split|].
  destruct (exit_adjacent s src cid); [repeat split|]. destruct (circuit_adjacent s src cid); repeat split.
Qed.

(* every entry of s' was already in s with the same creation and activity stamps *)
Definition no_activity (s s' : node) : Prop :=
  (forall cid r', aget cid (relays s') = Some r' ->
     exists r, aget cid (relays s) = Some r /\ la (r_ro r') = la (r_ro r) /\ creation (r_ro r') = creation (r_ro r))
  /\ (forall cid e', aget cid (exits s') = Some e' ->
     exists e, aget cid (exits s) = Some e /\ la (e_ro e') = la (e_ro e) /\ creation (e_ro e') = creation (e_ro e))
  /\ (forall cid c', aget cid (circuits s') = Some c' ->
     exists c, aget cid (circuits s) = Some c /\ la (c_ro c') = la (c_ro c) /\ creation (c_ro c') = creation (c_ro c)).

Definition same_stamps {A} (f : A -> ro) (l l' : list (Z * A)) : Prop :=
  forall cid x', aget cid l' = Some x' ->
    exists x, aget cid l = Some x /\ la (f x') = la (f x) /\ creation (f x') = creation (f x).

Lemma same_stamps_refl {A} (f : A -> ro) l : same_stamps f l l.
Proof. intros cid x H. exists x. auto. Qed.

Lemma same_stamps_trans {A} (f : A -> ro) a b c : same_stamps f a b -> same_stamps f b c -> same_stamps f a c.
Proof.
  intros H1 H2 cid x H. destruct (H2 _ _ H) as (y & Hy & L & K). destruct (H1 _ _ Hy) as (z & Hz & L' & K').
  exists z. split; [exact Hz|]. split; [exact (eq_trans L L') | exact (eq_trans K K')].
Qed.

Lemma same_stamps_aset {A} (f : A -> ro) l cid x x1 :
  aget cid l = Some x -> la (f x1) = la (f x) -> creation (f x1) = creation (f x) -> same_stamps f l (aset cid x1 l).
Proof.
  intros Hx L C k y H. rewrite aget_aset in H. destruct (k =? cid) eqn:E; [|exists y; auto].
  apply Z.eqb_eq in E; subst k. inversion H; subst y. exists x. auto.
Qed.

Lemma same_stamps_adel {A} (f : A -> ro) l cid : same_stamps f l (adel cid l).
Proof. intros k y H. rewrite aget_adel in H. destruct (k =? cid); [discriminate | exists y; auto]. Qed.

Lemma no_activity_refl s : no_activity s s.
Proof. repeat split; apply same_stamps_refl. Qed.

Lemma no_activity_trans a b c : no_activity a b -> no_activity b c -> no_activity a c.
Proof.
  intros (R1 & E1 & C1) (R2 & E2 & C2).
  split; [exact (same_stamps_trans r_ro _ _ _ R1 R2)|].
  split; [exact (same_stamps_trans e_ro _ _ _ E1 E2) | exact (same_stamps_trans c_ro _ _ _ C1 C2)].
Qed.

Lemma no_activity_tables s s' :
  relays s' = relays s -> exits s' = exits s -> circuits s' = circuits s -> no_activity s s'.
Proof. intros R E C. unfold no_activity. rewrite R, E, C. apply no_activity_refl. Qed.

Lemma send_cell_no_activity s dst cid mid ls : no_activity s (fst (fst (send_cell st s dst cid mid ls))).
Proof.
  unfold send_cell. destruct (take ls) as [n ls'].
  destruct (aget cid (circuits s)) as [c|] eqn:Ec; simpl.
  - split; [apply same_stamps_refl|]. split; [apply same_stamps_refl|].
    apply (same_stamps_aset c_ro _ _ c); auto.
  - destruct (aget cid (relays s)) as [r|] eqn:Er; simpl; [|apply no_activity_refl].
    split; [|split; apply same_stamps_refl]. apply (same_stamps_aset r_ro _ _ r); auto.
Qed.

Lemma ping_all_no_activity cs s ls : no_activity s (fst (ping_all st s cs ls)).
Proof. apply ping_all_rel; [exact no_activity_refl | exact no_activity_trans | exact send_cell_no_activity]. Qed.

Lemma finish_remove_no_activity s k cid : no_activity s (fst (finish_remove s k cid)).
Proof.
  destruct k; simpl.
  - split; [apply same_stamps_refl|]. split; [apply same_stamps_refl | apply same_stamps_adel].
  - split; [apply same_stamps_adel|]. split; apply same_stamps_refl.
  - destruct (aget cid (exits s)); simpl; [|apply no_activity_refl].
    split; [apply same_stamps_refl|]. split; [apply same_stamps_adel | apply same_stamps_refl].
Qed.

(* apart from the processing of a cell (ERecvCell, and the handler bodies / tasks it defers, ERun) and the
   creation of an own circuit, no event creates an entry or advances an activity stamp *)
Definition is_traffic (e : ev) : bool :=
  match e with
  | ERecvCell _ _ _ _ _ _ _ | ERun _ _ _ _ _ _ _ | ECreateCircuit _ _ _ _ => true
  | _ => false
  end.

Lemma quiet_events_no_activity s e :
  is_traffic e = false -> no_activity s (fst (step_at st s e)).
Proof.
  destruct e as [src cid plain early len cr ls|src cid reason| |ls|i eo tg tc nb p ls|i|cid|cid|number
                 |cid goal p ls|k cid dd rn|dst cid ls|cid len allowed ls]; simpl; try discriminate; intros _.
  - apply no_activity_tables; apply recv_destroy_tables.
  - apply no_activity_tables; reflexivity.
  - apply ping_all_no_activity.
  - destruct (nth_error (sleeping s) i) as [[[due k] cid]|]; [|apply no_activity_refl].
    exact (finish_remove_no_activity (set_sleeping (remove_nth i (sleeping s)) s) k cid).
  - destruct (aget cid (retries s)) as [rt|]; [|apply no_activity_refl].
    destruct (aget cid (circuits s)) as [c|]; [destruct (c_closing c); [|destruct (retry_gives_up (rt_cands rt) (rt_tries rt))]|];
      apply no_activity_tables; reflexivity.
  - apply no_activity_tables; reflexivity.
  - apply no_activity_tables; reflexivity.
  - apply no_activity_tables; reflexivity.
  - rewrite fst_let3. apply send_cell_no_activity.
  - destruct (aget cid (exits s)) as [e|] eqn:Ee; [|apply no_activity_refl].
    set (s1 := set_exits (aset cid (e_with_ro (ro_down len) e) (exits s)) s).
    assert (X1 : no_activity s s1).
    { split; [apply same_stamps_refl|]. split; [|apply same_stamps_refl].
      apply (same_stamps_aset e_ro _ _ e); auto. }
    destruct allowed; [|exact X1]. rewrite fst_let3.
    eapply no_activity_trans; [exact X1 | apply send_cell_no_activity].
Qed.

Definition opened (e : exitsock) : bool := e_enabled e && e_open e.

(* every exit socket with open transports is still in the table with open transports afterwards,
   or its transports were closed by this event *)
Definition sockets_kept (s s' : node) (o : list out) : Prop :=
  forall cid x, aget cid (exits s) = Some x -> opened x = true ->
    (exists x', aget cid (exits s') = Some x' /\ opened x' = true) \/ In (OClose cid) o.

(* every route of s' continues a route of s (same creation stamp) with a counter that is not smaller,
   or was created at this very moment *)
Definition routes_cont (s s' : node) : Prop :=
  forall cid r', aget cid (relays s') = Some r' ->
    (exists r, aget cid (relays s) = Some r /\ r_early r <= r_early r' /\ creation (r_ro r') = creation (r_ro r))
    \/ creation (r_ro r') = now s.

(* clock, routes and sockets are followed through the code together *)
Definition frame (s s' : node) (o : list out) : Prop :=
  now s' = now s /\ routes_cont s s' /\ sockets_kept s s' o.

Lemma routes_same s s' : relays s' = relays s -> routes_cont s s'.
Proof. intros E cid r' H. left. exists r'. rewrite E in H. repeat split; auto. apply Z.le_refl. Qed.

Lemma sockets_kept_same s s' o : exits s' = exits s -> sockets_kept s s' o.
Proof. intros E cid x H Ho. left. exists x. rewrite E. auto. Qed.

Lemma sockets_kept_trans a b c o1 o2 :
  sockets_kept a b o1 -> sockets_kept b c o2 -> sockets_kept a c (o1 ++ o2).
Proof.
  intros K1 K2 cid x H Ho. destruct (K1 _ _ H Ho) as [(y & Hy & Hoy)|Hin]; [|right; apply in_or_app; left; exact Hin].
  destruct (K2 _ _ Hy Hoy) as [G|Hin]; [left; exact G | right; apply in_or_app; right; exact Hin].
Qed.

Lemma frame_same s s' o : now s' = now s -> relays s' = relays s -> exits s' = exits s -> frame s s' o.
Proof. intros En Er Ee. split; [exact En|]. split; [apply routes_same; exact Er | apply sockets_kept_same; exact Ee]. Qed.

Lemma frame_trans a b c o : frame a b o -> frame b c o -> frame a c o.
Proof.
  intros (N1 & R1 & K1) (N2 & R2 & K2). split; [exact (eq_trans N2 N1)|]. split.
  - intros cid r' H. destruct (R2 _ _ H) as [(rb & Hb & Le & Cr)|Hn]; [|right; exact (eq_trans Hn N1)].
    destruct (R1 _ _ Hb) as [(ra & Ha & Le' & Cr')|Hn]; [left | right; exact (eq_trans Cr Hn)].
    exists ra. split; [exact Ha|]. split; [exact (Z.le_trans _ _ _ Le' Le) | exact (eq_trans Cr Cr')].
  - intros cid x H Ho. destruct (K1 _ _ H Ho) as [(y & Hy & Hoy)|Hin]; [exact (K2 _ _ Hy Hoy) | right; exact Hin].
Qed.

Lemma frame_more s s' o o' : frame s s' o -> (forall x, In x o -> In x o') -> frame s s' o'.
Proof.
  intros (N & R & K) Hi. split; [exact N|]. split; [exact R|].
  intros cid x H Ho. destruct (K _ _ H Ho) as [G|G]; [left; exact G | right; apply Hi; exact G].
Qed.

Lemma frame_set_relay s cid r1 o :
  ((exists r, aget cid (relays s) = Some r /\ r_early r <= r_early r1 /\ creation (r_ro r1) = creation (r_ro r))
   \/ creation (r_ro r1) = now s) ->
  frame s (set_relays (aset cid r1 (relays s)) s) o.
Proof.
  intros Hr. split; [reflexivity|]. split; [|apply sockets_kept_same; reflexivity].
  intros c r' H. simpl in H. rewrite aget_aset in H. destruct (c =? cid) eqn:E.
  - apply Z.eqb_eq in E; subst c. inversion H; subst r'. exact Hr.
  - left. exists r'. repeat split; auto. apply Z.le_refl.
Qed.

Lemma frame_set_exit s cid e1 o :
  (forall e, aget cid (exits s) = Some e -> opened e = true -> opened e1 = true) ->
  frame s (set_exits (aset cid e1 (exits s)) s) o.
Proof.
  intros Hk. split; [reflexivity|]. split; [apply routes_same; reflexivity|].
  intros c x H Ho. left. simpl. rewrite aget_aset. destruct (c =? cid) eqn:E.
  - apply Z.eqb_eq in E; subst c. exists e1. split; [reflexivity | eapply Hk; eauto].
  - exists x. auto.
Qed.

Lemma send_cell_frame s dst cid mid ls o : frame s (fst (fst (send_cell st s dst cid mid ls))) o.
Proof.
  unfold send_cell. destruct (take ls) as [n ls'].
  destruct (aget cid (circuits s)); [apply frame_same; reflexivity|].
  destruct (aget cid (relays s)) as [r|] eqn:Er; [|apply frame_same; reflexivity].
  apply frame_set_relay. left. exists r. split; [exact Er|]. split; [apply Z.le_refl | reflexivity].
Qed.

Lemma start_hop_frame s cid c tries ini p ls o : frame s (fst (fst (start_hop st s cid c tries ini p ls))) o.
Proof.
  unfold start_hop. destruct (p_next p); [|apply frame_same; reflexivity].
  eapply frame_trans; [|apply send_cell_frame]. apply frame_same; reflexivity.
Qed.

Lemma ours_frame s cid v p ls o : frame s (fst (fst (ours st s cid v p ls))) o.
Proof.
  unfold ours. destruct (aget cid (circuits s)) as [c|]; [|apply frame_same; reflexivity].
  destruct (c_unver c); [|apply frame_same; reflexivity]. destruct v; try (apply frame_same; reflexivity).
  match goal with |- context [if ?b then _ else _] => destruct b end.
  - match goal with |- context [match ?x with _ => _ end] => destruct x end; [|apply frame_same; reflexivity].
    eapply frame_trans; [|apply start_hop_frame]. apply frame_same; reflexivity.
  - match goal with |- context [if ?b then _ else _] => destruct b end; apply frame_same; reflexivity.
Qed.

Lemma handle_frame s src cid m ls o : frame s (fst (fst (handle st s src cid m ls))) o.
Proof.
  destruct m as [ident|ident v p|ident|ident v p|a b c len| | |mid]; simpl; try (apply frame_same; reflexivity).
  - destruct (aget ident (creates s)) as [cc|].
    + destruct (ahas (cc_from cc) (relays s)); [apply frame_same; reflexivity|].
      destruct (aget (cc_from cc) (exits s)); [|apply frame_same; reflexivity].
      eapply frame_trans; [|apply send_cell_frame].
      set (s2 := defer (DRemove KExit (cc_from cc) 0 true) (set_creates (adel ident (creates s)) s)).
      set (bw := mkRelay (ro_new (now s)) (cc_from cc) (cc_peer cc) false RELAY_EARLY_INIT).
      set (fw := mkRelay (ro_new (now s)) (cc_to cc) (cc_to_peer cc) true RELAY_EARLY_INIT).
      apply (frame_trans s s2); [apply frame_same; reflexivity|].
      apply (frame_trans s2 (set_relays (aset (cc_to cc) bw (relays s2)) s2)); [apply frame_set_relay; right; reflexivity|].
      exact (frame_set_relay (set_relays (aset (cc_to cc) bw (relays s2)) s2) (cc_from cc) fw o (or_intror eq_refl)).
    + destruct (aget cid (retries s)) as [rt|]; [|apply frame_same; reflexivity].
      destruct (rt_ident rt =? ident); [apply ours_frame | apply frame_same; reflexivity].
  - destruct (aget cid (retries s)) as [rt|]; [|apply frame_same; reflexivity].
    destruct (rt_ident rt =? ident); [apply ours_frame | apply frame_same; reflexivity].
  - destruct (ahas cid (circuits s) || ahas cid (exits s) || ahas cid (relays s)); [|apply frame_same; reflexivity].
    eapply frame_trans; [|apply send_cell_frame].
    destruct (aget cid (exits s)) as [e|] eqn:Ee; [|apply frame_same; reflexivity].
    apply frame_set_exit. intros e0 He0 Hop. rewrite Ee in He0. inversion He0; subst e0. exact Hop.
Qed.

Lemma handle_now' s src cid m ls : now (fst (fst (handle st s src cid m ls))) = now s.
Proof. exact (proj1 (handle_frame s src cid m ls [])). Qed.

Lemma exit_sendto_opened cid e len tnow : opened (fst (exit_sendto cid e len tnow)) = opened e.
Proof. unfold exit_sendto, opened. destruct (e_open e); reflexivity. Qed.

Lemma drain_opened cid q : forall e tnow, opened (fst (drain cid e q tnow)) = opened e.
Proof.
  induction q as [|len tl IH]; intros e tnow; simpl; [reflexivity|].
  pose proof (exit_sendto_opened cid e len tnow) as H1.
  destruct (exit_sendto cid e len tnow) as [e1 o1]. simpl in H1.
  pose proof (IH e1 tnow) as H2. destruct (drain cid e1 tl tnow) as [e2 o2]. simpl in *. congruence.
Qed.

Lemma handle_data_frame s src cid a b c len o : frame s (fst (handle_data s src cid a b c len)) o.
Proof.
  unfold handle_data.
  destruct (match aget cid (circuits s) with Some c0 => a && (src =? c_first c0) | None => false end).
  - destruct (aget cid (circuits s)); apply frame_same; reflexivity.
  - destruct b; [apply frame_same; reflexivity|].
    destruct (aget cid (exits s)) as [e|] eqn:Ee; [|apply frame_same; reflexivity].
    destruct (negb (e_enabled e) && negb (src =? e_peer e)); [apply frame_same; reflexivity|].
    set (e1 := mkExit (e_ro e) (e_peer e) true (e_open e) (e_queue e)).
    assert (K : forall e2 (o2 : list out), opened e2 = opened e1 ->
              frame s (fst (if negb (e_enabled e) then defer (DOpen cid) (set_exits (aset cid e2 (exits s)) s)
                            else set_exits (aset cid e2 (exits s)) s, o2)) o).
    { intros e2 o2 H2. apply (frame_trans s (set_exits (aset cid e2 (exits s)) s)).
      - apply frame_set_exit. intros e0 He0 Hop. rewrite Ee in He0. inversion He0; subst e0. rewrite H2.
        unfold opened in *. simpl. destruct (e_enabled e); [exact Hop | discriminate].
      - destruct (negb (e_enabled e)); apply frame_same; reflexivity. }
    destruct c; [|apply K; reflexivity].
    pose proof (exit_sendto_opened cid e1 len (now s)) as Ho.
    destruct (exit_sendto cid e1 len (now s)) as [e2 o2]. apply K. exact Ho.
Qed.

Lemma recv_cell_frame s src cid plain early len cr ls o :
  frame s (fst (recv_cell st s src cid plain early len cr ls)) o.
Proof.
  unfold recv_cell. destruct (aget cid (relays s)) as [nxt|].
  - set (s1 := match aget (r_next nxt) (relays s) with
               | Some this => set_relays (aset (r_next nxt) (r_with_ro (fun r => ro_down len (ro_beat (now s) r)) this) (relays s)) s
               | None => s end).
    assert (X1 : frame s s1 o).
    { unfold s1. destruct (aget (r_next nxt) (relays s)) as [this|] eqn:Et; [|apply frame_same; reflexivity].
      apply frame_set_relay. left. exists this. split; [exact Et|]. split; [apply Z.le_refl | reflexivity]. }
    destruct plain; [exact X1|].
    destruct (aget cid (relays s1)) as [nxt1|] eqn:En1; [|exact X1].
    destruct (relay_drops_early early (r_early nxt1) (s_max_early st)); [exact X1|].
    destruct cr as [| |m]; try exact X1.
    destruct (take ls) as [n ls']. apply (frame_trans s s1); [exact X1|].
    apply frame_set_relay. left. exists nxt1. split; [exact En1|]. split; [apply Z.le_succ_diag_r | reflexivity].
  - destruct (negb (ahas cid (circuits s)) && negb (ahas cid (exits s)) && negb plain); [apply frame_same; reflexivity|].
    destruct cr as [| |m]; try (apply frame_same; reflexivity).
    destruct (recv_drops_early early (msg_id m) (s_max_early st)); [apply frame_same; reflexivity|].
    destruct (plain && negb (existsb (Z.eqb (msg_id m)) NO_CRYPTO_PACKETS)); [apply frame_same; reflexivity|].
    assert (G : forall s1 (o1 : list out), frame s s1 o ->
              frame s (fst match aget cid (circuits s1) with
                           | Some c => (set_circuits (aset cid (c_with_ro (fun r => ro_down len (ro_beat (now s) r)) c) (circuits s1)) s1, o1)
                           | None => (s1, o1) end) o).
    { intros s1 o1 K. destruct (aget cid (circuits s1)); [|exact K].
      apply (frame_trans s s1); [exact K | apply frame_same; reflexivity]. }
    destruct m as [ident|ident v p|ident|ident v p|a b c dl| | |mid].
    5:{ pose proof (handle_data_frame s src cid a b c dl o) as K.
        destruct (handle_data s src cid a b c dl) as [s1 o1]. apply G. exact K. }
    all: match goal with |- context [handle st ?S ?A ?B ?M ?L] =>
           pose proof (handle_frame S A B M L o) as K;
           destruct (handle st S A B M L) as [[s1 o1] l]; apply G; exact K end.
Qed.

Lemma finish_remove_frame s k cid : frame s (fst (finish_remove s k cid)) (snd (finish_remove s k cid)).
Proof.
  destruct k; simpl; [apply frame_same; reflexivity | |].
  - split; [reflexivity|]. split; [|apply sockets_kept_same; reflexivity].
    intros c r' H. simpl in H. rewrite aget_adel in H. destruct (c =? cid); [discriminate|].
    left. exists r'. repeat split; auto. apply Z.le_refl.
  - destruct (aget cid (exits s)) as [e|] eqn:Ee; simpl; [|apply frame_same; reflexivity].
    split; [reflexivity|]. split; [apply routes_same; reflexivity|].
    intros c x H Ho. destruct (Z.eq_dec c cid) as [E|E].
    + subst c. rewrite Ee in H. inversion H; subst x. right. unfold opened in Ho. rewrite Ho. left; reflexivity.
    + left. exists x. simpl. rewrite aget_adel. destruct (c =? cid) eqn:E'; [apply Z.eqb_eq in E'; contradiction | auto].
Qed.

Lemma start_remove_frame s k cid dd rn :
  frame s (fst (start_remove st s k cid dd rn)) (snd (start_remove st s k cid dd rn)).
Proof.
  unfold start_remove. destruct k.
  1:{ simpl aget. destruct (aget cid (circuits s)) as [c|]; cbn [fst snd]; [|apply frame_same; reflexivity].
      destruct (negb rn || (0 <? s_remove_delay st)); simpl; apply frame_same; reflexivity. }
  all: cbn [fst snd]; (destruct (negb rn || (0 <? s_remove_delay st)); [apply frame_same; reflexivity|]);
    match goal with |- context [finish_remove ?S ?K ?C] =>
      pose proof (finish_remove_frame S K C) as F; destruct (finish_remove S K C) as [s2 o2] end;
    simpl in *; apply (frame_more _ _ _ _ F); intros x Hx; apply in_or_app; right; exact Hx.
Qed.

Lemma run_deferred_frame s d eo tg tc nb p ls :
  frame s (fst (run_deferred st s d eo tg tc nb p ls)) (snd (run_deferred st s d eo tg tc nb p ls)).
Proof.
  destruct d as [k c dd rn|src cid ident|src cid ident|c t i|cid]; cbn [run_deferred].
  - apply start_remove_frame.
  - destruct (negb (s_any_flag st)); [apply frame_same; reflexivity|].
    destruct (ahas cid (createds s)); [apply frame_same; reflexivity|].
    destruct (ahas cid (circuits s) || ahas cid (relays s) || ahas cid (exits s)) eqn:Eu; [apply frame_same; reflexivity|].
    destruct (negb (should_join (s_max_joined st) (zlen (relays s)) (zlen (exits s)))); [apply frame_same; reflexivity|].
    rewrite fst_let3. eapply frame_trans; [|apply send_cell_frame].
    set (s1 := set_createds (aset cid (now s + s_unstable_timeout st) (createds s)) s).
    apply (frame_trans s s1); [apply frame_same; reflexivity|].
    apply frame_set_exit. intros e0 He0. apply orb_false_iff in Eu. destruct Eu as [_ Eu].
    unfold ahas in Eu. simpl in He0. rewrite He0 in Eu. discriminate.
  - destruct (negb (s_relay_flag st)); [apply frame_same; reflexivity|].
    destruct (negb (ahas cid (createds s))); [apply frame_same; reflexivity|].
    destruct (negb eo); [apply frame_same; reflexivity|].
    match goal with |- context [match ?x with Some _ => _ | None => _ end] => destruct x as [prev|] end;
      [|apply frame_same; reflexivity].
    rewrite fst_let3. eapply frame_trans; [|apply send_cell_frame]. apply frame_same; reflexivity.
  - destruct (aget c (circuits s)) as [ci|]; [|apply frame_same; reflexivity].
    rewrite fst_let3. apply start_hop_frame.
  - destruct (aget cid (exits s)) as [e|] eqn:Ee; [|apply frame_same; reflexivity].
    destruct (e_enabled e && negb (e_open e)); [|apply frame_same; reflexivity].
    pose proof (drain_opened cid (e_queue e) (mkExit (e_ro e) (e_peer e) true true []) (now s)) as Ho.
    destruct (drain cid (mkExit (e_ro e) (e_peer e) true true []) (e_queue e) (now s)) as [e2 o]. simpl in *.
    apply frame_set_exit. intros e0 He0 Hop. rewrite Ho. reflexivity.
Qed.

Lemma ping_all_frame cs s ls o : frame s (fst (ping_all st s cs ls)) o.
Proof.
  apply (ping_all_rel st (fun a b => frame a b o)); [| |intros; apply send_cell_frame].
  - intro a. apply frame_same; reflexivity.
  - intros a b c. apply frame_trans.
Qed.

Lemma step_frame s e : frame s (fst (step_at st s e)) (snd (step_at st s e)).
Proof.
  destruct e as [src cid plain early len cr ls|src cid reason| |ls|i eo tg tc nb p ls|i|cid|cid|number
                 |cid goal p ls|k cid dd rn|dst cid ls|cid len allowed ls]; cbn [step_at].
  - apply recv_cell_frame.
  - apply frame_same; apply recv_destroy_tables.
  - apply frame_same; reflexivity.
  - apply ping_all_frame.
  - destruct (nth_error (starts s) i) as [d|]; [|apply frame_same; reflexivity].
    exact (run_deferred_frame (set_starts (remove_nth i (starts s)) s) d eo tg tc nb p ls).
  - destruct (nth_error (sleeping s) i) as [[[due k] cid]|]; [|apply frame_same; reflexivity].
    exact (finish_remove_frame (set_sleeping (remove_nth i (sleeping s)) s) k cid).
  - destruct (aget cid (retries s)) as [rt|]; [|apply frame_same; reflexivity]. simpl aget.
    destruct (aget cid (circuits s)) as [c|]; [destruct (c_closing c); [|destruct (retry_gives_up (rt_cands rt) (rt_tries rt))]|];
      apply frame_same; reflexivity.
  - apply frame_same; reflexivity.
  - apply frame_same; reflexivity.
  - destruct (p_next p); [|apply frame_same; reflexivity].
    rewrite fst_let3. eapply frame_trans; [|apply start_hop_frame]. apply frame_same; reflexivity.
  - apply frame_same; reflexivity.
  - rewrite fst_let3. apply send_cell_frame.
  - destruct (aget cid (exits s)) as [e|] eqn:Ee; [|apply frame_same; reflexivity].
    assert (K : forall o, frame s (set_exits (aset cid (e_with_ro (ro_down len) e) (exits s)) s) o).
    { intro o. apply frame_set_exit. intros e0 He0 Hop. rewrite Ee in He0. inversion He0; subst e0. exact Hop. }
    destruct allowed; [|apply K].
    rewrite fst_let3. eapply frame_trans; [apply K | apply send_cell_frame].
Qed.

End Frames.
