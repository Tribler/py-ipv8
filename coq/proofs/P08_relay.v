(* C08, relay side: a created becomes an extended only through the pending CreateRequestCache entry it names,
   the entry is consumed, and the key material travels unmodified in both directions. *)
From Coq Require Import ZArith List.
From IPV8V Require Import model.M08_handshake proofs.P08_base proofs.P08_origin.
Import ListNotations.
Open Scope Z_scope.

Section Relay.
Variable C : crypto.
Implicit Types (n : @node C) (m : @msg C).

Lemma ours_creq n cid Y au ce o : n_creq (st (ours n cid Y au ce o)) = n_creq n.
Proof.
  destruct (ours_spec C n cid Y au ce o) as [[[e ->] _]|(c & h & _ & _ & T)]; [reflexivity|].
  exact (proj1 (after_accept_touches C _ _ _ _ _ T)).
Qed.

Definition is_extended (a : @action C) : bool :=
  match a with Send _ (MExtended _ _ _ _ _) => true | _ => false end.

Lemma sic_no_extended n cid cands tries o :
  forall a, In a (acts (send_initial_create n cid cands tries o)) -> is_extended a = false.
Proof.
  destruct (sic_cases n cid cands tries o) as [E|[E|(c & f & alt & _ & _ & E)]]; rewrite E;
    [intros a [] ..|intros a [<-|[]]; reflexivity].
Qed.

Lemma sext_no_extended n cid cands tries o :
  forall a, In a (acts (send_extend n cid cands tries o)) -> is_extended a = false.
Proof.
  destruct (sext_cases n cid cands tries o) as [[e E]|[E|(c & t & alt & fa & ad & _ & E)]]; rewrite E;
    [intros a [] ..|intros a [<-|[]]; reflexivity].
Qed.

Lemma ours_no_extended n cid Y au ce o :
  forall a, In a (acts (ours n cid Y au ce o)) -> is_extended a = false.
Proof.
  destruct (ours_spec C n cid Y au ce o) as [[[e ->] _]|(c & h & _ & _ & T)]; [intros a []|].
  destruct T as [e _| _ | _ |cs tries _]; [intros a [] ..|]. apply sext_no_extended.
Qed.

Lemma on_extend_out_l n src rc pid npk X addr o a :
  In a (acts (handle n src (MExtend rc pid npk X addr) o)) ->
  exists pv cd,
    a = Send (p_addr cd) (MCreate (o_cid o) (o_num o) (n_pkbin n) X)
    /\ handle n src (MExtend rc pid npk X addr) o
       = (set_creq n (aset (o_num o) (mkCreq pid (o_cid o) rc pv cd) (n_creq n)), [a], None)
    /\ (o_known o = None -> p_key cd = npk).
Proof.
  cbn [handle]. destruct (on_extend_cases n src rc pid npk X addr o) as [[e ->]|(pv & cd & KN & ->)]; [intros []|].
  intros [<-|[]]. exists pv, cd. auto.
Qed.

Lemma on_created_relay_l n src cid i Y au ce o q :
  aget i (n_creq n) = Some q ->
  let n1 := set_creq n (adel i (n_creq n)) in
  handle n src (MCreated cid i Y au ce) o =
    match aget (q_from q) (n_exit n) with
    | None => (n1, [], None)
    | Some eh =>
        if ahas (q_from q) (n_relay n) then (n1, [], None) else
        (set_relay n1 (aset (q_from q) (mkRoute (q_to q) (mkHop (q_to_peer q) (h_keys eh) None) true)
                        (aset (q_to q) (mkRoute (q_from q) (mkHop (q_peer q) (h_keys eh) None) false) (n_relay n))),
         [RmExit (q_from q); Send (p_addr (q_peer q)) (MExtended (q_from q) (q_ident q) Y au ce)], None)
    end.
Proof. intros Q. cbn [handle]. unfold on_created. rewrite Q. reflexivity. Qed.

(* the event is a created that names a pending CreateRequestCache entry: the relay's half of an extend *)
Definition relay_answer n (e : @event C) : Prop :=
  match e with EvMsg _ (MCreated _ i _ _ _) _ => aget i (n_creq n) <> None | _ => False end.

Lemma relay_answer_cases n e :
  (exists src cid i Y au ce o q, e = EvMsg src (MCreated cid i Y au ce) o /\ aget i (n_creq n) = Some q)
  \/ ~ relay_answer n e.
Proof.
  destruct e as [| src [|cid i Y au ce| |] o| | | |]; try (right; exact (fun K => K)).
  destruct (aget i (n_creq n)) as [q|] eqn:Q; [left; do 8 eexists; split; [reflexivity|exact Q]|right; exact (fun K => K Q)].
Qed.

(* every other event sends no extended and leaves the CreateRequestCache table alone, but for the entry an
   extend adds *)
Lemma step_frame n e :
  ~ relay_answer n e ->
  (forall a, In a (acts (step n e)) -> is_extended a = false)
  /\ (n_creq (st (step n e)) = n_creq n
      \/ exists src rc pid npk X ad o pv cd,
           e = EvMsg src (MExtend rc pid npk X ad) o
           /\ n_creq (st (step n e)) = aset (o_num o) (mkCreq pid (o_cid o) rc pv cd) (n_creq n)).
Proof.
  intros NR. destruct e as [cid goal re firsts tries o|src m o|cid o|cid|cid|cid]; cbn [step].
  - destruct (ahas cid (n_circ n)); [split; [intros a []|left; reflexivity]|].
    split; [apply sic_no_extended|left; exact (proj1 (sic_touches _ cid firsts tries o))].
  - destruct m as [k0 i npk X|k0 i Y au ce|k0 i npk X ad|k0 i Y au ce].
    + cbn [handle]. destruct (on_create_cases n src k0 i npk X o) as [[e ->]|(s1 & s2 & _ & _ & ->)];
        (split; [|left; reflexivity]); [intros a []|intros a [<-|[]]; reflexivity].
    + destruct (answer_cases C n src (MCreated k0 i Y au ce) o k0 i Y au ce eq_refl)
        as [(q & _ & Q & _)|[_ [->|(r & _ & _ & ->)]]]; [destruct NR; cbn; congruence| |];
        [split; [intros a []|left; reflexivity]|split; [apply ours_no_extended|left; apply ours_creq]].
    + cbn [handle]. destruct (on_extend_cases n src k0 i npk X ad o) as [[e ->]|(pv & cd & _ & ->)].
      * split; [intros a []|left; reflexivity].
      * split; [intros a [<-|[]]; reflexivity|]. right. do 9 eexists. split; reflexivity.
    + destruct (answer_cases C n src (MExtended k0 i Y au ce) o k0 i Y au ce eq_refl)
        as [(q & K & _)|[_ [->|(r & _ & _ & ->)]]]; [discriminate K| |];
        [split; [intros a []|left; reflexivity]|split; [apply ours_no_extended|left; apply ours_creq]].
  - split; [|left; exact (proj1 (retry_timeout_touches n cid o))].
    destruct (retry_timeout_cases n cid o) as [E|(rt & _ & [E|[E|(c & _ & _ & [[_ E]|[_ E]])]])]; rewrite E;
      [intros a [] ..| |]; [apply sic_no_extended|apply sext_no_extended].
  - split; [intros a []|left]. unfold run_remove.
    match goal with |- context [aget cid (n_circ ?n1)] => destruct (aget cid (n_circ n1)) end; reflexivity.
  - split; [intros a []|left; reflexivity].
  - split; [intros a []|left; reflexivity].
Qed.

Lemma extended_only_for_pending_l n e a f j Y au ce :
  In (Send a (MExtended f j Y au ce)) (acts (step n e)) ->
  exists src cid i o q,
    e = EvMsg src (MCreated cid i Y au ce) o
    /\ aget i (n_creq n) = Some q /\ f = q_from q /\ j = q_ident q /\ a = p_addr (q_peer q)
    /\ aget i (n_creq (st (step n e))) = None.
Proof.
  intros I.
  assert (FR : ~ relay_answer n e -> False).
  { intros NR. apply (proj1 (step_frame n e NR)) in I. discriminate. }
  destruct (relay_answer_cases n e) as [(src & k0 & i & Y0 & au0 & ce0 & o & q & -> & Q)|NR]; [|destruct (FR NR)].
  cbn [step] in *. rewrite (on_created_relay_l n src k0 i Y0 au0 ce0 o q Q) in *.
  destruct (aget (q_from q) (n_exit n)) as [eh|]; [|destruct I].
  destruct (ahas (q_from q) (n_relay n)); [destruct I|].
  destruct I as [K|[K|[]]]; [discriminate|]. inversion K; subst.
  exists src, k0, i, o, q. repeat split; [exact Q|]. apply aget_adel_same.
Qed.

Lemma creq_only_from_extend_l n e num q :
  aget num (n_creq (st (step n e))) = Some q -> aget num (n_creq n) <> Some q ->
  exists src rc pid npk X addr o,
    e = EvMsg src (MExtend rc pid npk X addr) o /\ num = o_num o
    /\ q_ident q = pid /\ q_from q = rc /\ q_to q = o_cid o.
Proof.
  intros H N.
  assert (FR : ~ relay_answer n e ->
               exists src rc pid npk X addr o, e = EvMsg src (MExtend rc pid npk X addr) o /\ num = o_num o
                 /\ q_ident q = pid /\ q_from q = rc /\ q_to q = o_cid o).
  { intros NR. destruct (proj2 (step_frame n e NR)) as [E|(src & rc & pid & npk & X & ad & o & pv & cd & -> & E)];
      rewrite E in H; [destruct (N H)|].
    rewrite aget_aset in H. destruct (num =? o_num o) eqn:E'; [|destruct (N H)].
    apply Z.eqb_eq in E'. injection H as <-. exists src, rc, pid, npk, X, ad, o. cbn. auto 10. }
  destruct (relay_answer_cases n e) as [(src & k0 & i & Y0 & au0 & ce0 & o & q0 & -> & Q)|NR]; [|exact (FR NR)].
  exfalso. cbn [step] in H. rewrite (on_created_relay_l n src k0 i Y0 au0 ce0 o q0 Q) in H.
  assert (K : aget num (adel i (n_creq n)) = Some q).
  { destruct (aget (q_from q0) (n_exit n)); [destruct (ahas (q_from q0) (n_relay n))|]; exact H. }
  rewrite aget_adel in K. destruct (num =? i); [discriminate|]. exact (N K).
Qed.

End Relay.
