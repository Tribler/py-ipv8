(* C12 - basic lemmas: address equality, association lists, list utilities, the object heap, and the first facts
   about the model's helpers (evict, am_update, intros_of, svc_lookup). *)
From Coq Require Import ZArith List Bool Lia.
From IPV8V Require Import lib.Lists lib.Bytes model.M02_wire model.M12_network proofs.P02_prims.
Import ListNotations.
Open Scope Z_scope.

Lemma reflect_false (b : bool) (P : Prop) : (b = true <-> P) -> (b = false <-> ~ P).
Proof. intros H. rewrite <- H. destruct b; split; congruence. Qed.

Lemma addr_eqb_eq a b : addr_eqb a b = true <-> a = b.
Proof.
  destruct a as [i p|i p|i p], b as [j q|j q|j q]; simpl; split; intro H; try discriminate;
    try (apply andb_true_iff in H as [H1 H2]; apply bytes_eqb_eq in H1; apply Z.eqb_eq in H2; congruence);
    inversion H; subst; rewrite bytes_eqb_refl, Z.eqb_refl; reflexivity.
Qed.

Lemma addr_eqb_neq a b : addr_eqb a b = false <-> a <> b.
Proof. exact (reflect_false _ _ (addr_eqb_eq a b)). Qed.

Lemma addr_eqb_sym a b : addr_eqb a b = addr_eqb b a.
Proof.
  destruct (addr_eqb a b) eqn:E.
  - apply addr_eqb_eq in E. subst. symmetry. apply addr_eqb_refl.
  - symmetry. apply addr_eqb_neq. apply addr_eqb_neq in E. congruence.
Qed.

Lemma mem_z_In x l : mem_z x l = true <-> In x l.
Proof. exact (existsb_eqb_In Z.eqb Z.eqb_eq x l). Qed.

Lemma mem_z_false x l : mem_z x l = false <-> ~ In x l.
Proof. exact (reflect_false _ _ (mem_z_In x l)). Qed.

Lemma mem_addr_In x l : mem_addr x l = true <-> In x l.
Proof. exact (existsb_eqb_In addr_eqb addr_eqb_eq x l). Qed.

Lemma mem_addr_false x l : mem_addr x l = false <-> ~ In x l.
Proof. exact (reflect_false _ _ (mem_addr_In x l)). Qed.

Lemma filter_map_comm {A B} (f : B -> bool) (g : A -> B) l :
  filter f (map g l) = map g (filter (fun x => f (g x)) l).
Proof. induction l as [|x l IH]; simpl; [reflexivity|]. destruct (f (g x)); simpl; rewrite IH; reflexivity. Qed.

Lemma flat_map_map {A B C} (f : B -> list C) (g : A -> B) l : flat_map f (map g l) = flat_map (fun x => f (g x)) l.
Proof. induction l as [|x l IH]; simpl; [reflexivity|]. rewrite IH. reflexivity. Qed.

Lemma filter_true {A} (l : list A) : filter (fun _ => true) l = l.
Proof. induction l as [|x l IH]; simpl; [reflexivity|]. rewrite IH. reflexivity. Qed.

Section DictLemmas.
  Context {K V : Type} (eqb : K -> K -> bool).
  Hypothesis eqb_eq : forall a b, eqb a b = true <-> a = b.

  Lemma eqb_refl' a : eqb a a = true.
  Proof. apply eqb_eq. reflexivity. Qed.

  Lemma eqb_neq' a b : eqb a b = false <-> a <> b.
  Proof. exact (reflect_false _ _ (eqb_eq a b)). Qed.

  Lemma d_get_In k (l : list (K * V)) v : d_get eqb k l = Some v -> In (k, v) l.
  Proof.
    induction l as [|[k' v'] tl IH]; simpl; [discriminate|].
    destruct (eqb k' k) eqn:E.
    - intros H. inversion H; subst. apply eqb_eq in E. subst. left. reflexivity.
    - intros H. right. apply IH. assumption.
  Qed.

  Lemma d_get_None k (l : list (K * V)) : d_get eqb k l = None <-> ~ In k (map fst l).
  Proof.
    induction l as [|[k' v'] tl IH]; simpl.
    - split; [intros _ []|reflexivity].
    - destruct (eqb k' k) eqn:E.
      + apply eqb_eq in E. subst. split; [discriminate|]. intros H. exfalso. apply H. left. reflexivity.
      + apply eqb_neq' in E. rewrite IH. split.
        * intros H [H1|H1]; [contradiction|]. apply H. assumption.
        * intros H H1. apply H. right. assumption.
  Qed.

  Lemma d_mem_In k (l : list (K * V)) : d_mem eqb k l = true <-> In k (map fst l).
  Proof.
    unfold d_mem. destruct (d_get eqb k l) eqn:E.
    - split; [|reflexivity]. intros _. apply d_get_In in E. apply in_map_iff. exists (k, v). auto.
    - split; [discriminate|]. intros H. apply d_get_None in E. contradiction.
  Qed.

  Lemma d_mem_false k (l : list (K * V)) : d_mem eqb k l = false <-> ~ In k (map fst l).
  Proof. exact (reflect_false _ _ (d_mem_In k l)). Qed.

  Lemma In_d_del e k (l : list (K * V)) : In e (d_del eqb k l) <-> In e l /\ fst e <> k.
  Proof.
    unfold d_del. rewrite filter_In. split; intros [H1 H2]; split; try assumption.
    - apply negb_true_iff in H2. apply eqb_neq' in H2. assumption.
    - apply negb_true_iff. apply eqb_neq'. assumption.
  Qed.

  Lemma d_get_del k' k (l : list (K * V)) :
    d_get eqb k' (d_del eqb k l) = if eqb k k' then None else d_get eqb k' l.
  Proof.
    induction l as [|[k1 v1] tl IH]; simpl.
    - destruct (eqb k k'); reflexivity.
    - destruct (eqb k1 k) eqn:E1; simpl.
      + apply eqb_eq in E1. subst k1. rewrite IH. destruct (eqb k k'); reflexivity.
      + destruct (eqb k1 k') eqn:E2.
        * apply eqb_eq in E2. subst k1. apply eqb_neq' in E1.
          assert (E3 : eqb k k' = false) by (apply eqb_neq'; congruence). rewrite E3. reflexivity.
        * exact IH.
  Qed.

  Lemma d_get_map_set k' k v (l : list (K * V)) :
    d_get eqb k' (map (fun kv => if eqb (fst kv) k then (fst kv, v) else kv) l)
    = if eqb k k' then option_map (fun _ => v) (d_get eqb k' l) else d_get eqb k' l.
  Proof.
    induction l as [|[k1 v1] tl IH]; simpl.
    - destruct (eqb k k'); reflexivity.
    - destruct (eqb k1 k) eqn:E1; simpl.
      + apply eqb_eq in E1. subst k1. destruct (eqb k k') eqn:E2; [reflexivity|]. exact IH.
      + destruct (eqb k1 k') eqn:E2.
        * apply eqb_eq in E2. subst k1. apply eqb_neq' in E1.
          assert (E3 : eqb k k' = false) by (apply eqb_neq'; congruence). rewrite E3. reflexivity.
        * exact IH.
  Qed.

  Lemma d_get_app k (l1 l2 : list (K * V)) :
    d_get eqb k (l1 ++ l2) = match d_get eqb k l1 with Some v => Some v | None => d_get eqb k l2 end.
  Proof.
    induction l1 as [|[k1 v1] tl IH]; simpl; [reflexivity|].
    destruct (eqb k1 k); [reflexivity|exact IH].
  Qed.

  Lemma d_get_set k' k v (l : list (K * V)) :
    d_get eqb k' (d_set eqb k v l) = if eqb k k' then Some v else d_get eqb k' l.
  Proof.
    unfold d_set, d_mem. destruct (d_get eqb k l) eqn:E.
    - rewrite d_get_map_set. destruct (eqb k k') eqn:E2; [|reflexivity].
      apply eqb_eq in E2. subst k'. rewrite E. reflexivity.
    - rewrite d_get_app. simpl. destruct (eqb k k') eqn:E2.
      + apply eqb_eq in E2. subst k'. rewrite E. reflexivity.
      + destruct (d_get eqb k' l); reflexivity.
  Qed.

  Lemma In_d_set k' v' k v (l : list (K * V)) :
    In (k', v') (d_set eqb k v l) -> (k' = k /\ v' = v) \/ (k' <> k /\ In (k', v') l).
  Proof.
    unfold d_set. destruct (d_mem eqb k l) eqn:M.
    - intros H. apply in_map_iff in H as ([k1 v1] & E & Hin). simpl in E.
      destruct (eqb k1 k) eqn:E1.
      + inversion E; subst. apply eqb_eq in E1. left. auto.
      + inversion E; subst. apply eqb_neq' in E1. right. auto.
    - intros H. apply in_app_iff in H as [H|H].
      + right. split; [|assumption]. intro E. subst k'. apply d_mem_false in M. apply M.
        apply in_map_iff. exists (k, v'). auto.
      + destruct H as [H|[]]. inversion H; subst. left. auto.
  Qed.

  Lemma keys_d_set x k v (l : list (K * V)) :
    In x (map fst (d_set eqb k v l)) <-> x = k \/ In x (map fst l).
  Proof.
    unfold d_set. destruct (d_mem eqb k l) eqn:M.
    - apply d_mem_In in M.
      assert (E : map fst (map (fun kv : K * V => if eqb (fst kv) k then (fst kv, v) else kv) l) = map fst l).
      { rewrite map_map. apply map_ext. intros [k1 v1]. simpl. destruct (eqb k1 k); reflexivity. }
      rewrite E. split; [auto|]. intros [H|H]; [subst; assumption|assumption].
    - rewrite map_app, in_app_iff. simpl. split.
      + intros [H|[H|[]]]; auto.
      + intros [H|H]; auto.
  Qed.

  Lemma keys_d_del x k (l : list (K * V)) :
    In x (map fst (d_del eqb k l)) <-> x <> k /\ In x (map fst l).
  Proof.
    rewrite !in_map_iff. split.
    - intros ([k1 v1] & E & H). apply In_d_del in H as [H1 H2]. simpl in *. subst k1.
      split; [assumption|]. exists (x, v1). auto.
    - intros (Hne & [k1 v1] & E & H). simpl in E. subst k1. exists (x, v1). split; [reflexivity|].
      apply In_d_del. auto.
  Qed.

  Lemma In_d_set_same k v (l : list (K * V)) : In (k, v) (d_set eqb k v l).
  Proof.
    unfold d_set. destruct (d_mem eqb k l) eqn:M.
    - apply d_mem_In in M. apply in_map_iff in M as ([k1 v1] & E & H). simpl in E. subst k1.
      apply in_map_iff. exists (k, v1). split; [|assumption]. simpl. rewrite eqb_refl'. reflexivity.
    - apply in_app_iff. right. left. reflexivity.
  Qed.

  Lemma In_d_set_other k' v' k v (l : list (K * V)) :
    k' <> k -> In (k', v') l -> In (k', v') (d_set eqb k v l).
  Proof.
    intros Hne H. unfold d_set. destruct (d_mem eqb k l).
    - apply in_map_iff. exists (k', v'). split; [|assumption]. simpl.
      assert (E : eqb k' k = false) by (apply eqb_neq'; assumption). rewrite E. reflexivity.
    - apply in_app_iff. left. assumption.
  Qed.
  Lemma d_get_filter_key (q : K -> bool) k (l : list (K * V)) :
    d_get eqb k (filter (fun e => q (fst e)) l) = if q k then d_get eqb k l else None.
  Proof.
    induction l as [|[k1 v1] tl IH]; simpl.
    - destruct (q k); reflexivity.
    - destruct (q k1) eqn:Q1; simpl.
      + destruct (eqb k1 k) eqn:E.
        * apply eqb_eq in E. subst k1. rewrite Q1. reflexivity.
        * exact IH.
      + destruct (eqb k1 k) eqn:E.
        * apply eqb_eq in E. subst k1. rewrite Q1 in IH |- *. exact IH.
        * exact IH.
  Qed.
  Lemma d_set_absent k (v : V) d : d_mem eqb k d = false -> d_set eqb k v d = d ++ [(k, v)].
  Proof. intros H. unfold d_set. rewrite H. reflexivity. Qed.

  Lemma d_set_nonempty k (v : V) d : d_set eqb k v d <> [].
  Proof.
    unfold d_set. destruct (d_mem eqb k d) eqn:M.
    - destruct d as [|e d]; [discriminate M|]. simpl. discriminate.
    - destruct d; discriminate.
  Qed.

  Lemma d_mem_del k (d : list (K * V)) :
    d_mem eqb k (d_del eqb k d) = false.
  Proof. unfold d_mem. rewrite d_get_del. rewrite eqb_refl'. reflexivity. Qed.

  Lemma d_mem_set k (v : V) d : d_mem eqb k (d_set eqb k v d) = true.
  Proof. unfold d_mem. rewrite d_get_set. rewrite eqb_refl'. reflexivity. Qed.

  Lemma d_set_set k (v1 v2 : V) d : d_set eqb k v2 (d_set eqb k v1 d) = d_set eqb k v2 d.
  Proof.
    unfold d_set at 1. rewrite d_mem_set. unfold d_set. destruct (d_mem eqb k d) eqn:M.
    - rewrite map_map. apply map_ext. intros [k1 w]. cbn [fst]. destruct (eqb k1 k) eqn:E; cbn [fst]; rewrite ?E; reflexivity.
    - rewrite map_app. cbn [map fst]. rewrite eqb_refl'. f_equal.
      rewrite <- (map_id d) at 2. apply map_ext_in. intros [k1 w] Hin. cbn [fst].
      destruct (eqb k1 k) eqn:E; [|reflexivity]. apply eqb_eq in E. subst k1.
      apply d_mem_false in M. exfalso. apply M. apply in_map_iff. exists (k, w). auto.
  Qed.

  Lemma fold_d_del (ks : list K) : forall (d : list (K * V)),
    fold_left (fun acc k => d_del eqb k acc) ks d = filter (fun e => negb (existsb (fun k => eqb (fst e) k) ks)) d.
  Proof.
    induction ks as [|k ks IH]; intros d; simpl.
    - rewrite <- (filter_true d) at 1. reflexivity.
    - rewrite IH. unfold d_del. clear IH. induction d as [|e d IHd]; simpl; [reflexivity|].
      destruct (eqb (fst e) k); simpl; [exact IHd|]. destruct (existsb _ ks); simpl; rewrite IHd; reflexivity.
  Qed.
End DictLemmas.

Lemma evict_In {A} cap (c : list A) x : In x (evict cap c) -> In x c.
Proof.
  unfold evict. destruct (Z.of_nat (length c) >? cap); [|auto].
  destruct c; simpl; auto.
Qed.

Lemma existsb_false_iff {A} (f : A -> bool) l : existsb f l = false <-> forall x, In x l -> f x = false.
Proof.
  split.
  - intros H x Hx. destruct (f x) eqn:E; [|reflexivity].
    assert (existsb f l = true) by (apply existsb_exists; exists x; auto). congruence.
  - intros H. destruct (existsb f l) eqn:E; [|reflexivity].
    apply existsb_exists in E as (x & Hx & Hf). rewrite (H x Hx) in Hf. discriminate.
Qed.

Lemma hget_app_lt h o i : (i < length h)%nat -> hget (h ++ [o]) i = hget h i.
Proof. intros H. unfold hget. apply app_nth1. assumption. Qed.

Lemma hget_app_new h o : hget (h ++ [o]) (length h) = o.
Proof. unfold hget. rewrite app_nth2 by lia. rewrite Nat.sub_diag. reflexivity. Qed.

Lemma hset_length h i o : length (hset h i o) = length h.
Proof. revert i; induction h as [|x h IH]; intros [|i]; simpl; auto. Qed.

Lemma hget_hset_same h i o : (i < length h)%nat -> hget (hset h i o) i = o.
Proof.
  revert i; induction h as [|x h IH]; intros [|i] H; simpl in *; try lia; [reflexivity|].
  unfold hget in *. simpl. apply IH. lia.
Qed.

Lemma hget_hset_other h i j o : i <> j -> hget (hset h j o) i = hget h i.
Proof.
  revert i j; induction h as [|x h IH]; intros [|i] [|j] H; simpl; try reflexivity; try congruence.
  unfold hget in *. simpl. apply IH. congruence.
Qed.

Lemma hkey_hset h j am i : hkey (hset h j (hkey h j, am)) i = hkey h i.
Proof.
  unfold hkey. destruct (Nat.eq_dec i j) as [E|E].
  - subst. destruct (lt_dec j (length h)) as [L|L].
    + rewrite hget_hset_same by assumption. reflexivity.
    + assert (E : hset h j (fst (hget h j), am) = h).
      { clear - L. revert j L. induction h as [|x h IH]; intros [|j] L; simpl in *; try reflexivity; try lia.
        f_equal. unfold hget in *. simpl. apply IH. lia. }
      rewrite E. reflexivity.
  - rewrite hget_hset_other by assumption. reflexivity.
Qed.

Lemma opt_or_In {A} (new old : option A) a :
  In a (opt_list (opt_or new old)) -> In a (opt_list old) \/ In a (opt_list new).
Proof. destruct new; auto. Qed.

Lemma am_values_update m m' a :
  In a (am_values (am_update m m')) -> In a (am_values m) \/ In a (am_values m').
Proof.
  unfold am_values, am_update. cbn [am4 am6 amd]. rewrite !in_app_iff.
  intros [H|[H|H]]; apply opt_or_In in H; tauto.
Qed.

Lemma opt_z_eqb_true a b : opt_z_eqb a b = true <-> a = b.
Proof.
  destruct a, b; simpl; split; intro H; try discriminate; try reflexivity.
  - apply Z.eqb_eq in H. congruence.
  - inversion H. apply Z.eqb_refl.
Qed.

Lemma intros_of_In all k x : In x (intros_of all k) <-> exists w, In (x, w) all /\ w_intro w = Some k.
Proof.
  unfold intros_of. rewrite in_map_iff. split.
  - intros ([x' w] & E & H). simpl in E. subst x'. apply filter_In in H as [H1 H2].
    unfold introduced_by in H2. simpl in H2. apply opt_z_eqb_true in H2. exists w. auto.
  - intros (w & H1 & H2). exists (x, w). split; [reflexivity|]. apply filter_In. split; [assumption|].
    unfold introduced_by. simpl. apply opt_z_eqb_true. assumption.
Qed.

Lemma svc_lookup_set svcs k v k' :
  svc_lookup (d_set Z.eqb k v svcs) k' = if k =? k' then v else svc_lookup svcs k'.
Proof. unfold svc_lookup. rewrite (d_get_set Z.eqb Z.eqb_eq). destruct (k =? k'); reflexivity. Qed.

Lemma svc_lookup_filter (q : key -> bool) svcs k' :
  svc_lookup (filter (fun e => q (fst e)) svcs) k' = if q k' then svc_lookup svcs k' else [].
Proof. unfold svc_lookup. rewrite (d_get_filter_key Z.eqb Z.eqb_eq). destruct (q k'); reflexivity. Qed.
