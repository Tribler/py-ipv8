(* C09, path level, circuits under construction - the family of ids of one circuit and the cross-node
   invariant over it.

   Every id of the family has an upper end (the node that allocated it: the originator for its own id, the
   node asked to extend otherwise) and lower ends (the candidates it was offered to).  Per node (`ngoodF`):
   whatever the node holds under an id of the family is what the end it sits at may hold - at the upper end the
   originator's circuit, a backward route, a create-request cache; at a lower end an exit socket, a forward
   route, the created-cache, the deferred bodies of on_create / on_extend - with routing fields that follow the
   tree; activity stamps are at most Tmax = tq + 2 * depth * D; deferred handler bodies and the originator's
   retry tasks carry the time bound under which what they will send is still early enough.
   Per message (`mgoodF`): a cell for an id of level m travels between its two ends, downwards (sent by
   tq + (m-1) * D) or upwards (sent by tq + (2 * depth - m) * D); created / extended only upwards, create /
   extend / ping only downwards. *)
From Coq Require Import ZArith List Bool Lia.
From IPV8V Require Import lib.Lists model.M09_reclaim model.M09_network spec.S09_reclaim proofs.P09_alist
  proofs.P09_network_frame proofs.P09_network_step proofs.P09_network_path.
Import ListNotations.
Open Scope Z_scope.

Lemma inl_in n l : inl n l = true <-> In n l.
Proof. apply existsb_eqb_in. Qed.

Lemma all_aset {A} (P : Z -> A -> Prop) l x v :
  (forall k a, aget k l = Some a -> P k a) -> P x v -> forall k a, aget k (aset x v l) = Some a -> P k a.
Proof.
  intros H Hv k a Hg. rewrite aget_aset in Hg. destruct (k =? x) eqn:E; [|auto].
  apply Z.eqb_eq in E. subst k. inversion Hg; subst a. exact Hv.
Qed.

Section BInv.
Variable st : settings.
Variable D : Z.
Variable F : family.
Variable O x0 : Z.
Variable h : nat.
Variable tq : Z.
Hypothesis HD : 0 <= D.
Hypothesis Hwf : fam_ok_b F O x0 h = true.

Definition IF : Z -> bool := inF F.
Definition TmaxB : Z := tq + 2 * Z.of_nat h * D.
Definition T0 : list Z := tgts0 F x0.

Lemma TmaxB_ge : tq <= TmaxB.
Proof. unfold TmaxB. assert (0 <= 2 * Z.of_nat h * D) by (apply Z.mul_nonneg_nonneg; lia). lia. Qed.

Lemma IF_some x : IF x = true <-> exists i, aget x F = Some i.
Proof. unfold IF, inF. apply ahas_aget. Qed.

Lemma IF_of_aget x i : aget x F = Some i -> IF x = true.
Proof. intro H. apply IF_some. eauto. Qed.

Lemma IF_none x : IF x = false <-> aget x F = None.
Proof. unfold IF, inF. apply ahas_false. Qed.

Lemma fam_info x i : aget x F = Some i ->
  (1 <= f_lvl i <= h)%nat /\ ~ In (f_par i) (f_tgts i)
  /\ match f_from i with
     | None => f_lvl i = 1%nat
     | Some z => exists iz, aget z F = Some iz /\ f_lvl i = S (f_lvl iz) /\ In (f_par i) (f_tgts iz)
     end.
Proof.
  intro Hg. unfold fam_ok_b in Hwf. apply andb_true_iff in Hwf. destruct Hwf as [H1 _].
  apply andb_true_iff in H1. destruct H1 as [H1 _].
  pose proof (forallb_aget H1 Hg) as X. unfold finfo_ok_b in X. simpl in X.
  repeat (apply andb_true_iff in X; destruct X as [X ?]).
  split; [split; [apply Nat.leb_le; exact X | apply Nat.leb_le; assumption]|]. split.
  - intro Hin. apply inl_in in Hin. rewrite Hin in H0. discriminate.
  - destruct (f_from i) as [z|]; [|apply Nat.eqb_eq; exact H].
    destruct (aget z F) as [iz|]; [|discriminate]. apply andb_true_iff in H. destruct H as [Ha Hb].
    exists iz. split; [reflexivity|]. split; [apply Nat.eqb_eq; exact Ha | apply inl_in; exact Hb].
Qed.

Lemma lvl_slack x i : aget x F = Some i ->
  0 <= (Z.of_nat (f_lvl i) - 1) * D /\ 0 <= (2 * Z.of_nat h - Z.of_nat (f_lvl i)) * D.
Proof. intro Hx. destruct (fam_info _ _ Hx) as [Hl _]. split; apply Z.mul_nonneg_nonneg; lia. Qed.

Lemma fam_root : exists i0, aget x0 F = Some i0 /\ f_lvl i0 = 1%nat /\ f_par i0 = O /\ f_from i0 = None
                            /\ f_tgts i0 = T0.
Proof.
  unfold fam_ok_b in Hwf. apply andb_true_iff in Hwf. destruct Hwf as [_ H]. unfold T0, tgts0.
  destruct (aget x0 F) as [i0|]; [|discriminate]. exists i0.
  repeat (apply andb_true_iff in H; destruct H as [H ?]).
  split; [reflexivity|]. split; [apply Nat.eqb_eq; exact H|]. split; [lia|].
  split; [destruct (f_from i0); [discriminate | reflexivity] | reflexivity].
Qed.

Definition circ_good (n : Z) (s : node) (x : Z) (c : circuit) : Prop :=
  n = O /\ x = x0 /\ In (c_first c) T0 /\ 0 <= c_hops c
  /\ (c_hops c = 0 -> forall u, c_unver c = Some u -> In u T0)
  /\ ((c_closing c = true /\ exists due, In (due, KCirc, x) (sleeping s) /\ due <= tq + s_remove_delay st)
      \/ (c_closing c = false /\ c_hops c < c_goal c
          /\ creation (c_ro c) + build_bound st (c_goal c) + s_remove_delay st <= tq)).

Definition relay_good (n x : Z) (ix : finfo) (r : relay) : Prop :=
  la (r_ro r) <= TmaxB
  /\ ((In n (f_tgts ix)
       /\ exists iy, aget (r_next r) F = Some iy /\ f_par iy = n /\ f_from iy = Some x /\ In (r_peer r) (f_tgts iy))
      \/ (n = f_par ix
          /\ exists z iz, f_from ix = Some z /\ r_next r = z /\ aget z F = Some iz /\ r_peer r = f_par iz)).

Definition exit_good (n : Z) (ix : finfo) (e : exitsock) : Prop :=
  In n (f_tgts ix) /\ e_peer e = f_par ix /\ la (e_ro e) <= TmaxB.

Definition cache_good (n : Z) (cc : createc) : Prop :=
  IF (cc_to cc) = true \/ IF (cc_from cc) = true ->
  exists iy iz, aget (cc_to cc) F = Some iy /\ aget (cc_from cc) F = Some iz
                /\ f_par iy = n /\ f_from iy = Some (cc_from cc) /\ In (cc_to_peer cc) (f_tgts iy)
                /\ cc_peer cc = f_par iz.

Definition start_good (n : Z) (s : node) (d : deferred) : Prop :=
  match d with
  | DCreate src x _ => forall ix, aget x F = Some ix ->
      In n (f_tgts ix) /\ src = f_par ix /\ now s <= tq + Z.of_nat (f_lvl ix) * D
  | DExtend _ x _ => forall ix, aget x F = Some ix -> In n (f_tgts ix) /\ now s <= tq + Z.of_nat (f_lvl ix) * D
  | DRetry x _ _ => IF x = true -> n = O /\ x = x0 /\ now s <= tq
  | DOpen x => IF x = true -> now s <= TmaxB
  | DRemove _ _ _ _ => True
  end.

Record ngoodF (n : Z) (s : node) : Prop := mkNGoodF {
  b_circ : forall x c, IF x = true -> aget x (circuits s) = Some c -> circ_good n s x c;
  b_rel : forall x r ix, aget x F = Some ix -> aget x (relays s) = Some r -> relay_good n x ix r;
  b_rel_out : forall x r, IF x = false -> aget x (relays s) = Some r -> IF (r_next r) = false;
  b_exit : forall x e ix, aget x F = Some ix -> aget x (exits s) = Some e -> exit_good n ix e;
  b_createds : forall x due ix, aget x F = Some ix -> aget x (createds s) = Some due -> In n (f_tgts ix);
  b_creates : forall k cc, aget k (creates s) = Some cc -> cache_good n cc;
  b_retries : forall x rt, IF x = true -> aget x (retries s) = Some rt -> n = O /\ x = x0;
  b_starts : forall d, In d (starts s) -> start_good n s d
}.

Definition alive0 (s : node) : Prop := alive_at s x0.

Lemma ngoodF_frame_flip n s s' (touch : Z -> Prop) :
  ngoodF n s -> frame st IF touch s s' ->
  (forall x, IF x = true -> touch x -> now s <= TmaxB) ->
  (forall c c', aget x0 (circuits s) = Some c -> aget x0 (circuits s') = Some c' ->
                c_closing c = false -> c_closing c' = true -> now s <= tq) ->
  ngoodF n s'.
Proof.
  intros [C R Ro E Cd K T S] Fr Ht Ha. constructor.
  - intros x c' Hi H. destruct (f_circ _ _ _ _ _ Fr _ _ Hi H) as (c & Hc & A1 & A2 & A3 & A4 & A5 & _ & K1 & W).
    destruct (C _ _ Hi Hc) as (Hn & Hx & Hf & Hh & Hu & Hcl).
    split; [exact Hn|]. split; [exact Hx|]. split; [congruence|]. split; [rewrite A3; exact Hh|].
    split; [intros Hz u Eu; apply Hu; congruence|].
    destruct Hcl as [(Kc & due & Hin & Hle)|(Kc & Hlt & Hcr)].
    + left. split; [auto|]. exists due. split; [|exact Hle]. apply (f_sleep _ _ _ _ _ Fr); auto. congruence.
    + destruct (c_closing c') eqn:Kc'.
      * left. split; [reflexivity|]. exists (now s + s_remove_delay st). split; [apply W; auto|].
        apply Z.add_le_mono_r. subst x. eapply Ha; eauto.
      * right. split; [reflexivity|]. rewrite A2, A3, A5. auto.
  - intros x r' ix Hx H. pose proof (IF_of_aget _ _ Hx) as Hi.
    destruct (f_rel _ _ _ _ _ Fr _ _ Hi H) as (r & Hr & N & P & L).
    destruct (R _ _ _ Hx Hr) as [Hla Hrole]. split.
    + destruct L as [L|[Tx L]]; [rewrite L; exact Hla | rewrite L; eauto].
    + rewrite N, P. exact Hrole.
  - intros x r' Hi H. destruct (f_rel_out _ _ _ _ _ Fr _ _ Hi H) as [(r & Hr & N)|N]; [|exact N].
    rewrite N. eauto.
  - intros x e' ix Hx H. pose proof (IF_of_aget _ _ Hx) as Hi.
    destruct (f_exit _ _ _ _ _ Fr _ _ Hi H) as (e & He & P & L).
    destruct (E _ _ _ Hx He) as (A & B & Hla). split; [exact A|]. split; [congruence|].
    destruct L as [L|[Tx L]]; [rewrite L; exact Hla | rewrite L; eauto].
  - intros x due ix Hx H. pose proof (IF_of_aget _ _ Hx) as Hi.
    apply (Cd x due ix Hx). apply (f_createds _ _ _ _ _ Fr); auto.
  - intros k cc H. destruct (f_creates _ _ _ _ _ Fr _ _ H) as [H0|[H1 H2]]; [eauto|].
    intros [Hc|Hc]; congruence.
  - intros x rt Hi H. destruct (f_retries _ _ _ _ _ Fr _ _ Hi H) as (rt0 & H0). eauto.
  - intros d H. pose proof (f_now _ _ _ _ _ Fr) as Hn.
    destruct (f_starts _ _ _ _ _ Fr _ H) as [H0|[Hh Ho]].
    + specialize (S _ H0). destruct d; simpl in S |- *; try rewrite Hn; auto.
    + destruct d as [k c dd rn|src x ident|src x ident|x tr ini|x]; simpl in Hh |- *; auto.
      * intros ix Hx. pose proof (IF_of_aget _ _ Hx). congruence.
      * intros ix Hx. pose proof (IF_of_aget _ _ Hx). congruence.
      * intro Hi. congruence.
      * intro Hi. rewrite Hn. destruct (Ho x eq_refl Hi) as [Tx _]. eauto.
Qed.

Lemma ngoodF_set_now n s t : on_time st s t = true -> ngoodF n s -> ngoodF n (set_now t s).
Proof.
  intros Ht [C R Ro E Cd K T S]. constructor; auto.
  simpl. intros d H. pose proof (on_time_starts st s t d Ht H). subst t. specialize (S _ H). destruct d; simpl in *; auto.
Qed.

Lemma bgood_defer n s d : ngoodF n s -> start_good n s d -> ngoodF n (defer d s).
Proof.
  intros [C R Ro E Cd K T S] Hd. constructor; auto.
  simpl. intros d' H. apply in_app_or in H. destruct H as [H|[H|[]]].
  - specialize (S _ H). destruct d'; simpl in *; auto.
  - subst d'. destruct d; simpl in *; auto.
Qed.

Lemma bgood_add_exit n s x e :
  ngoodF n s -> (forall ix, aget x F = Some ix -> exit_good n ix e) ->
  ngoodF n (set_exits (aset x e (exits s)) s).
Proof.
  intros [C R Ro E Cd K T S] He. constructor; auto.
  simpl. intros y e' iy Hy H. rewrite aget_aset in H. destruct (y =? x) eqn:Eq; [|eauto].
  apply Z.eqb_eq in Eq. subst y. inversion H; subst e'. auto.
Qed.

Lemma bgood_add_created n s x due :
  ngoodF n s -> (forall ix, aget x F = Some ix -> In n (f_tgts ix)) ->
  ngoodF n (set_createds (aset x due (createds s)) s).
Proof.
  intros [C R Ro E Cd K T S] He. constructor; auto.
  simpl. intros y d' iy Hy H. rewrite aget_aset in H. destruct (y =? x) eqn:Eq; [|eauto].
  apply Z.eqb_eq in Eq. subst y. auto.
Qed.

Lemma bgood_add_create n s k cc :
  ngoodF n s -> cache_good n cc -> ngoodF n (set_creates (aset k cc (creates s)) s).
Proof.
  intros [C R Ro E Cd K T S] He. constructor; auto.
  simpl. intros k' cc' H. rewrite aget_aset in H. destruct (k' =? k); [inversion H; subst; auto | eauto].
Qed.

Lemma bgood_add_relay n s x r :
  ngoodF n s -> (forall ix, aget x F = Some ix -> relay_good n x ix r) ->
  (IF x = false -> IF (r_next r) = false) ->
  ngoodF n (set_relays (aset x r (relays s)) s).
Proof.
  intros [C R Ro E Cd K T S] H1 H2. constructor; auto.
  - simpl. intros y r' iy Hy H. rewrite aget_aset in H. destruct (y =? x) eqn:Eq; [|eauto].
    apply Z.eqb_eq in Eq. subst y. inversion H; subst r'. auto.
  - simpl. intros y r' Hi H. rewrite aget_aset in H. destruct (y =? x) eqn:Eq; [|eauto].
    apply Z.eqb_eq in Eq. subst y. inversion H; subst r'. auto.
Qed.

Lemma bgood_add_retry n s x rt :
  ngoodF n s -> (IF x = true -> n = O /\ x = x0) -> ngoodF n (set_retries (aset x rt (retries s)) s).
Proof.
  intros [C R Ro E Cd K T S] He. constructor; auto.
  simpl. intros y rt' Hi H. rewrite aget_aset in H. destruct (y =? x) eqn:Eq; [|eauto].
  apply Z.eqb_eq in Eq. subst y. auto.
Qed.

Lemma bgood_set_circuit n s x c :
  ngoodF n s -> (IF x = true -> circ_good n s x c) -> ngoodF n (set_circuits (aset x c (circuits s)) s).
Proof.
  intros [C R Ro E Cd K T S] He. constructor; auto.
  simpl. intros y c' Hi H. rewrite aget_aset in H. destruct (y =? x) eqn:Eq.
  - apply Z.eqb_eq in Eq. subst y. inversion H; subst c'. apply He. exact Hi.
  - exact (C _ _ Hi H).
Qed.

Definition mgoodF (m : msg) : Prop :=
  match m with
  | FCell src dst x _ mid sent => forall ix, aget x F = Some ix ->
      (src = f_par ix /\ In dst (f_tgts ix) /\ kind_dn_b mid = true
       /\ sent <= tq + (Z.of_nat (f_lvl ix) - 1) * D)
      \/ (dst = f_par ix /\ In src (f_tgts ix) /\ kind_upw_b mid = true
          /\ sent <= tq + (2 * Z.of_nat h - Z.of_nat (f_lvl ix)) * D)
  | FDestroy _ _ _ _ _ => True
  end.

Definition wgoodF (w : net) : Prop :=
  (forall n s, aget n (nodes w) = Some s -> ngoodF n s) /\ (forall m, In m (flight w) -> mgoodF m).

Lemma mgoodF_deadline src dst x early mid sent t ix :
  mgoodF (FCell src dst x early mid sent) -> aget x F = Some ix -> t <= sent + D -> t <= TmaxB.
Proof.
  intros M Hx Ht. destruct (fam_info _ _ Hx) as [Hl _]. unfold TmaxB.
  destruct (M _ Hx) as [(_ & _ & _ & Hs)|(_ & _ & _ & Hs)]; nia.
Qed.

Lemma bnode_shape_sound n s : bnode_shape_b st F O x0 tq (n, s) = true -> ngoodF n s.
Proof.
  unfold bnode_shape_b. intro H. repeat (apply andb_true_iff in H; destruct H as [H ?]).
  rename H into Hc, H0 into Hs, H1 into Hrt, H2 into Hcr, H3 into Hcd, H4 into He, H5 into Hr.
  pose proof TmaxB_ge as TG.
  constructor.
  - intros x c Hi Hg. pose proof (forallb_aget Hc Hg) as X. clear Hc Hs Hrt Hcr Hcd He Hr. unfold bcirc_shape_b in X.
    unfold IF in Hi. rewrite Hi in X. cbn [negb orb] in X.
    apply andb_true_iff in X. destruct X as [X Y]. repeat (apply andb_true_iff in X; destruct X as [X ?]).
    revert Y. apply Z.eqb_eq in X. apply Z.eqb_eq in H2. apply Z.leb_le in H0. intro Y.
    split; [exact X|]. split; [exact H2|]. split; [apply inl_in; assumption|]. split; [exact H0|]. split.
    + intros Hz u Eu. rewrite Eu in H. rewrite Hz in H. simpl in H. apply inl_in. exact H.
    + apply orb_true_iff in Y. destruct Y as [Y|Y].
      * left. apply andb_true_iff in Y. destruct Y as [Y1 Y2]. split; [exact Y1|].
        apply existsb_exists in Y2. destruct Y2 as ([[due k] y] & Hin & Hw).
        destruct k; try discriminate. apply andb_true_iff in Hw. destruct Hw as [Hy Hd].
        apply Z.eqb_eq in Hy. subst y. apply Z.leb_le in Hd. exists due. split; [exact Hin | exact Hd].
      * right. repeat (apply andb_true_iff in Y; destruct Y as [Y ?]).
        split; [apply negb_true_iff; exact Y|]. split; [apply Z.ltb_lt; assumption | apply Z.leb_le; assumption].
  - intros x r ix Hx Hg. pose proof (forallb_aget Hr Hg) as X. clear Hc Hs Hrt Hcr Hcd He Hr. unfold brelay_shape_b in X.
    rewrite Hx in X. apply andb_true_iff in X. destruct X as [Hla X]. split; [lia|].
    apply orb_true_iff in X. destruct X as [X|X]; [left | right].
    + unfold fw_b in X. apply andb_true_iff in X. destruct X as [X1 X2]. split; [apply inl_in; exact X1|].
      destruct (aget (r_next r) F) as [iy|]; [|discriminate]. exists iy.
      repeat (apply andb_true_iff in X2; destruct X2 as [X2 ?]). split; [reflexivity|]. split; [lia|]. split.
      * unfold optz_is in H0. destruct (f_from iy) as [z|]; [|discriminate]. f_equal. lia.
      * apply inl_in. assumption.
    + unfold bw_b in X. apply andb_true_iff in X. destruct X as [X1 X2]. split; [lia|].
      destruct (f_from ix) as [z|]; [|discriminate]. apply andb_true_iff in X2. destruct X2 as [X2 X3].
      destruct (aget z F) as [iz|] eqn:Ez; [|discriminate]. exists z, iz. split; [reflexivity|].
      split; [lia|]. split; [exact Ez | lia].
  - intros x r Hi Hg. pose proof (forallb_aget Hr Hg) as X. clear Hc Hs Hrt Hcr Hcd He Hr. unfold brelay_shape_b in X.
    apply IF_none in Hi. rewrite Hi in X. apply negb_true_iff in X. exact X.
  - intros x e ix Hx Hg. pose proof (forallb_aget He Hg) as X. clear Hc Hs Hrt Hcr Hcd He Hr. unfold bexit_shape_b in X.
    rewrite Hx in X. repeat (apply andb_true_iff in X; destruct X as [X ?]).
    split; [apply inl_in; exact X|]. split; lia.
  - intros x due ix Hx Hg. pose proof (forallb_aget Hcd Hg) as X. clear Hc Hs Hrt Hcr Hcd He Hr. unfold bcreated_shape_b in X.
    simpl in X. rewrite Hx in X. apply inl_in. exact X.
  - intros k cc Hg. pose proof (forallb_aget Hcr Hg) as X. clear Hc Hs Hrt Hcr Hcd He Hr. unfold bcreate_shape_b, cache_b in X. simpl in X.
    intro Hor. destruct (aget (cc_to cc) F) as [iy|] eqn:Ey; destruct (aget (cc_from cc) F) as [iz|] eqn:Ez;
      try discriminate.
    + exists iy, iz. repeat (apply andb_true_iff in X; destruct X as [X ?]).
      split; [reflexivity|]. split; [reflexivity|]. split; [apply Z.eqb_eq; exact X|]. split.
      * unfold optz_is in H1. destruct (f_from iy) as [z|]; [|discriminate]. f_equal. apply Z.eqb_eq. exact H1.
      * split; [apply inl_in; assumption | apply Z.eqb_eq; assumption].
    + exfalso. destruct Hor as [Hor|Hor]; apply IF_some in Hor; destruct Hor as (i & Hi); congruence.
  - intros x rt Hi Hg. pose proof (forallb_aget Hrt Hg) as X. clear Hc Hs Hrt Hcr Hcd He Hr. unfold bretry_shape_b in X. simpl in X.
    unfold IF in Hi. rewrite Hi in X. simpl in X. lia.
  - intros d Hin. rewrite forallb_forall in Hs. specialize (Hs _ Hin). clear Hc Hrt Hcr Hcd He Hr.
    destruct d as [k c dd rn|src x ident|src x ident|x tr ini|x]; simpl in *; auto.
    + intros ix Hx. rewrite Hx in Hs. destruct (fam_info _ _ Hx) as [Hl _].
      repeat (apply andb_true_iff in Hs; destruct Hs as [Hs ?]). split; [apply inl_in; exact Hs|]. split; [lia|]. nia.
    + intros ix Hx. rewrite Hx in Hs. destruct (fam_info _ _ Hx) as [Hl _].
      apply andb_true_iff in Hs. destruct Hs as [Hs ?]. split; [apply inl_in; exact Hs|]. nia.
    + intro Hi. unfold IF in Hi. rewrite Hi in Hs. simpl in Hs. lia.
    + intro Hi. unfold IF in Hi. rewrite Hi in Hs. simpl in Hs. lia.
Qed.

Lemma bmsg_shape_sound m : bmsg_shape_b F tq m = true -> mgoodF m.
Proof.
  destruct m as [src dst x early mid sent|]; [|intros _; exact Logic.I]. unfold bmsg_shape_b, mgoodF.
  intros H ix Hx. rewrite Hx in H. destruct (lvl_slack _ _ Hx) as [N1 N2].
  apply andb_true_iff in H. destruct H as [Hs H]. apply Z.leb_le in Hs.
  apply orb_true_iff in H. destruct H as [H|H]; [left | right];
    repeat (apply andb_true_iff in H; destruct H as [H ?]); apply Z.eqb_eq in H;
    (split; [exact H|]); (split; [apply inl_in; assumption|]); (split; [assumption|]); lia.
Qed.

Lemma build_shape_sound w : build_shape_b st F O x0 h tq w = true -> wgoodF w.
Proof.
  unfold build_shape_b. intro H. repeat (apply andb_true_iff in H; destruct H as [H ?]). split.
  - intros n s Hg. apply bnode_shape_sound. apply (forallb_aget H1 Hg).
  - intros m Hin. apply bmsg_shape_sound. rewrite forallb_forall in H0. auto.
Qed.

End BInv.

Arguments b_circ {st D F O x0 h tq n s}.
Arguments b_rel {st D F O x0 h tq n s}.
Arguments b_rel_out {st D F O x0 h tq n s}.
Arguments b_exit {st D F O x0 h tq n s}.
Arguments b_createds {st D F O x0 h tq n s}.
Arguments b_creates {st D F O x0 h tq n s}.
Arguments b_retries {st D F O x0 h tq n s}.
Arguments b_starts {st D F O x0 h tq n s}.
