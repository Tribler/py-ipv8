(* The hand model of the signed decorators (model/M01_auth.v): Python's negative slices of a datagram that ends in a
   signature, what an accepted datagram was made of, and that what the sender packs is accepted.  A lemma x_l states
   theorem x of props/C01.v; it lives here because other proofs use it. *)
From Coq Require Import ZArith List Bool Lia ZifyBool.
From IPV8V Require Import lib.Lists lib.PyErr lib.Bytes lib.BE model.M02_wire model.M01_auth
  proofs.P02_prims proofs.P02_roundtrip.
Import ListNotations.
Open Scope Z_scope.

(* h ++ a cut after as many items as a has *)
Lemma shift_split {A} (h a : list A) : exists u j, h ++ a = u ++ j /\ length u = length a /\ length j = length h.
Proof.
  exists (firstn (length a) (h ++ a)), (skipn (length a) (h ++ a)).
  rewrite firstn_skipn, firstn_length, skipn_length, app_length. repeat split; lia.
Qed.

(* d[k:-n] of a string that ends in an n-byte signature, n > 0: the signed part without its first k bytes *)
Lemma slice_signed_from (u y sg : bytes) : sg <> [] ->
  slice ((u ++ y) ++ sg) (Some (blen u)) (Some (- blen sg)) = y.
Proof.
  intros Hs. assert (0 < blen sg) by (destruct sg; [congruence|rewrite blen_cons; pose proof (blen_nonneg sg); lia]).
  pose proof (blen_nonneg u). pose proof (blen_nonneg y).
  unfold slice. rewrite !blen_app, clamp_neg, clamp_id by lia.
  rewrite (Nat2Z.id (length u) : Z.to_nat (blen u) = length u), <- app_assoc, skipn_app_exact.
  replace (Z.to_nat (Z.max 0 (blen u + blen y + blen sg - blen sg) - blen u)) with (length y) by (unfold blen; lia).
  apply firstn_app_exact.
Qed.

(* d[:-n] is the signed part and d[-n:] the signature *)
Lemma slice_signed (x sg : bytes) : sg <> [] ->
  slice (x ++ sg) None (Some (- blen sg)) = x /\ slice (x ++ sg) (Some (- blen sg)) None = sg.
Proof.
  intros Hs. assert (E : slice (x ++ sg) None (Some (- blen sg)) = x).
  { pose proof (blen_nonneg (x ++ sg)).
    transitivity (slice (x ++ sg) (Some 0) (Some (- blen sg))); [|exact (slice_signed_from [] x sg Hs)].
    unfold slice. rewrite (clamp_id _ 0) by lia. reflexivity. }
  split; [exact E|].
  pose proof (slice_partition (x ++ sg) (- blen sg)) as P. rewrite E in P. exact (app_inv_head _ _ _ P).
Qed.

Section P.
Variable key_ok : bytes -> bool.
Variable verify : bytes -> bytes -> bytes -> bool.
Variable siglen : bytes -> res nat.

Notation wrapper_signed := (wrapper_signed key_ok verify siglen).

Lemma auth_only_if_valid_l m data pk args :
  wrapper_signed m data = Ok (Invoke pk args) ->
  exists n o,
    unpack key_ok auth_fmt data 23 = Ok (VBytes pk, o)          (* the key is the one carried in the datagram *)
    /\ siglen pk = Ok n
    /\ verify pk (slice data None (Some (- Z.of_nat n))) (slice data (Some (- Z.of_nat n)) None) = true
    /\ slice data None (Some (- Z.of_nat n)) ++ slice data (Some (- Z.of_nat n)) None = data
    /\ unpack_all key_ok m (slice data (Some (2 + blen pk)) (Some (- Z.of_nat n))) 23 = Ok args.
Proof.
  unfold M01_auth.wrapper_signed. intros H.
  destruct (unpack key_ok auth_fmt data 23) as [[a o]|] eqn:Eu; cbn [bind] in H; [|discriminate].
  destruct a; try discriminate H.
  destruct (siglen b) as [n|] eqn:En; cbn [bind] in H; [|discriminate].
  cbv zeta in H.
  destruct (unpack_all key_ok m _ 23) as [vs|] eqn:Ea; cbn [bind] in H; [|discriminate].
  destruct (verify b _ _) eqn:Ev; cbn [negb] in H; [|discriminate].
  inversion H; subst. exists n, o. repeat split; auto.
  apply slice_partition.
Qed.

(* the packed key field: two length bytes, then the key *)
Lemma pack_auth_length pk a : pack key_ok auth_fmt (VBytes pk) = Ok a -> length a = (2 + length pk)%nat.
Proof.
  unfold auth_fmt. cbn [pack]. unfold varlen_pack. cbn [Nat.eqb].
  destruct (in_range _ _ _ && _); [|discriminate]. intros H. apply Ok_inj in H. subst a.
  rewrite app_length, be_encode_length. reflexivity.
Qed.

Lemma auth_val_ok pk :
  (Z.of_nat (length pk) <? 65536) = true -> bytes_okb pk = true -> val_ok key_ok auth_fmt (VBytes pk) = true.
Proof.
  intros Hl Hb. unfold auth_fmt. cbn [val_ok]. rewrite Hb, Nat.div_1_r, Nat.mod_1_r.
  change (256 ^ Z.of_nat 2) with 65536. rewrite Hl. reflexivity.
Qed.

(* Any datagram of the shape the sender builds is accepted: 23 bytes, the packed key, the packed payloads, and a
   signature of the prescribed (non-zero) length that verifies over everything before it.  data[2 + len(pk):-n]
   drops as many bytes as the key field has, so the 23 bytes that remain in front of the payloads are not the
   original header but the unpacker is started at 23 all the same. *)
Lemma wrapper_signed_packed pk hd a b sg m vs :
  length hd = 23%nat -> wf_msg m = true -> msg_ok key_ok m vs = true -> val_ok key_ok auth_fmt (VBytes pk) = true ->
  pack key_ok auth_fmt (VBytes pk) = Ok a -> pack_msg key_ok m vs = Ok b ->
  siglen pk = Ok (length sg) -> sg <> [] -> verify pk (hd ++ a ++ b) sg = true ->
  wrapper_signed m ((hd ++ a ++ b) ++ sg) = Ok (Invoke pk vs).
Proof.
  intros Hh Hwf Hok Hpk Ea Eb Hn Hsg Hv.
  pose proof (pack_auth_length pk a Ea) as Hla.
  unfold M01_auth.wrapper_signed.
  assert (Hu : unpack key_ok auth_fmt ((hd ++ a ++ b) ++ sg) 23 = Ok (VBytes pk, (length hd + length a)%nat)).
  { rewrite <- !app_assoc, <- Hh. apply pack_unpack_fmt_l; auto. }
  rewrite Hu. cbn [bind]. rewrite Hn. cbn [bind]. cbv zeta. fold (blen sg).
  destruct (slice_signed (hd ++ a ++ b) sg Hsg) as [-> ->]. rewrite Hv. cbn [negb].
  destruct (shift_split hd a) as (u & j & E & Hlu & Hj).
  replace (2 + blen pk) with (blen u) by (unfold blen; rewrite Hlu, Hla; apply (Nat2Z.inj_add 2)).
  rewrite (app_assoc hd a b), E, <- (app_assoc u j b), slice_signed_from by exact Hsg.
  rewrite Hh in Hj.
  unfold unpack_all.
  pose proof (msg_roundtrip_l key_ok m vs b j [] Hwf Hok Eb (or_intror eq_refl)) as Hr.
  rewrite app_nil_r, Hj in Hr. rewrite Hr. cbn [bind]. rewrite app_length, Hj, Nat.ltb_irrefl. reflexivity.
Qed.

Variable sign : bytes -> bytes -> bytes.

(* sender and receiver agree: an honestly signed message is accepted with exactly its payloads *)
Lemma auth_sound_send_l sk pk prefix msg_id m vs data n :
  length prefix = 22%nat ->
  wf_msg m = true -> msg_ok key_ok m vs = true ->
  (Z.of_nat (length pk) <? 65536) = true -> bytes_okb pk = true ->
  siglen pk = Ok n -> (0 < n)%nat ->
  (forall msg, length (sign sk msg) = n /\ verify pk msg (sign sk msg) = true) ->
  ez_pack key_ok sign sk pk prefix msg_id m vs = Ok data ->
  wrapper_signed m data = Ok (Invoke pk vs).
Proof.
  intros Hp Hwf Hok Hlk Hbk Hn Hpos Hsig Hpack.
  unfold M01_auth.ez_pack in Hpack.
  destruct (pack key_ok auth_fmt (VBytes pk)) as [a|] eqn:Ea; cbn [bind] in Hpack; [|discriminate].
  destruct (pack_msg key_ok m vs) as [b|] eqn:Eb; cbn [bind] in Hpack; [|discriminate].
  apply Ok_inj in Hpack. subst data.
  destruct (Hsig (prefix ++ [msg_id] ++ a ++ b)) as [Hsl Hsv].
  rewrite (app_assoc prefix [msg_id]) in *.
  apply wrapper_signed_packed; auto using auth_val_ok.
  - rewrite app_length, Hp. reflexivity.
  - rewrite Hsl. exact Hn.
  - intros E. rewrite E in Hsl. subst n. exact (Nat.lt_irrefl _ Hpos).
Qed.

End P.
