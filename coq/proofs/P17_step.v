(* C17 - what the handlers of a disclosure do to the state and which outputs they can produce. *)
From Coq Require Import ZArith List Bool.
From IPV8V Require Import lib.PyErr lib.Bytes model.M16_tokentree model.M17_consent spec.S17_consent
  proofs.P16_gather proofs.P17_base.
Import ListNotations.
Open Scope Z_scope.

Lemma dedup_by_In {A} (eqb : A -> A -> bool) : forall l x, In x (dedup_by eqb l) -> In x l.
Proof.
  induction l as [|y l IH]; simpl; [auto|]. intros x [H|H]; [auto|].
  apply filter_In in H as [H _]. auto.
Qed.

Lemma find_app_some {A} (f : A -> bool) l x y : find f l = Some y -> find f (l ++ x) = Some y.
Proof.
  induction l as [|z l IH]; simpl; [discriminate|]. destruct (f z); auto.
Qed.

Lemma dict_eqb_true a b :
  dict_eqb a b = true -> length a = length b /\ forall k v, In (k, v) a -> alookup k b = Some v.
Proof.
  unfold dict_eqb. intros H. apply andb_true_iff in H as [L F]. apply Nat.eqb_eq in L. split; [assumption|].
  intros k v Hin. rewrite forallb_forall in F. specialize (F _ Hin). simpl in F.
  destruct (alookup k b) as [w|]; [|discriminate]. apply bytes_eqb_eq in F. congruence.
Qed.

Section Step.
Variable hash : bytes -> bytes.
Variable sigverify : bytes -> bytes -> bytes -> bool.
Variable mysign : bytes -> bytes.
Variable parse : bytes -> jdoc.
Variable me : bytes.
Variable wide : bool.

Notation md_hash := (md_hash hash).
Notation att_verify := (att_verify sigverify).
Notation add_att := (add_att sigverify wide).
Notation add_atts := (add_atts sigverify wide).
Notation gather_list := (gather_list hash sigverify).
Notation substantiate := (substantiate hash sigverify wide).
Notation already := (already me).
Notation should_sign := (should_sign hash parse me).
Notation sign_loop := (sign_loop hash sigverify mysign parse me wide).
Notation recv_disclosure := (recv_disclosure hash sigverify mysign parse me wide).
Notation Sound := (Sound hash sigverify).
Notation tverify := (tverify sigverify).
Notation row_valid := (row_valid sigverify).
Notation mdrow_valid := (mdrow_valid sigverify).
Notation consent := (consent parse).

Lemma get_tree_sound_default k ps :
  (forall tr, alookup k ps = Some tr -> exists P, Sound k P tr) -> exists P, Sound k P (get_tree k ps).
Proof.
  intros H. unfold get_tree. destruct (alookup k ps) as [tr|]; [apply H; reflexivity|].
  exists []. apply Sound_empty.
Qed.

Record frame (pk : bytes) (s s' : state) : Prop := {
  f_known : known s' = known s;
  f_chain : chain s' = chain s;
  f_mdchain : mdchain s' = mdchain s;
  f_perms : perms s' = perms s;
  f_dmd : grown mdrow_valid (dmd s) (dmd s');
  f_other : forall k, k <> pk -> get_tree k (pseus s') = get_tree k (pseus s);
  f_sound : forall P, Sound pk P (get_tree pk (pseus s)) -> exists P', Sound pk P' (get_tree pk (pseus s'))
}.

Lemma frame_trans pk a b c : frame pk a b -> frame pk b c -> frame pk a c.
Proof.
  intros [A1 A2 A3 A4 A5 A6 A7] [B1 B2 B3 B4 B5 B6 B7].
  constructor; try congruence.
  - eapply grown_trans; eauto.
  - intros k N. rewrite B6, A6; auto.
  - intros P S. destruct (A7 P S) as [P' S']. eauto.
Qed.

Lemma frame_set_pseus pk s tr :
  (forall P, Sound pk P (get_tree pk (pseus s)) -> exists P', Sound pk P' tr) ->
  frame pk s (set_pseus s (aset pk tr (pseus s))).
Proof.
  intros H. constructor; simpl; auto using grown_refl.
  - intros k N. apply get_tree_aset_other. auto.
  - rewrite get_tree_aset_same. exact H.
Qed.

Lemma frame_set_dmd pk s d : grown mdrow_valid (dmd s) d -> frame pk s (set_dmd s d).
Proof. intros H. constructor; simpl; eauto. Qed.

(* s' differs from s in table Attestations at most *)
Definition same_but_datt (s s' : state) : Prop := set_datt s' [] = set_datt s [].

Lemma same_but_datt_known s s' : same_but_datt s s' -> known s' = known s.
Proof. intros E. exact (f_equal known E). Qed.
Lemma same_but_datt_pseus s s' : same_but_datt s s' -> pseus s' = pseus s.
Proof. intros E. exact (f_equal pseus E). Qed.
Lemma same_but_datt_dmd s s' : same_but_datt s s' -> dmd s' = dmd s.
Proof. intros E. exact (f_equal dmd E). Qed.

Lemma same_but_datt_frame pk s s' : same_but_datt s s' -> frame pk s s'.
Proof.
  intros E. pose proof (same_but_datt_dmd _ _ E) as Ed. pose proof (same_but_datt_pseus _ _ E) as Ep.
  constructor; [exact (same_but_datt_known _ _ E)|exact (f_equal chain E)|exact (f_equal mdchain E)
               |exact (f_equal perms E)|rewrite Ed; apply grown_refl|rewrite Ep; auto|rewrite Ep; eauto].
Qed.

Lemma frame_set_datt pk s s' d : frame pk s s' -> frame pk s (set_datt s' d).
Proof. intros F. eapply frame_trans; [exact F|]. apply same_but_datt_frame. reflexivity. Qed.

Lemma substantiate_spec s pk mds toks atts fail :
  frame pk s (fst (substantiate s pk mds toks atts fail)) /\
  grown (carried sigverify pk atts) (datt s) (datt (fst (substantiate s pk mds toks atts fail))) /\
  (snd (substantiate s pk mds toks atts fail) = Ok true ->
   Forall (fun t => tverify pk t = true) toks /\ Forall (fun aa => att_verify (fst aa) (snd aa) = true) atts).
Proof.
  remember (substantiate s pk mds toks atts fail) as sb eqn:E. unfold M17_consent.substantiate in E.
  destruct (gather_list pk (get_tree pk (pseus s)) toks true) as [[tr1 c1]|e] eqn:G.
  2:{ subst sb. split; [apply frame_set_pseus; eauto|]. split; [apply grown_refl|discriminate]. }
  assert (F1 : frame pk s (set_pseus s (aset pk tr1 (pseus s)))).
  { apply frame_set_pseus. intros P S. eapply gather_list_sound; eauto. }
  destruct (fail_is fail 0).
  { subst sb. split; [exact F1|]. split; [apply grown_refl|discriminate]. }
  assert (F2 : forall d3, frame pk s
     (set_datt (set_dmd (set_pseus s (aset pk tr1 (pseus s)))
                        (fold_left (fun d m => add_metadata sigverify pk m d) mds (dmd s))) d3)).
  { intros d3. apply frame_set_datt. eapply frame_trans; [exact F1|]. apply frame_set_dmd.
    apply fold_left_grown. intros d m. apply add_metadata_grown. }
  destruct (fail_is fail 1).
  { subst sb. split; [apply (F2 (datt s))|]. split; [apply grown_refl|discriminate]. }
  cbn [datt set_dmd set_pseus] in E.
  pose proof (add_atts_grown sigverify wide pk atts (datt s) c1) as GA.
  pose proof (add_atts_true_verifies sigverify wide pk atts (datt s) c1) as OA.
  destruct (add_atts pk atts (datt s) c1) as [d3 c3]. cbn [fst snd] in GA, OA.
  destruct (fail_is fail 2); subst sb; (split; [apply F2|]); (split; [exact GA|]); [discriminate|].
  intros H. inversion H; subst c3. destruct (OA eq_refl) as [C1 FA]. subst c1. split; [|exact FA].
  eapply gather_list_true_verifies; eauto.
Qed.

Lemma already_prefix d d' h : prefix d d' -> already d h = true -> already d' h = true.
Proof.
  intros [x E] H. subst d'. unfold M17_consent.already in *.
  apply existsb_exists in H as [r [Hr C]]. apply existsb_exists. exists r. split; [apply in_or_app; auto|].
  apply andb_true_iff in C as [C1 C2]. apply andb_true_iff. split; [assumption|].
  unfold authority_of in *. destruct (find (fun r0 => bytes_eqb (r_sig r0) (r_sig r)) d) as [r'|] eqn:F; [|discriminate].
  rewrite (find_app_some _ _ x _ F). assumption.
Qed.

(* what a positive answer of should_sign means, in the terms of the property: m points to a token of the
   tree whose attribute hash is registered with an entry that covers m, and nothing by this node is stored *)
Definition consented (s : state) (now : Z) (pk : bytes) (tr : tree) (m : metadata) : Prop :=
  exists tok e,
    find_key hash (m_tptr m) (elements tr) = Some tok /\
    alookup (t_chash tok) (known s) = Some e /\
    consent e pk now m /\
    already (datt s) (md_hash m) = false.

Lemma should_sign_consented s now pk tr m : should_sign s now pk tr m = Ok true -> consented s now pk tr m.
Proof.
  unfold M17_consent.should_sign. intros H.
  destruct (parse (m_json m)) as [| |kv] eqn:EP; try discriminate.
  destruct (find_key hash (m_tptr m) (elements tr)) as [tok|] eqn:EF; [|discriminate].
  destruct (has_field k_name kv && has_field k_date kv && has_field k_schema kv) eqn:F; cbn [negb] in H; [|discriminate].
  destruct (alookup (t_chash tok) (known s)) as [e|] eqn:EK; [|discriminate].
  destruct (bytes_eqb pk (e_key e)) eqn:K; cbn [negb] in H; [|discriminate].
  destruct (e_time e + 300 <? now) eqn:T; [discriminate|].
  destruct (opt_eqb (alookup k_name kv) (e_name e)) eqn:Nm; cbn [negb] in H; [|discriminate].
  destruct (match e_md e with Some md => negb (dict_eqb (extras kv) md) | None => false end) eqn:M; [discriminate|].
  destruct (M17_consent.already me (datt s) (md_hash m)) eqn:Al; [discriminate|]. clear H.
  apply andb_true_iff in F as [F F3]. apply andb_true_iff in F as [_ F2].
  apply bytes_eqb_eq in K. apply Z.ltb_ge in T.
  exists tok, e. split; [exact EF|]. split; [exact EK|]. split; [|exact Al].
  split; [auto|]. split; [exact T|]. exists kv. split; [exact EP|]. split.
  { unfold opt_eqb in Nm. destruct (alookup k_name kv) as [x|]; [|discriminate].
    apply bytes_eqb_eq in Nm. congruence. }
  split; [exact F2|]. split; [exact F3|].
  intros md Hm. rewrite Hm in M. apply dict_eqb_true. destruct (dict_eqb (extras kv) md); [reflexivity|discriminate].
Qed.

Lemma consented_not_already s now pk tr m : consented s now pk tr m -> already (datt s) (md_hash m) = false.
Proof. intros [tok [e [_ [_ [_ A]]]]]. exact A. Qed.

Lemma consented_earlier s s' now pk tr m :
  known s' = known s -> prefix (datt s) (datt s') -> consented s' now pk tr m -> consented s now pk tr m.
Proof.
  intros K P [tok [e [A [B [C D]]]]]. exists tok, e. rewrite <- K. split; [exact A|]. split; [exact B|].
  split; [exact C|]. destruct (already (datt s) (md_hash m)) eqn:E; [|reflexivity].
  rewrite (already_prefix _ _ _ P E) in D. discriminate.
Qed.

Definition att_for (m : metadata) : attestation := mkAtt (md_hash m) (mysign (md_hash m)).

(* the loop keeps every invariant I of (state, outputs so far) that signing one more credential keeps *)
Lemma sign_loop_rule now pk tr mds0 (I : state -> list output -> Prop) :
  (forall s outs m, In m mds0 -> I s outs -> should_sign s now pk tr m = Ok true ->
     I (set_datt s (fst (add_att pk me (att_for m) (datt s)))) (outs ++ [OAttest pk (att_for m)])) ->
  forall mds s outs, incl mds mds0 -> I s outs ->
    I (st_of (sign_loop s now pk tr mds)) (outs ++ outs_of (sign_loop s now pk tr mds)).
Proof.
  intros Step. induction mds as [|m mds IH]; intros s outs Hin Hi; cbn [M17_consent.sign_loop].
  - unfold st_of, outs_of. simpl. rewrite app_nil_r. exact Hi.
  - assert (Hm : In m mds0) by (apply Hin; left; reflexivity).
    assert (Htl : incl mds mds0) by (intros y Hy; apply Hin; right; exact Hy).
    destruct (should_sign s now pk tr m) as [[|]|e] eqn:SS.
    + specialize (IH _ _ Htl (Step s outs m Hm Hi SS)). unfold att_for in IH.
      destruct (sign_loop _ now pk tr mds) as [[s2 o2] x2]. unfold st_of, outs_of in *. simpl in *.
      rewrite <- app_assoc in IH. exact IH.
    + apply IH; assumption.
    + unfold st_of, outs_of. simpl. rewrite app_nil_r. exact Hi.
Qed.

Definition signed_row (pk : bytes) (outs : list output) (r : attrow) : Prop :=
  r_pk r = pk /\ r_auth r = me /\ row_valid r /\ In (OAttest pk (mkAtt (r_mptr r) (r_sig r))) outs.

Definition signed_for (s : state) (now : Z) (pk : bytes) (tr : tree) (mds : list metadata) (o : output) : Prop :=
  exists m, o = OAttest pk (att_for m) /\ In m mds /\ consented s now pk tr m.

Lemma sign_loop_spec now pk tr mds s :
  same_but_datt s (st_of (sign_loop s now pk tr mds)) /\
  grown (signed_row pk (outs_of (sign_loop s now pk tr mds))) (datt s) (datt (st_of (sign_loop s now pk tr mds))) /\
  Forall (signed_for s now pk tr mds) (outs_of (sign_loop s now pk tr mds)).
Proof.
  apply (sign_loop_rule now pk tr mds
           (fun s' outs => same_but_datt s s' /\ grown (signed_row pk outs) (datt s) (datt s') /\
                           Forall (signed_for s now pk tr mds) outs) ) with (outs := []);
    [|apply incl_refl|split; [reflexivity|split; [apply grown_refl|constructor]]].
  intros s' outs m Hm [E [G F]] SS. split; [exact E|]. split.
  - eapply grown_trans; (eapply grown_weaken; [|first [exact G|apply add_att_grown]]).
    + intros x [A [B [C D]]]. split; [exact A|]. split; [exact B|]. split; [exact C|]. apply in_or_app. auto.
    + intros x [A [B [C D]]]. split; [exact A|]. split; [exact B|]. split; [exact D|].
      rewrite C. apply in_or_app. right. left. reflexivity.
  - apply Forall_app. split; [exact F|]. constructor; [|constructor]. exists m. split; [reflexivity|].
    split; [exact Hm|]. apply should_sign_consented in SS.
    eapply consented_earlier; [|eapply grown_prefix; exact G|exact SS]. exact (same_but_datt_known _ _ E).
Qed.

Definition only_req (peer : bytes) (l : list output) : Prop := forall o, In o l -> exists n, o = OReqMissing peer n.

Lemma only_req_map {A} peer n (l : list A) : only_req peer (map (fun _ => OReqMissing peer n) l).
Proof. intros o Ho. apply in_map_iff in Ho as [h [Eo _]]. eauto. Qed.

(* the three ways the handler can go: the sender is unknown; substantiate only; substantiate and the signing
   loop.  In the last two, missing-requests may follow. *)
Lemma recv_disclosure_cases s now peer mds toks atts fail :
  let r := recv_disclosure s now peer mds toks atts fail in
  let sb := substantiate s peer mds toks atts fail in
  let l := sign_loop (fst sb) now peer (get_tree peer (pseus (fst sb))) (credentials_of peer (dmd (fst sb))) in
  r = (s, [], None) \/
  (exists reqs, only_req peer reqs /\ st_of r = fst sb /\ outs_of r = reqs) \/
  (exists reqs, only_req peer reqs /\ snd sb = Ok true /\ st_of r = st_of l /\ outs_of r = outs_of l ++ reqs).
Proof.
  intros r sb l. subst l.
  assert (Er : r = recv_disclosure s now peer mds toks atts fail) by reflexivity. clearbody r.
  unfold M17_consent.recv_disclosure in Er. fold sb in Er.
  destruct (existsb _ (known s)); cbn [negb] in Er; [|left; exact Er]. right.
  destruct sb as [s1 [c|e]]; cbn [fst snd] in *.
  2:{ left. exists []. subst r. split; [intros o []|split; reflexivity]. }
  destruct (c && existsb _ _) eqn:GO.
  - right. apply andb_true_iff in GO as [C _]. subst c.
    destruct (sign_loop s1 now peer _ _) as [[s3 outs3] [e3|]]; subst r; unfold st_of, outs_of; cbn [fst snd].
    + exists []. rewrite app_nil_r. split; [intros o []|auto].
    + eexists. split; [|split; [reflexivity|split; reflexivity]]. apply only_req_map.
  - left. subst r. eexists. split; [|split; reflexivity]. apply only_req_map.
Qed.

Lemma recv_disclosure_spec s now peer mds toks atts fail :
  let r := recv_disclosure s now peer mds toks atts fail in
  frame peer s (st_of r) /\
  grown (fun x => carried sigverify peer atts x \/ signed_row peer (outs_of r) x) (datt s) (datt (st_of r)) /\
  (forall o, In o (outs_of r) ->
     (exists n, o = OReqMissing peer n) \/
     (Forall (fun t => tverify peer t = true) toks /\ Forall (fun aa => att_verify (fst aa) (snd aa) = true) atts /\
      exists m, o = OAttest peer (att_for m) /\ In (peer, m) (dmd (st_of r)) /\
                consented s now peer (get_tree peer (pseus (st_of r))) m)).
Proof.
  intros r. destruct (substantiate_spec s peer mds toks atts fail) as [F1 [G1 V1]].
  pose proof (recv_disclosure_cases s now peer mds toks atts fail) as H. cbv zeta in H. fold r in H.
  destruct H as [E|[[reqs [RQ [E1 E2]]]|[reqs [RQ [OK [E1 E2]]]]]].
  - rewrite E. unfold st_of, outs_of. simpl.
    split; [apply same_but_datt_frame; reflexivity|]. split; [apply grown_refl|intros o []].
  - rewrite E1, E2. split; [exact F1|]. split; [eapply grown_weaken; [|exact G1]; auto|]. intros o Ho. left. auto.
  - set (s1 := fst (substantiate s peer mds toks atts fail)) in *.
    destruct (sign_loop_spec now peer (get_tree peer (pseus s1)) (credentials_of peer (dmd s1)) s1) as [E [G2 O2]].
    rewrite E1, E2. destruct (V1 OK) as [VT VA].
    pose proof (same_but_datt_pseus _ _ E) as Ep. pose proof (same_but_datt_dmd _ _ E) as Ed.
    split; [eapply frame_trans; [exact F1|apply same_but_datt_frame; exact E]|]. split.
    + eapply grown_trans; (eapply grown_weaken; [|first [exact G1|exact G2]]); [auto|].
      intros x [A [B [C D]]]. right. split; [exact A|]. split; [exact B|]. split; [exact C|]. apply in_or_app. auto.
    + intros o Ho. apply in_app_or in Ho as [Ho|Ho]; [right|left; auto].
      rewrite Forall_forall in O2. destruct (O2 o Ho) as [m [Eo [Hm Cm]]].
      split; [exact VT|]. split; [exact VA|]. exists m. split; [exact Eo|]. rewrite Ep, Ed. split.
      * unfold credentials_of in Hm. apply dedup_by_In in Hm.
        apply in_map_iff in Hm as [[k m'] [X1 X2]]. simpl in X1. subst m'.
        apply filter_In in X2 as [X2 X3]. simpl in X3. apply bytes_eqb_eq in X3. subst k. exact X2.
      * eapply consented_earlier; [exact (f_known _ _ _ F1)|eapply grown_prefix; exact G1|exact Cm].
Qed.

End Step.
