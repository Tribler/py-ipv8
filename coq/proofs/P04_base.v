(* C04: byte-level facts about cells (cell_to_bin / from_bin), dictionaries, layered encryption, the toy AEAD. *)
From Coq Require Import ZArith List Bool Lia.
From IPV8V Require Import lib.Lists lib.PyErr lib.Bytes lib.BE model.M02_wire model.M03_recv model.M04_onion
  model.M04_harness spec.S04_onion_spec proofs.P02_prims.
Import ListNotations.
Open Scope Z_scope.

Lemma bytes_eqb_neq a b : a <> b -> bytes_eqb a b = false.
Proof. exact (Bytes.bytes_eqb_neq a b). Qed.

Lemma ip_eqb_refl a : ip_eqb a a = true.
Proof. destruct a; simpl; apply bytes_eqb_refl. Qed.

Lemma unpack_u_at w (pre a rest : bytes) k :
  length a = w -> k = Z.of_nat (length pre) -> unpack_u w (pre ++ a ++ rest) k = Ok (be_decode a).
Proof.
  intros H ->. unfold unpack_u, blen. rewrite !app_length, H.
  destruct ((Z.of_nat (length pre) <? 0) || (Z.of_nat (length pre + (w + length rest)) <? Z.of_nat (length pre) + Z.of_nat w)) eqn:E; [lia|].
  rewrite Nat2Z.id, skipn_app_exact, firstn_len_app by (symmetry; exact H). reflexivity.
Qed.

Lemma idx_at (pre : bytes) x rest : idx (pre ++ x :: rest) (Z.of_nat (length pre)) = Ok x.
Proof. exact (idx_at_len pre x rest). Qed.

Lemma idx_at_offset (pre : bytes) x rest k : k = Z.of_nat (length pre) -> idx (pre ++ x :: rest) k = Ok x.
Proof. intros ->. apply idx_at. Qed.

Lemma idx_head x rest : idx (x :: rest) 0 = Ok x.
Proof. exact (idx_at [] x rest). Qed.

Lemma slice_from (pre rest : bytes) k :
  k = Z.of_nat (length pre) -> slice (pre ++ rest) (Some k) None = rest.
Proof.
  intros ->. unfold slice, clamp, blen. rewrite app_length.
  destruct (Z.of_nat (length pre) <? 0) eqn:E1; [lia|]. rewrite E1.
  destruct (Z.of_nat (length pre + length rest) <? Z.of_nat (length pre)) eqn:E2; [lia|].
  rewrite Nat2Z.id, skipn_app_exact.
  replace (Z.to_nat (Z.of_nat (length pre + length rest) - Z.of_nat (length pre))) with (length rest) by lia.
  apply firstn_all.
Qed.

Lemma slice_upto (pre rest : bytes) k :
  k = Z.of_nat (length pre) -> slice (pre ++ rest) None (Some k) = pre.
Proof.
  intros ->. rewrite slice_prefix by lia. rewrite Nat2Z.id. apply firstn_len_app. reflexivity.
Qed.

Lemma slice_head1 x (rest : bytes) : slice (x :: rest) (Some 0) (Some 1) = [x].
Proof.
  unfold slice, clamp. rewrite blen_cons. pose proof (blen_nonneg rest).
  cbn [Z.ltb Z.compare]. destruct (1 + blen rest <? 0) eqn:E1; [lia|].
  destruct (1 + blen rest <? 1) eqn:E2; [lia|]. reflexivity.
Qed.

Lemma slice_tail1 x (rest : bytes) : slice (x :: rest) (Some 1) None = rest.
Proof. exact (slice_from [x] rest 1 eq_refl). Qed.

Lemma skipn_app_le {A} (l1 l2 : list A) i : (i <= length l1)%nat -> skipn i (l1 ++ l2) = skipn i l1 ++ l2.
Proof. intros H. rewrite skipn_app. replace (i - length l1)%nat with 0%nat by lia. reflexivity. Qed.

Lemma nonempty_cons {A} (l : list A) : l <> [] -> exists x t, l = x :: t.
Proof. destruct l; [contradiction | eauto]. Qed.

Lemma b2z_flag b : negb (Z.b2z b =? 0) = b.
Proof. destruct b; reflexivity. Qed.

Lemma cid_be cid : cid_ok cid -> be_decode (be_encode 4 cid) = cid.
Proof. intros H. apply be_decode_encode. unfold cid_ok in H. simpl. lia. Qed.

(* the header fields are read off one by one; each read sees the datagram as what precedes the field, the field,
   and the rest *)
Lemma from_bin_to_bin pfx c :
  length pfx = 22%nat -> cid_ok (cl_cid c) -> from_bin (cell_to_bin pfx c) = Ok c.
Proof.
  intros Hp Hc. destruct c as [cid msg pt re]. unfold cell_to_bin, from_bin, to_bin.
  cbn [cl_cid cl_msg cl_plain cl_early] in *. fold (Z.b2z pt) (Z.b2z re).
  rewrite (app_assoc pfx), (unpack_u_at 4 (pfx ++ [0])) by (rewrite ?app_length, ?be_encode_length, ?Hp; reflexivity).
  cbn [bind]. rewrite cid_be by exact Hc.
  rewrite (app_assoc (pfx ++ [0])), (unpack_u_at 1 _ [Z.b2z pt]) by (rewrite ?app_length, ?be_encode_length, ?Hp; reflexivity).
  rewrite (app_assoc _ [Z.b2z pt]), (unpack_u_at 1 _ [Z.b2z re]) by (rewrite ?app_length, ?be_encode_length, ?Hp; reflexivity).
  rewrite (app_assoc _ [Z.b2z re]), slice_from by (rewrite ?app_length, ?be_encode_length, ?Hp; reflexivity).
  unfold be_decode. cbn [bind be_decode_acc]. rewrite !Z.mul_0_l, !Z.add_0_l, !b2z_flag. reflexivity.
Qed.

Lemma cell_to_bin_blen pfx c : length pfx = 22%nat -> blen (cell_to_bin pfx c) = 29 + blen (cl_msg c).
Proof.
  intros Hp. unfold cell_to_bin, to_bin, blen. rewrite !app_length, be_encode_length, Hp. cbn [length]. lia.
Qed.

Lemma cell_to_bin_prefix pfx c : length pfx = 22%nat -> slice (cell_to_bin pfx c) None (Some 22) = pfx.
Proof.
  intros Hp. unfold cell_to_bin, to_bin. apply slice_upto. rewrite Hp. reflexivity.
Qed.

Lemma cell_to_bin_idx22 pfx c : length pfx = 22%nat -> idx (cell_to_bin pfx c) 22 = Ok 0.
Proof.
  intros Hp. unfold cell_to_bin, to_bin. apply idx_at_offset. rewrite Hp. reflexivity.
Qed.

Lemma cell_body_to_bin pfx c : length pfx = 22%nat -> cell_body (cell_to_bin pfx c) = cl_msg c.
Proof.
  intros Hp. unfold cell_body, cell_to_bin, to_bin. rewrite !app_assoc. apply skipn_len_app.
  rewrite !app_length, be_encode_length, Hp. reflexivity.
Qed.

Lemma assoc_upd_same {A} k (v : A) l : assoc k (upd k v l) = Some v.
Proof.
  induction l as [|[k' v'] tl IH]; cbn [upd assoc].
  - rewrite Z.eqb_refl. reflexivity.
  - destruct (k =? k') eqn:E; cbn [assoc]; [rewrite Z.eqb_refl; reflexivity | rewrite E; exact IH].
Qed.

Lemma assoc_upd_other {A} k k' (v : A) l : k' <> k -> assoc k' (upd k v l) = assoc k' l.
Proof.
  intros Hn. induction l as [|[k2 v2] tl IH]; cbn [upd assoc].
  - destruct (k' =? k) eqn:E; [lia | reflexivity].
  - destruct (k =? k2) eqn:E; cbn [assoc].
    + apply Z.eqb_eq in E. subst k2. destruct (k' =? k) eqn:E2; [lia | reflexivity].
    + destruct (k' =? k2); [reflexivity | exact IH].
Qed.

Lemma assoc_del_same {A} k (l : list (Z * A)) : assoc k (del k l) = None.
Proof.
  induction l as [|[k' v'] tl IH]; cbn [del assoc]; [reflexivity|].
  destruct (k =? k') eqn:E; [exact IH|]. cbn [assoc]. rewrite E. exact IH.
Qed.

Lemma assoc_del_other {A} k k' (l : list (Z * A)) : k' <> k -> assoc k' (del k l) = assoc k' l.
Proof.
  intros Hn. induction l as [|[k2 v2] tl IH]; cbn [del assoc]; [reflexivity|].
  destruct (k =? k2) eqn:E.
  - apply Z.eqb_eq in E. subst k2. destruct (k' =? k) eqn:E2; [lia | exact IH].
  - cbn [assoc]. destruct (k' =? k2); [reflexivity | exact IH].
Qed.

Lemma has_assoc {A} k (l : list (Z * A)) : has k l = match assoc k l with Some _ => true | None => false end.
Proof. reflexivity. Qed.

Section Layers.
Variables key nonce : Type.
Variable enc : key -> dir -> nonce -> bytes -> bytes.
Variable dec : key -> dir -> bytes -> option bytes.
Notation enc_layers := (enc_layers enc).

Lemma enc_layers_length ovh d ks : forall nl m,
  aead_grows enc ovh -> length nl = length ks ->
  length (enc_layers d ks nl m) = (length m + ovh * length ks)%nat.
Proof.
  induction ks as [|k ks IH]; intros [|n nl] m G H; try discriminate; cbn [enc_layers length].
  - lia.
  - destruct G as [Gp Gl]. rewrite Gl, IH by (try split; auto; simpl in H; lia). lia.
Qed.

Lemma encrypt_hops_app d (l1 : list (hop key)) : forall l2 ns m,
  encrypt_hops enc d (l1 ++ l2) ns m =
  match encrypt_hops enc d l1 ns m with
  | Ok m1 => encrypt_hops enc d l2 (fun i => ns (length l1 + i)%nat) m1
  | Raise e => Raise e
  end.
Proof.
  induction l1 as [|h tl IH]; intros l2 ns m; cbn [app encrypt_hops length].
  - reflexivity.
  - destruct (h_keys h); [|reflexivity]. rewrite IH. unfold shift.
    destruct (encrypt_hops enc d tl (fun i => ns (S i)) (enc k d (ns 0%nat) m)); [|reflexivity].
    reflexivity.
Qed.

Lemma encrypt_hops_layers d : forall (hops : list (hop key)) ks ns m,
  map h_keys hops = map Some ks ->
  encrypt_hops enc d (rev hops) ns m = Ok (enc_layers d ks (drawn ns (length ks)) m).
Proof.
  induction hops as [|h tl IH]; intros [|k ks] ns m H; try discriminate.
  - reflexivity.
  - cbn [map] in H. injection H as Hk Ht. cbn [rev]. rewrite encrypt_hops_app, (IH ks ns m Ht).
    cbn [encrypt_hops]. rewrite Hk. rewrite rev_length.
    assert (L : length tl = length ks) by (rewrite <- (map_length h_keys), Ht, map_length; reflexivity).
    rewrite L, Nat.add_0_r. unfold drawn. cbn [length].
    rewrite seq_S, map_app, rev_app_distr. cbn [map rev app enc_layers]. reflexivity.
Qed.

(* peeling the layers of a prefix of the hop list leaves the rest *)
Lemma decrypt_hops_prefix d : forall (hops : list (hop key)) ks nl m,
  aead_correct enc dec -> map h_keys hops = map Some ks -> length nl = length ks ->
  forall rest, decrypt_hops dec d (hops ++ rest) (enc_layers d ks nl m) = decrypt_hops dec d rest m.
Proof.
  induction hops as [|h tl IH]; intros [|k ks] [|n nl] m C H L rest; try discriminate.
  - reflexivity.
  - cbn [map] in H. injection H as Hk Ht. cbn [app decrypt_hops enc_layers]. rewrite Hk, C.
    apply IH; auto.
Qed.

Lemma decrypt_hops_layers d (hops : list (hop key)) ks nl m :
  aead_correct enc dec -> map h_keys hops = map Some ks -> length nl = length ks ->
  decrypt_hops dec d hops (enc_layers d ks nl m) = Ok m.
Proof. intros C H L. rewrite <- (app_nil_r hops). apply (decrypt_hops_prefix d hops ks nl m C H L). Qed.

Lemma drawn_length (ns : nat -> nonce) n : length (drawn ns n) = n.
Proof. unfold drawn. rewrite rev_length, map_length, seq_length. reflexivity. Qed.

(* the first nonce drawn goes into the innermost layer *)
Lemma drawn_S (ns : nat -> nonce) n : drawn ns (S n) = drawn (shift ns) n ++ [ns O].
Proof. unfold drawn, shift. cbn [seq map rev]. rewrite <- seq_shift, map_map. reflexivity. Qed.

Lemma enc_layers_snoc d ks : forall nl k n m,
  length ks = length nl -> enc_layers d (ks ++ [k]) (nl ++ [n]) m = enc_layers d ks nl (enc k d n m).
Proof.
  induction ks as [|k0 ks IH]; intros [|n0 nl] k n m H; try discriminate; cbn [app enc_layers]; [reflexivity|].
  rewrite IH by (injection H; auto). reflexivity.
Qed.

(* link i of a path carries the last hop's ciphertext under the layers of the relays from i on *)
Lemma enc_layers_skipn_snoc d ks nl k n m i :
  length ks = length nl -> (i <= length ks)%nat ->
  enc_layers d (skipn i (ks ++ [k])) (skipn i (nl ++ [n])) m = enc_layers d (skipn i ks) (skipn i nl) (enc k d n m).
Proof.
  intros H Hi. rewrite !skipn_app_le by lia. apply enc_layers_snoc. rewrite !skipn_length, H. reflexivity.
Qed.

(* what was not made under (k, d) does not open under (k, d) *)
Lemma not_enc_no_dec k d c :
  aead_authentic enc dec -> (forall n m, c <> enc k d n m) -> dec k d c = None.
Proof.
  intros A H. destruct (dec k d c) as [m|] eqn:E; [|reflexivity].
  destruct (A k d c m E) as [n Hn]. exfalso. exact (H n m Hn).
Qed.

Lemma wrong_key_no_dec k d k' d' n m :
  aead_key_sep enc dec -> (k', d') <> (k, d) -> dec k d (enc k' d' n m) = None.
Proof.
  intros S H. destruct (dec k d (enc k' d' n m)) as [m'|] eqn:E; [|reflexivity].
  destruct (S k' d' n m k d m' E) as [-> ->]. exfalso. apply H. reflexivity.
Qed.

End Layers.

(* The toy AEAD of M04_harness satisfies every hypothesis the C04 / C05 theorems place on the AEAD. *)
Lemma tenc_length k d n m : length (tenc k d n m) = (length m + 24)%nat.
Proof. unfold tenc, ttag. rewrite !app_length. cbn [length repeat]. lia. Qed.

Lemma tenc_parts k d n m :
  hd 0 (tenc k d n m) = n /\ firstn (length (tenc k d n m) - 24) (skipn 8 (tenc k d n m)) = m.
Proof.
  split; [reflexivity|]. rewrite tenc_length. unfold tenc.
  replace (skipn 8 ((n :: repeat 0 7) ++ m ++ ttag k d n m)) with (m ++ ttag k d n m) by reflexivity.
  replace (length m + 24 - 24)%nat with (length m) by lia. apply firstn_len_app. reflexivity.
Qed.

Lemma toy_correct : aead_correct tenc tdec.
Proof.
  intros k d n m. unfold tdec. rewrite tenc_length.
  destruct (length m + 24 <? 24)%nat eqn:E; [apply Nat.ltb_lt in E; lia|].
  destruct (tenc_parts k d n m) as [H1 H2]. rewrite tenc_length in H2. rewrite H1, H2, bytes_eqb_refl. reflexivity.
Qed.

Lemma toy_authentic : aead_authentic tenc tdec.
Proof.
  intros k d c m. unfold tdec. destruct (length c <? 24)%nat; [discriminate|].
  destruct (bytes_eqb c (tenc k d (hd 0 c) (firstn (length c - 24) (skipn 8 c)))) eqn:E; [|discriminate].
  intros H. injection H as <-. apply bytes_eqb_eq in E. eauto.
Qed.

Lemma toy_key_sep : aead_key_sep tenc tdec.
Proof.
  intros k d n m k' d' m' H. unfold tdec in H. destruct (length (tenc k d n m) <? 24)%nat; [discriminate|].
  destruct (tenc_parts k d n m) as [H1 H2]. rewrite H1, H2 in H.
  destruct (bytes_eqb (tenc k d n m) (tenc k' d' n m)) eqn:E; [|discriminate].
  apply bytes_eqb_eq in E. unfold tenc in E. apply app_inv_head in E. apply app_inv_head in E.
  unfold ttag in E. injection E as Ek Ed. split; [exact Ek|]. destruct d, d'; simpl in Ed; try reflexivity; discriminate.
Qed.

Lemma toy_grows : aead_grows tenc 24.
Proof. split; [lia|]. intros. apply tenc_length. Qed.
