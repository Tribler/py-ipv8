(* Refinement: the request-cache operations interpreted from the translated source (model/M10_reqcache_gen.v over
   gen/G10_reqcache.v) compute exactly what the hand model model/M10_reqcache.v computes. *)
From Coq Require Import ZArith List Bool Lia.
From IPV8V Require Import lib.PyErr model.M10_reqcache proofs.P10_reqcache
  model.M10_lang gen.G10_reqcache model.M10_reqcache_gen.
Import ListNotations.
Open Scope Z_scope.

Lemma st_ext (a b : st) :
  table a = table b -> tasks a = tasks b -> futs a = futs b -> now a = now b -> shut a = shut b ->
  ovr a = ovr b -> filt a = filt b -> a = b.
Proof. destruct a, b; simpl; intros; subst; reflexivity. Qed.

Lemma st_eta (s : st) : mkSt (table s) (tasks s) (futs s) (now s) (shut s) (ovr s) (filt s) = s.
Proof. destruct s; reflexivity. Qed.

Fixpoint upd_range (g : nat -> fstate -> fstate) (lo n : nat) (fl : list fstate) : list fstate :=
  match n with O => fl | S m => upd_range g (S lo) m (upd fl lo (g lo)) end.
Fixpoint mapi_from (g : nat -> fstate -> fstate) (lo : nat) (fl : list fstate) : list fstate :=
  match fl with [] => [] | f :: r => g lo f :: mapi_from g (S lo) r end.

Lemma upd_app_at {A} (pre : list A) x r h : upd (pre ++ x :: r) (length pre) h = pre ++ h x :: r.
Proof. induction pre as [|y pre IH]; simpl; [reflexivity | rewrite IH; reflexivity]. Qed.

Lemma upd_range_mapi g : forall fl pre,
  upd_range g (length pre) (length fl) (pre ++ fl) = pre ++ mapi_from g (length pre) fl.
Proof.
  induction fl as [|f r IH]; intros pre; simpl; [reflexivity|].
  rewrite upd_app_at.
  replace (pre ++ g (length pre) f :: r) with ((pre ++ [g (length pre) f]) ++ r) by (rewrite <- app_assoc; reflexivity).
  replace (S (length pre)) with (length (pre ++ [g (length pre) f])) by (rewrite app_length; simpl; lia).
  rewrite IH. rewrite <- app_assoc. reflexivity.
Qed.

Lemma mapi_const h : forall fl lo, mapi_from (fun _ => h) lo fl = map h fl.
Proof. induction fl as [|f r IH]; intros lo; simpl; [reflexivity | rewrite IH; reflexivity]. Qed.

Lemma mapi_timeout : forall sps fl pre,
  length fl = length sps ->
  mapi_from (fun k => timeout_fut (nth k (pre ++ sps) SNone)) (length pre) fl = timeout_futl sps fl.
Proof.
  induction sps as [|sp sps IH]; intros [|f fl] pre H; simpl in *; try discriminate; try reflexivity.
  rewrite app_nth2 by lia. rewrite Nat.sub_diag. simpl. f_equal.
  replace (pre ++ sp :: sps) with ((pre ++ [sp]) ++ sps) by (rewrite <- app_assoc; reflexivity).
  replace (S (length pre)) with (length (pre ++ [sp])) by (rewrite app_length; simpl; lia).
  apply IH. lia.
Qed.

Lemma upd_upd {A} (l : list A) i F G : upd (upd l i F) i G = upd l i (fun x => G (F x)).
Proof. revert i; induction l as [|x l IH]; intros [|i]; simpl; try reflexivity. rewrite IH. reflexivity. Qed.

Lemma upd_ext_at {A} (l : list A) i F G d : F (nth i l d) = G (nth i l d) -> upd l i F = upd l i G.
Proof.
  revert i; induction l as [|x l IH]; intros [|i] H; simpl in *; try reflexivity.
  - rewrite H. reflexivity.
  - rewrite (IH i H). reflexivity.
Qed.

Lemma upd_same {A} (l : list A) i F d : F (nth i l d) = nth i l d -> upd l i F = l.
Proof.
  revert i; induction l as [|x l IH]; intros [|i] H; simpl in *; try reflexivity.
  - rewrite H. reflexivity.
  - rewrite (IH i H). reflexivity.
Qed.

Lemma nth_upd_same {A} (l : list A) i F d : (i < length l)%nat -> nth i (upd l i F) d = F (nth i l d).
Proof. intros H. rewrite nth_upd, Nat.eqb_refl. apply Nat.ltb_lt in H. rewrite H. reflexivity. Qed.

(* Running a translated function: everything is evaluated except the model's own operations on the symbolic state,
   so what remains is stuck on exactly the conditions the hand model tests. *)
Ltac interp :=
  lazy -[tbl_get tbl_del tk_get tk_del fut_get upd getc c_delay c_prefix c_number
         c_classes c_futs c_script filter_match Z.leb Z.ltb first_unclaimed cancel_futs].

Section Refine.
Variable cfg : list cache.

Lemma gstep_b_refines_loopfree s b :
  match b with BAdd _ | BFind _ _ | BPassEnter _ _ => False | _ => True end -> gstep_b cfg s b = step_b cfg s b.
Proof. destruct s as [tb tk fs nw sh ov fl], b; intros []; interp; try destruct (tbl_get tb (p, n)); reflexivity. Qed.

Lemma ghas_val_spec s p n :
  ghas_val cfg s (VStr p) (VInt n) = Ok (match tbl_get (table s) (p, n) with Some _ => true | None => false end).
Proof. reflexivity. Qed.

Lemma tags_of_classes r : tags_of (map (fun t => VClass t 0) r) = r.
Proof. induction r as [|t r IH]; simpl; [reflexivity | rewrite IH; reflexivity]. Qed.

Lemma gpenter_refines s t f : bop_ok (BPassEnter t f) = true -> gstep_b cfg s (BPassEnter t f) = step_b cfg s (BPassEnter t f).
Proof.
  intros Hok. destruct f as [[|h r]|]; [discriminate| |reflexivity].
  unfold gstep_b, gcall, call. simpl. rewrite tags_of_classes. reflexivity.
Qed.

(* a statement run from x ends normally and has changed nothing but the futures, which are now fs *)
Definition only_futs (r : xs * outcome) (x : xs) (fs : list (list fstate)) : Prop :=
  snd r = ONormal /\ x_obs (fst r) = x_obs x /\ x_draws (fst r) = x_draws x /\ x_st (fst r) = set_futs (x_st x) fs.

Lemma only_futs_trans r1 r2 x fs1 fs2 : only_futs r1 x fs1 -> only_futs r2 (fst r1) fs2 -> only_futs r2 x fs2.
Proof. intros [_ [Ho [Hd Hs]]] [H1 [H2 [H3 H4]]]. repeat split; try congruence. rewrite H4, Hs. reflexivity. Qed.

Lemma only_futs_inv r x fs :
  only_futs r x fs ->
  exists x', r = (x', ONormal) /\ x_obs x' = x_obs x /\ x_draws x' = x_draws x /\ x_st x' = set_futs (x_st x) fs.
Proof. destruct r as [x' o]. intros [Ho H]. simpl in Ho. subst o. exists x'. split; [reflexivity | exact H]. Qed.

Lemma only_futs_skip x : only_futs (x, ONormal) x (futs (x_st x)).
Proof. repeat split. symmetry. apply st_eta. Qed.

(* a loop over the managed futures of cache c whose body acts on future k alone, by g k *)
Lemma loop_futures_pointwise (run : xs -> xs * outcome) c fi oi (g : nat -> fstate -> fstate) (spf : nat -> fspec) :
  fi <> oi ->
  (forall k x, x_env x fi = VFut c k -> x_env x oi = VSpec (spf k) -> (k < length (nth c (futs (x_st x)) []))%nat ->
     only_futs (run x) x (upd (futs (x_st x)) c (fun fl => upd fl k (g k)))) ->
  forall n lo x, (lo + n <= length (nth c (futs (x_st x)) []))%nat ->
     only_futs (loop_items (fun it x => set_local_opt (set_local_opt x (Some fi) (VFut c (fst it))) (Some oi) (VSpec (snd it)))
                         run (map (fun k => (k, spf k)) (seq lo n)) x) x (upd (futs (x_st x)) c (upd_range g lo n)).
Proof.
  intros Hne H. induction n as [|n IH]; intros lo x Hlen; simpl.
  - rewrite (upd_same (futs (x_st x)) c (fun fl => fl) []) by reflexivity. apply only_futs_skip.
  - set (xb := set_local (set_local x fi (VFut c lo)) oi (VSpec (spf lo))).
    assert (HB : only_futs (run xb) x (upd (futs (x_st x)) c (fun fl => upd fl lo (g lo)))).
    { apply (H lo xb); simpl; [| |lia]; unfold env_set; rewrite ?(proj2 (Nat.eqb_neq fi oi) Hne), Nat.eqb_refl; reflexivity. }
    destruct (only_futs_inv _ _ _ HB) as [x1 [E [_ [_ Hst]]]]. rewrite E in *.
    assert (Hlen1 : (S lo + n <= length (nth c (futs (x_st x1)) []))%nat).
    { rewrite Hst. simpl. rewrite (same_rows_upd _ c _ (fun l => length_upd l lo (g lo))). lia. }
    pose proof (only_futs_trans _ _ _ _ _ HB (IH (S lo) x1 Hlen1)) as T.
    rewrite Hst in T. simpl in T. rewrite upd_upd in T. exact T.
Qed.

(* the same for a whole `for f, o in c.managed_futures` statement, the result read as a map over the futures of c *)
Lemma for_futures cb hc c ci fi oi body (g : nat -> fstate -> fstate) h x :
  fi <> oi -> x_env x ci = VCache c ->
  (forall k x, x_env x fi = VFut c k -> x_env x oi = VSpec (nth k (c_futs (getc cfg c)) SNone) ->
     (k < length (nth c (futs (x_st x)) []))%nat ->
     only_futs (exec cfg cb hc body x) x (upd (futs (x_st x)) c (fun fl => upd fl k (g k)))) ->
  mapi_from g 0 (nth c (futs (x_st x)) []) = h (nth c (futs (x_st x)) []) ->
  only_futs (exec cfg cb hc (SForFutures (XLocal ci) (Some fi) (Some oi) body) x) x (upd (futs (x_st x)) c h).
Proof.
  intros Hne Henv Hbody Hh. cbn [exec]. unfold ev. cbn [eval]. unfold env_get. rewrite Henv. unfold managed.
  rewrite <- (upd_ext_at (futs (x_st x)) c (upd_range g 0 (length (nth c (futs (x_st x)) []))) h [])
    by exact (eq_trans (upd_range_mapi g _ []) Hh).
  exact (loop_futures_pointwise (exec cfg cb hc body) c fi oi g _ Hne Hbody _ 0%nat x (Nat.le_refl _)).
Qed.

Lemma fut_get_some s c k : (k < length (nth c (futs s) []))%nat -> exists f, fut_get s c k = Some f /\ nth k (nth c (futs s) []) FPending = f.
Proof.
  intros H. unfold fut_get. destruct (nth_error (nth c (futs s) []) k) eqn:E.
  - exists f. split; [reflexivity|]. apply nth_error_nth. exact E.
  - apply nth_error_None in E. lia.
Qed.

(* `for f, _ in cache.managed_futures: f.cancel()` cancels every pending future of the cache *)
Lemma cancel_loop cb hc c ci fi oi x :
  fi <> oi -> x_env x ci = VCache c ->
  only_futs (exec cfg cb hc (SForFutures (XLocal ci) (Some fi) (Some oi) (SFutCancel (XLocal fi))) x) x (cancel_futs (futs (x_st x)) c).
Proof.
  intros Hne Henv. apply (for_futures cb hc c ci fi oi _ (fun _ => cancel_fut)); [exact Hne | exact Henv | | apply mapi_const].
  intros k [s e o d] Hfi _ Hk. simpl in Hfi, Hk. destruct (fut_get_some s c k Hk) as [f [Hf _]].
  interp. rewrite Hfi, Hf. repeat split.
Qed.

Lemma gadd_refines s c : gstep_b cfg s (BAdd c) = step_b cfg s (BAdd c).
Proof.
  unfold gstep_b, gcall, call, g_add.
  (* the loop statement is hidden behind a variable while the rest of the function is evaluated, so that it arrives
     whole at the lemma about it (cancel_loop); its slots are read off the goal, not written here.  The same is
     done in gfire_refines and gshutdown_refines. *)
  match goal with |- context [SForFutures ?a ?b ?c ?d] => remember (SForFutures a b c d) as LOOP eqn:HL end.
  simpl. rewrite Z.ltb_antisym.
  destruct (c_delay (getc cfg c) <=? 0) eqn:Ed; simpl; [reflexivity|].
  destruct (shut s) eqn:Hs; simpl.
  - subst LOOP.
    match goal with |- context [exec cfg ?cb ?hc (SForFutures (XLocal ?ci) (Some ?fi) (Some ?oi) (SFutCancel (XLocal ?fi))) ?x] =>
      destruct (only_futs_inv _ _ _ (cancel_loop cb hc c ci fi oi x ltac:(discriminate) eq_refl)) as [x0 [E [_ [_ Hst]]]] end.
    rewrite E. simpl. rewrite Hst. reflexivity.
  - unfold env_get, env_set, env_of_list. cbn -[Z.ltb Z.leb]. unfold ckey.
    destruct (tbl_get (table s) (c_prefix (getc cfg c), c_number (getc cfg c))) eqn:Hg; cbn -[Z.ltb Z.leb].
    + rewrite ?Hs. reflexivity.
    + (* the delay: passthrough override with a filter that matches / does not match, override without filter, no override;
         in each case register_task either finds the name taken or arms the timer *)
      rewrite ?Hg. unfold eff_delay.
      destruct (ovr s) as [t|] eqn:Ho; [destruct (filt s) as [f|] eqn:Hf; [destruct (filter_match f (c_classes (getc cfg c))) eqn:Hm|]|];
        simpl; rewrite ?Hf, ?Hm; simpl; rewrite ?Nat.eqb_refl, ?Hs; simpl;
        destruct (tk_get (tasks s) c) eqn:Hk; simpl; rewrite ?Nat.eqb_refl; reflexivity.
Qed.

Definition find_body : stmt :=
  SSeq (SDrawNumber 3%nat) (SIf (XNot (XHas (XLocal 1%nat) (XLocal 3%nat))) SBreak SSkip).
Definition find_else : stmt := SSeq (SAssign 4%nat XOpaque) (SRaise RuntimeError).

Definition claimed (s : st) (p d : Z) : bool := match tbl_get (table s) (p, d) with Some _ => true | None => false end.

Lemma find_body_step s p e o d r :
  e 1%nat = VStr p ->
  exec cfg no_cb (ghas_val cfg) find_body (mkXs s e o (d :: r)) =
  (mkXs s (env_set e 3%nat (VInt d)) o (match r with [] => [d] | _ => r end),
   if claimed s p d then ONormal else OBreak).
Proof.
  intros He. destruct s as [tb tk fs nw sh ov fl], r as [|d2 r]; interp; rewrite He; interp;
    destruct (tbl_get tb (p, d)); reflexivity.
Qed.
Lemma find_all_claimed s p : forall fuel ds e o,
  e 1%nat = VStr p -> ds <> [] -> forallb (claimed s p) ds = true ->
  exists x', loop_fuel (exec cfg no_cb (ghas_val cfg) find_body) (exec cfg no_cb (ghas_val cfg) find_else) fuel (mkXs s e o ds)
             = (x', ORaise RuntimeError) /\ x_st x' = s.
Proof.
  induction fuel as [|fuel IH]; intros ds e o He Hne Hall.
  - simpl. eexists; split; reflexivity.
  - destruct ds as [|d r]; [congruence|]. simpl in Hall. apply andb_true_iff in Hall as [Hd Hr].
    cbn [loop_fuel]. rewrite (find_body_step s p e o d r He). rewrite Hd.
    apply IH.
    + exact He.
    + destruct r; discriminate.
    + destruct r; [simpl; rewrite Hd; reflexivity | exact Hr].
Qed.

Lemma find_loop s p : forall fuel ds e o,
  e 1%nat = VStr p -> ds <> [] -> (length ds <= fuel)%nat ->
  exists x', x_st x' = s /\
    match first_unclaimed (table s) p ds with
    | Ok n => loop_fuel (exec cfg no_cb (ghas_val cfg) find_body) (exec cfg no_cb (ghas_val cfg) find_else) fuel (mkXs s e o ds)
              = (x', ONormal) /\ x_env x' 3%nat = VInt n
    | Raise z => loop_fuel (exec cfg no_cb (ghas_val cfg) find_body) (exec cfg no_cb (ghas_val cfg) find_else) fuel (mkXs s e o ds)
              = (x', ORaise RuntimeError) /\ z = RuntimeError
    end.
Proof.
  induction fuel as [|fuel IH]; intros ds e o He Hne Hlen.
  - destruct ds; [congruence | simpl in Hlen; lia].
  - destruct ds as [|d r]; [congruence|]. cbn [loop_fuel]. rewrite (find_body_step s p e o d r He).
    simpl first_unclaimed. unfold claimed. destruct (tbl_get (table s) (p, d)) eqn:Hd.
    + destruct r as [|d2 r].
      * simpl first_unclaimed.
        destruct (find_all_claimed s p fuel [d] (env_set e 3%nat (VInt d)) o) as [x' [E Hs']].
        { exact He. } { discriminate. } { simpl. unfold claimed. rewrite Hd. reflexivity. }
        exists x'. split; [exact Hs'|]. split; [exact E | reflexivity].
      * apply IH; [exact He | discriminate | simpl in *; lia].
    + eexists. split; [|split; [reflexivity|]]; reflexivity.
Qed.

Lemma exec_SSeq cb hc a b x :
  exec cfg cb hc (SSeq a b) x = match exec cfg cb hc a x with (x1, ONormal) => exec cfg cb hc b x1 | r => r end.
Proof. reflexivity. Qed.
Lemma exec_ForRange cb hc n body els x :
  exec cfg cb hc (SForRangeElse n body els) x = loop_fuel (exec cfg cb hc body) (exec cfg cb hc els) (Z.to_nat n) x.
Proof. reflexivity. Qed.

Lemma gfind_refines s p draws : bop_ok (BFind p draws) = true -> gstep_b cfg s (BFind p draws) = step_b cfg s (BFind p draws).
Proof.
  intros Hok. simpl in Hok. destruct draws as [|d0 r0] eqn:Ed; [discriminate|]. rewrite <- Ed in *.
  assert (Hne : draws <> []) by (subst; discriminate).
  apply Nat.leb_le in Hok.
  unfold gstep_b, gcall, call, g_find_unclaimed.
  fold find_body find_else.
  rewrite exec_SSeq, exec_ForRange.
  destruct (find_loop s p (Z.to_nat 1000) draws (env_of_list [VNone; VStr p]) [] eq_refl Hne) as [x' [Hs' H]].
  { change (Z.to_nat 1000) with 1000%nat. exact Hok. }
  simpl step_b.
  destruct (first_unclaimed (table s) p draws) as [n|z]; destruct H as [E H2]; rewrite E.
  - simpl. unfold env_get. rewrite H2, Hs'. reflexivity.
  - subst z. rewrite Hs'. reflexivity.
Qed.

Lemma gstep_b_refines s b : bop_ok b = true -> gstep_b cfg s b = step_b cfg s b.
Proof.
  intros Hok. destruct b; try (apply gstep_b_refines_loopfree; exact I).
  - apply gadd_refines.
  - apply gfind_refines; exact Hok.
  - apply gpenter_refines; exact Hok.
Qed.

Lemma grun_b_refines : forall bs s, forallb bop_ok bs = true -> grun_b cfg s bs = run_b cfg s bs.
Proof.
  induction bs as [|b bs IH]; intros s Hok; simpl; [reflexivity|].
  simpl in Hok. apply andb_true_iff in Hok as [H1 H2].
  rewrite (gstep_b_refines s b H1). destruct (step_b cfg s b) as [s1 o1]. rewrite (IH s1 H2). reflexivity.
Qed.

Lemma cfg_ok_script c : cfg_ok cfg = true -> forallb bop_ok (c_script (getc cfg c)) = true.
Proof.
  unfold cfg_ok, getc. intros H. rewrite forallb_forall in H.
  destruct (nth_in_or_default c cfg dflt_cache) as [Hin | ->]; [apply H; exact Hin | reflexivity].
Qed.

Definition timeout_body (fi oi : nat) : stmt :=
  SIf (XNot (XFutDone (XLocal fi)))
      (SIf (XIsInst (XLocal oi) TyException)
           (SFutSetException (XLocal fi) (XLocal oi))
           (SFutSetResult (XLocal fi) (XLocal oi)))
      SSkip.

(* the body completes future k as the model's timeout_fut does; a future that is already done is left alone *)
Lemma timeout_body_spec cb hc c fi oi sp k x :
  x_env x fi = VFut c k -> x_env x oi = VSpec sp -> (k < length (nth c (futs (x_st x)) []))%nat ->
  only_futs (exec cfg cb hc (timeout_body fi oi) x) x (upd (futs (x_st x)) c (fun fl => upd fl k (timeout_fut sp))).
Proof.
  destruct x as [s e o d]. simpl. intros Hfi Hoi Hk. destruct (fut_get_some s c k Hk) as [f [Hf Hn]].
  destruct s as [tb tk fs nw sh ov fl]. simpl in Hn.
  interp. rewrite Hfi. interp. rewrite Hf.
  destruct f; [rewrite Hoi; destruct sp; interp | ..]; repeat split.
  1-3: f_equal; apply (upd_ext_at _ _ _ _ []), (upd_ext_at _ _ _ _ FPending); rewrite Hn; reflexivity.
  all: symmetry; f_equal;
    apply (upd_same _ _ _ []), (upd_same _ _ _ FPending); rewrite Hn; reflexivity.
Qed.

Lemma timeout_loop cb hc c ci fi oi x :
  fi <> oi -> x_env x ci = VCache c -> length (nth c (futs (x_st x)) []) = length (c_futs (getc cfg c)) ->
  only_futs (exec cfg cb hc (SForFutures (XLocal ci) (Some fi) (Some oi) (timeout_body fi oi)) x) x (upd (futs (x_st x)) c (timeout_futl (c_futs (getc cfg c)))).
Proof.
  intros Hne Henv Hlen.
  apply (for_futures cb hc c ci fi oi _ (fun k => timeout_fut (nth k (c_futs (getc cfg c)) SNone))); [exact Hne | exact Henv | | ].
  - intros k x0. apply timeout_body_spec.
  - apply (mapi_timeout _ _ []). exact Hlen.
Qed.

(* The source releases the identifier only if it is still registered; the timer exists only for a registered cache
   (inv_task), so on a runnable task the translated function and `fire` start from the same state. *)
Lemma gfire_refines s c : cfg_ok cfg = true -> inv cfg s -> gfire cfg s c = fire cfg s c.
Proof.
  intros Hok I. unfold gfire, fire. destruct (tk_get (tasks s) c) as [[| | |]|] eqn:Hk; try reflexivity.
  pose proof (inv_task_some _ _ _ _ I Hk) as Hg.
  pose proof (run_b_inv cfg (c_script (getc cfg c)) _ (inv_remove cfg s c I Hg)) as I2.
  unfold gcall, call, g_on_timeout.
  match goal with |- context [SForFutures ?a ?b ?c ?d] => remember (SForFutures a b c d) as LOOP eqn:HL end.
  simpl. fold (ckey cfg c). rewrite Hg. simpl.
  rewrite (grun_b_refines _ _ (cfg_ok_script c Hok)).
  destruct (run_b cfg _ (c_script (getc cfg c))) as [s2 o2]. simpl. subst LOOP.
  match goal with |- context [exec cfg ?cb ?hc (SForFutures (XLocal ?ci) (Some ?fi) (Some ?oi) ?body) ?x] =>
    change body with (timeout_body fi oi);
    destruct (only_futs_inv _ _ _ (timeout_loop cb hc c ci fi oi x ltac:(discriminate) eq_refl (inv_futlen _ _ I2 c)))
      as [x3 [E [Hobs [_ Hst]]]] end.
  rewrite E. simpl. rewrite Hst, Hobs. reflexivity.
Qed.

Lemma loop_caches_pointwise (run : xs -> xs * outcome) ci :
  (forall c x,
     only_futs (run (set_local x ci (VCache c))) x (cancel_futs (futs (x_st x)) c)) ->
  forall cs x,
     only_futs (loop_items (fun c x => set_local x ci (VCache c)) run cs x) x (fold_left cancel_futs cs (futs (x_st x))).
Proof.
  intros H. induction cs as [|c cs IH]; intros x; simpl; [apply only_futs_skip|].
  pose proof (H c x) as HB. destruct (only_futs_inv _ _ _ HB) as [x1 [E [_ [_ Hst]]]]. rewrite E in *.
  pose proof (only_futs_trans _ _ _ _ _ HB (IH x1)) as T. rewrite Hst in T. exact T.
Qed.

Lemma shutdown_loop cb hc ci fi oi x :
  fi <> oi ->
  only_futs (exec cfg cb hc (SForCaches ci (SForFutures (XLocal ci) (Some fi) (Some oi) (SFutCancel (XLocal fi)))) x) x (fold_left cancel_futs (map snd (table (x_st x))) (futs (x_st x))).
Proof.
  intros H1. cbn [exec].
  apply (loop_caches_pointwise
           (exec cfg cb hc (SForFutures (XLocal ci) (Some fi) (Some oi) (SFutCancel (XLocal fi)))) ci).
  intros c x0. apply (cancel_loop cb hc c ci fi oi (set_local x0 ci (VCache c)) H1).
  simpl. unfold env_set. rewrite Nat.eqb_refl. reflexivity.
Qed.

Lemma gshutdown_refines s : gstep cfg s Shutdown = step cfg s Shutdown.
Proof.
  unfold gstep, gcall, call, g_shutdown.
  match goal with |- context [SForCaches ?a ?b] => remember (SForCaches a b) as LOOP eqn:HL end.
  simpl. subst LOOP.
  match goal with |- context [exec cfg ?cb ?hc (SForCaches ?ci (SForFutures (XLocal ?ci) (Some ?fi) (Some ?oi) (SFutCancel (XLocal ?fi)))) ?x] =>
    destruct (only_futs_inv _ _ _ (shutdown_loop cb hc ci fi oi x ltac:(discriminate))) as [x1 [E [_ [_ Hst]]]] end.
  rewrite E. simpl.
  unfold env_get. match goal with |- context [truthy ?v] => destruct (truthy v) end; simpl; rewrite Hst; reflexivity.
Qed.

Lemma gstep_refines s o : cfg_ok cfg = true -> op_ok o = true -> inv cfg s -> gstep cfg s o = step cfg s o.
Proof.
  intros Hc Ho I. destruct o; try reflexivity.
  - apply gstep_b_refines. exact Ho.
  - apply gfire_refines; assumption.
  - apply gshutdown_refines.
Qed.

Lemma grun_refines : forall ops s, cfg_ok cfg = true -> forallb op_ok ops = true -> inv cfg s ->
  grun cfg s ops = run cfg s ops.
Proof.
  induction ops as [|o ops IH]; intros s Hc Ho I; simpl; [reflexivity|].
  simpl in Ho. apply andb_true_iff in Ho as [H1 H2].
  rewrite (gstep_refines s o Hc H1 I).
  pose proof (step_inv cfg s o I) as I1. destruct (step cfg s o) as [s1 o1].
  rewrite (IH s1 Hc H2 I1). reflexivity.
Qed.
End Refine.
