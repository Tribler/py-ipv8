(* C13 - what the two scenario sweeps share: the request styles and a vacuous alias influence no run (style erasure), so one
   configuration stands for its class; the boolean `judge` of one run, with what it means; a copy of the run whose LAN
   test is a parameter. *)
From Coq Require Import ZArith List Bool Lia ZifyBool.
From IPV8V Require Import lib.Lists model.M13_nat model.M13_scenario proofs.P13_proto proofs.P13_nat.
Import ListNotations.
Open Scope Z_scope.

Lemma all_types_complete t : In t all_types.
Proof. destruct t; cbn; auto. Qed.
Lemma bools_complete b : In b bools.
Proof. destruct b; cbn; auto. Qed.

Lemma verdict_ok_all_true v : verdict_ok v = true -> v = all_true.
Proof.
  destruct v. unfold verdict_ok. cbn. rewrite !andb_true_iff.
  intros [[[[[[[-> ->] ->] ->] ->] ->] ->] ->]. reflexivity.
Qed.

Definition opt_eqb (a : option Z) (b : Z) : bool := match a with Some x => x =? b | None => false end.


Lemma list_eqb_eq {A} (eqb : A -> A -> bool) (l1 l2 : list A) :
  (forall x y, eqb x y = true -> x = y) -> list_eqb eqb l1 l2 = true -> l1 = l2.
Proof.
  intros H. revert l2. induction l1 as [|x tl IH]; intros [|y tl2]; cbn; try discriminate; [reflexivity|].
  intros E. apply andb_true_iff in E. destruct E as [E1 E2]. rewrite (H _ _ E1), (IH _ E2). reflexivity.
Qed.
Lemma outcome_eqb_eq a b : outcome_eqb a b = true -> a = b.
Proof.
  destruct a as [h s|d], b as [h' s'|d']; cbn; try discriminate.
  - intros E. apply andb_true_iff in E. destruct E as [E1 E2]. apply Z.eqb_eq in E1. apply addr_eqb_eq in E2.
    subst. reflexivity.
  - destruct d, d'; cbn; try discriminate; reflexivity.
Qed.

Lemma set_node_net w n : w_net (set_node w n) = w_net w.
Proof. reflexivity. Qed.

(* Style erasure.  The new-style bits (of a message, a peer, an address-book entry, a candidate's and the requester's first
   request) are only ever copied into one another: no test of the model reads one.  So setting them all to false
   (e_msg, e_node, e_world ...) commutes with every operation, up to the one constant `true` a response
   carries (e_msg'), and the readings of an observation do not see it. *)
Definition e_msg (m : msg) : msg :=
  match m with
  | IntroReq _ k d l w _ i => IntroReq false k d l w false i
  | IntroResp _ k d l w il iw _ _ i => IntroResp false k d l w il iw false false i
  | PunctReq _ l w i => PunctReq false l w i
  | Punct _ k l w i => Punct false k l w i
  end.
Definition e_peer (p : peer) : peer := mkPeer (p_key p) (p_v4 p) (p_lan p) false.
Definition e_entry (e : addr * (option Z * bool)) : addr * (option Z * bool) := (fst e, (fst (snd e), false)).
Definition e_node (n : node) : node :=
  mkNode (n_key n) (n_lan n) (n_wan n) (n_gt n) (n_sel n) (map e_peer (n_peers n)) (map e_entry (n_addrs n)).
(* As e_msg, but the supports-new-style bit stays.  A response carries the constant `true` there, so a step from an erased
   world does not end in an erased world: handle commutes with e_msg on the way in and with e_msg' on the way out, and from
   deliver_one upwards the lemmas say that a step respects equality of erased worlds. *)
Definition e_msg' (m : msg) : msg :=
  match m with
  | IntroReq _ k d l w s i => IntroReq false k d l w s i
  | IntroResp _ k d l w il iw s _ i => IntroResp false k d l w il iw s false i
  | PunctReq _ l w i => PunctReq false l w i
  | Punct _ k l w i => Punct false k l w i
  end.
Definition e_out (o : addr * msg) : addr * msg := (fst o, e_msg (snd o)).
Definition e_out' (o : addr * msg) : addr * msg := (fst o, e_msg' (snd o)).
Definition e_dgram (q : Z * addr * msg) : Z * addr * msg := (fst q, e_msg (snd q)).
Definition e_event (e : event) : event := match e with Ev s d m o => Ev s d (e_msg m) o end.
Definition e_world (w : world) : world :=
  mkWorld (w_net w) (map e_node (w_nodes w)) (map e_dgram (w_queue w)) (map e_event (w_log w)).
Definition e_op (o : op) : op :=
  match o with OpWalk h dst st => OpWalk h dst (option_map (fun _ => false) st) | _ => o end.

Lemma filter_map {A B} (f : A -> B) (P : B -> bool) l : filter P (map f l) = map f (filter (fun x => P (f x)) l).
Proof. induction l as [|x tl IH]; cbn; [reflexivity|]. destruct (P (f x)); cbn; rewrite IH; reflexivity. Qed.


Lemma e_find_peer k l : find_peer k (map e_peer l) = option_map e_peer (find_peer k l).
Proof. apply find_map. Qed.
Lemma e_put_peer p l : put_peer (e_peer p) (map e_peer l) = map e_peer (put_peer p l).
Proof.
  induction l as [|q tl IH]; cbn; [reflexivity|].
  destruct (p_key q =? p_key p); [reflexivity|]. destruct (p_key p <? p_key q); [reflexivity|].
  cbn. rewrite <- IH. reflexivity.
Qed.

Lemma e_addrs_get a l : addrs_get a (map e_entry l) = option_map (fun v => (fst v, false)) (addrs_get a l).
Proof. unfold addrs_get. rewrite find_map. cbn. destruct (find _ l); reflexivity. Qed.
Lemma e_addrs_mem a l : addrs_mem a (map e_entry l) = addrs_mem a l.
Proof. unfold addrs_mem. rewrite e_addrs_get. destruct (addrs_get a l); reflexivity. Qed.
Lemma e_addrs_set a i b l : addrs_set a (i, false) (map e_entry l) = map e_entry (addrs_set a (i, b) l).
Proof.
  induction l as [|x tl IH]; cbn; [reflexivity|]. destruct (addr_eqb (fst x) a); [reflexivity|].
  cbn. rewrite IH. reflexivity.
Qed.

Lemma e_touch n key src : touch (e_node n) key src = (e_peer (fst (touch n key src)), snd (touch n key src)).
Proof. unfold touch. cbn [e_node n_peers]. rewrite e_find_peer. destruct (find_peer key (n_peers n)); reflexivity. Qed.

Lemma e_set_peers n l : set_peers (e_node n) (map e_peer l) = e_node (set_peers n l).
Proof. reflexivity. Qed.
Lemma e_set_addrs n l : set_addrs (e_node n) (map e_entry l) = e_node (set_addrs n l).
Proof. reflexivity. Qed.

Lemma e_add_verified n p known : add_verified (e_node n) (e_peer p) known = e_node (add_verified n p known).
Proof.
  unfold add_verified. cbn [e_node e_peer n_key p_key n_peers n_addrs]. destruct (p_key p =? n_key n); [reflexivity|].
  rewrite e_put_peer, e_set_peers. destruct known; [reflexivity|]. rewrite <- e_set_addrs. f_equal.
  change (peer_addrs (e_peer p)) with (peer_addrs p).
  rewrite (existsb_ext _ (fun a => addrs_mem a (n_addrs n))) by (intros a; apply e_addrs_mem).
  destruct (existsb _ (peer_addrs p)); [reflexivity|].
  generalize (n_addrs n). induction (peer_addrs p) as [|a tl IH]; intros l; cbn [fold_left]; [reflexivity|].
  rewrite e_addrs_mem. destruct (addrs_mem a l); [apply IH|]. rewrite <- IH, map_app. reflexivity.
Qed.

Lemma e_discover n k a b : discover (e_node n) k a false = e_node (discover n k a b).
Proof.
  unfold discover. cbn [e_node n_addrs n_peers]. rewrite e_addrs_get, (e_addrs_set a _ b), e_set_addrs.
  destruct (addrs_get a (n_addrs n)) as [[[i|] b']|]; cbn [option_map fst]; try reflexivity.
  rewrite e_find_peer. destruct (find_peer i (n_peers n)); reflexivity.
Qed.
Lemma e_fold_discover k b l : forall n,
  fold_left (fun acc a => discover acc k a false) l (e_node n) = e_node (fold_left (fun acc a => discover acc k a b) l n).
Proof. induction l as [|a tl IH]; intros n; cbn [fold_left]; [reflexivity|]. rewrite (e_discover n k a b). apply IH. Qed.

Lemma e_is_new_style n a : is_new_style (e_node n) a = false.
Proof. unfold is_new_style. cbn [e_node n_addrs]. rewrite e_addrs_get. destruct (addrs_get a (n_addrs n)) as [[i b]|]; reflexivity. Qed.

Lemma e_has_addr a l : existsb (has_addr a) (map e_peer l) = existsb (has_addr a) l.
Proof. rewrite existsb_map. reflexivity. Qed.

Lemma e_walkable n : walkable (e_node n) = walkable n.
Proof.
  unfold walkable. cbn [e_node n_addrs n_peers]. f_equal. rewrite filter_map, map_map. cbn [e_entry fst snd].
  f_equal. induction (n_addrs n) as [|x tl IH]; cbn [filter]; [reflexivity|]. rewrite e_has_addr, IH. reflexivity.
Qed.

Lemma e_intro_candidates n src : intro_candidates (e_node n) src = map e_peer (intro_candidates n src).
Proof.
  unfold intro_candidates. cbn [e_node n_peers]. rewrite find_map.
  change (fun x => has_addr src (e_peer x)) with (has_addr src).
  destruct (find (has_addr src) (n_peers n)); cbn [option_map]; [|reflexivity]. rewrite filter_map. reflexivity.
Qed.

Lemma e_pick_sel sel l : pick_sel sel (map e_peer l) = option_map e_peer (pick_sel sel l).
Proof. destruct l as [|p tl]; [reflexivity|]. unfold pick_sel. rewrite map_length. apply nth_error_map. Qed.

Lemma e_handle n src m :
  handle (e_node n) src (e_msg m) = (e_node (fst (handle n src m)), map e_out' (snd (handle n src m))).
Proof.
  destruct m as [new key dest slan swan sup ident | new key dest slan swan ilan iwan sup inew ident
                 | new lanw wanw ident | new key slan swan ident]; cbn [handle e_msg];
    [rewrite e_touch; destruct (touch n key src) as [p0 known]; cbn [fst snd] ..
    | | rewrite e_touch; destruct (touch n key src) as [p0 known]; cbn [fst snd]].
  - cbn [orb e_peer p_key p_v4 p_lan p_new].
    change (mkPeer (p_key p0) (p_v4 p0) (Some slan) false)
      with (e_peer (mkPeer (p_key p0) (p_v4 p0) (Some slan) (new || sup || p_new p0))).
    rewrite e_add_verified. set (n1 := add_verified n _ known).
    unfold pick. cbn [e_node n_sel]. rewrite e_intro_candidates, e_pick_sel.
    fold (e_node n1).
    destruct (pick_sel (n_sel n1) (intro_candidates n1 src)) as [c|]; cbn [option_map]; [|reflexivity].
    change (intro_fields (e_node n1) (e_peer c)) with (intro_fields n1 c).
    destruct (intro_fields n1 c) as [ilan iwan]. reflexivity.
  - cbn [orb e_peer p_key p_v4 p_lan p_new].
    change (mkPeer (p_key p0) (p_v4 p0) (Some slan) false)
      with (e_peer (mkPeer (p_key p0) (p_v4 p0) (Some slan) (new || sup || p_new p0))).
    replace (if in_lan_subnets (fst dest) then e_node n else set_wan (e_node n) dest)
      with (e_node (if in_lan_subnets (fst dest) then n else set_wan n dest)) by (destruct (in_lan_subnets (fst dest)); reflexivity).
    rewrite e_add_verified. set (n1 := add_verified _ _ known).
    change (n_lan (e_node n1)) with (n_lan n1). change (n_wan (e_node n1)) with (n_wan n1).
    rewrite (e_fold_discover key inew). reflexivity.
  - reflexivity.
  - destruct known; [|reflexivity]. cbn [e_node n_peers]. rewrite e_put_peer. reflexivity.
Qed.

Lemma e_make_request n dst b :
  make_request (e_node n) dst false = (e_node (fst (make_request n dst b)), e_msg (snd (make_request n dst b))).
Proof. reflexivity. Qed.

Lemma e_msg_e' m : e_msg (e_msg' m) = e_msg m.
Proof. destruct m; reflexivity. Qed.
Lemma e_msg_idem m : e_msg (e_msg m) = e_msg m.
Proof. destruct m; reflexivity. Qed.
Lemma e_node_idem n : e_node (e_node n) = e_node n.
Proof. unfold e_node. cbn [n_key n_lan n_wan n_gt n_sel n_peers n_addrs]. rewrite !map_map. reflexivity. Qed.
Lemma e_world_idem w : e_world (e_world w) = e_world w.
Proof.
  unfold e_world. cbn [w_net w_nodes w_queue w_log]. rewrite !map_map. f_equal; apply map_ext.
  - apply e_node_idem.
  - intros [[h s] m]. unfold e_dgram. cbn [fst snd]. rewrite e_msg_idem. reflexivity.
  - intros [s d m o]. cbn [e_event]. rewrite e_msg_idem. reflexivity.
Qed.

Lemma e_find_node w id : find_node (e_world w) id = option_map e_node (find_node w id).
Proof. apply find_map. Qed.
Lemma e_set_node w n : set_node (e_world w) (e_node n) = e_world (set_node w n).
Proof.
  unfold set_node, e_world. cbn [w_net w_nodes w_queue w_log]. rewrite !map_map. f_equal. apply map_ext.
  intros x. change (n_key (e_node x)) with (n_key x). change (n_key (e_node n)) with (n_key n).
  destruct (n_key x =? n_key n); reflexivity.
Qed.
Lemma e_send1 w hid dst m : send1 (e_world w) hid (dst, e_msg m) = e_world (send1 w hid (dst, m)).
Proof.
  unfold send1. cbn [e_world w_net w_nodes w_queue w_log]. destruct (route (w_net w) hid dst) as [net' oc].
  unfold e_world. cbn [w_net w_nodes w_queue w_log map e_event]. destruct oc; [rewrite map_app|]; reflexivity.
Qed.
Lemma e_send_all hid outs : forall w, send_all (e_world w) hid (map e_out outs) = e_world (send_all w hid outs).
Proof.
  unfold send_all. induction outs as [|[dst m] tl IH]; intros w; cbn [map fold_left]; [reflexivity|].
  change (e_out (dst, m)) with (dst, e_msg m). rewrite e_send1. apply IH.
Qed.

Lemma e_deliver_one w : e_world (deliver_one (e_world w)) = e_world (deliver_one w).
Proof.
  unfold deliver_one. cbn [e_world w_queue]. destruct (w_queue w) as [|[[hid src] m] tl]; [apply e_world_idem|].
  cbn [map e_dgram fst snd]. set (w1 := mkWorld (w_net w) (w_nodes w) tl (w_log w)).
  change (mkWorld (w_net (e_world w)) (w_nodes (e_world w)) (map e_dgram tl) (w_log (e_world w))) with (e_world w1).
  rewrite e_find_node.
  destruct (find_node w1 hid) as [n|]; cbn [option_map]; [|apply e_world_idem].
  rewrite e_handle. destruct (handle n src m) as [n' outs]. cbn [fst snd]. rewrite e_set_node.
  rewrite <- (e_send_all hid outs), <- (e_send_all hid (map e_out' outs)), map_map, e_world_idem.
  f_equal. apply map_ext. intros [a m']. unfold e_out, e_out'. cbn [fst snd]. rewrite e_msg_e'. reflexivity.
Qed.

Lemma e_pump fuel : forall w, e_world (pump fuel (e_world w)) = e_world (pump fuel w).
Proof.
  induction fuel as [|f IH]; intros w; cbn [pump]; [apply e_world_idem|].
  change (w_queue (e_world w)) with (map e_dgram (w_queue w)).
  destruct (w_queue w) as [|q tl]; cbn [map]; [apply e_world_idem|].
  rewrite <- IH, e_deliver_one, IH. reflexivity.
Qed.

Lemma e_walk1 w h dst st : walk1 (e_world w) h dst (option_map (fun _ => false) st) = e_world (walk1 w h dst st).
Proof.
  unfold walk1. rewrite e_find_node. destruct (find_node w h) as [n|]; cbn [option_map]; [|reflexivity].
  replace (match option_map (fun _ => false) st with Some b => b | None => is_new_style (e_node n) dst end) with false
    by (destruct st; [reflexivity | symmetry; apply e_is_new_style]).
  rewrite (e_make_request n dst (match st with Some b => b | None => is_new_style n dst end)).
  destruct (make_request n dst _) as [n' m]. cbn [fst snd]. rewrite e_set_node. apply e_send1.
Qed.

Lemma e_step_op w o : e_world (step_op (e_world w) (e_op o)) = e_world (step_op w o).
Proof.
  destruct o as [h dst st|h key|h|h|]; cbn [step_op e_op].
  - rewrite e_walk1. apply e_world_idem.
  - rewrite e_find_node. destruct (find_node w h) as [n|]; cbn [option_map]; [|apply e_world_idem].
    cbn [e_node n_peers]. rewrite e_find_peer. destruct (find_peer key (n_peers n)) as [p|]; cbn [option_map]; [|apply e_world_idem].
    change (walk1 (e_world w) h (p_v4 (e_peer p)) (Some (p_new (e_peer p))))
      with (walk1 (e_world w) h (p_v4 p) (option_map (fun _ => false) (Some (p_new p)))).
    rewrite e_walk1. apply e_world_idem.
  - rewrite e_find_node. destruct (find_node w h) as [n|]; cbn [option_map]; [|apply e_world_idem].
    rewrite e_walkable. generalize (walkable n). intros l. revert w.
    induction l as [|a tl IH]; intros w; cbn [fold_left]; [apply e_world_idem|].
    change (walk1 (e_world w) h a None) with (walk1 (e_world w) h a (option_map (fun _ => false) (@None bool))).
    rewrite e_walk1. apply IH.
  - apply (e_world_idem (mkWorld (rebind (w_net w) h) (w_nodes w) (w_queue w) (w_log w))).
  - apply e_pump.
Qed.

Lemma e_run_ops ops : forall ops' w w', e_world w = e_world w' -> map e_op ops = map e_op ops' ->
  e_world (run_ops w ops) = e_world (run_ops w' ops').
Proof.
  unfold run_ops. induction ops as [|o tl IH]; intros [|o' tl'] w w' Hw Ho; try discriminate Ho; cbn [fold_left]; [exact Hw|].
  cbn [map] in Ho. injection Ho as Ho Htl. apply IH; [|exact Htl].
  rewrite <- (e_step_op w o), <- (e_step_op w' o'), Hw, Ho. reflexivity.
Qed.

Definition e_obs (o : obs) : obs := mkObs (map e_event (o_events o)) (o_peers o) (o_wans o) (o_walk o) (o_quiet o).
Lemma e_observe w : observe (e_world w) = e_obs (observe w).
Proof.
  unfold observe, e_obs. cbn [e_world w_nodes w_queue w_log o_events o_peers o_wans o_walk o_quiet].
  rewrite List.map_rev, !map_map. f_equal.
  - apply map_ext. intros n. cbn [e_node n_key n_peers]. rewrite map_map. reflexivity.
  - apply map_ext. intros n. rewrite e_walkable. reflexivity.
  - destruct (w_queue w); reflexivity.
Qed.

(* the readings of an observation do not see the erasure *)
Definition e_split (t : list event * event * list event) : list event * event * list event :=
  (map e_event (fst (fst t)), e_event (snd (fst t)), map e_event (snd t)).
Lemma e_split_at_intro l : forall before found,
  split_at_intro (map e_event before) (map e_event l) (option_map e_split found)
  = option_map e_split (split_at_intro before l found).
Proof.
  induction l as [|e tl IH]; intros before found; cbn [map split_at_intro]; [reflexivity|].
  rewrite <- IH. cbn [map]. f_equal. destruct e as [s d [] []]; try reflexivity.
  cbn [e_event e_msg]. destruct ((s =? ID_B) && (h =? ID_A)); reflexivity.
Qed.
Lemma e_split_obs o :
  split_at_intro [] (o_events (e_obs o)) None = option_map e_split (split_at_intro [] (o_events o) None).
Proof. apply (e_split_at_intro (o_events o) [] None). Qed.

Definition style_blind (P : event -> bool) : Prop := forall e, P (e_event e) = P e.
Lemma existsb_blind P l : style_blind P -> existsb P (map e_event l) = existsb P l.
Proof. intros H. rewrite existsb_map. apply existsb_ext. exact H. Qed.
Lemma filter_blind P l : style_blind P -> filter P (map e_event l) = map e_event (filter P l).
Proof. intros H. rewrite filter_map. f_equal. apply filter_ext. exact H. Qed.
Lemma forallb_blind P l : style_blind P -> forallb P (map e_event l) = forallb P l.
Proof. intros H. induction l as [|x tl IH]; cbn; [reflexivity|]. rewrite H, IH. reflexivity. Qed.

Lemma e_introduced_peer o : introduced_peer (e_obs o) = introduced_peer o.
Proof.
  unfold introduced_peer. rewrite e_split_obs.
  destruct (split_at_intro [] (o_events o) None) as [[[[|[s d [] []] before] e] after]|]; reflexivity.
Qed.

Lemma e_contacts o : contacts (e_obs o) = contacts o.
Proof.
  unfold contacts. rewrite e_split_obs.
  destruct (split_at_intro [] (o_events o) None) as [[[before [s d [] oc]] after]|]; try reflexivity.
  cbn [option_map e_split fst snd e_event e_msg]. induction after as [|[s' d' [] oc'] tl IH]; cbn [map flat_map e_event e_msg];
    rewrite ?IH; reflexivity.
Qed.

Lemma e_verdict_of g o : verdict_of g (e_obs o) = verdict_of g o.
Proof.
  unfold verdict_of. rewrite e_split_obs. change (o_quiet (e_obs o)) with (o_quiet o).
  change (o_wans (e_obs o)) with (o_wans o). change (o_peers (e_obs o)) with (o_peers o).
  destruct (split_at_intro [] (o_events o) None) as [[[before [s d [] oc]] after]|]; try reflexivity.
  cbn [option_map e_split fst snd e_event e_msg]. destruct (addr_eqb iwan zero_addr); [reflexivity|].
  destruct before as [|[s' d' [] []] before]; try reflexivity. cbn [map e_event e_msg].
  rewrite !(filter_blind _ after) by (intros [? ? [] ?]; reflexivity).
  rewrite !existsb_blind, !forallb_blind by (intros [? ? [] ?]; reflexivity). reflexivity.
Qed.

(* configurations: the styles of the first requests go; so does an alias that cand_lan does not look at (the
   candidate shares the requester's site, or one of the two sites is open) *)
Definition alias_void (tA tC : nat_type) (same : bool) : bool := same || is_open tC || is_open tA.
Definition e_cand (tA : nat_type) (c : cand) : cand :=
  mkCand (c_type c) (c_same c) (c_resp c) false
         (c_alias c && negb (alias_void tA (c_type c) (c_same c))) (c_rebound c).
Definition e_cfg (g : cfg) : cfg :=
  mkCfg (g_tA g) (map (e_cand (g_tA g)) (g_cands g)) false (g_warm g) (g_sels g) (g_bplace g).

Lemma indexed_map {A B} (f : A -> B) l : forall i,
  indexed i (map f l) = map (fun jc => (fst jc, f (snd jc))) (indexed i l).
Proof. induction l as [|x tl IH]; intros i; cbn [map indexed]; [reflexivity|]. rewrite IH. reflexivity. Qed.

(* the layout reads of a candidate its placement, its type and what cand_lan makes of its alias *)
Definition map_cands (f : cand -> cand) (g : cfg) : cfg :=
  mkCfg (g_tA g) (map f (g_cands g)) (g_styleA g) (g_warm g) (g_sels g) (g_bplace g).
Section Layout.
Variables (f : cand -> cand) (g : cfg).
Hypothesis f_same : forall c, c_same (f c) = c_same c.
Hypothesis f_type : forall c, c_type (f c) = c_type c.
Hypothesis f_lan : forall j c, cand_lan (map_cands f g) j (f c) = cand_lan g j c.

Lemma map_cands_b_site : b_site (map_cands f g) = b_site g /\ b_site_kind (map_cands f g) = b_site_kind g.
Proof.
  unfold b_site, b_site_kind. cbn [map_cands g_bplace g_cands g_tA]. destruct (g_bplace g) as [|t| |j]; try (split; reflexivity).
  rewrite nth_error_map. destruct (nth_error (g_cands g) j); cbn [option_map]; [|split; reflexivity].
  unfold cand_site. rewrite f_same, f_type. split; reflexivity.
Qed.
Lemma map_cands_mk_net : mk_net (map_cands f g) = mk_net g.
Proof.
  unfold mk_net, ADDR_Bg. destruct map_cands_b_site as [-> ->]. change (g_cands (map_cands f g)) with (map f (g_cands g)).
  rewrite indexed_map, !map_map. cbn [fst snd]. unfold cand_site.
  rewrite (map_ext _ _ (fun jc => f_equal2 (mkHost _) (f_lan (fst jc) (snd jc))
                                    (f_equal (fun b : bool => if b then SITE_A else _) (f_same (snd jc))))).
  f_equal. f_equal. f_equal. f_equal. apply map_ext. intros jc. rewrite f_same, f_type. reflexivity.
Qed.
End Layout.

Lemma e_cand_lan g j c : cand_lan (e_cfg g) j (e_cand (g_tA g) c) = cand_lan g j c.
Proof.
  unfold cand_lan, ADDR_A. cbn [e_cfg e_cand g_tA c_same c_alias c_type]. unfold alias_void.
  destruct (c_same c), (c_alias c), (is_open (c_type c)), (is_open (g_tA g)); reflexivity.
Qed.
Lemma e_mk_net g : mk_net (e_cfg g) = mk_net g.
Proof.
  apply (map_cands_mk_net (e_cand (g_tA g)) g); try reflexivity. apply e_cand_lan.
Qed.
Lemma e_b_site g : b_site (e_cfg g) = b_site g.
Proof. apply (map_cands_b_site (e_cand (g_tA g)) g); reflexivity. Qed.
Lemma e_b_site_kind g : b_site_kind (e_cfg g) = b_site_kind g.
Proof. apply (map_cands_b_site (e_cand (g_tA g)) g); reflexivity. Qed.
Lemma e_mk_world g : mk_world (e_cfg g) = mk_world g.
Proof. unfold mk_world. rewrite e_mk_net. reflexivity. Qed.

Lemma e_scenario_ops g : map e_op (scenario_ops (e_cfg g)) = map e_op (scenario_ops g).
Proof.
  unfold scenario_ops, via_rendezvous. cbn [e_cfg g_bplace g_cands]. rewrite indexed_map, !map_map.
  assert (S : forall jc, map e_op (setup_ops (fst jc, e_cand (g_tA g) (snd jc))) = map e_op (setup_ops jc)).
  { intros [j [t sm [] nw al []]]; reflexivity. }
  assert (X : forall jc, map e_op (setup_ops_x (fst jc, e_cand (g_tA g) (snd jc))) = map e_op (setup_ops_x jc)).
  { intros [j [t sm [] nw al rb]]; reflexivity. }
  destruct (g_bplace g); rewrite !map_app, !concat_map, !map_map;
    rewrite ?(map_ext _ _ S), ?(map_ext _ _ X); reflexivity.
Qed.


(* configurations that differ only in styles are observed alike *)
Lemma styles_unobserved g g' : e_cfg g = e_cfg g' -> e_obs (run_scn g) = e_obs (run_scn g').
Proof.
  intros H. unfold run_scn, run_scenario. rewrite <- !e_observe. f_equal. apply e_run_ops.
  - rewrite <- (e_mk_world g), <- (e_mk_world g'), H. reflexivity.
  - rewrite <- (e_scenario_ops g), <- (e_scenario_ops g'), H. reflexivity.
Qed.

Lemma cands_for_styles oA k pos c c' : e_cand oA c = e_cand oA c' ->
  map (e_cand oA) (cands_for k pos c) = map (e_cand oA) (cands_for k pos c').
Proof.
  intros H. unfold cands_for. rewrite !map_map. apply map_ext. intros j. destruct (Nat.eqb j pos); [exact H|].
  destruct c, c'. injection H as -> -> -> _ ->. reflexivity.
Qed.
Lemma selB_for_e oA cs pos : selB_for (map (e_cand oA) cs) pos = selB_for cs pos.
Proof. unfold selB_for. rewrite existsb_map. reflexivity. Qed.

Lemma e_cfg_cands_for bp tA c c' styleA styleA' warm k pos : e_cand tA c = e_cand tA c' ->
  e_cfg (mkCfg tA (cands_for k pos c) styleA warm [-1; selB_for (cands_for k pos c) pos] bp)
  = e_cfg (mkCfg tA (cands_for k pos c') styleA' warm [-1; selB_for (cands_for k pos c') pos] bp).
Proof.
  intros H. unfold e_cfg. cbn [g_tA g_cands g_warm g_sels g_bplace].
  rewrite <- !(selB_for_e tA (cands_for _ _ _)), (cands_for_styles _ k pos c c' H). reflexivity.
Qed.

(* so the network of a configuration built by cands_for does not depend on how B came to know the candidates *)
Definition lay_cand (c : cand) : cand := mkCand (c_type c) (c_same c) false false (c_alias c) false.
Lemma cands_for_lay k pos c c' : lay_cand c = lay_cand c' ->
  map lay_cand (cands_for k pos c) = map lay_cand (cands_for k pos c').
Proof.
  intros H. unfold cands_for. rewrite !map_map. apply map_ext. intros j. destruct (Nat.eqb j pos); [exact H|].
  destruct c, c'. injection H as -> -> ->. reflexivity.
Qed.
Lemma mk_net_cands_for tA c c' sA sA' w w' sels sels' bp k pos : lay_cand c = lay_cand c' ->
  mk_net (mkCfg tA (cands_for k pos c) sA w sels bp) = mk_net (mkCfg tA (cands_for k pos c') sA' w' sels' bp).
Proof.
  intros H. rewrite <- (map_cands_mk_net lay_cand (mkCfg tA (cands_for k pos c) sA w sels bp)) by reflexivity.
  rewrite <- (map_cands_mk_net lay_cand (mkCfg tA (cands_for k pos c') sA' w' sels' bp)) by reflexivity.
  unfold map_cands. cbn [g_tA g_cands g_styleA g_warm g_sels g_bplace]. rewrite (cands_for_lay k pos c c' H). reflexivity.
Qed.

(* what is asked of one run *)
Definition judge_run (g : cfg) (o : obs) (same : bool) (pos : nat) (blind : bool) : bool :=
  let v := verdict_of g o in
  opt_eqb (introduced_peer o) (cand_id pos)
  && Bool.eqb (b_blind g (cand_id pos)) blind
  && (if blind then
        v_puncture_req v && negb (v_puncture v && v_request v && v_mutual v)
      else
        verdict_ok v
        && existsb (Z.eqb (cand_id pos)) (peers_of o ID_A)
        && existsb (Z.eqb ID_A) (peers_of o (cand_id pos))
        && (if same then
              list_eqb (fun x y => addr_eqb (fst x) (fst y) && outcome_eqb (snd x) (snd y)) (contacts o)
                       [(host_lan g (cand_id pos), Deliver (cand_id pos) (host_lan g ID_A))]
            else true)).
Definition judge (g : cfg) (o : obs) (same : bool) (pos : nat) (blind : bool) : bool :=
  judge_run g o same pos blind && net_wfb (mk_net g).
Definition scn_check (g : cfg) : bool -> nat -> bool -> bool := judge g (run_scn g).

Lemma judge_erased g o same pos blind : judge g (e_obs o) same pos blind = judge g o same pos blind.
Proof. unfold judge, judge_run. rewrite e_introduced_peer, e_verdict_of, e_contacts. reflexivity. Qed.
Lemma judge_e_cfg g o same pos blind : judge (e_cfg g) o same pos blind = judge g o same pos blind.
Proof.
  unfold judge, judge_run, b_blind, host_site_raw, verdict_of, host_site, host_lan.
  rewrite e_mk_net, e_b_site, e_b_site_kind. reflexivity.
Qed.
Lemma scn_check_styles g g' same pos blind : e_cfg g = e_cfg g' ->
  scn_check g same pos blind = scn_check g' same pos blind.
Proof.
  intros H. unfold scn_check.
  rewrite <- (judge_erased g), (styles_unobserved g g' H), judge_erased, <- (judge_e_cfg g), H. apply judge_e_cfg.
Qed.

Lemma judge_spec g o same pos blind : judge g o same pos blind = true ->
  introduced_peer o = Some (cand_id pos) /\ b_blind g (cand_id pos) = blind /\ net_wfb (mk_net g) = true /\
  if blind then
    holds g o = false /\ v_puncture_req (verdict_of g o) = true /\
    (v_puncture (verdict_of g o) = false \/ v_request (verdict_of g o) = false \/ v_mutual (verdict_of g o) = false)
  else
    verdict_of g o = all_true /\ In (cand_id pos) (peers_of o ID_A) /\ In ID_A (peers_of o (cand_id pos)) /\
    (same = true -> contacts o = [(host_lan g (cand_id pos), Deliver (cand_id pos) (host_lan g ID_A))]).
Proof.
  unfold judge, judge_run. cbv zeta. rewrite !andb_true_iff. intros [[[H1 H2] H3] H4].
  split. { destruct (introduced_peer o) as [x|]; [|discriminate]. apply Z.eqb_eq in H1. subst. reflexivity. }
  split; [apply eqb_prop; exact H2|]. split; [exact H4|]. destruct blind.
  - apply andb_true_iff in H3. destruct H3 as [Hq Hn]. apply negb_true_iff in Hn. unfold holds, verdict_ok.
    assert (D : v_puncture (verdict_of g o) = false \/ v_request (verdict_of g o) = false
                \/ v_mutual (verdict_of g o) = false).
    { destruct (v_puncture _); [|auto]. destruct (v_request _); [|auto]. destruct (v_mutual _); [discriminate | auto]. }
    split; [|split; [exact Hq | exact D]].
    destruct D as [-> | [-> | ->]]; rewrite ?andb_false_r; reflexivity.
  - rewrite !andb_true_iff in H3. destruct H3 as [[[Hv Ha] Hc] Hs].
    split; [apply verdict_ok_all_true; exact Hv|]. split; [apply existsb_eqb_in; exact Ha|].
    split; [apply existsb_eqb_in; exact Hc|]. intros ->. apply list_eqb_eq in Hs; [exact Hs|].
    intros [a1 o1] [a2 o2] E. cbn [fst snd] in E. apply andb_true_iff in E. destruct E as [E1 E2].
    apply addr_eqb_eq in E1. apply outcome_eqb_eq in E2. subst. reflexivity.
Qed.

(* A copy of the run in which the LAN test is a parameter (route_with, handle_with and what calls them), equal to run_ops
   when the parameter agrees with in_lan_subnets; scn_check_with instantiates it with lan_range (comparisons in place of
   shifts), and scn_check_with_ok : scn_check_with g = scn_check g. *)
Definition lan_range (ip : Z) : bool :=
  if ip <? 167772160 then false
  else ((3232235520 <=? ip) && (ip <=? 3232301055)) || ((2886729728 <=? ip) && (ip <=? 2887778303))
       || (ip <=? 184549375).
Lemma lan_range_ok ip : lan_range ip = in_lan_subnets ip.
Proof.
  apply eq_true_iff_eq. rewrite lan_subnets_rfc1918_l. unfold lan_range, rfc1918, ip4.
  destruct (ip <? 167772160) eqn:E; lia.
Qed.

(* `internet` with the two tests of its first search in the other order: the address before the type of the site *)
Definition internet_with (n : net) (src dst : addr) : outcome :=
  match find (fun h => addr_eqb (h_lan h) dst && is_open (site_type n (h_site h))) (hosts n) with
  | Some h => Deliver (h_id h) src
  | None =>
      match find (fun s => negb (is_open (s_type s)) && (s_pub s =? fst dst)) (sites n) with
      | None => Drop NoRoute
      | Some s =>
          if fst src =? s_pub s then Drop Hairpin
          else match map_rev (snd dst) (s_maps s) with
               | None => Drop NoMapping
               | Some lan =>
                   if filter_ok (s_type s) (s_filt s) (snd dst) src then
                     match find (fun h => (h_site h =? s_id s) && addr_eqb (h_lan h) lan) (hosts n) with
                     | Some h => Deliver (h_id h) src
                     | None => Drop NoHost
                     end
                   else Drop Filtered
               end
      end
  end.
Lemma internet_with_ok n src dst : internet_with n src dst = internet n src dst.
Proof. unfold internet_with, internet. rewrite (find_ext _ _ _ (fun h => andb_comm _ _)). reflexivity. Qed.

Definition route_with (lanp : Z -> bool) (n : net) (hid : Z) (dst : addr) : net * outcome :=
  match find_host n hid with
  | None => (n, Drop NoSender)
  | Some h =>
      match find_site n (h_site h) with
      | None => (n, Drop NoSender)
      | Some s =>
          if is_open (s_type s) then (n, internet_with n (h_lan h) dst)
          else
            match find (fun h2 => (h_site h2 =? s_id s) && addr_eqb (h_lan h2) dst) (hosts n) with
            | Some h2 => (n, Deliver (h_id h2) (h_lan h))
            | None =>
                if lanp (fst dst) then (n, Drop NoRouteLan)
                else   (* site_after and ext_after of P13_nat, with their one lookup shared *)
                  let '(ext, maps', next') :=
                    match map_lookup (h_lan h) (s_maps s) with
                    | Some p => (p, s_maps s, s_next s)
                    | None => (s_next s, s_maps s ++ [(h_lan h, s_next s)], s_next s + 1)
                    end in
                  let n' := set_site n (mkSite (s_id s) (s_type s) (s_pub s) maps' next' (filt_add (ext, dst) (s_filt s))) in
                  (n', internet_with n' (s_pub s, ext) dst)
            end
      end
  end.
Definition send1_with lanp (w : world) (hid : Z) (out : addr * msg) : world :=
  let '(dst, m) := out in
  let '(net', oc) := route_with lanp (w_net w) hid dst in
  mkWorld net' (w_nodes w)
          (match oc with Deliver h s => w_queue w ++ [(h, s, m)] | Drop _ => w_queue w end)
          (Ev hid dst m oc :: w_log w).
Definition handle_with (lanp : Z -> bool) (n : node) (src : addr) (m : msg) : node * list (addr * msg) :=
  match m with
  | IntroResp new key dest slan swan ilan iwan sup inew ident =>
      let '(p0, known) := touch n key src in
      let p1 := mkPeer (p_key p0) (p_v4 p0) (Some slan) (new || sup || p_new p0) in
      let n0 := if lanp (fst dest) then n else set_wan n dest in
      let n1 := add_verified n0 p1 known in
      (fold_left (fun acc a => discover acc key a inew)
                 (intro_selection (n_lan n1) (n_wan n1) ilan iwan) n1, [])
  | _ => handle n src m
  end.
Definition deliver_one_with lanp (w : world) : world :=
  match w_queue w with
  | [] => w
  | (hid, src, m) :: tl =>
      let w1 := mkWorld (w_net w) (w_nodes w) tl (w_log w) in
      match find_node w1 hid with
      | None => w1
      | Some n => let '(n', outs) := handle_with lanp n src m in
                  fold_left (fun acc o => send1_with lanp acc hid o) outs (set_node w1 n')
      end
  end.
Fixpoint pump_with lanp (fuel : nat) (w : world) : world :=
  match fuel with
  | O => w
  | S f => match w_queue w with [] => w | _ => pump_with lanp f (deliver_one_with lanp w) end
  end.
Definition walk1_with lanp (w : world) (h : Z) (dst : addr) (style : option bool) : world :=
  match find_node w h with
  | None => w
  | Some n =>
      let st := match style with Some b => b | None => is_new_style n dst end in
      let '(n', m) := make_request n dst st in
      send1_with lanp (set_node w n') h (dst, m)
  end.
Definition step_op_with lanp (w : world) (o : op) : world :=
  match o with
  | OpWalk h dst style => walk1_with lanp w h dst style
  | OpAsk h key =>
      match find_node w h with
      | None => w
      | Some n => match find_peer key (n_peers n) with
                  | None => w
                  | Some p => walk1_with lanp w h (p_v4 p) (Some (p_new p))
                  end
      end
  | OpWalkAll h =>
      match find_node w h with
      | None => w
      | Some n => fold_left (fun acc a => walk1_with lanp acc h a None) (walkable n) w
      end
  | OpRebind h => mkWorld (rebind (w_net w) h) (w_nodes w) (w_queue w) (w_log w)
  | OpPump => pump_with lanp PUMP_FUEL w
  end.

Section LanTest.
Variable lanp : Z -> bool.
Hypothesis lanp_ok : forall ip, lanp ip = in_lan_subnets ip.

Lemma route_with_ok n hid dst : route_with lanp n hid dst = route n hid dst.
Proof.
  unfold route_with, route. rewrite lanp_ok.
  destruct (find_host n hid) as [h|]; [|reflexivity]. destruct (find_site n (h_site h)) as [s|]; [|reflexivity].
  destruct (is_open (s_type s)); [rewrite internet_with_ok; reflexivity|].
  destruct (find _ (hosts n)); [reflexivity|]. destruct (in_lan_subnets (fst dst)); [reflexivity|].
  destruct (map_lookup (h_lan h) (s_maps s)); rewrite internet_with_ok; reflexivity.
Qed.
Lemma send1_with_ok w hid out : send1_with lanp w hid out = send1 w hid out.
Proof. unfold send1_with, send1. destruct out as [dst m]. rewrite route_with_ok. reflexivity. Qed.
Lemma send_all_with_ok hid outs : forall w, fold_left (fun acc o => send1_with lanp acc hid o) outs w = send_all w hid outs.
Proof.
  unfold send_all. induction outs as [|o tl IH]; intros w; cbn [fold_left]; [reflexivity|].
  rewrite send1_with_ok. apply IH.
Qed.
Lemma handle_with_ok n src m : handle_with lanp n src m = handle n src m.
Proof. destruct m; try reflexivity. unfold handle_with, handle. rewrite lanp_ok. reflexivity. Qed.
Lemma deliver_one_with_ok w : deliver_one_with lanp w = deliver_one w.
Proof.
  unfold deliver_one_with, deliver_one. destruct (w_queue w) as [|[[hid src] m] tl]; [reflexivity|].
  cbv zeta. destruct (find_node _ hid) as [n|]; [|reflexivity]. rewrite handle_with_ok.
  destruct (handle n src m) as [n' outs].
  apply send_all_with_ok.
Qed.
Lemma pump_with_ok fuel : forall w, pump_with lanp fuel w = pump fuel w.
Proof.
  induction fuel as [|f IH]; intros w; cbn [pump_with pump]; [reflexivity|].
  rewrite deliver_one_with_ok, IH. reflexivity.
Qed.
Lemma walk1_with_ok w h dst st : walk1_with lanp w h dst st = walk1 w h dst st.
Proof.
  unfold walk1_with, walk1. destruct (find_node w h) as [n|]; [|reflexivity]. cbv zeta.
  destruct (make_request n dst _) as [n' m]. apply send1_with_ok.
Qed.
Lemma step_op_with_ok w o : step_op_with lanp w o = step_op w o.
Proof.
  destruct o as [h dst st|h key|h|h|]; cbn [step_op_with step_op].
  - apply walk1_with_ok.
  - destruct (find_node w h) as [n|]; [|reflexivity]. destruct (find_peer key (n_peers n)); [|reflexivity].
    apply walk1_with_ok.
  - destruct (find_node w h) as [n|]; [|reflexivity]. generalize (walkable n). intros l. revert w.
    induction l as [|a tl IH]; intros w; cbn [fold_left]; [reflexivity|]. rewrite walk1_with_ok. apply IH.
  - reflexivity.
  - apply pump_with_ok.
Qed.
Lemma run_ops_with_ok ops : forall w, fold_left (step_op_with lanp) ops w = run_ops w ops.
Proof.
  unfold run_ops. induction ops as [|o tl IH]; intros w; cbn [fold_left]; [reflexivity|].
  rewrite step_op_with_ok. apply IH.
Qed.
End LanTest.

Definition run_scn_with (g : cfg) : obs := observe (fold_left (step_op_with lan_range) (scenario_ops g) (mk_world g)).
Definition scn_check_with (g : cfg) : bool -> nat -> bool -> bool := judge g (run_scn_with g).
Lemma scn_check_with_ok g : scn_check_with g = scn_check g.
Proof. unfold scn_check_with, run_scn_with, scn_check, run_scn, run_scenario. rewrite (run_ops_with_ok lan_range lan_range_ok). reflexivity. Qed.
