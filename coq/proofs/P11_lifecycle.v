(* Composition: once a complete unload() has run - with anything else interleaved - the overlay is
   silent for ever and holds no open socket. *)
From Coq Require Import ZArith List Bool.
From IPV8V Require Import model.M11_listeners model.M11_tasks model.M11_lifecycle proofs.P11_listeners proofs.P11_tasks.
Import ListNotations.
Open Scope Z_scope.

Local Arguments tstep : simpl never.

Definition quiet (x : tm) : Prop := shut x = true /\ no_livep x.
Definition tmok (x : tm) : Prop := inv x /\ (shut x = true -> no_livep x).

Lemma quiet_tstep x o : quiet x -> quiet (fst (tstep x o)).
Proof. intros [Hs N]. exact (after_quiet _ _ (proj1 (tstep_quiet x o Hs N)) Hs N). Qed.
Lemma quiet_out_tstep x o : quiet x -> Forall quiet_out (snd (tstep x o)).
Proof. intros [Hs N]. apply (tstep_quiet x o Hs N). Qed.
Lemma tmok_tstep x o : tmok x -> tmok (fst (tstep x o)).
Proof. intros [I Q]. split; [apply tstep_inv; assumption|]. apply tstep_settled; assumption. Qed.
Lemma tmok_fresh : tmok fresh_tm.
Proof. apply tmok_tstep. split; [apply inv_init|discriminate]. Qed.
Lemma tmok_shutdown_quiet x : tmok x -> quiet (fst (tstep x Shutdown)).
Proof. intros [I Q]. exact (shutdown_quiet x I Q). Qed.

Lemma perform_cons c n a r :
  perform c n (a :: r)
  = (fst (perform c (fst (perform1 c n a)) r), snd (perform1 c n a) ++ snd (perform c (fst (perform1 c n a)) r)).
Proof. simpl. destruct (perform1 c n a) as [n1 o1]. simpl. destruct (perform c n1 r). reflexivity. Qed.
Lemma irun_cons c n i r :
  irun c n (i :: r) = (fst (irun c (fst (istep c n i)) r), snd (istep c n i) ++ snd (irun c (fst (istep c n i)) r)).
Proof. simpl. destruct (istep c n i) as [n1 o1]. simpl. destruct (irun c n1 r). reflexivity. Qed.

Lemma fst_let {A B C} (p : A * B) (f : B -> C) : fst (let '(a, b) := p in (a, f b)) = fst p.
Proof. destruct p. reflexivity. Qed.

Lemma Forall_upd {A} (P : A -> Prop) l i f :
  Forall P l -> (forall x, nth_error l i = Some x -> P x -> P (f x)) -> Forall P (upd l i f).
Proof.
  revert i. induction l as [|x r IH]; intros i Hf Hp; [exact Hf|]. inversion Hf; subst. destruct i as [|i]; simpl.
  - constructor; [exact (Hp x eq_refl H1)|exact H2].
  - constructor; [exact H1|exact (IH i H2 Hp)].
Qed.

(* the fold that ustep_apply runs for URemovals: ustep_apply c n URemovals is removals n (n_socks n) [] *)
Definition removals (n : node) (l : list sock) (o0 : list nout) : node * list nout :=
  fold_left (fun acc (_ : sock) => let '(n0, o0) := acc in
                let '(n1, o1) := tm_op n0 WOwn (RegisterAnon 7 KCoro) in (n1, o0 ++ o1)) l (n, o0).

(* A property of nodes that survives the four elementary changes - a manager takes a step, a socket is created,
   a socket is re-made around a step of its manager, a socket is closed - survives whatever the overlay does;
   if it also survives remove_listener and closing all sockets, it survives every step of unload(). *)
Section Kept.
  Variables (c : cls) (K : node -> Prop).
  Hypothesis K_tm : forall n w x o, K n -> get_tm n w = Some x -> K (set_tm n w (fst (tstep x o))).
  Hypothesis K_new : forall n, K n -> has_socks c = true -> K (set_socks n (n_socks n ++ [mkSock false fresh_tm])).
  Hypothesis K_sock : forall n i s b o, K n -> nth_error (n_socks n) i = Some s ->
    K (set_socks n (upd (n_socks n) i (fun _ => mkSock b (fst (tstep (s_tm s) o))))).
  Hypothesis K_close : forall n i, K n -> K (set_socks n (upd (n_socks n) i close_sock)).

  Lemma kept_tm_op n w o : K n -> K (fst (tm_op n w o)).
  Proof.
    intros H. unfold tm_op. destruct (get_tm n w) as [x|] eqn:Eg; [|exact H].
    pose proof (K_tm n w x o H Eg) as H'. destruct (tstep x o). exact H'.
  Qed.

  Lemma kept_perform1 n a : K n -> K (fst (perform1 c n a)).
  Proof.
    intros H. destruct a; simpl.
    - exact H.
    - apply kept_tm_op, H.
    - pose proof (K_new n H) as H'. destruct (has_socks c); [exact (H' eq_refl)|exact H].
    - destruct (nth_error (n_socks n) i) as [s|] eqn:En; [|exact H]. destruct (s_open s); [exact H|].
      pose proof (fun b => K_sock n i s b (Register CREATE_TRANSPORTS KCoro) H En) as H'.
      destruct (tstep (s_tm s) (Register CREATE_TRANSPORTS KCoro)) as [x' os]. apply H'.
    - destruct (nth_error (n_socks n) i) as [s|]; [|exact H]. destruct (s_open s); exact H.
    - exact (K_close n i H).
  Qed.

  Lemma kept_perform acts : forall n, K n -> K (fst (perform c n acts)).
  Proof.
    induction acts as [|a r IH]; intros n H; [exact H|]. rewrite perform_cons. apply IH, kept_perform1, H.
  Qed.

  Lemma kept_nstep n e : K n -> K (fst (nstep c n e)).
  Proof.
    intros H. destruct e as [d via acts|w o|w tid acts|i acts|routed acts]; simpl.
    - destruct (filter (is_mine n) _); [exact H|]. rewrite fst_let. apply kept_perform, H.
    - apply kept_tm_op, H.
    - destruct (get_tm n w) as [x|]; [|exact H]. destruct (get x tid) as [t|]; [|exact H].
      destruct (live t); [|exact H]. rewrite fst_let. apply kept_perform, H.
    - destruct (nth_error (n_socks n) i) as [s|]; [|exact H]. destruct (s_open s); [|exact H].
      rewrite fst_let. apply kept_perform, H.
    - destruct routed; [|rewrite fst_let; apply kept_perform, H].
      pose proof (kept_tm_op n WOwn (RegisterAnon 9 KCoro) H) as H1.
      destruct (tm_op n WOwn (RegisterAnon 9 KCoro)) as [n1 os]. destruct (started_ok os); [|exact H1].
      rewrite fst_let. apply kept_perform, H1.
  Qed.

  Lemma kept_removals l : forall n o0, K n -> K (fst (removals n l o0)).
  Proof.
    induction l as [|s r IH]; intros n o0 H; [exact H|]. unfold removals. simpl.
    pose proof (kept_tm_op n WOwn (RegisterAnon 7 KCoro) H) as H1.
    destruct (tm_op n WOwn (RegisterAnon 7 KCoro)) as [n1 o1]. apply IH, H1.
  Qed.

  Hypothesis K_ep : forall n l, K n -> K (set_ep n (fst (step (n_ep n) (RemL l)))).
  Hypothesis K_close_all : forall n, K n -> K (set_socks n (map close_sock (n_socks n))).

  Lemma kept_ustep n u : K n -> K (fst (ustep_apply c n u)).
  Proof.
    intros H. destruct u; simpl; try exact H.
    - apply kept_removals, H.
    - apply kept_tm_op, H.
    - apply K_ep, H.
    - apply kept_tm_op, H.
    - destruct (n_crypto n); [apply K_ep, H|exact H].
    - apply K_close_all, H.
  Qed.
End Kept.

(* the endpoint object, the overlay's identity and its crypto endpoint are not touched by events *)
Definition frame (n n' : node) : Prop := n_ep n' = n_ep n /\ n_me n' = n_me n /\ n_crypto n' = n_crypto n.
Lemma frame_refl n : frame n n. Proof. repeat split. Qed.

Lemma frame_nstep c n e : frame n (fst (nstep c n e)).
Proof.
  apply (kept_nstep c (frame n)); [|intros n1 H _; exact H|intros n1 i s b o H _; exact H|intros n1 i H; exact H|apply frame_refl].
  intros n1 w x o H _. destruct w; exact H.
Qed.

Section Stable.
  Variables Po Pc Ps : tm -> Prop.
  Hypothesis So : forall x o, Po x -> Po (fst (tstep x o)).
  Hypothesis Sc : forall x o, Pc x -> Pc (fst (tstep x o)).
  Hypothesis Ss : forall x o, Ps x -> Ps (fst (tstep x o)).
  Hypothesis Fs : Ps fresh_tm.

  Definition all3 (n : node) : Prop :=
    Po (n_tm n) /\ (forall x, n_cache n = Some x -> Pc x) /\ Forall (fun s => Ps (s_tm s)) (n_socks n).

  Lemma all3_of_socks n : all3 n -> Forall (fun s => Ps (s_tm s)) (n_socks n).
  Proof. intros H. exact (proj2 (proj2 H)). Qed.

  Lemma all3_tm n w x o : all3 n -> get_tm n w = Some x -> all3 (set_tm n w (fst (tstep x o))).
  Proof.
    intros [A [B C]] Eg. destruct w; simpl in *.
    - injection Eg as <-. repeat split; simpl; auto.
    - rewrite Eg. repeat split; simpl; auto. intros y Hy. injection Hy as <-. auto.
    - repeat split; simpl; auto. apply Forall_upd; [exact C|]. intros s0 En H0. simpl.
      rewrite En in Eg. injection Eg as <-. apply Ss, H0.
  Qed.

  Lemma all3_socks n l : all3 n -> Forall (fun s => Ps (s_tm s)) l -> all3 (set_socks n l).
  Proof. intros [A [B _]] C. repeat split; assumption. Qed.

  Lemma all3_sock n i s b o :
    all3 n -> nth_error (n_socks n) i = Some s ->
    all3 (set_socks n (upd (n_socks n) i (fun _ => mkSock b (fst (tstep (s_tm s) o))))).
  Proof.
    intros H En. apply all3_socks; [exact H|]. apply Forall_upd; [exact (all3_of_socks n H)|].
    intros s0 E0 H0. rewrite En in E0. injection E0 as <-. apply Ss, H0.
  Qed.

  Lemma all3_close_all n : all3 n -> all3 (set_socks n (map close_sock (n_socks n))).
  Proof.
    intros H. apply all3_socks; [exact H|]. apply Forall_map.
    eapply Forall_impl; [|exact (all3_of_socks n H)]. intros s Hs. apply Ss, Hs.
  Qed.

  Lemma all3_nstep c n e : all3 n -> all3 (fst (nstep c n e)).
  Proof.
    apply (kept_nstep c all3 all3_tm); [|exact all3_sock|].
    - intros n1 H _. apply all3_socks; [exact H|]. apply Forall_app. split; [exact (all3_of_socks n1 H)|].
      constructor; [exact Fs|constructor].
    - intros n1 i H. apply all3_socks; [exact H|]. apply Forall_upd; [exact (all3_of_socks n1 H)|].
      intros s _ Hs. apply Ss, Hs.
  Qed.

  Lemma all3_ustep c n u : all3 n -> all3 (fst (ustep_apply c n u)).
  Proof. apply (kept_ustep c all3 all3_tm); [intros n1 l H; exact H|exact all3_close_all]. Qed.
End Stable.

Definition sock_closed (s : sock) : Prop := s_open s = false /\ quiet (s_tm s).
Definition A_self (n : node) : Prop := absent (n_me n) (inner (n_ep n)).
Definition A_crypto (n : node) : Prop :=
  match n_crypto n with Some l => absent l (inner (n_ep n)) | None => True end.
Definition B_cache (n : node) : Prop := forall x, n_cache n = Some x -> quiet x.

Record unloaded (n : node) : Prop := mkU {
  u_self : A_self n;
  u_crypto : A_crypto n;
  u_own : quiet (n_tm n);
  u_cache : B_cache n;
  u_socks : Forall sock_closed (n_socks n) }.

(* outputs that remain possible: refusals by a shut-down task manager *)
Definition silent_out (o : nout) : Prop := match o with NTask _ x => quiet_out x | _ => False end.

Lemma unloaded_frame n n' : frame n n' -> A_self n -> A_crypto n -> A_self n' /\ A_crypto n'.
Proof. intros [E1 [E2 E3]] Hs Hc. unfold A_self, A_crypto in *. rewrite E1, E2, E3. auto. Qed.

Lemma unloaded_no_output n : unloaded n -> unloaded n /\ Forall silent_out [].
Proof. intros U. split; [exact U|constructor]. Qed.

(* every manager of an unloaded overlay is quiet, and stays so *)
Lemma unloaded_get_tm n w x : unloaded n -> get_tm n w = Some x -> quiet x.
Proof.
  intros [_ _ Ho Hk Hso] Eg. destruct w; simpl in Eg.
  - injection Eg as <-. exact Ho.
  - exact (Hk x Eg).
  - destruct (nth_error (n_socks n) i) as [s0|] eqn:En; [|discriminate]. injection Eg as <-.
    rewrite Forall_forall in Hso. exact (proj2 (Hso s0 (nth_error_In _ _ En))).
Qed.

Lemma unloaded_tm_op n w o : unloaded n -> unloaded (fst (tm_op n w o)) /\ Forall silent_out (snd (tm_op n w o)).
Proof.
  intros U. unfold tm_op. destruct (get_tm n w) as [x|] eqn:Eg; [|exact (unloaded_no_output n U)].
  pose proof (unloaded_get_tm n w x U Eg) as Qx.
  pose proof (quiet_tstep x o Qx) as Q1. pose proof (quiet_out_tstep x o Qx) as O1.
  destruct (tstep x o) as [x' os]. simpl in *. split.
  - destruct U as [Hs Hc Ho Hk Hso]. destruct w; constructor; simpl; auto.
    + unfold B_cache. simpl in *. rewrite Eg. intros y Hy. injection Hy as <-. exact Q1.
    + apply Forall_upd; [exact Hso|]. intros s0 _ [Hop _]. split; [exact Hop|exact Q1].
  - apply Forall_map. eapply Forall_impl; [|exact O1]. intros o1 Ho1. exact Ho1.
Qed.

Lemma filter_none {A} (f : A -> bool) l : (forall x, In x l -> f x = false) -> filter f l = [].
Proof.
  induction l as [|x r IH]; intros H; simpl; [reflexivity|].
  rewrite (H x (or_introl eq_refl)). apply IH. intros y Hy. apply H. right. exact Hy.
Qed.

Lemma not_mine_called n o : A_self n -> A_crypto n -> filter (is_mine n) (called (n_ep n) o) = [].
Proof.
  intros Hs Hc. apply filter_none. intros l Hin. unfold is_mine. apply orb_false_iff. split.
  - destruct (Z.eqb_spec l (n_me n)) as [->|_]; [|reflexivity]. destruct (called_absent _ _ _ Hs Hin).
  - unfold A_crypto in Hc. destruct (n_crypto n) as [c0|]; [|reflexivity].
    destruct (Z.eqb_spec l c0) as [->|_]; [|reflexivity]. destruct (called_absent _ _ _ Hc Hin).
Qed.

(* a refused registration is not taken for a started task *)
Lemma quiet_not_started w os : Forall quiet_out os -> started_ok (map (NTask w) os) = false.
Proof.
  intros H. destruct os as [|[tid|rr|old b rr] r]; try reflexivity.
  inversion H; subst. simpl in *. subst rr. reflexivity.
Qed.

(* no event reaches an unloaded overlay: its listeners are gone, its tasks are not live, its sockets closed,
   and its managers answer every call with a refusal *)
Lemma unloaded_nstep c n e :
  event_routed e = true ->
  unloaded n -> unloaded (fst (nstep c n e)) /\ Forall silent_out (snd (nstep c n e)).
Proof.
  intros Hr U. destruct e as [d via acts|w o|w tid acts|i acts|routed acts]; simpl.
  - rewrite (not_mine_called n _ (u_self n U) (u_crypto n U)). exact (unloaded_no_output n U).
  - apply unloaded_tm_op, U.
  - destruct (get_tm n w) as [x|] eqn:Eg; [|exact (unloaded_no_output n U)].
    destruct (get x tid) as [t|] eqn:Et; [|exact (unloaded_no_output n U)].
    rewrite (proj2 (unloaded_get_tm n w x U Eg) _ _ Et). exact (unloaded_no_output n U).
  - destruct (nth_error (n_socks n) i) as [s|] eqn:En; [|exact (unloaded_no_output n U)].
    pose proof (u_socks n U) as Hso. rewrite Forall_forall in Hso.
    rewrite (proj1 (Hso s (nth_error_In _ _ En))). exact (unloaded_no_output n U).
  - simpl in Hr. subst routed. pose proof (unloaded_tm_op n WOwn (RegisterAnon 9 KCoro) U) as H1.
    assert (Hs : started_ok (snd (tm_op n WOwn (RegisterAnon 9 KCoro))) = false).
    { unfold tm_op. simpl. pose proof (quiet_out_tstep (n_tm n) (RegisterAnon 9 KCoro) (u_own n U)) as Q.
      destruct (tstep (n_tm n) (RegisterAnon 9 KCoro)) as [x' os]. apply quiet_not_started, Q. }
    destruct (tm_op n WOwn (RegisterAnon 9 KCoro)) as [n1 os]. simpl in Hs. rewrite Hs. exact H1.
Qed.

Lemma unloaded_removals l : forall n o0, unloaded n -> Forall silent_out o0 ->
  unloaded (fst (removals n l o0)) /\ Forall silent_out (snd (removals n l o0)).
Proof.
  induction l as [|s r IH]; intros n o0 U O; [split; assumption|]. unfold removals. simpl.
  destruct (unloaded_tm_op n WOwn (RegisterAnon 7 KCoro) U) as [U1 O1].
  destruct (tm_op n WOwn (RegisterAnon 7 KCoro)) as [n1 o1]. apply IH; [exact U1|apply Forall_app; auto].
Qed.

Lemma close_sock_closed s : tmok (s_tm s) -> sock_closed (close_sock s).
Proof. intros H. split; [reflexivity|]. simpl. apply tmok_shutdown_quiet. exact H. Qed.
Lemma sock_closed_close_sock s : sock_closed s -> sock_closed (close_sock s).
Proof. intros [_ Q]. split; [reflexivity|]. simpl. apply quiet_tstep. exact Q. Qed.

(* registrations that are gone stay gone during unload() *)
Lemma A_self_ustep c n u : A_self n -> A_self (fst (ustep_apply c n u)).
Proof.
  apply (kept_ustep c A_self); try (intros; assumption).
  - intros n1 w x o H _. destruct w; exact H.
  - intros n1 l H. exact (step_keeps_absent (n_ep n1) (RemL l) _ eq_refl H).
Qed.
Lemma A_crypto_ustep c n u : A_crypto n -> A_crypto (fst (ustep_apply c n u)).
Proof.
  apply (kept_ustep c A_crypto); try (intros; assumption).
  - intros n1 w x o H _. destruct w; exact H.
  - intros n1 l H. unfold A_crypto in *. cbn [set_ep n_crypto n_ep].
    destruct (n_crypto n1); [exact (step_keeps_absent (n_ep n1) (RemL l) _ eq_refl H)|exact I].
Qed.

(* running unload() again, or any step of it, on an unloaded overlay changes nothing observable *)
Lemma unloaded_ustep c n u :
  unloaded n -> unloaded (fst (ustep_apply c n u)) /\ Forall silent_out (snd (ustep_apply c n u)).
Proof.
  intros U. pose proof (A_self_ustep c n u (u_self n U)) as AS. pose proof (A_crypto_ustep c n u (u_crypto n U)) as AC.
  destruct u; simpl in *; try exact (unloaded_no_output n U).
  - apply unloaded_removals; [exact U|constructor].
  - apply unloaded_tm_op, U.
  - apply unloaded_no_output. destruct U as [_ _ Ho Hk Hso]. constructor; assumption.
  - apply unloaded_tm_op, U.
  - destruct (n_crypto n) eqn:Ec; [|exact (unloaded_no_output n U)].
    apply unloaded_no_output. destruct U as [_ _ Ho Hk Hso]. constructor; assumption.
  - apply unloaded_no_output. destruct U as [Hs Hc Ho Hk Hso]. constructor; auto. simpl.
    apply Forall_map. eapply Forall_impl; [|exact Hso]. exact sock_closed_close_sock.
Qed.

Lemma unloaded_istep c n i :
  item_routed i = true ->
  unloaded n -> unloaded (fst (istep c n i)) /\ Forall silent_out (snd (istep c n i)).
Proof. destruct i; simpl; intros H; [apply unloaded_ustep|apply unloaded_nstep; exact H]. Qed.

Lemma unloaded_irun c l : forall n,
  Forall (fun i => item_routed i = true) l ->
  unloaded n -> unloaded (fst (irun c n l)) /\ Forall silent_out (snd (irun c n l)).
Proof.
  induction l as [|i r IH]; intros n Hr U; [exact (unloaded_no_output n U)|]. rewrite irun_cons. inversion Hr; subst.
  destruct (unloaded_istep c n i H1 U) as [U1 O1]. destruct (IH _ H2 U1) as [U2 O2].
  split; [exact U2|apply Forall_app; split; assumption].
Qed.

Lemma unloaded_socks_closed n : unloaded n -> Forall (fun s => s_open s = false) (n_socks n).
Proof. intros U. eapply Forall_impl; [|exact (u_socks n U)]. intros s [H _]. exact H. Qed.

(* neither the overlay nor the crypto endpoint it installed stays registered *)
Lemma unloaded_not_called n o :
  unloaded n ->
  ~ In (n_me n) (called (n_ep n) o)
  /\ (forall cr, n_crypto n = Some cr -> ~ In cr (called (n_ep n) o) /\ absent cr (inner (n_ep n))).
Proof.
  intros U. split; [exact (called_absent _ _ _ (u_self _ U))|].
  intros cr Hcr. pose proof (u_crypto _ U) as A. unfold A_crypto in A. rewrite Hcr in A.
  split; [exact (called_absent _ _ _ A)|exact A].
Qed.

(* the endpoint wrapper forwards the listener API, and the node has only the parts its class creates *)
Record wf (c : cls) (n : node) : Prop := mkWf {
  wf_fw : forwards_all (wapi (wrap (n_ep n))) = true;
  wf_cache : has_cache c = false -> n_cache n = None;
  wf_crypto : has_crypto c = false -> n_crypto n = None;
  wf_socks : has_socks c = false -> n_socks n = [] }.

Lemma wf_tm c n w x o : wf c n -> get_tm n w = Some x -> wf c (set_tm n w (fst (tstep x o))).
Proof.
  intros [F Kc Cr So] _. destruct w; constructor; simpl; auto.
  - intros H. rewrite (Kc H). reflexivity.
  - intros H. rewrite (So H). reflexivity.
Qed.
Lemma wf_set_socks c n l : wf c n -> (has_socks c = false -> l = []) -> wf c (set_socks n l).
Proof. intros [F Kc Cr So] H. constructor; assumption. Qed.
Lemma wf_upd_socks c n i f : wf c n -> wf c (set_socks n (upd (n_socks n) i f)).
Proof. intros W. apply wf_set_socks; [exact W|]. intros H. rewrite (wf_socks c n W H). reflexivity. Qed.

Lemma wf_nstep c n e : wf c n -> wf c (fst (nstep c n e)).
Proof.
  apply (kept_nstep c (wf c) (wf_tm c)).
  - intros n1 W Hc. apply wf_set_socks; [exact W|]. rewrite Hc. discriminate.
  - intros n1 i s b o W _. apply wf_upd_socks, W.
  - intros n1 i W. apply wf_upd_socks, W.
Qed.

Lemma wf_ustep c n u : wf c n -> wf c (fst (ustep_apply c n u)).
Proof.
  apply (kept_ustep c (wf c) (wf_tm c)).
  - intros n1 l [F Kc Cr So]. constructor; try assumption. cbn [set_ep n_ep]. rewrite step_wrap. exact F.
  - intros n1 W. apply wf_set_socks; [exact W|]. intros H. rewrite (wf_socks c n1 W H). reflexivity.
Qed.

Definition tmP (b : bool) (x : tm) : Prop := tmok x /\ (b = true -> quiet x).
Lemma tmP_tmok b x : tmP b x -> tmok x.
Proof. intros H. exact (proj1 H). Qed.
Lemma tmP_quiet x : tmP true x -> quiet x.
Proof. intros H. exact (proj2 H eq_refl). Qed.
Lemma tmP_tstep b x o : tmP b x -> tmP b (fst (tstep x o)).
Proof. intros [A B]. split; [apply tmok_tstep; assumption|]. intros H. apply quiet_tstep. auto. Qed.

(* what holds after a prefix of unload() whose achievements are fl *)
Record partial (c : cls) (fl : flags) (n : node) : Prop := mkP {
  p_wf : wf c n;
  p_tms : all3 (tmP (f_own fl)) (tmP (f_cache fl)) tmok n;
  p_self : f_self fl = true -> A_self n;
  p_crypto : f_crypto fl = true -> A_crypto n;
  p_socks : f_socks fl = true -> Forall sock_closed (n_socks n) }.

(* closing the sockets is only ever recorded when everything else was already achieved *)
Definition fl_ok (fl : flags) : Prop :=
  f_socks fl = true -> f_self fl = true /\ f_crypto fl = true /\ f_own fl = true /\ f_cache fl = true.

Lemma fl_ok_step fl u : fl_ok fl -> fl_ok (flag_step fl u).
Proof.
  unfold fl_ok. destruct u; simpl; auto; try (intros H H1; destruct (H H1) as [A [B [C D]]]; auto).
  intros H H1. apply orb_true_iff in H1. destruct H1 as [H1|H1]; [apply H; assumption|].
  rewrite !andb_true_iff in H1. tauto.
Qed.

(* once the sockets are recorded closed the flags no longer move *)
Lemma flags_settled fl u : fl_ok fl -> f_socks fl = true -> flag_step fl u = fl.
Proof.
  intros Ok Hf. destruct (Ok Hf) as [A [B [C D]]]. destruct fl; simpl in *; subst. destruct u; reflexivity.
Qed.

(* all achieved (an overlay class that never creates a socket has none to close): the overlay is unloaded *)
Lemma partial_complete c fl n :
  partial c fl n -> f_self fl && f_crypto fl && f_own fl && f_cache fl && (f_socks fl || negb (has_socks c)) = true ->
  unloaded n.
Proof.
  intros [W [To [Tc Ts]] Hs Hcr Hk] Hc. rewrite !andb_true_iff in Hc. destruct Hc as [[[[H1 H2] H3] H4] H5].
  constructor; auto.
  - rewrite H3 in To. exact (tmP_quiet _ To).
  - intros x Hx. pose proof (Tc x Hx) as T. rewrite H4 in T. exact (tmP_quiet _ T).
  - apply orb_true_iff in H5. destruct H5 as [H5|H5]; [auto|].
    apply negb_true_iff in H5. rewrite (wf_socks c _ W H5). constructor.
Qed.

Lemma partial_unloaded c fl n : partial c fl n -> fl_ok fl -> f_socks fl = true -> unloaded n.
Proof.
  intros P Ok Hf. destruct (Ok Hf) as [A [B [C D]]]. apply (partial_complete c fl n P).
  rewrite A, B, C, D, Hf. reflexivity.
Qed.

Lemma unloaded_partial c fl n :
  wf c n -> all3 (tmP (f_own fl)) (tmP (f_cache fl)) tmok n -> unloaded n -> partial c fl n.
Proof.
  intros W T U. constructor; [exact W|exact T| | |]; intros _; [exact (u_self n U)|exact (u_crypto n U)|exact (u_socks n U)].
Qed.

Lemma partial_nstep c fl n e : event_routed e = true -> fl_ok fl -> partial c fl n -> partial c fl (fst (nstep c n e)).
Proof.
  intros Hr Ok P.
  assert (T' : all3 (tmP (f_own fl)) (tmP (f_cache fl)) tmok (fst (nstep c n e))).
  { exact (all3_nstep _ _ _ (tmP_tstep _) (tmP_tstep _) tmok_tstep tmok_fresh c n e (p_tms c fl n P)). }
  pose proof (wf_nstep c n e (p_wf c fl n P)) as W'.
  destruct (f_socks fl) eqn:Hf.
  - apply unloaded_partial; [exact W'|exact T'|]. apply unloaded_nstep; [exact Hr|]. exact (partial_unloaded c fl n P Ok Hf).
  - destruct (frame_nstep c n e) as [E1 [E2 E3]]. constructor; [exact W'|exact T'| | |].
    + intros H. unfold A_self. rewrite E1, E2. exact (p_self c fl n P H).
    + intros H. unfold A_crypto. rewrite E1, E3. exact (p_crypto c fl n P H).
    + rewrite Hf. discriminate.
Qed.

(* one step of unload(): each achievement is established by its own step and kept by the others *)
Lemma partial_ustep c fl n u : fl_ok fl -> partial c fl n -> partial c (flag_step fl u) (fst (ustep_apply c n u)).
Proof.
  intros Ok P. pose proof (wf_ustep c n u (p_wf c fl n P)) as W'. pose proof (all3_ustep _ _ _ (tmP_tstep _) (tmP_tstep _) tmok_tstep c n u (p_tms c fl n P)) as T'.
  destruct (f_socks fl) eqn:Hf.
  { (* everything was already achieved *)
    rewrite (flags_settled fl u Ok Hf). apply unloaded_partial; [exact W'|exact T'|]. apply unloaded_ustep. exact (partial_unloaded c fl n P Ok Hf). }
  destruct P as [W [To [Tc Ts]] Hs Hc Hk]. constructor.
  - exact W'.
  - destruct T' as [A [B C]]. destruct u; try exact (conj A (conj B C)); simpl in *.
    + (* UCacheShutdown *) split; [exact A|split; [|exact C]]. intros x Hx. split; [exact (tmP_tmok _ _ (B x Hx))|]. intros _.
      unfold tm_op in Hx. simpl in Hx. destruct (n_cache n) as [y|] eqn:Ey; [|simpl in Hx; congruence].
      pose proof (tmok_shutdown_quiet y (tmP_tmok _ _ (Tc y eq_refl))) as Q. destruct (tstep y Shutdown) as [y' os].
      simpl in Hx. injection Hx as <-. exact Q.
    + (* UShutdownTM *) split; [|exact (conj B C)]. split; [exact (tmP_tmok _ _ A)|]. intros _.
      unfold tm_op. simpl. pose proof (tmok_shutdown_quiet (n_tm n) (tmP_tmok _ _ To)) as Q.
      destruct (tstep (n_tm n) Shutdown) as [y' os]. exact Q.
  - pose proof (A_self_ustep c n u) as AS. destruct u; try (intros H; exact (AS (Hs H))).
    intros _. exact (absent_step_rem (n_ep n) (n_me n) (wf_fw c n W)).
  - pose proof (A_crypto_ustep c n u) as AC. destruct u; try (intros H; exact (AC (Hc H))).
    intros _. unfold A_crypto. simpl. destruct (n_crypto n) as [l0|] eqn:Ec; simpl; rewrite Ec; [|exact I].
    exact (absent_step_rem (n_ep n) l0 (wf_fw c n W)).
  - destruct u; try (simpl; rewrite Hf; discriminate).
    intros _. simpl. apply Forall_map. eapply Forall_impl; [|exact Ts]. exact close_sock_closed.
Qed.

Lemma steps_of_cons_step u r : steps_of (IStep u :: r) = u :: steps_of r.
Proof. reflexivity. Qed.
Lemma steps_of_cons_event e r : steps_of (IEvent e :: r) = steps_of r.
Proof. reflexivity. Qed.

Lemma partial_irun c l : forall fl n,
  Forall (fun i => item_routed i = true) l ->
  fl_ok fl -> partial c fl n -> partial c (fold_left flag_step (steps_of l) fl) (fst (irun c n l)).
Proof.
  induction l as [|i r IH]; intros fl n Hr Ok P; [exact P|]. rewrite irun_cons. inversion Hr; subst.
  destruct i as [u|e]; simpl.
  - exact (IH _ _ H2 (fl_ok_step fl u Ok) (partial_ustep c fl n u Ok P)).
  - exact (IH _ _ H2 Ok (partial_nstep c fl n e H1 Ok P)).
Qed.

(* a node at the moment unload() is requested: any endpoint tables, any tasks, any sockets *)
Record loaded (c : cls) (n : node) : Prop := mkL {
  l_wf : wf c n;
  l_tms : all3 tmok tmok tmok n }.

Lemma all3_weaken (Po Po' Pc Pc' Ps : tm -> Prop) n :
  (forall x, Po x -> Po' x) -> (forall x, Pc x -> Pc' x) -> all3 Po Pc Ps n -> all3 Po' Pc' Ps n.
Proof. intros H1 H2 [A [B C]]. repeat split; auto. Qed.

Lemma tmP_mono b b' x : (b' = true -> b = true) -> tmP b x -> tmP b' x.
Proof. intros H [A B]. split; auto. Qed.

Lemma fold_flags_mono steps : forall fl,
  (f_self fl = true -> f_self (fold_left flag_step steps fl) = true).
Proof.
  induction steps as [|u r IH]; intros fl H; simpl; [assumption|]. apply IH. destruct u; simpl; auto.
Qed.

Lemma loaded_partial c n : loaded c n -> partial c (flags0 c) n.
Proof.
  intros [W [To [Tc Ts]]]. constructor.
  - exact W.
  - split; [|split].
    + split; [exact To|]. simpl. discriminate.
    + intros x Hx. split; [exact (Tc x Hx)|]. simpl. intros H. apply negb_true_iff in H.
      rewrite (wf_cache c n W H) in Hx. discriminate.
    + exact Ts.
  - simpl. discriminate.
  - simpl. intros H. apply negb_true_iff in H. unfold A_crypto. rewrite (wf_crypto c n W H). exact I.
  - simpl. discriminate.
Qed.

Lemma fl_ok0 c : fl_ok (flags0 c).
Proof. unfold fl_ok, flags0. simpl. discriminate. Qed.

(* a complete unload(), with anything interleaved, leaves the overlay unloaded *)
Lemma complete_unload_unloaded c n l :
  loaded c n -> Forall (fun i => item_routed i = true) l ->
  complete_unload c (steps_of l) = true -> unloaded (fst (irun c n l)).
Proof.
  intros L Hr Hc. exact (partial_complete c _ _ (partial_irun c l _ n Hr (fl_ok0 c) (loaded_partial c n L)) Hc).
Qed.
