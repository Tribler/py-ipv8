(* C04: ping cells at the far end of a circuit (the transport between the ends is forward_transport /
   backward_transport). *)
From Coq Require Import ZArith List Bool Lia.
From IPV8V Require Import lib.PyErr lib.Bytes lib.BE model.M02_wire model.M03_recv model.M04_onion
  spec.S04_onion_spec proofs.P02_roundtrip proofs.P04_endpoint.
Import ListNotations.
Open Scope Z_scope.

Lemma tail_ping_pack ident : 0 <= ident < 65536 -> pack_msg no_keys tail_ping [VInt ident] = Ok (be_encode 2 ident).
Proof.
  intros H. unfold tail_ping. cbn [msg_of_list]. rewrite pack_msg_cons. cbn [pack]. unfold penc, prim_ok, in_range.
  change (256 ^ Z.of_nat 2) with 65536.
  destruct ((0 <=? ident) && (ident <? 65536)) eqn:E; [|lia]. cbn [negb bind pack_msg]. rewrite app_nil_r. reflexivity.
Qed.

Lemma tail_ping_msg_ok ident : 0 <= ident < 65536 -> msg_ok no_keys tail_ping [VInt ident] = true.
Proof.
  intros H. unfold tail_ping. cbn [msg_of_list]. rewrite msg_ok_cons. cbn [val_ok msg_ok prim_ok]. unfold in_range.
  change (256 ^ Z.of_nat 2) with 65536. destruct ((0 <=? ident) && (ident <? 65536)) eqn:E; [reflexivity | lia].
Qed.

Lemma ident_payload_decode (pfx : bytes) mid cid ident :
  length pfx = 22%nat -> cid_ok cid -> 0 <= ident < 65536 ->
  unpack_msg no_keys fmt_ping (pfx ++ [mid] ++ be_encode 4 cid ++ be_encode 2 ident) 23
  = Ok ([VInt cid; VInt ident], (23 + length (be_encode 4 cid ++ be_encode 2 ident))%nat).
Proof.
  intros Hp Hc Hi. rewrite fmt_ping_eq.
  apply cell_payload_unpack; auto.
  - apply tail_ping_msg_ok; exact Hi.
  - apply tail_ping_pack; exact Hi.
Qed.

Section Ping.
Variables key nonce : Type.
Variable enc : key -> dir -> nonce -> bytes -> bytes.
Variable dec : key -> dir -> bytes -> option bytes.
Notation node := (node key).

(* a ping cell for a circuit id the node knows: a pong cell with the same id and identifier is handed to the
   crypto endpoint, addressed to the node the ping came from *)
Lemma ping_handled (nd : node) src cid ident early rnd ns :
  length (n_prefix nd) = 22%nat -> cid_ok cid -> 0 <= ident < 65536 ->
  existsb (Z.eqb 6) (n_handlers nd) = true -> known_cid nd cid = true ->
  community_on_cell_packet enc nd src (cell_to_bin (n_prefix nd) (mkCell cid (6 :: be_encode 2 ident) false early)) rnd ns
  = try_catch (ep_send_cell enc nd src (mkCell cid (7 :: be_encode 2 ident) false false) ns) (fun _ => Ok (nd, [])).
Proof.
  intros Hp Hc Hi Hh Hk.
  rewrite cell_dispatch, Hh by (assumption || discriminate).
  cbn [negb Z.eqb Pos.eqb]. unfold on_ping.
  rewrite (ident_payload_decode (n_prefix nd) 6 cid ident Hp Hc Hi). cbn [bind]. rewrite Hk, fmt_ping_eq.
  rewrite (send_cell_packed key nonce enc nd src cid 7 tail_ping [VInt ident] (be_encode 2 ident) ns Hc (tail_ping_pack ident Hi) eq_refl).
  change (NO_CRYPTO 7) with false. cbn [negb].
  destruct (ep_send_cell enc nd src (mkCell cid (7 :: be_encode 2 ident) false false) ns); reflexivity.
Qed.

(* an exit socket answers with one BACKWARD layer of its key; its state is unchanged *)
Lemma ping_answered_l (nd : node) src cid es k ident early rnd ns :
  length (n_prefix nd) = 22%nat -> cid_ok cid -> 0 <= ident < 65536 ->
  existsb (Z.eqb 6) (n_handlers nd) = true ->
  assoc cid (n_circuits nd) = None -> assoc cid (n_exits nd) = Some es -> h_keys (es_hop es) = Some k ->
  community_on_cell_packet enc nd src (cell_to_bin (n_prefix nd) (mkCell cid (6 :: be_encode 2 ident) false early)) rnd ns
  = Ok (nd, [Send src (cell_to_bin (n_prefix nd) (mkCell cid (enc k BACKWARD (ns O) (7 :: be_encode 2 ident)) false false))]).
Proof.
  intros Hp Hc Hi Hh Hci Hes Hk. rewrite ping_handled; try assumption.
  - rewrite (exit_send key nonce enc nd src cid es k _ false ns Hci Hes Hk). reflexivity.
  - unfold known_cid, has. rewrite Hci, Hes. reflexivity.
Qed.

End Ping.
