(* C05: no cell whatsoever - any byte string from any address - adds, removes, re-keys or re-routes an entry
   of the three routing tables through the data plane; only the relay_early counters and an exit socket's
   enabled flag move.  Every handler but on_data is
   quiet: it also hands nothing to an exit socket or to the originator's consumer. *)
From Coq Require Import ZArith List Bool.
From IPV8V Require Import lib.PyErr lib.Bytes model.M02_wire model.M03_recv model.M04_onion
  spec.S05_isolation_spec proofs.P02_roundtrip proofs.P04_base.
Import ListNotations.
Open Scope Z_scope.

Lemma cores_upd {A B} (f : A -> B) k (v v' : A) l :
  assoc k l = Some v -> f v' = f v -> cores f (upd k v' l) = cores f l.
Proof.
  unfold cores. induction l as [|[k2 v2] tl IH]; intros Ha Hf; [discriminate|].
  cbn [assoc] in Ha. cbn [upd]. destruct (k =? k2) eqn:E.
  - injection Ha as ->. apply Z.eqb_eq in E. subst k2. cbn [map fst snd]. rewrite Hf. reflexivity.
  - cbn [map]. rewrite IH by assumption. reflexivity.
Qed.

Section Decode.
Variable nk : bytes -> bool.

Lemma unpack_msg_cons_ok f m data off vs o :
  unpack_msg nk (MCons f m) data off = Ok (vs, o) ->
  exists v o1 tl, unpack nk f data off = Ok (v, o1) /\ unpack_msg nk m data o1 = Ok (tl, o) /\ vs = v :: tl.
Proof.
  rewrite unpack_msg_cons. destruct (unpack nk f data off) as [[v o1]|]; cbn [bind]; [|discriminate].
  destruct (unpack_msg nk m data o1) as [[tl o2]|] eqn:E; cbn [bind]; [|discriminate].
  intros H. injection H as <- <-. exists v, o1, tl. auto.
Qed.

Lemma unpack_uint_ok w data off v o : unpack nk (FStruct [PU w]) data off = Ok (v, o) -> exists z, v = VInt z.
Proof.
  cbn [unpack]. destruct (take (struct_size [PU w]) off data); cbn [bind]; [|discriminate].
  intros H. injection H as <- _. cbn [struct_dec pdec]. eauto.
Qed.

Lemma unpack_addr_ok b data off v o : unpack nk (FAddr b) data off = Ok (v, o) -> exists a, v = VAddr a.
Proof.
  cbn [unpack]. destruct (addr_unpack b data off) as [[a o1]|]; cbn [bind]; [|discriminate].
  intros H. injection H as <- _. eauto.
Qed.

Lemma unpack_raw_ok data off v o : unpack nk FRaw data off = Ok (v, o) -> exists b, v = VBytes b.
Proof. cbn [unpack]. intros H. injection H as <- _. eauto. Qed.

End Decode.

Lemma fmt_data_shape data off vs o :
  unpack_msg no_keys fmt_data data off = Ok (vs, o) ->
  exists cid dest origin payload, vs = [VInt cid; VAddr dest; VAddr origin; VBytes payload].
Proof.
  intros H.
  apply unpack_msg_cons_ok in H as (v1 & o1 & t1 & [cid ->]%unpack_uint_ok & H & ->).
  apply unpack_msg_cons_ok in H as (v2 & o2 & t2 & [dest ->]%unpack_addr_ok & H & ->).
  apply unpack_msg_cons_ok in H as (v3 & o3 & t3 & [origin ->]%unpack_addr_ok & H & ->).
  apply unpack_msg_cons_ok in H as (v4 & o4 & t4 & [payload ->]%unpack_raw_ok & H & ->).
  injection H as <- _. eauto.
Qed.

Lemma fmt_ping_shape data off vs o :
  unpack_msg no_keys fmt_ping data off = Ok (vs, o) -> exists cid ident, vs = [VInt cid; VInt ident].
Proof.
  intros H.
  apply unpack_msg_cons_ok in H as (v1 & o1 & t1 & [cid ->]%unpack_uint_ok & H & ->).
  apply unpack_msg_cons_ok in H as (v2 & o2 & t2 & [ident ->]%unpack_uint_ok & H & ->).
  injection H as <- _. eauto.
Qed.

Lemma fmt_test_request_shape data off vs o :
  unpack_msg no_keys fmt_test_request data off = Ok (vs, o) ->
  exists cid ident rsize d, vs = [VInt cid; VInt ident; VInt rsize; VBytes d].
Proof.
  intros H.
  apply unpack_msg_cons_ok in H as (v1 & o1 & t1 & [cid ->]%unpack_uint_ok & H & ->).
  apply unpack_msg_cons_ok in H as (v2 & o2 & t2 & [ident ->]%unpack_uint_ok & H & ->).
  apply unpack_msg_cons_ok in H as (v3 & o3 & t3 & [rsize ->]%unpack_uint_ok & H & ->).
  apply unpack_msg_cons_ok in H as (v4 & o4 & t4 & [d ->]%unpack_raw_ok & H & ->).
  injection H as <- _. eauto.
Qed.

Lemma fmt_test_response_shape data off vs o :
  unpack_msg no_keys fmt_test_response data off = Ok (vs, o) -> exists cid ident d, vs = [VInt cid; VInt ident; VBytes d].
Proof.
  intros H.
  apply unpack_msg_cons_ok in H as (v1 & o1 & t1 & [cid ->]%unpack_uint_ok & H & ->).
  apply unpack_msg_cons_ok in H as (v2 & o2 & t2 & [ident ->]%unpack_uint_ok & H & ->).
  apply unpack_msg_cons_ok in H as (v3 & o3 & t3 & [d ->]%unpack_raw_ok & H & ->).
  injection H as <- _. eauto.
Qed.

(* an action that hands bytes to an exit socket or to the originator's consumer *)
Definition delivers (a : action) : bool :=
  match a with ExitSendto _ _ _ => true | _ => is_consumer a end.

Section Tables.
Variables key nonce : Type.
Variable enc : key -> dir -> nonce -> bytes -> bytes.
Variable dec : key -> dir -> bytes -> option bytes.
Notation node := (node key).
Notation same := (@same_tables key).

Lemma same_tables_refl (nd : node) : same nd nd.
Proof. unfold same_tables. repeat split; reflexivity. Qed.

Lemma same_tables_trans (a b c : node) : same a b -> same b c -> same a c.
Proof.
  unfold same_tables. intros (A1 & A2 & A3 & A4 & A4' & A5 & A6 & A7 & A8) (B1 & B2 & B3 & B4 & B4' & B5 & B6 & B7 & B8).
  repeat split; congruence.
Qed.

Lemma same_circuits (a b : node) : same a b -> cores circuit_core (n_circuits a) = cores circuit_core (n_circuits b).
Proof. intros S. apply S. Qed.
Lemma same_relays (a b : node) : same a b -> cores relay_core (n_relays a) = cores relay_core (n_relays b).
Proof. intros S. apply S. Qed.
Lemma same_exits (a b : node) : same a b -> cores exit_core (n_exits a) = cores exit_core (n_exits b).
Proof. intros S. apply S. Qed.

(* entries may be replaced by entries with the same core *)
Lemma same_cores (nd : node) cs rs es :
  cores circuit_core (n_circuits nd) = cores circuit_core cs -> cores relay_core (n_relays nd) = cores relay_core rs ->
  cores exit_core (n_exits nd) = cores exit_core es ->
  same nd (mkNode (n_prefix nd) (n_max_early nd) (n_flags nd) (n_handlers nd) (n_data_ids nd) (n_tunnel_ep nd) cs rs es).
Proof. intros Hc Hr He. unfold same_tables. cbn. auto 10. Qed.

Lemma same_upd_circuit (nd : node) cid ci ci' :
  assoc cid (n_circuits nd) = Some ci -> circuit_core ci' = circuit_core ci ->
  same nd (set_circuits nd (upd cid ci' (n_circuits nd))).
Proof.
  intros Ha Hc. apply (same_cores nd _ (n_relays nd) (n_exits nd)); try reflexivity.
  symmetry. apply (cores_upd circuit_core _ ci); assumption.
Qed.

Lemma same_upd_relay (nd : node) cid r r' :
  assoc cid (n_relays nd) = Some r -> relay_core r' = relay_core r ->
  same nd (set_relays nd (upd cid r' (n_relays nd))).
Proof.
  intros Ha Hc. apply (same_cores nd (n_circuits nd) _ (n_exits nd)); try reflexivity.
  symmetry. apply (cores_upd relay_core _ r); assumption.
Qed.

Lemma same_upd_exit (nd : node) cid es es' :
  assoc cid (n_exits nd) = Some es -> exit_core es' = exit_core es ->
  same nd (set_exits nd (upd cid es' (n_exits nd))).
Proof.
  intros Ha Hc. apply (same_cores nd (n_circuits nd) (n_relays nd)); try reflexivity.
  symmetry. apply (cores_upd exit_core _ es); assumption.
Qed.

(* quiet results: the tables are kept and nothing is delivered *)
Definition quiet (nd : node) (r : res (node * list action)) : Prop :=
  forall nd' acts, r = Ok (nd', acts) -> same nd nd' /\ Forall (fun a => delivers a = false) acts.

Lemma quiet_ok (nd nd' : node) acts :
  same nd nd' -> Forall (fun a => delivers a = false) acts -> quiet nd (Ok (nd', acts)).
Proof. intros S F nd2 a2 H. injection H as <- <-. auto. Qed.

Lemma quiet_same (nd : node) r nd' acts : quiet nd r -> r = Ok (nd', acts) -> same nd nd'.
Proof. intros Q H. apply (Q _ _ H). Qed.

Lemma quiet_silent (nd : node) r nd' acts a : quiet nd r -> r = Ok (nd', acts) -> In a acts -> delivers a = false.
Proof. intros Q H. destruct (Q _ _ H) as [_ F]. rewrite Forall_forall in F. apply F. Qed.

Lemma quiet_nop (nd : node) : quiet nd (Ok (nd, [])).
Proof. apply quiet_ok; [apply same_tables_refl | constructor]. Qed.

Lemma quiet_raise (nd : node) e : quiet nd (Raise e).
Proof. intros nd' acts H. discriminate H. Qed.

Lemma quiet_bind {A} (nd : node) (m : res A) f : (forall x, m = Ok x -> quiet nd (f x)) -> quiet nd (bind m f).
Proof. destruct m as [x|e]; cbn [bind]; [auto | intros _; apply quiet_raise]. Qed.

Lemma quiet_try (nd : node) m : quiet nd m -> quiet nd (try_catch m (fun _ => Ok (nd, []))).
Proof. destruct m; cbn [try_catch]; [auto | intros _; apply quiet_nop]. Qed.

(* one action that is not a delivery (delivers computes to false on it) *)
Lemma quiet_one (nd nd' : node) a : same nd nd' -> delivers a = false -> quiet nd (Ok (nd', [a])).
Proof. intros S Ha. apply quiet_ok; [exact S | repeat constructor; exact Ha]. Qed.

Hint Resolve same_tables_refl Forall_nil : quiet.

Lemma ep_send_cell_quiet (nd : node) target c ns : quiet nd (ep_send_cell enc nd target c ns).
Proof.
  unfold ep_send_cell. apply quiet_bind. intros [nd1 c1] E.
  (* only the relay_early count of the circuit moves *)
  assert (S : same nd nd1).
  { destruct (assoc (cl_cid c) (n_circuits nd)) as [ci|] eqn:Ea; [|injection E as <- _; apply same_tables_refl].
    destruct (idx (cl_msg c) 0) as [m0|]; cbn [bind] in E; [|discriminate]. injection E as <- _.
    apply (same_upd_circuit nd _ ci); [exact Ea|].
    destruct ((m0 =? 4) || (c_early ci <? n_max_early nd)); reflexivity. }
  apply quiet_bind. intros [c2|] _; [apply quiet_one; [exact S | reflexivity] | apply quiet_ok; [exact S | constructor]].
Qed.

Lemma send_cell_quiet (nd : node) target cid mid m vals ns : quiet nd (send_cell enc nd target cid mid m vals ns).
Proof.
  unfold send_cell. apply quiet_bind. intros packed _.
  destruct ((mid <? 0) || (255 <? mid)); [apply quiet_raise | apply ep_send_cell_quiet].
Qed.

Lemma relay_cell_quiet (nd : node) c ns : quiet nd (relay_cell enc dec nd c ns).
Proof.
  unfold relay_cell. destruct (cl_plain c); [apply quiet_nop|].
  destruct (assoc (cl_cid c) (n_relays nd)) as [nxt|] eqn:Ea; [|apply quiet_raise].
  destruct (cl_early c && (n_max_early nd <=? rr_early nxt)); [apply quiet_nop|].
  apply quiet_bind. intros [c1|] _; [|apply quiet_nop].
  apply quiet_one; [|reflexivity]. apply (same_upd_relay nd _ nxt); [exact Ea | reflexivity].
Qed.

Lemma on_ping_quiet (nd : node) src data ns : quiet nd (on_ping enc nd src data ns).
Proof.
  unfold on_ping. apply quiet_bind. intros [vs o] E. apply fmt_ping_shape in E as (cid & ident & ->).
  destruct (negb (known_cid nd cid)); [apply quiet_nop | apply send_cell_quiet].
Qed.

Lemma on_pong_quiet (nd : node) src data : quiet nd (on_pong nd src data).
Proof.
  unfold on_pong. apply quiet_bind. intros [vs o] E. apply fmt_ping_shape in E as (cid & ident & ->).
  apply quiet_one; [apply same_tables_refl | reflexivity].
Qed.

Lemma on_test_request_quiet (nd : node) src data cid rnd ns : quiet nd (on_test_request enc nd src data cid rnd ns).
Proof.
  unfold on_test_request. destruct (negb (existsb (Z.eqb PEER_FLAG_SPEED_TEST) (n_flags nd))); [apply quiet_nop|].
  apply quiet_bind. intros [vs o] E. apply fmt_test_request_shape in E as (c0 & ident & rsize & d & ->).
  match goal with |- quiet nd (if ?b then _ else _) => destruct b end; [apply quiet_nop | apply send_cell_quiet].
Qed.

Lemma on_test_response_quiet (nd : node) src data cid : quiet nd (on_test_response nd src data cid).
Proof.
  unfold on_test_response. apply quiet_bind. intros [vs o] E. apply fmt_test_response_shape in E as (c0 & ident & d & ->).
  destruct (negb (has cid (n_circuits nd))); [apply quiet_nop | apply quiet_one; [apply same_tables_refl | reflexivity]].
Qed.

(* a is a delivery of the data message (cid, dest, origin, payload) that nd received from src: through the exit
   socket cid, or to the consumer of our own circuit cid when src is its first hop *)
Definition data_delivery (nd : node) (src : addr) (cid : Z) (dest origin : addr) (payload : bytes) (a : action) : Prop :=
  (a = ExitSendto cid payload dest /\ exists es, assoc cid (n_exits nd) = Some es
      /\ (es_enabled es = true \/ ip_eqb src (h_addr (es_hop es)) = true))
  \/ (is_consumer a = true /\ exists ci h0, assoc cid (n_circuits nd) = Some ci /\ circuit_hop ci = Ok h0
      /\ addr_eqb src (h_addr h0) = true
      /\ (a = RawData cid origin payload \/ a = Reinject origin payload cid \/ a = NotifyOther origin payload)).

Lemma data_delivery_exit (nd : node) src cid dest origin payload cid' data dest' :
  data_delivery nd src cid dest origin payload (ExitSendto cid' data dest') ->
  cid' = cid /\ exists es, assoc cid (n_exits nd) = Some es
                /\ (es_enabled es = true \/ ip_eqb src (h_addr (es_hop es)) = true).
Proof. intros [[H He] | [H _]]; [injection H as -> _ _; auto | discriminate H]. Qed.

Lemma data_delivery_consumer (nd : node) src cid dest origin payload a :
  data_delivery nd src cid dest origin payload a -> is_consumer a = true ->
  exists ci h0, assoc cid (n_circuits nd) = Some ci /\ circuit_hop ci = Ok h0 /\ addr_eqb src (h_addr h0) = true
    /\ (a = RawData cid origin payload \/ a = Reinject origin payload cid \/ a = NotifyOther origin payload).
Proof. intros [[-> _] | [_ H]] Hk; [discriminate Hk | exact H]. Qed.

Lemma on_data_acts (nd : node) src data nd' acts :
  on_data nd src data = Ok (nd', acts) ->
  same nd nd' /\
  exists cid dest origin payload o,
    unpack_msg no_keys fmt_data data 23 = Ok ([VInt cid; VAddr dest; VAddr origin; VBytes payload], o) /\
    Forall (data_delivery nd src cid dest origin payload) acts.
Proof.
  unfold on_data. destruct (unpack_msg no_keys fmt_data data 23) as [[vs o]|] eqn:E; cbn [bind]; [|discriminate].
  destruct (fmt_data_shape _ _ _ _ E) as (cid & dest & origin & payload & ->).
  intros H. set (D := data_delivery nd src cid dest origin payload).
  enough (same nd nd' /\ Forall D acts) as [S F] by (split; [exact S | exists cid, dest, origin, payload, o; auto]).
  revert H.
  assert (RET : forall (n : node) l, same nd n -> Forall D l -> Ok (n, l) = Ok (nd', acts) -> same nd nd' /\ Forall D acts)
    by (intros n l S F H; injection H as <- <-; auto).
  assert (EX : (if negb (is_null dest) then Ok (exit_data nd cid src dest payload) else Ok (nd, [])) = Ok (nd', acts) ->
            same nd nd' /\ Forall D acts).
  { destruct (negb (is_null dest)); [|apply RET; auto with quiet].
    unfold exit_data. destruct (assoc cid (n_exits nd)) as [es|] eqn:Ee; [|apply RET; auto with quiet].
    assert (SEND : forall n : node, es_enabled es = true \/ ip_eqb src (h_addr (es_hop es)) = true -> same nd n ->
              Ok (n, [ExitSendto cid payload dest]) = Ok (nd', acts) -> same nd nd' /\ Forall D acts)
      by (intros n Hen S; apply RET; [exact S | constructor; [left; eauto | constructor]]).
    destruct (es_enabled es) eqn:En; [apply SEND; auto with quiet|].
    destruct (ip_eqb src (h_addr (es_hop es))) eqn:Ei; [|apply RET; auto with quiet].
    (* the previous hop's address opens the socket *)
    apply SEND; [auto|]. apply (same_upd_exit nd _ es); [exact Ee | reflexivity]. }
  destruct (assoc cid (n_circuits nd)) as [ci|] eqn:Ec; [|exact EX].
  destruct (circuit_hop ci) as [h0|] eqn:Eh; cbn [bind]; [|discriminate].
  destruct (addr_eqb src (h_addr h0)) eqn:Ea; [|exact EX].
  (* from the first hop of our circuit cid: the state as it is, at most one action, for the consumer *)
  assert (CONS : forall x, is_consumer x = true ->
            x = RawData cid origin payload \/ x = Reinject origin payload cid \/ x = NotifyOther origin payload ->
            Ok (nd, [x]) = Ok (nd', acts) -> same nd nd' /\ Forall D acts).
  { intros x Hk Hor. apply RET; [apply same_tables_refl|]. constructor; [|constructor]. right. split; [exact Hk|]. exists ci, h0. auto. }
  destruct (could_be_ipv8 payload && negb (is_e2e (c_ctype ci))); [|apply CONS; auto].
  destruct (bytes_eqb (n_prefix nd) (slice payload None (Some 22))).
  - destruct (idx payload 22) as [m|]; cbn [bind]; [|discriminate].
    destruct (existsb (Z.eqb m) (n_data_ids nd)); [apply CONS; auto | apply RET; auto with quiet].
  - destruct (n_tunnel_ep nd); [apply CONS; auto | apply RET; auto with quiet].
Qed.

Lemma on_data_same (nd : node) src data nd' acts :
  on_data nd src data = Ok (nd', acts) -> same nd nd'.
Proof. intros H. apply (on_data_acts nd src data nd' acts H). Qed.

(* a run of the dispatcher is quiet, or it is the data handler's, called for message id 1 *)
Lemma pfc_cases (nd : node) src data cid rnd ns :
  quiet nd (on_packet_from_circuit enc nd src data cid rnd ns) \/
  (idx data 22 = Ok 1 /\ on_packet_from_circuit enc nd src data cid rnd ns = on_data nd src data).
Proof.
  unfold on_packet_from_circuit.
  destruct (negb (bytes_eqb (n_prefix nd) (slice data None (Some 22)))); [left; apply quiet_nop|].
  destruct (idx data 22) as [mid|]; cbn [bind]; [|left; apply quiet_raise].
  destruct (negb (existsb (Z.eqb mid) (n_handlers nd))); [left; apply quiet_nop|].
  destruct (mid =? 1) eqn:E1.
  { apply Z.eqb_eq in E1. subst mid. destruct (on_data nd src data); cbn [try_catch]; [right; auto | left; apply quiet_nop]. }
  left. apply quiet_try.
  destruct (mid =? 6); [apply on_ping_quiet|].
  destruct (mid =? 7); [apply on_pong_quiet|].
  destruct (mid =? 19); [apply on_test_request_quiet|].
  destruct (mid =? 20); [apply on_test_response_quiet|].
  apply quiet_one; [apply same_tables_refl | reflexivity].
Qed.

Lemma pfc_same (nd : node) src data cid rnd ns nd' acts :
  on_packet_from_circuit enc nd src data cid rnd ns = Ok (nd', acts) -> same nd nd'.
Proof.
  destruct (pfc_cases nd src data cid rnd ns) as [Q | [_ ->]]; [apply quiet_same; exact Q | apply on_data_same].
Qed.

Lemma community_same (nd : node) src data rnd ns nd' acts :
  community_on_cell_packet enc nd src data rnd ns = Ok (nd', acts) -> same nd nd'.
Proof.
  unfold community_on_cell_packet.
  assert (ID : Ok (nd, []) = Ok (nd', acts) -> same nd nd') by (intros H; injection H as <- _; apply same_tables_refl).
  match goal with |- (if ?b then _ else _) = _ -> _ => destruct b end; [exact ID|].
  match goal with |- try_catch ?X _ = _ -> _ => destruct X as [[n1 a1]|] eqn:E end; cbn [try_catch]; [|exact ID].
  intros H. injection H as <- <-. revert E. unfold on_cell.
  destruct (from_bin data) as [c|]; cbn [bind]; [|discriminate].
  match goal with |- (do skip <- ?X; _) = _ -> _ => destruct X as [skip|] end; cbn [bind]; [|discriminate].
  destruct skip; [intros H; injection H as <- _; apply same_tables_refl|].
  destruct (unwrap (n_prefix nd) c); cbn [bind]; [|discriminate]. apply pfc_same.
Qed.

(* a run of on_packet is quiet, or it is the hand-over to the community of a cell that is not relayed, opened
   with the keys held for its id, and not plaintext unless it is a create / created *)
Lemma on_packet_cases (nd : node) src pkt rnd ns :
  quiet nd (on_packet enc dec nd src pkt rnd ns) \/
  exists c c1 m0 rest,
    from_bin pkt = Ok c /\ has (cl_cid c) (n_relays nd) = false /\ incoming_crypto dec nd c = Ok (Some c1) /\
    cl_msg c1 = m0 :: rest /\ cl_plain c1 && negb (NO_CRYPTO m0) = false /\
    on_packet enc dec nd src pkt rnd ns = community_on_cell_packet enc nd src (cell_to_bin (n_prefix nd) c1) rnd ns.
Proof.
  unfold on_packet.
  destruct (negb (bytes_eqb (n_prefix nd) (slice pkt None (Some 22)))); [left; apply quiet_nop|].
  destruct (22 <? blen pkt); [|left; apply quiet_one; [apply same_tables_refl | reflexivity]].
  destruct (idx pkt 22) as [b|]; cbn [bind]; [|left; apply quiet_raise].
  destruct (b =? 0); [|left; apply quiet_one; [apply same_tables_refl | reflexivity]].
  unfold process_cell. destruct (blen pkt <? 29); [left; apply quiet_nop|].
  destruct (from_bin pkt) as [c|] eqn:Ef; cbn [bind]; [|left; apply quiet_raise].
  destruct (has (cl_cid c) (n_relays nd)) eqn:Hr; [left; apply relay_cell_quiet|].
  destruct (incoming_crypto dec nd c) as [[c1|]|] eqn:Ei; cbn [bind]; [|left; apply quiet_nop|left; apply quiet_raise].
  destruct (cl_msg c1) as [|m0 rest] eqn:Em; [left; apply quiet_nop|].
  cbn [length Nat.eqb]. rewrite idx_head. cbn [bind].
  match goal with |- context [if ?b then Ok (nd, []) else if _ then _ else _] => destruct b end; [left; apply quiet_nop|].
  destruct (cl_plain c1 && negb (NO_CRYPTO m0)) eqn:Epl; [left; apply quiet_nop|].
  right. exists c, c1, m0, rest. auto 7.
Qed.

Lemma on_packet_same (nd : node) src pkt rnd ns nd' acts :
  on_packet enc dec nd src pkt rnd ns = Ok (nd', acts) -> same nd nd'.
Proof.
  destruct (on_packet_cases nd src pkt rnd ns) as [Q | (c & c1 & m0 & rest & _ & _ & _ & _ & _ & ->)];
    [apply quiet_same; exact Q | apply community_same].
Qed.

Definition is_reinject (a : action) : bool := match a with Reinject _ _ _ => true | _ => false end.

Lemma expand_other fuel rnd ns (nd : node) a tl :
  is_reinject a = false ->
  expand enc fuel rnd ns nd (a :: tl) = (do (nd2, a2) <- expand enc fuel rnd ns nd tl; Ok (nd2, a :: a2)).
Proof. intros H. destruct fuel; destruct a; try discriminate H; reflexivity. Qed.

Lemma expand_O rnd ns (nd : node) a tl :
  expand enc O rnd ns nd (a :: tl) = (do (nd2, a2) <- expand enc O rnd ns nd tl; Ok (nd2, a :: a2)).
Proof. destruct a; reflexivity. Qed.

Lemma expand_reinj_S f rnd ns (nd : node) o p c tl :
  expand enc (S f) rnd ns nd (Reinject o p c :: tl) =
  (do (nd1, a1) <- on_packet_from_circuit enc nd o p c rnd ns;
   do (nd1', a1') <- expand enc f rnd ns nd1 a1;
   do (nd2, a2) <- expand enc (S f) rnd ns nd1' tl;
   Ok (nd2, Reinject o p c :: a1' ++ a2)).
Proof. reflexivity. Qed.

Lemma expand_nil fuel rnd ns (nd : node) : expand enc fuel rnd ns nd [] = Ok (nd, []).
Proof. destruct fuel; reflexivity. Qed.

(* the nested dispatch of re-injected datagrams preserves the tables as well *)
Lemma expand_same : forall fuel rnd ns (nd : node) acts nd' acts',
  expand enc fuel rnd ns nd acts = Ok (nd', acts') -> same nd nd'.
Proof.
  (* an action that is passed through: the state is the one the rest of the list leaves *)
  assert (PASS : forall (nd nd' : node) m (g : list action -> list action) acts',
            (forall n2 a2, m = Ok (n2, a2) -> same nd n2) ->
            (do (nd2, a2) <- m; Ok (nd2, g a2)) = Ok (nd', acts') -> same nd nd').
  { intros nd nd' [[n2 a2]|] g acts' IH; cbn [bind]; [|discriminate]. intros H. injection H as <- _. apply (IH n2 a2 eq_refl). }
  induction fuel as [|f IHf]; intros rnd ns nd acts; revert nd;
    induction acts as [|a tl IHa]; intros nd nd' acts';
    try (rewrite expand_nil; intros H; injection H as <- _; apply same_tables_refl).
  - rewrite expand_O. apply (PASS _ _ _ (cons a)), IHa.
  - destruct (is_reinject a) eqn:Ea; [|rewrite (expand_other _ _ _ _ _ _ Ea); apply (PASS _ _ _ (cons a)), IHa].
    destruct a; try discriminate Ea. rewrite expand_reinj_S.
    destruct (on_packet_from_circuit enc nd origin data cid rnd ns) as [[n1 a1]|] eqn:E1; cbn [bind]; [|discriminate].
    destruct (expand enc f rnd ns n1 a1) as [[n1' a1']|] eqn:E2; cbn [bind]; [|discriminate].
    intros H. apply (same_tables_trans nd n1 nd'); [apply (pfc_same _ _ _ _ _ _ _ _ E1)|].
    apply (same_tables_trans n1 n1' nd'); [apply (IHf _ _ _ _ _ _ E2) | apply (PASS _ _ _ _ _ (IHa n1') H)].
Qed.

Lemma on_packet_rec_same (nd : node) src pkt rnd ns nd' acts :
  on_packet_rec enc dec nd src pkt rnd ns = Ok (nd', acts) -> same nd nd'.
Proof.
  unfold on_packet_rec. destruct (on_packet enc dec nd src pkt rnd ns) as [[n1 a1]|] eqn:E; cbn [bind]; [|discriminate].
  intros H. apply (same_tables_trans nd n1 nd'); [apply (on_packet_same _ _ _ _ _ _ _ E) | apply (expand_same _ _ _ _ _ _ _ H)].
Qed.

End Tables.

Arguments data_delivery {key}.
