(* C12 - the representation invariant of the Network model and its preservation by every operation.

   Inv says: the by-key index is exactly the verified set; every cached service list is duplicate
   free (by key) and contains every verified peer that advertised the service; every cached
   introduction list is the set of addresses introduced by that key; no verified peer is
   blacklisted.  Nothing is required of the address cache: its hits are validated when used. *)
From Coq Require Import ZArith List Bool Lia.
From IPV8V Require Import lib.Lists model.M02_wire model.M12_network proofs.P12_base.
Import ListNotations.
Open Scope Z_scope.

Definition svc_good (h : list obj) (ver : list nat) (svcs : list (key * list service))
           (s : service) (l : list nat) : Prop :=
  NoDup (map (hkey h) l) /\
  forall i, In i ver -> mem_z s (svc_lookup svcs (hkey h i)) = true -> In i l.

Definition intro_good (all : list (addr * walk)) (k : key) (l : list addr) : Prop :=
  forall a, In a l <-> In a (intros_of all k).

Record Inv (n : net) : Prop := mkInv {
  inv_ids : forall i, In i (verified n) -> (i < length (heap n))%nat;
  inv_cids : forall s l i, In (s, l) (svc_cache n) -> In i l -> (i < length (heap n))%nat;
  inv_uniq : NoDup (map (hkey (heap n)) (verified n));
  inv_idx : forall k, d_get Z.eqb k (by_key n) = find (fun i => hkey (heap n) i =? k) (verified n);
  inv_svc : forall s l, In (s, l) (svc_cache n) -> svc_good (heap n) (verified n) (services n) s l;
  inv_intro : forall k l, In (k, l) (intro_cache n) -> intro_good (all_addrs n) k l;
  inv_bl : forall i, In i (verified n) -> blacklisted n (hkey (heap n) i) (haddrs (heap n) i) = false
}.

Lemma Inv_init ipc intc svcc bla blm : Inv (init_net ipc intc svcc bla blm).
Proof.
  constructor; cbn; try (intros; contradiction).
  - constructor.
  - reflexivity.
Qed.

Lemma Inv_set_ip_cache n c : Inv n -> Inv (set_ip_cache n c).
Proof. intros [H1 H2 H3 H4 H5 H6 H7]. constructor; cbn; assumption. Qed.

Lemma Inv_set_intro_all n all ic :
  Inv n -> (forall k l, In (k, l) ic -> intro_good all k l) ->
  Inv (set_intro_cache (set_all n all) ic).
Proof. intros [H1 H2 H3 H4 H5 H6 H7] H. constructor; cbn; assumption. Qed.

Lemma Inv_set_intro n ic :
  Inv n -> (forall k l, In (k, l) ic -> intro_good (all_addrs n) k l) -> Inv (set_intro_cache n ic).
Proof. intros [H1 H2 H3 H4 H5 H6 H7] H. constructor; cbn; assumption. Qed.

Lemma Inv_set_svc_cache n sc :
  Inv n ->
  (forall s l i, In (s, l) sc -> In i l -> (i < length (heap n))%nat) ->
  (forall s l, In (s, l) sc -> svc_good (heap n) (verified n) (services n) s l) ->
  Inv (set_svc_cache n sc).
Proof. intros [H1 H2 H3 H4 H5 H6 H7] Ha Hb. constructor; cbn; assumption. Qed.

Lemma Inv_set_services_svc n svcs sc :
  Inv n ->
  (forall s l i, In (s, l) sc -> In i l -> (i < length (heap n))%nat) ->
  (forall s l, In (s, l) sc -> svc_good (heap n) (verified n) svcs s l) ->
  Inv (set_svc_cache (set_services n svcs) sc).
Proof. intros [H1 H2 H3 H4 H5 H6 H7] Ha Hb. constructor; cbn; assumption. Qed.

Lemma find_ext_in {A} (f g : A -> bool) l : (forall x, In x l -> f x = g x) -> find f l = find g l.
Proof.
  induction l as [|x l IH]; simpl; intros H; [reflexivity|].
  rewrite (H x (or_introl eq_refl)). destruct (g x); [reflexivity|]. apply IH. intros y Hy. apply H. auto.
Qed.

Lemma Inv_set_heap n h' :
  Inv n -> (length (heap n) <= length h')%nat ->
  (forall i, (i < length (heap n))%nat -> hkey h' i = hkey (heap n) i) ->
  (forall i, In i (verified n) -> blacklisted n (hkey h' i) (haddrs h' i) = false) ->
  Inv (set_heap n h').
Proof.
  intros [H1 H2 H3 H4 H5 H6 H7] HL HK HB.
  assert (EV : map (hkey h') (verified n) = map (hkey (heap n)) (verified n)).
  { apply map_ext_in. intros i Hi. apply HK. apply H1. assumption. }
  constructor; cbn.
  - intros i Hi. specialize (H1 i Hi). lia.
  - intros s l i Hs Hi. specialize (H2 s l i Hs Hi). lia.
  - rewrite EV. assumption.
  - intros k. rewrite H4. apply find_ext_in. intros i Hi. rewrite HK by (apply H1; assumption). reflexivity.
  - intros s l Hs. destruct (H5 s l Hs) as [Ha Hb]. split.
    + replace (map (hkey h') l) with (map (hkey (heap n)) l); [assumption|].
      apply map_ext_in. intros i Hi. symmetry. apply HK. exact (H2 s l i Hs Hi).
    + intros i Hi. rewrite HK by (apply H1; assumption). apply Hb. assumption.
  - assumption.
  - assumption.
Qed.

Lemma Inv_alloc n k am :
  Inv n -> Inv (fst (alloc n k am)) /\ (snd (alloc n k am) < length (heap (fst (alloc n k am))))%nat.
Proof.
  intros H. unfold alloc. cbn [fst snd heap set_heap]. rewrite app_length. split; [|simpl; lia].
  apply Inv_set_heap; [assumption| | |].
  - rewrite app_length. simpl. lia.
  - intros i Hi. unfold hkey. rewrite hget_app_lt by assumption. reflexivity.
  - intros i Hi. pose proof (inv_ids n H i Hi) as L. unfold hkey, haddrs. rewrite hget_app_lt by assumption.
    exact (inv_bl n H i Hi).
Qed.

Lemma blacklisted_update n k m k' m' :
  blacklisted n k m = false -> blacklisted n k' m' = false -> blacklisted n k (am_update m m') = false.
Proof.
  unfold blacklisted. intros H1 H2. apply orb_false_iff in H1 as [H1a H1b]. apply orb_false_iff in H2 as [_ H2b].
  apply orb_false_iff. split; [assumption|].
  apply existsb_false_iff. intros a Ha. apply am_values_update in Ha as [Ha|Ha].
  - exact (proj1 (existsb_false_iff _ _) H1b a Ha).
  - exact (proj1 (existsb_false_iff _ _) H2b a Ha).
Qed.

(* known.addresses.update(peer.addresses) *)
Lemma Inv_update_addrs n j am :
  Inv n -> In j (verified n) -> blacklisted n (hkey (heap n) j) am = false ->
  Inv (set_heap n (hset (heap n) j (hkey (heap n) j, am))).
Proof.
  intros H Hj HB. apply Inv_set_heap; [assumption| | |].
  - rewrite hset_length. lia.
  - intros i _. apply hkey_hset.
  - intros i Hi. rewrite hkey_hset. destruct (Nat.eq_dec i j) as [E|E].
    + subst i. unfold haddrs. rewrite hget_hset_same by (exact (inv_ids n H j Hj)). exact HB.
    + unfold haddrs. rewrite hget_hset_other by assumption. exact (inv_bl n H i Hi).
Qed.

Lemma in_ver_false h ver k : in_ver h ver k = false <-> forall i, In i ver -> hkey h i <> k.
Proof.
  unfold in_ver. rewrite existsb_false_iff. split; intros H i Hi.
  - apply Z.eqb_neq. apply H. assumption.
  - apply Z.eqb_neq. apply H. assumption.
Qed.

Lemma in_ver_true h ver k : in_ver h ver k = true <-> exists i, In i ver /\ hkey h i = k.
Proof.
  unfold in_ver. rewrite existsb_exists. split; intros (i & Hi & E); exists i; split; try assumption.
  - apply Z.eqb_eq. assumption.
  - apply Z.eqb_eq. assumption.
Qed.

(* what the index answers: the verified peer with that key, which is the only one, or that there is none *)
Lemma by_key_unique_owner n k : Inv n ->
  match d_get Z.eqb k (by_key n) with
  | Some j => In j (verified n) /\ hkey (heap n) j = k /\ forall i, In i (verified n) -> hkey (heap n) i = k -> i = j
  | None => forall i, In i (verified n) -> hkey (heap n) i <> k
  end.
Proof.
  intros H. rewrite (inv_idx n H). destruct (find (fun i => hkey (heap n) i =? k) (verified n)) as [j|] eqn:F.
  - apply find_some in F as [F1 F2]. apply Z.eqb_eq in F2. split; [assumption|]. split; [assumption|].
    intros i Hi Ei. apply (NoDup_map_inj (hkey (heap n)) (verified n)); [exact (inv_uniq n H)|assumption|assumption|congruence].
  - intros i Hi. apply Z.eqb_neq. exact (find_none _ _ F i Hi).
Qed.

Lemma Inv_verify n i :
  Inv n -> (i < length (heap n))%nat ->
  blacklisted n (hkey (heap n) i) (haddrs (heap n) i) = false ->
  Inv (verify n i).
Proof.
  intros H Hi HB. unfold verify. destruct (in_verified n (hkey (heap n) i)) eqn:V; [assumption|].
  unfold in_verified in V. pose proof (proj1 (in_ver_false _ _ _) V) as NV.
  destruct H as [H1 H2 H3 H4 H5 H6 H7].
  unfold forget_service_caches. constructor; cbn.
  - intros j Hj. apply in_app_iff in Hj as [Hj|[Hj|[]]]; [auto|subst; assumption].
  - intros s l j Hs Hj. apply filter_In in Hs as [Hs _]. exact (H2 s l j Hs Hj).
  - rewrite map_app. simpl. apply NoDup_snoc; [assumption|].
    intros Hin. apply in_map_iff in Hin as (j & E & Hj). exact (NV j Hj E).
  - intros k. rewrite (d_get_set Z.eqb Z.eqb_eq). rewrite find_app. simpl.
    destruct (hkey (heap n) i =? k) eqn:E.
    + apply Z.eqb_eq in E. subst k.
      assert (F : find (fun i0 => hkey (heap n) i0 =? hkey (heap n) i) (verified n) = None).
      { apply find_none_intro. intros j Hj. apply Z.eqb_neq. apply NV. assumption. }
      rewrite F. reflexivity.
    + rewrite H4. destruct (find (fun i0 => hkey (heap n) i0 =? k) (verified n)); reflexivity.
  - intros s l Hs. apply filter_In in Hs as [Hs Hf]. cbn in Hf. apply negb_true_iff in Hf.
    destruct (H5 s l Hs) as [Ha Hb]. split; [assumption|].
    intros j Hj Hm. apply in_app_iff in Hj as [Hj|[Hj|[]]]; [auto|]. subst j.
    unfold svc_of in Hf. cbn in Hf. congruence.
  - assumption.
  - intros j Hj. apply in_app_iff in Hj as [Hj|[Hj|[]]]; [exact (H7 j Hj)|]. subst j. exact HB.
Qed.

Lemma Inv_set_all n all :
  Inv n -> (forall k l, In (k, l) (intro_cache n) -> intro_good all k l) -> Inv (set_all n all).
Proof. intros [H1 H2 H3 H4 H5 H6 H7] H. constructor; cbn; assumption. Qed.

Lemma intros_add_walkable all x k a : In a (intros_of (add_walkable all x) k) <-> In a (intros_of all k).
Proof.
  unfold add_walkable. destruct (d_mem addr_eqb x all); [reflexivity|].
  rewrite !intros_of_In. split.
  - intros (w & H & E). apply in_app_iff in H as [H|[H|[]]]; [eauto|]. inversion H; subst. discriminate.
  - intros (w & H & E). exists w. split; [|assumption]. apply in_app_iff. auto.
Qed.

Lemma intros_fold_add_walkable l : forall all k a,
  In a (intros_of (fold_left add_walkable l all) k) <-> In a (intros_of all k).
Proof.
  induction l as [|x l IH]; intros all k a; simpl; [reflexivity|].
  rewrite IH. apply intros_add_walkable.
Qed.

Lemma intros_d_set a w all k x :
  In x (intros_of (d_set addr_eqb a w all) k) <->
  (x = a /\ w_intro w = Some k) \/ (x <> a /\ In x (intros_of all k)).
Proof.
  rewrite !intros_of_In. split.
  - intros (w' & H & E). apply (In_d_set addr_eqb addr_eqb_eq) in H as [[H1 H2]|[H1 H2]].
    + subst. left. auto.
    + right. split; [assumption|]. exists w'. auto.
  - intros [[H1 H2]|[H1 (w' & H2 & H3)]].
    + subst x. exists w. split; [|assumption]. apply (In_d_set_same addr_eqb addr_eqb_eq).
    + exists w'. split; [|assumption]. apply (In_d_set_other addr_eqb addr_eqb_eq); assumption.
Qed.

Lemma intros_d_del a all k x :
  In x (intros_of (d_del addr_eqb a all) k) <-> x <> a /\ In x (intros_of all k).
Proof.
  rewrite !intros_of_In. split.
  - intros (w & H & E). apply (In_d_del addr_eqb addr_eqb_eq) in H as [H1 H2]. simpl in H2. split; [assumption|eauto].
  - intros (Hne & w & H & E). exists w. split; [|assumption]. apply (In_d_del addr_eqb addr_eqb_eq). auto.
Qed.

Lemma In_forget_intro a ic k l :
  In (k, l) (forget_intro a ic) ->
  exists l0, In (k, l0) ic /\ l = filter (fun x => negb (addr_eqb x a)) l0.
Proof.
  unfold forget_intro. intros H. apply in_map_iff in H as ([k0 l0] & E & H). simpl in E. inversion E; subst.
  exists l0. auto.
Qed.

Lemma In_filter_ne a (l : list addr) x : In x (filter (fun y => negb (addr_eqb y a)) l) <-> x <> a /\ In x l.
Proof.
  rewrite filter_In. split; intros [H1 H2].
  - split; [|assumption]. apply negb_true_iff in H2. apply addr_eqb_neq in H2. assumption.
  - split; [assumption|]. apply negb_true_iff. apply addr_eqb_neq. assumption.
Qed.

(* an address is dropped: _all_addresses.pop(address) + _forget_introduction(address) *)
Lemma intro_good_del a all ic :
  (forall k l, In (k, l) ic -> intro_good all k l) ->
  forall k l, In (k, l) (forget_intro a ic) -> intro_good (d_del addr_eqb a all) k l.
Proof.
  intros H k l Hin x. apply In_forget_intro in Hin as (l0 & H0 & E). subst l.
  rewrite In_filter_ne, intros_d_del. rewrite (H k l0 H0 x). reflexivity.
Qed.

(* an address gets a (new) introducer, or none (load_snapshot) *)
Lemma intro_good_forget_set a w all ic :
  (forall k l, In (k, l) ic -> intro_good all k l) ->
  forall k l, In (k, l) (forget_intro a ic) -> w_intro w <> Some k ->
  intro_good (d_set addr_eqb a w all) k l.
Proof.
  intros H k l Hin Hw x. apply In_forget_intro in Hin as (l0 & H0 & E). subst l.
  rewrite In_filter_ne, intros_d_set. rewrite (H k l0 H0 x). split.
  - intros [H1 H2]. right. auto.
  - intros [[H1 H2]|[H1 H2]]; [contradiction|auto].
Qed.

Lemma intro_good_assign a k s ns all ic :
  (forall k' l, In (k', l) ic -> intro_good all k' l) ->
  forall k' l',
    In (k', l') (let c := forget_intro a ic in
                 match d_get Z.eqb k c with Some l => d_set Z.eqb k (l ++ [a]) c | None => c end) ->
    intro_good (d_set addr_eqb a (mkWalk (Some k) s ns) all) k' l'.
Proof.
  intros H k' l'. cbv zeta. destruct (d_get Z.eqb k (forget_intro a ic)) as [l|] eqn:G.
  - intros Hin. apply (In_d_set Z.eqb Z.eqb_eq) in Hin as [[E1 E2]|[Hne Hin]].
    + subst k' l'. apply (d_get_In Z.eqb Z.eqb_eq) in G. apply In_forget_intro in G as (l0 & H0 & E). subst l.
      intros x. rewrite in_app_iff, In_filter_ne, intros_d_set. rewrite (H k l0 H0 x). cbn [w_intro].
      split.
      * intros [[H1 H2]|[H1|[]]]; [right; auto|]. subst. left. auto.
      * intros [[H1 _]|[H1 H2]]; [subst; right; left; reflexivity|left; auto].
    + apply intro_good_forget_set with (ic := ic); [assumption|assumption|]. cbn. congruence.
  - intros Hin. apply intro_good_forget_set with (ic := ic); [assumption|assumption|]. cbn. intros E. inversion E; subst.
    apply (d_get_None Z.eqb Z.eqb_eq) in G. apply G. apply in_map_iff. exists (k', l'). auto.
Qed.

Lemma Inv_add_verified_peer n i : Inv n -> (i < length (heap n))%nat -> Inv (add_verified_peer n i).
Proof.
  intros H Hi. unfold add_verified_peer.
  destruct (blacklisted n (hkey (heap n) i) (haddrs (heap n) i)) eqn:B; [assumption|].
  pose proof (by_key_unique_owner n (hkey (heap n) i) H) as S. destruct (d_get Z.eqb (hkey (heap n) i) (by_key n)) as [j|].
  - destruct S as (Hj & Ej & _). apply Inv_update_addrs; [assumption|assumption|].
    apply blacklisted_update with (k' := hkey (heap n) i); [exact (inv_bl n H j Hj)|exact B].
  - destruct (existsb (fun a => d_mem addr_eqb a (all_addrs n)) (am_values (haddrs (heap n) i))).
    + apply Inv_verify; assumption.
    + apply Inv_verify; cbn; [|assumption|exact B].
      apply Inv_set_all; [assumption|].
      intros k l Hin x. rewrite intros_fold_add_walkable. exact (inv_intro n H k l Hin x).
Qed.

Lemma verify_heap n i : heap (verify n i) = heap n.
Proof. unfold verify. destruct (in_verified n (hkey (heap n) i)); reflexivity. Qed.

Lemma add_verified_peer_heap_length n i : length (heap (add_verified_peer n i)) = length (heap n).
Proof.
  unfold add_verified_peer. destruct (blacklisted _ _ _); [reflexivity|].
  destruct (d_get _ _ _).
  - cbn. apply hset_length.
  - destruct (existsb _ _); rewrite verify_heap; reflexivity.
Qed.

Lemma Inv_discover_address n i a s ns :
  Inv n -> (i < length (heap n))%nat -> Inv (discover_address n i a s ns).
Proof.
  intros H Hi. unfold discover_address. destruct (mem_addr a (bl_addr n)).
  - apply Inv_add_verified_peer; assumption.
  - destruct (negb (d_mem addr_eqb a (all_addrs n)) || negb (intro_verified n a)).
    + apply Inv_add_verified_peer; [|cbn; assumption].
      apply Inv_set_intro_all; [assumption|].
      intros k' l' Hin. eapply intro_good_assign; [exact (inv_intro n H)|exact Hin].
    + apply Inv_add_verified_peer; assumption.
Qed.

Lemma Inv_get_introductions_from n k : Inv n -> Inv (fst (get_introductions_from n k)).
Proof.
  intros H. unfold get_introductions_from. destruct (d_get Z.eqb k (intro_cache n)); [assumption|].
  cbn [fst]. apply Inv_set_intro; [assumption|].
  intros k' l' Hin. apply evict_In in Hin. apply (In_d_set Z.eqb Z.eqb_eq) in Hin as [[E1 E2]|[_ Hin]].
  - subst. intros x. reflexivity.
  - exact (inv_intro n H k' l' Hin).
Qed.

Lemma mem_set_union s new : forall old,
  mem_z s (set_union old new) = true <-> mem_z s old = true \/ In s new.
Proof.
  unfold set_union. induction new as [|x new IH]; intros old; simpl.
  - split; [auto|]. intros [H|[]]. assumption.
  - rewrite IH. destruct (mem_z x old) eqn:M.
    + split.
      * intros [H|H]; auto.
      * intros [H|[H|H]]; auto. subst. auto.
    + rewrite !mem_z_In. rewrite in_app_iff. simpl. split.
      * intros [[H|[H|[]]]|H]; auto.
      * intros [H|[H|H]]; auto.
Qed.

Lemma rfk_In h k l j : In j (remove_first_key h k l) -> In j l.
Proof.
  induction l as [|x l IH]; simpl; [auto|]. destruct (hkey h x =? k); [auto|].
  intros [H|H]; auto.
Qed.

Lemma rfk_keep h k l j : In j l -> hkey h j <> k -> In j (remove_first_key h k l).
Proof.
  induction l as [|x l IH]; simpl; [auto|]. intros [H|H] Hne.
  - subst x. apply Z.eqb_neq in Hne. rewrite Hne. left. reflexivity.
  - destruct (hkey h x =? k); [assumption|]. right. auto.
Qed.

Lemma rfk_nodup h k l :
  NoDup (map (hkey h) l) ->
  NoDup (map (hkey h) (remove_first_key h k l)) /\ ~ In k (map (hkey h) (remove_first_key h k l)).
Proof.
  induction l as [|x l IH]; simpl; intros H.
  - split; [constructor|intros []].
  - inversion H; subst. destruct (hkey h x =? k) eqn:E.
    + apply Z.eqb_eq in E. subst k. auto.
    + apply Z.eqb_neq in E. destruct (IH H3) as [Ha Hb]. simpl. split.
      * constructor; [|assumption]. intros Hin. apply H2.
        apply in_map_iff in Hin as (j & Ej & Hj). apply in_map_iff. exists j. split; [assumption|].
        eapply rfk_In. eassumption.
      * intros [Hc|Hc]; [contradiction|contradiction].
Qed.

Section ServiceFold.
  Variables (h : list obj) (ver : list nat) (svcs' : list (key * list service)) (cap : Z) (k : key) (p : nat).
  Hypothesis Hp_key : hkey h p = k.
  Hypothesis Hp_valid : (p < length h)%nat.
  Hypothesis Hp_only : forall j, In j ver -> hkey h j = k -> j = p.

  (* while the services are processed: every cached list is complete for the new service sets, except that p
     may still be missing from the lists of the services in todo *)
  Definition fold_ok (todo : list service) (c : list (service * list nat)) : Prop :=
    forall s l, In (s, l) c ->
      NoDup (map (hkey h) l) /\ (forall j, In j l -> (j < length h)%nat) /\
      forall j, In j ver -> mem_z s (svc_lookup svcs' (hkey h j)) = true -> In j l \/ (j = p /\ In s todo).

  Lemma fold_ok_step s0 todo c : fold_ok (s0 :: todo) c -> fold_ok todo (svc_cache_add h cap k p c s0).
  Proof.
    intros Q. unfold svc_cache_add. destruct (d_get Z.eqb s0 c) as [l0|] eqn:G.
    - apply (d_get_In Z.eqb Z.eqb_eq) in G. destruct (Q s0 l0 G) as (Q1 & Q2 & Q3).
      intros s l Hin. apply evict_In in Hin. apply (In_d_set Z.eqb Z.eqb_eq) in Hin as [[-> ->]|[Hne Hin]].
      + destruct (rfk_nodup h k l0 Q1) as [N1 N2]. split; [|split].
        * rewrite map_app. apply NoDup_snoc; [assumption|]. rewrite Hp_key. assumption.
        * intros j Hj. apply in_app_iff in Hj as [Hj|[<-|[]]]; [|assumption]. apply Q2. eapply rfk_In. eassumption.
        * intros j Hj Hm. left. apply in_app_iff. destruct (Z.eq_dec (hkey h j) k) as [E|E].
          -- right. left. symmetry. apply Hp_only; assumption.
          -- left. apply rfk_keep; [|assumption]. destruct (Q3 j Hj Hm) as [H|[-> _]]; [assumption|contradiction].
      + destruct (Q s l Hin) as (Q1' & Q2' & Q3'). split; [assumption|]. split; [assumption|].
        intros j Hj Hm. destruct (Q3' j Hj Hm) as [H|[E [E2|H]]]; [auto|congruence|auto].
    - intros s l Hin. destruct (Q s l Hin) as (Q1 & Q2 & Q3). split; [assumption|]. split; [assumption|].
      intros j Hj Hm. destruct (Q3 j Hj Hm) as [H|[E [E2|H]]]; [auto| |auto].
      subst s. apply (d_get_None Z.eqb Z.eqb_eq) in G. exfalso. apply G. apply in_map_iff. exists (s0, l). auto.
  Qed.

  Lemma fold_ok_all todo : forall c, fold_ok todo c -> fold_ok [] (fold_left (svc_cache_add h cap k p) todo c).
  Proof. induction todo as [|s0 todo IH]; intros c Q; simpl; [assumption|]. apply IH, fold_ok_step, Q. Qed.
End ServiceFold.

Lemma Inv_discover_services n i ss :
  Inv n -> (i < length (heap n))%nat -> Inv (discover_services n i ss).
Proof.
  intros H Hi. unfold discover_services.
  set (k := hkey (heap n) i).
  set (svcs' := d_set Z.eqb k (set_union (svc_of n k) (svc_set ss)) (services n)).
  set (p := match d_get Z.eqb k (by_key n) with Some j => j | None => i end).
  assert (Pk : hkey (heap n) p = k /\ (p < length (heap n))%nat /\
               forall j, In j (verified n) -> hkey (heap n) j = k -> j = p).
  { unfold p. pose proof (by_key_unique_owner n k H) as S. destruct (d_get Z.eqb k (by_key n)) as [j'|].
    - destruct S as (S1 & S2 & S3). split; [assumption|]. split; [exact (inv_ids n H j' S1)|assumption].
    - split; [reflexivity|]. split; [assumption|]. intros j Hj Ej. destruct (S j Hj Ej). }
  destruct Pk as (Pk1 & Pk2 & Pk3).
  assert (Q0 : fold_ok (heap n) (verified n) svcs' p ss (svc_cache n)).
  { intros s l Hin. destruct (inv_svc n H s l Hin) as [G1 G2]. split; [assumption|]. split; [intros j Hj; exact (inv_cids n H s l j Hin Hj)|].
    intros j Hj Hm. unfold svcs' in Hm. rewrite svc_lookup_set in Hm. destruct (k =? hkey (heap n) j) eqn:E; [|auto].
    apply Z.eqb_eq in E. apply mem_set_union in Hm as [Hm|Hm]; [left; apply G2; [assumption|]; rewrite <- E; exact Hm|].
    right. split; [apply Pk3; auto|]. apply mem_z_In in Hm. unfold svc_set in Hm.
    apply mem_set_union in Hm as [Hm|Hm]; [discriminate Hm|exact Hm]. }
  pose proof (fold_ok_all (heap n) (verified n) svcs' (svc_cap n) k p Pk1 Pk2 Pk3 ss _ Q0) as QF.
  apply Inv_set_services_svc; [assumption| |].
  - intros s l j Hin Hj. destruct (QF s l Hin) as (_ & Q2 & _). auto.
  - intros s l Hin. destruct (QF s l Hin) as (Q1 & _ & Q3). split; [assumption|].
    intros j Hj Hm. destruct (Q3 j Hj Hm) as [Hl|[_ []]]. exact Hl.
Qed.

(* what get_peers_for_service answers (and then caches) *)
Definition gpfs_out (n : net) (s : service) : list nat :=
  match d_get Z.eqb s (svc_cache n) with
  | None => filter (has_service n s) (verified n)
  | Some l => filter (fun i => in_verified n (hkey (heap n) i) && has_service n s i) l
  end.

Lemma get_peers_for_service_eq n s :
  get_peers_for_service n s
  = (set_svc_cache n (evict (svc_cap n) (d_del Z.eqb s (svc_cache n) ++ [(s, gpfs_out n s)])), gpfs_out n s).
Proof. reflexivity. Qed.

Lemma gpfs_result n s : Inv n ->
  forall j, In j (snd (get_peers_for_service n s)) <-> In j (verified n) /\ has_service n s j = true.
Proof.
  intros H j. unfold get_peers_for_service. cbn [snd].
  destruct (d_get Z.eqb s (svc_cache n)) as [l|] eqn:G.
  - apply (d_get_In Z.eqb Z.eqb_eq) in G. destruct (inv_svc n H s l G) as [G1 G2].
    rewrite filter_In. split.
    + intros (Hj & Hc). apply andb_true_iff in Hc as [Hv Hs]. split; [|assumption].
      unfold in_verified in Hv. apply in_ver_true in Hv as (j' & Hj' & E).
      assert (Hj'l : In j' l).
      { apply G2; [assumption|]. unfold has_service, svc_of in Hs. rewrite E. assumption. }
      rewrite <- (NoDup_map_inj (hkey (heap n)) l j' j G1 Hj'l Hj E). assumption.
    + intros (Hj & Hs). split.
      * apply G2; [assumption|]. exact Hs.
      * apply andb_true_iff. split; [|assumption]. unfold in_verified. apply in_ver_true. exists j. auto.
  - rewrite filter_In. reflexivity.
Qed.

Lemma Inv_get_peers_for_service n s : Inv n -> Inv (fst (get_peers_for_service n s)).
Proof.
  intros H. pose proof (gpfs_result n s H) as R. rewrite get_peers_for_service_eq in *. cbn [fst snd] in *.
  set (out := gpfs_out n s) in *.
  assert (ND : NoDup (map (hkey (heap n)) out)).
  { unfold out, gpfs_out. destruct (d_get Z.eqb s (svc_cache n)) as [l|] eqn:G.
    - apply (d_get_In Z.eqb Z.eqb_eq) in G. apply NoDup_map_filter. exact (proj1 (inv_svc n H s l G)).
    - apply NoDup_map_filter. exact (inv_uniq n H). }
  apply Inv_set_svc_cache; [assumption| |].
  - intros s' l j Hin Hj. apply evict_In in Hin. apply in_app_iff in Hin as [Hin|[Hin|[]]].
    + apply (In_d_del Z.eqb Z.eqb_eq) in Hin as [Hin _]. exact (inv_cids n H s' l j Hin Hj).
    + inversion Hin; subst. apply R in Hj as [Hj _]. exact (inv_ids n H j Hj).
  - intros s' l Hin. apply evict_In in Hin. apply in_app_iff in Hin as [Hin|[Hin|[]]].
    + apply (In_d_del Z.eqb Z.eqb_eq) in Hin as [Hin _]. exact (inv_svc n H s' l Hin).
    + inversion Hin; subst. split; [assumption|]. intros j Hj Hm. apply R. split; [assumption|exact Hm].
Qed.

Lemma Inv_get_walkable n so old : Inv n -> Inv (fst (get_walkable_addresses n so old)).
Proof.
  intros H. unfold get_walkable_addresses. destruct so as [s|]; [|assumption].
  exact (Inv_get_peers_for_service n s H).
Qed.

Definition ip_pick (n : net) (a : addr) (hint : option nat) : option nat :=
  match match d_get addr_eqb a (ip_cache n) with
        | Some i => if ip_valid n a i then Some i else None
        | None => None
        end with
  | Some i => Some i
  | None => choose hint (filter (owns n a) (verified n))
  end.

(* the lookup returns ip_pick and stores it at the young end of the address cache *)
Lemma get_verified_by_address_eq n a hint :
  get_verified_by_address n a hint
  = (set_ip_cache n (match ip_pick n a hint with
                     | Some i => evict (ip_cap n) (d_del addr_eqb a (ip_cache n) ++ [(a, i)])
                     | None => d_del addr_eqb a (ip_cache n)
                     end), ip_pick n a hint).
Proof. unfold get_verified_by_address. fold (ip_pick n a hint). destruct (ip_pick n a hint); reflexivity. Qed.

Lemma Inv_get_verified_by_address n a hint : Inv n -> Inv (fst (get_verified_by_address n a hint)).
Proof. intros H. rewrite get_verified_by_address_eq. apply Inv_set_ip_cache, H. Qed.

Lemma svc_good_mono h ver ver' svcs svcs' s l :
  svc_good h ver svcs s l -> (forall i, In i ver' -> In i ver) ->
  (forall k, mem_z s (svc_lookup svcs' k) = true -> mem_z s (svc_lookup svcs k) = true) ->
  svc_good h ver' svcs' s l.
Proof. intros [G1 G2] Hv Hs. split; [assumption|]. intros i Hi Hm. apply G2; auto. Qed.

Lemma find_filter_uniq (f : nat -> Z) (p : nat -> bool) k l :
  NoDup (map f l) ->
  find (fun i => f i =? k) (filter p l)
  = match find (fun i => f i =? k) l with Some i => if p i then Some i else None | None => None end.
Proof.
  induction l as [|x l IH]; simpl; intros H; [reflexivity|]. inversion H; subst.
  destruct (f x =? k) eqn:E.
  - apply Z.eqb_eq in E. destruct (p x) eqn:P; simpl.
    + assert (E' : (f x =? k) = true) by (apply Z.eqb_eq; assumption). rewrite E'. reflexivity.
    + apply find_none_intro. intros y Hy. apply filter_In in Hy as [Hy _]. apply Z.eqb_neq. intro E2.
      apply H2. rewrite E, <- E2. apply in_map. assumption.
  - destruct (p x); simpl; [rewrite E|]; apply IH; assumption.
Qed.

(* peers failing p leave the verified set, and the keys failing q the index and the service table *)
Lemma Inv_drop n (p : nat -> bool) (q : key -> bool) all ic :
  Inv n -> (forall i, In i (verified n) -> q (hkey (heap n) i) = p i) ->
  (forall k l, In (k, l) ic -> intro_good all k l) ->
  Inv (set_by_key (set_services (set_verified (set_intro_cache (set_all n all) ic) (filter p (verified n)))
                                (filter (fun e => q (fst e)) (services n)))
                  (filter (fun e => q (fst e)) (by_key n))).
Proof.
  intros [H1 H2 H3 H4 H5 H6 H7] Hq HI. constructor; cbn.
  - intros i Hi. apply filter_In in Hi as [Hi _]. auto.
  - assumption.
  - apply NoDup_map_filter. assumption.
  - intros k. rewrite (d_get_filter_key Z.eqb Z.eqb_eq), (find_filter_uniq (hkey (heap n)) p k (verified n) H3), H4.
    destruct (find (fun i => hkey (heap n) i =? k) (verified n)) as [i|] eqn:F; [|destruct (q k); reflexivity].
    apply find_some in F as [F1 F2]. apply Z.eqb_eq in F2. rewrite <- F2, (Hq i F1). reflexivity.
  - intros s l Hin. apply svc_good_mono with (ver := verified n) (svcs := services n); [auto| |].
    + intros i Hi. apply filter_In in Hi as [Hi _]. assumption.
    + intros k. rewrite svc_lookup_filter. destruct (q k); [auto|discriminate].
  - assumption.
  - intros i Hi. apply filter_In in Hi as [Hi _]. exact (H7 i Hi).
Qed.

Lemma Inv_remove_peer n k am : Inv n -> Inv (remove_peer n k am).
Proof.
  intros H. apply (Inv_drop n (fun i => negb (hkey (heap n) i =? k)) (fun x => negb (x =? k))); [assumption|reflexivity|].
  generalize (inv_intro n H). generalize (all_addrs n) (intro_cache n).
  induction (am_values am) as [|a l IH]; intros all ic Hg; simpl; [assumption|]. apply IH, intro_good_del, Hg.
Qed.

Lemma Inv_remove_by_address n a : Inv n -> Inv (remove_by_address n a).
Proof.
  intros H. unfold remove_by_address. set (removed := map (hkey (heap n)) (filter (owns n a) (verified n))).
  apply (Inv_drop n (fun i => negb (owns n a i)) (fun x => negb (mem_z x removed))); [assumption| |].
  - (* keys are unique among the verified peers: a key is removed exactly if its peer owns the address *)
    intros i Hi. f_equal. destruct (owns n a i) eqn:O.
    + apply mem_z_In, in_map_iff. exists i. split; [reflexivity|]. apply filter_In. auto.
    + apply mem_z_false. intros Hin. apply in_map_iff in Hin as (j & Ej & Hj). apply filter_In in Hj as [Hj Oj].
      rewrite (NoDup_map_inj (hkey (heap n)) (verified n) j i (inv_uniq n H) Hj Hi Ej) in Oj. congruence.
  - apply intro_good_del. exact (inv_intro n H).
Qed.

Lemma load_loop_good fuel : forall d off all ic,
  (forall k l, In (k, l) ic -> intro_good all k l) ->
  forall k l, In (k, l) (snd (fst (load_loop fuel d off all ic))) ->
              intro_good (fst (fst (load_loop fuel d off all ic))) k l.
Proof.
  induction fuel as [|f IH]; intros d off all ic Hg; cbn [load_loop];
    destruct (off <? length d)%nat; cbn [fst snd]; try assumption.
  destruct (unpack_address d off) as [[a o]|e]; cbn [fst snd]; [|assumption].
  apply IH. intros k l Hin. apply intro_good_forget_set with (ic := ic); [assumption|assumption|].
  cbn. discriminate.
Qed.

Lemma Inv_load_snapshot n d : Inv n -> Inv (load_snapshot n d).
Proof.
  intros H. unfold load_snapshot.
  pose proof (load_loop_good (length d) d 0%nat (all_addrs n) (intro_cache n) (inv_intro n H)) as G.
  destruct (load_loop (length d) d 0 (all_addrs n) (intro_cache n)) as [[all ic] flag]. cbn [fst snd] in G.
  apply Inv_set_intro_all; assumption.
Qed.

Theorem Inv_step n o : Inv n -> Inv (fst (step n o)).
Proof.
  intros H. destruct o; cbn [step].
  - destruct (Inv_alloc n k am H) as [HA F1]. destruct (alloc n k am) as [n1 i]. apply Inv_add_verified_peer; assumption.
  - destruct (Inv_alloc n k am H) as [HA F1]. destruct (alloc n k am) as [n1 i]. apply Inv_discover_address; assumption.
  - destruct (Inv_alloc n k am H) as [HA F1]. destruct (alloc n k am) as [n1 i]. apply Inv_discover_services; assumption.
  - apply Inv_remove_peer. assumption.
  - apply Inv_remove_by_address. assumption.
  - assumption.
  - pose proof (Inv_get_verified_by_address n a hint H) as HA.
    destruct (get_verified_by_address n a hint). exact HA.
  - pose proof (Inv_get_peers_for_service n s H) as HA. destruct (get_peers_for_service n s). exact HA.
  - assumption.
  - pose proof (Inv_get_walkable n s old H) as HA. destruct (get_walkable_addresses n s old). exact HA.
  - pose proof (Inv_get_introductions_from n k H) as HA. destruct (get_introductions_from n k). exact HA.
  - assumption.
  - apply Inv_load_snapshot. assumption.
Qed.

Theorem Inv_run ops : forall n, Inv n -> Inv (run n ops).
Proof.
  induction ops as [|o ops IH]; intros n H; simpl; [assumption|]. apply IH. apply Inv_step. assumption.
Qed.

Theorem Inv_reachable ipc intc svcc bla blm ops : Inv (run (init_net ipc intc svcc bla blm) ops).
Proof. apply Inv_run. apply Inv_init. Qed.
