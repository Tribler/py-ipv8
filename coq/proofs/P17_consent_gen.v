(* C17x - the translated functions (gen/G17_consent.v) compute what the hand model M17_consent computes. *)
From Coq Require Import ZArith List Bool.
From IPV8V Require Import lib.Lists lib.PyErr lib.Bytes model.M16_tokentree model.M16_tokentree_gen model.M17_consent
  model.M17_consent_gen gen.G17_consent model.M17_run_gen
  proofs.P17_base proofs.P17_step proofs.P17_props.
Import ListNotations.
Open Scope Z_scope.

Ltac mstep := cbv beta iota delta [mbind mget mret mlift mmod msend mraise]; cbn beta iota.

(* Evaluating a long translated function at once makes every later step carry its whole expansion.  whd_l
   brings the left-hand side to head normal form only: it stops at the first test it cannot decide and leaves
   the continuation as written in the source; whd_s then evaluates the (short) computation under test. *)
Ltac whd_l := match goal with |- ?L = _ => let L' := eval hnf in L in change L with L' end.
Ltac whd_s := match goal with |- (let (p, r) := ?X in _) = _ =>
  let X' := eval cbv beta iota delta [mbind mget mlift mret tree_elements] in X in change X with X' end.

Lemma mfor_nil {A L R} (body : A -> L -> M (ctl L R)) l s o : mfor [] body l s o = (s, o, Ok (inl l)).
Proof. reflexivity. Qed.

(* a body that neither touches the state nor sends: mmap is map *)
Lemma mmap_pure {A B} (f : A -> M B) (g : A -> state -> B) :
  (forall x s o, f x s o = (s, o, Ok (g x s))) ->
  forall l s o, mmap f l s o = (s, o, Ok (map (fun x => g x s) l)).
Proof.
  intros H. induction l as [|x l IH]; intros s o; [reflexivity|].
  cbn [mmap]. unfold mbind at 1. rewrite H. unfold mbind at 1. rewrite IH. reflexivity.
Qed.

Lemma mfilter_pure {A} (f : A -> M bool) (g : A -> state -> bool) (l : list A) s o :
  (forall x, In x l -> f x s o = (s, o, Ok (g x s))) ->
  mfilter f l s o = (s, o, Ok (filter (fun x => g x s) l)).
Proof.
  induction l as [|x l IH]; intros H; [reflexivity|].
  cbn [mfilter]. unfold mbind at 1. rewrite (H x (or_introl eq_refl)). unfold mbind at 1.
  rewrite IH; [|intros y Hy; apply H; right; exact Hy]. unfold mret. simpl. destruct (g x s); reflexivity.
Qed.

Lemma many_pure {A} (f : A -> M bool) (g : A -> bool) (l : list A) s o :
  (forall x, f x s o = (s, o, Ok (g x))) -> many f l s o = (s, o, Ok (existsb g l)).
Proof.
  intros H. induction l as [|x l IH]; [reflexivity|].
  cbn [many]. unfold mbind at 1. rewrite H. simpl. destruct (g x); [reflexivity|exact IH].
Qed.

Lemma aset_aset {V} k (v1 v2 : V) l : aset k v2 (aset k v1 l) = aset k v2 l.
Proof.
  induction l as [|[k' v'] l IH]; simpl.
  - rewrite bytes_eqb_refl. reflexivity.
  - destruct (bytes_eqb k' k) eqn:E; simpl; rewrite E; [reflexivity|]. rewrite IH. reflexivity.
Qed.

Lemma aset_same {V} k (v : V) l : alookup k l = Some v -> aset k v l = l.
Proof.
  induction l as [|[k' v'] l IH]; simpl; [discriminate|].
  destruct (bytes_eqb k' k) eqn:E.
  - intros H. inversion H. reflexivity.
  - intros H. rewrite IH; auto.
Qed.


Lemma md_eta m : mkMd (m_tptr m) (m_json m) (m_sig m) = m.
Proof. destruct m; reflexivity. Qed.

(* a loop body that always continues: the loop is a fold over (state, carried locals) *)
Lemma mfor_fold {A L R} (body : A -> L -> M (ctl L R)) (F : A -> state * L -> state * L) :
  (forall x l s o, body x l s o = (fst (F x (s, l)), o, Ok (CNext (snd (F x (s, l)))))) ->
  forall xs l s o,
    mfor xs body l s o =
    (fst (fold_left (fun a x => F x a) xs (s, l)), o, Ok (inl (snd (fold_left (fun a x => F x a) xs (s, l))))).
Proof.
  intros H. induction xs as [|x xs IH]; intros l s o; [reflexivity|].
  cbn [mfor fold_left]. unfold mbind at 1. rewrite H. rewrite IH.
  destruct (F x (s, l)) as [s1 l1]. reflexivity.
Qed.

Lemma mbind_ok {A B} (m : M A) (f : A -> M B) s o s1 o1 a :
  m s o = (s1, o1, Ok a) -> mbind m f s o = f a s1 o1.
Proof. intros H. unfold mbind. rewrite H. reflexivity. Qed.

Lemma mbind_raise {A B} (m : M A) (f : A -> M B) s o s1 o1 e :
  m s o = (s1, o1, Raise e) -> mbind m f s o = (s1, o1, Raise e).
Proof. intros H. unfold mbind. rewrite H. reflexivity. Qed.

Lemma state_eta s : mkState (known s) (pseus s) (dmd s) (datt s) (chain s) (mdchain s) (perms s) = s.
Proof. destruct s; reflexivity. Qed.

(* a loop that returns r at the first element satisfying p and otherwise changes nothing *)
Lemma mfor_find {A L R} (body : A -> L -> M (ctl L R)) (p : A -> bool) (r : R) xs l s o :
  (forall x, In x xs -> body x l s o = (s, o, Ok (if p x then CRet r else CNext l))) ->
  mfor xs body l s o = (s, o, Ok (if existsb p xs then inr r else inl l)).
Proof.
  induction xs as [|x xs IH]; intros H; [reflexivity|].
  cbn [mfor existsb]. unfold mbind at 1. rewrite (H x (or_introl eq_refl)).
  destruct (p x); [reflexivity|]. apply IH. intros y Hy. apply H. right. exact Hy.
Qed.

Lemma dedup_repr {A} (eqb : A -> A -> bool) (p : A -> bool) : forall l,
  (forall a b, In a l -> In b l -> eqb a b = true -> p a = p b) ->
  forall x, In x l -> exists y, In y (dedup_by eqb l) /\ p y = p x.
Proof.
  induction l as [|z l IH]; intros H x Hx; [destruct Hx|]. cbn [dedup_by].
  destruct Hx as [Hx|Hx].
  - subst. exists x. split; [left; reflexivity|reflexivity].
  - destruct (IH (fun a b Ha Hb => H a b (or_intror Ha) (or_intror Hb)) x Hx) as [y [Hy Py]].
    destruct (eqb z y) eqn:E.
    + exists z. split; [left; reflexivity|]. rewrite <- Py. apply H; [left; reflexivity|right|exact E].
      eapply dedup_by_In. exact Hy.
    + exists y. split; [|exact Py]. right. apply filter_In. split; [exact Hy|]. rewrite E. reflexivity.
Qed.

Lemma existsb_dedup {A} (eqb : A -> A -> bool) (p : A -> bool) l :
  (forall a b, In a l -> In b l -> eqb a b = true -> p a = p b) ->
  existsb p (dedup_by eqb l) = existsb p l.
Proof.
  intros H. destruct (existsb p l) eqn:E.
  - apply existsb_exists in E as [x [Hx Px]]. destruct (dedup_repr eqb p l H x Hx) as [y [Hy Py]].
    apply existsb_exists. exists y. split; [exact Hy|congruence].
  - destruct (existsb p (dedup_by eqb l)) eqn:E2; [|reflexivity].
    apply existsb_exists in E2 as [x [Hx Px]]. apply dedup_by_In in Hx.
    assert (existsb p l = true) by (apply existsb_exists; eauto). congruence.
Qed.

Lemma sql_first_find {R B} (q : R -> bool) (f : R -> B) : forall d,
  sql_first (map f (filter q d)) = match find q d with Some r => Ok (f r) | None => Raise RuntimeError end.
Proof.
  induction d as [|r d IH]; [reflexivity|]. cbn [filter find]. destruct (q r); [reflexivity|exact IH].
Qed.

(* a loop whose body only (conditionally) sends one fixed datagram *)
Lemma mfor_send {A R} (body : A -> unit -> M (ctl unit R)) (q : A -> bool) (out : output) xs s :
  (forall x o, body x tt s o = (s, o ++ (if q x then [out] else []), Ok (CNext tt))) ->
  forall o, mfor xs body tt s o = (s, o ++ map (fun _ => out) (filter q xs), Ok (inl tt)).
Proof.
  intros H. induction xs as [|x xs IH]; intros o.
  - simpl. rewrite app_nil_r. reflexivity.
  - cbn [mfor filter]. unfold mbind at 1. rewrite H. rewrite IH. destruct (q x); simpl.
    + rewrite <- app_assoc. reflexivity.
    + rewrite app_nil_r. reflexivity.
Qed.

Lemma alookup_key_in {V} k (d : list (bytes * V)) : In k (map fst d) -> exists v, alookup k d = Some v.
Proof.
  induction d as [|[k' v'] d IH]; simpl; [intros []|]. intros [H|H].
  - subst. rewrite bytes_eqb_refl. eauto.
  - destruct (bytes_eqb k' k); eauto.
Qed.

Lemma filter_keys {V} (q : V -> bool) : forall d : list (bytes * V),
  NoDup (map fst d) ->
  filter (fun k => match alookup k d with Some e => q e | None => false end) (map fst d)
  = map fst (filter (fun kv => q (snd kv)) d).
Proof.
  induction d as [|[k e] d IH]; intros N; [reflexivity|].
  inversion N as [|? ? Nk Nd]; subst. cbn [map fst filter alookup snd]. rewrite bytes_eqb_refl.
  assert (T : filter (fun k0 => match (if bytes_eqb k k0 then Some e else alookup k0 d) with
                                | Some e0 => q e0 | None => false end) (map fst d)
              = filter (fun k0 => match alookup k0 d with Some e0 => q e0 | None => false end) (map fst d)).
  { apply filter_ext_in. intros k0 Hk0. destruct (bytes_eqb k k0) eqn:E; [|reflexivity].
    apply bytes_eqb_eq in E. subst k0. contradiction. }
  rewrite T, (IH Nd). destruct (q e); reflexivity.
Qed.

Section Gen.
Variable hash : bytes -> bytes.
Variable sigverify : bytes -> bytes -> bytes -> bool.
Variable mysign : bytes -> bytes.
Variable parse : bytes -> jdoc.
Variable me : bytes.
Variable rhl rsl : nat.
Variable now : Z.
Variable json_out : bytes.
Variable jlen : nat.

Notation ENV f := (f hash sigverify mysign parse me rhl rsl now json_out jlen).

Lemma gmd_hash m : ENV gmd_get_hash m = md_hash hash m.
Proof. reflexivity. Qed.
Lemma gmd_ver m pk : ENV gmd_verify m pk = md_verify sigverify pk m.
Proof. reflexivity. Qed.
Lemma gmd_eq a b : ENV gmd___eq__ a b = md_eqb a b.
Proof. reflexivity. Qed.
Lemma gat_ver a pk : ENV gat_verify a pk = att_verify sigverify pk a.
Proof. reflexivity. Qed.
Lemma gat_cr m : ENV gat_create m tt = mkAtt (md_hash hash m) (mysign (md_hash hash m)).
Proof. reflexivity. Qed.

Lemma g_insert_metadata_eq pk m s o :
  ENV g_insert_metadata pk m s o = (set_dmd s (insert_md pk m (dmd s)), o, Ok tt).
Proof.
  unfold g_insert_metadata, gmd_to_database_tuple. mstep. unfold sql_insert_ignore, insert_md.
  rewrite md_eta. simpl. reflexivity.
Qed.

Lemma g_insert_attestation_eq subj auth a s o :
  ENV g_insert_attestation subj auth a s o =
  (set_datt s (insert_att true (mkRow subj auth (a_mptr a) (a_sig a)) (datt s)), o, Ok tt).
Proof.
  unfold g_insert_attestation, gat_to_database_tuple. mstep. unfold sql_insert_ignore, insert_att.
  rewrite (existsb_ext _ (att_conflict true (mkRow subj auth (a_mptr a) (a_sig a)))); [reflexivity|].
  intros x. unfold att_conflict. simpl.
  destruct (bytes_eqb (r_pk x) subj), (bytes_eqb (r_auth x) auth), (bytes_eqb (r_mptr x) (a_mptr a)); reflexivity.
Qed.

Definition atts_over (d : list attrow) (h : bytes) : list attestation :=
  dedup_by (fun a b => bytes_eqb (a_mptr a ++ a_sig a) (a_mptr b ++ a_sig b))
           (map (fun r => mkAtt (r_mptr r) (r_sig r)) (filter (fun r => bytes_eqb (r_mptr r) h) d)).

Lemma g_get_metadata_for_eq pk s o :
  ENV g_get_metadata_for pk s o = (s, o, Ok (credentials_of pk (dmd s))).
Proof.
  unfold g_get_metadata_for. mstep. unfold credentials_of. do 2 f_equal. f_equal.
  rewrite map_map. apply map_ext. intros [k m]. simpl. unfold gmd_from_database_tuple, new_md. apply md_eta.
Qed.

Lemma g_get_attestations_over_eq m s o :
  ENV g_get_attestations_over m s o = (s, o, Ok (atts_over (datt s) (md_hash hash m))).
Proof.
  unfold g_get_attestations_over. mstep. unfold atts_over. do 2 f_equal. f_equal.
  rewrite map_map. reflexivity.
Qed.

Lemma g_get_authority_eq a s o :
  ENV g_get_authority a s o =
  (s, o, sql_first (map r_auth (filter (fun r => bytes_eqb (r_sig r) (a_sig a)) (datt s)))).
Proof.
  unfold g_get_authority. mstep.
  destruct (sql_first (map (fun r_ => r_auth r_) (filter (fun r_ => bytes_eqb (r_sig r_) (a_sig a)) (datt s)))); reflexivity.
Qed.

Lemma g_get_credentials_for_eq pk s o :
  ENV g_get_credentials_for pk s o =
  (s, o, Ok (map (fun m => (m, atts_over (datt s) (md_hash hash m))) (credentials_of pk (dmd s)))).
Proof.
  unfold g_get_credentials_for. unfold mbind at 1. unfold mbind at 1. rewrite g_get_metadata_for_eq.
  unfold mbind at 1. unfold mret at 1.
  rewrite (mmap_pure _ (fun m st => (m, atts_over (datt st) (md_hash hash m)))).
  - reflexivity.
  - intros x s0 o0. unfold mbind. rewrite g_get_attestations_over_eq. reflexivity.
Qed.

Lemma g_get_credentials_eq pk s o :
  ENV g_get_credentials pk s o =
  (s, o, Ok (map (fun m => (m, atts_over (datt s) (md_hash hash m))) (credentials_of pk (dmd s)))).
Proof. unfold g_get_credentials, mbind. rewrite g_get_credentials_for_eq. reflexivity. Qed.

Lemma g_add_attestation_eq self pk a s o :
  ENV g_add_attestation self pk a s o =
  (set_datt s (fst (add_att sigverify true self pk a (datt s))), o, Ok (snd (add_att sigverify true self pk a (datt s)))).
Proof.
  unfold g_add_attestation, add_att. rewrite gat_ver. destruct (att_verify sigverify pk a).
  - unfold mbind. rewrite g_insert_attestation_eq. reflexivity.
  - destruct s; reflexivity.
Qed.

Lemma g_add_metadata_eq self m s o :
  ENV g_add_metadata self m s o =
  (set_dmd s (add_metadata sigverify self m (dmd s)), o, Ok (md_verify sigverify self m)).
Proof.
  unfold g_add_metadata, add_metadata. rewrite gmd_ver. destruct (md_verify sigverify self m).
  - unfold mbind. rewrite g_insert_metadata_eq. reflexivity.
  - destruct s; reflexivity.
Qed.

Lemma g_create_attestation_eq self m s o :
  ENV g_create_attestation self m tt s o = (s, o, Ok (mkAtt (md_hash hash m) (mysign (md_hash hash m)))).
Proof. reflexivity. Qed.

(* get_pseudonym registers a key it does not know *)
Definition ensure_pseu (k : bytes) (s : state) : state :=
  if k_has k (pseus s) then s else set_pseus s (aset k (empty_tree 100) (pseus s)).

Lemma g_get_pseudonym_eq k s o :
  ENV g_get_pseudonym k s o =
  (ensure_pseu k s, o, Ok k).
Proof.
  unfold g_get_pseudonym, ensure_pseu. mstep. unfold k_has, k_get, rt_new_pseudonym.
  destruct (alookup k (pseus s)) eqn:E; simpl.
  - rewrite E. reflexivity.
  - rewrite alookup_aset_same. reflexivity.
Qed.

Lemma fold_add_metadata_state self : forall mds s,
  fst (fold_left (fun a x => (set_dmd (fst a) (add_metadata sigverify self x (dmd (fst a))), snd a)) mds (s, tt))
  = set_dmd s (fold_left (fun d m => add_metadata sigverify self m d) mds (dmd s)).
Proof.
  induction mds as [|m mds IH]; intros s; cbn [fold_left].
  - unfold set_dmd. simpl. symmetry. apply state_eta.
  - cbn [fst snd]. rewrite IH. reflexivity.
Qed.

Lemma fold_add_atts_state self : forall atts s c,
  fold_left (fun a (x : bytes * attestation) =>
               (set_datt (fst a) (fst (add_att sigverify true self (fst x) (snd x) (datt (fst a)))),
                andb (snd a) (snd (add_att sigverify true self (fst x) (snd x) (datt (fst a)))))) atts (s, c)
  = (set_datt s (fst (add_atts sigverify true self atts (datt s) c)), snd (add_atts sigverify true self atts (datt s) c)).
Proof.
  unfold add_atts. induction atts as [|x atts IH]; intros s c; cbn [fold_left].
  - unfold set_datt. simpl. rewrite state_eta. reflexivity.
  - cbn [fst snd]. rewrite IH. cbn [datt set_datt].
    destruct (add_att sigverify true self (fst x) (snd x) (datt s)) as [d1 ok]. reflexivity.
Qed.

Lemma get_tree_ensure_pseu k s :
  get_tree k (pseus (ensure_pseu k s))
  = get_tree k (pseus s).
Proof.
  unfold ensure_pseu, k_has, get_tree. destruct (alookup k (pseus s)) eqn:E; simpl; [rewrite E; reflexivity|].
  rewrite alookup_aset_same. reflexivity.
Qed.

Lemma set_pseus_ensure_pseu k v s :
  set_pseus (ensure_pseu k s)
            (aset k v (pseus (ensure_pseu k s)))
  = set_pseus s (aset k v (pseus s)).
Proof.
  unfold ensure_pseu, k_has. destruct (alookup k (pseus s)); simpl; [reflexivity|]. rewrite aset_aset. reflexivity.
Qed.

Lemma g_substantiate_eq pk mds toks atts fail s o :
  ENV g_substantiate pk (mds, fail_is fail 1) (toks, fail_is fail 0) tt (atts, fail_is fail 2) s o =
  (fst (substantiate hash sigverify true s pk mds toks atts fail), o,
   match snd (substantiate hash sigverify true s pk mds toks atts fail) with
   | Ok c => Ok (c, pk)
   | Raise e => Raise e
   end).
Proof.
  remember (substantiate hash sigverify true s pk mds toks atts fail) as sb eqn:E. unfold substantiate in E.
  unfold g_substantiate. rewrite (mbind_ok _ _ _ _ _ _ _ (g_get_pseudonym_eq pk s o)).
  unfold mbind at 1. unfold with_tree at 1. unfold rt_unserialize_public. cbn [fst snd].
  rewrite get_tree_ensure_pseu.
  destruct (gather_list hash sigverify pk (get_tree pk (pseus s)) toks true) as [[tr1 c1]|e] eqn:G.
  2:{ subst sb. rewrite set_pseus_ensure_pseu. reflexivity. }
  rewrite set_pseus_ensure_pseu.
  destruct (fail_is fail 0); [subst sb; reflexivity|].
  set (s1 := set_pseus s (aset pk tr1 (pseus s))) in *.
  cbn [fst].
  erewrite mbind_ok.
  2:{ apply (mfor_fold _ (fun x a => (set_dmd (fst a) (add_metadata sigverify pk x (dmd (fst a))), snd a))).
      intros x l s0 o0. unfold mbind. rewrite g_add_metadata_eq. destruct l. reflexivity. }
  rewrite fold_add_metadata_state. cbn iota beta.
  unfold wire_end at 1. cbn [snd].
  destruct (fail_is fail 1).
  { subst sb. unfold mbind, mraise. reflexivity. }
  unfold mbind at 1. unfold mret at 1. cbn [fst].
  erewrite mbind_ok.
  2:{ apply (mfor_fold _ (fun (x : bytes * attestation) a =>
               (set_datt (fst a) (fst (add_att sigverify true pk (fst x) (snd x) (datt (fst a)))),
                andb (snd a) (snd (add_att sigverify true pk (fst x) (snd x) (datt (fst a))))))).
      intros x l s0 o0. unfold mbind. rewrite g_add_attestation_eq. reflexivity. }
  rewrite fold_add_atts_state. cbn [fst snd]. cbn iota beta.
  set (s2 := set_dmd s1 _) in *.
  destruct (add_atts sigverify true pk atts (datt s2) c1) as [d3 c3]. cbn [fst snd].
  unfold wire_end. cbn [snd]. destruct (fail_is fail 2); subst sb; reflexivity.
Qed.

Definition by_me (d : list attrow) (a : attestation) : bool :=
  match find (fun r => bytes_eqb (r_sig r) (a_sig a)) d with Some r => bytes_eqb (r_auth r) me | None => false end.

Lemma existsb_filter {A} (p q : A -> bool) l : existsb p (filter q l) = existsb (fun x => q x && p x) l.
Proof. induction l as [|x l IH]; [reflexivity|]. cbn [filter existsb]. destruct (q x); simpl; rewrite IH; reflexivity. Qed.


Lemma already_loop d h : existsb (by_me d) (atts_over d h) = already me d h.
Proof.
  unfold atts_over. rewrite existsb_dedup.
  - rewrite existsb_map, existsb_filter. unfold already. apply existsb_ext. intros r. f_equal.
    unfold by_me, authority_of. cbn [a_sig]. destruct (find _ d); reflexivity.
  - intros a b Ha Hb E. apply in_map_iff in Ha as [ra [Ea Fa]], Hb as [rb [Eb Fb]].
    apply filter_In in Fa as [_ Fa], Fb as [_ Fb]. apply bytes_eqb_eq in Fa, Fb, E. subst a b. cbn [a_mptr a_sig] in E.
    rewrite Fa, Fb in E. apply app_inv_head in E. unfold by_me. cbn [a_sig]. rewrite E. reflexivity.
Qed.

Lemma mem_std k : mem k [k_name; k_date; k_schema] = is_std k.
Proof. unfold mem, is_std. simpl. rewrite orb_false_r, orb_assoc. reflexivity. Qed.

Lemma mem_keys k kv : mem k (map fst kv) = has_field k kv.
Proof.
  unfold mem, has_field. induction kv as [|[k' v] kv IH]; [reflexivity|]. simpl.
  rewrite bytes_eqb_sym. destruct (bytes_eqb k' k); [reflexivity|exact IH].
Qed.

Lemma existsb_find {A} (q : A -> bool) l : existsb q l = match find q l with Some _ => true | None => false end.
Proof. induction l as [|x l IH]; [reflexivity|]. simpl. destruct (q x); [reflexivity|exact IH]. Qed.

Lemma extras_filter kv :
  filter (fun '(v_k, _) => negb (mem v_k [k_name; k_date; k_schema])) kv = extras kv.
Proof. unfold extras. apply filter_ext. intros [k v]. simpl fst. rewrite mem_std. reflexivity. Qed.

Lemma atts_over_find d h x :
  In x (atts_over d h) -> exists r, find (fun r => bytes_eqb (r_sig r) (a_sig x)) d = Some r.
Proof.
  unfold atts_over. intros H. apply dedup_by_In in H. apply in_map_iff in H as [r [E F]].
  apply filter_In in F as [F _]. subst x. cbn [a_sig].
  apply (find_some_exists (fun r0 => bytes_eqb (r_sig r0) (r_sig r)) d r F). apply bytes_eqb_refl.
Qed.

Lemma g_should_sign_eq pk m s o :
  ENV g_should_sign pk m s o = (s, o, should_sign hash parse me s now pk (get_tree pk (pseus s)) m).
Proof.
  unfold should_sign. whd_l. unfold json_loads.
  destruct (parse (m_json m)) as [| |kv]; try reflexivity.
  whd_l. unfold d_has, tree_elements, find_key. rewrite existsb_find.
  destruct (find (fun x => bytes_eqb (thash hash x) (m_tptr m)) (elements (get_tree pk (pseus s)))) as [tok|] eqn:EF;
    cbn [negb]; [|reflexivity].
  whd_l. whd_s. unfold d_get. rewrite EF. whd_l.
  change [110; 97; 109; 101] with k_name. change [100; 97; 116; 101] with k_date.
  change [115; 99; 104; 101; 109; 97] with k_schema. rewrite !mem_keys.
  destruct (has_field k_name kv) eqn:F1; cbn [negb orb andb]; [|reflexivity].
  destruct (has_field k_date kv) eqn:F2; cbn [negb orb andb]; [|reflexivity].
  destruct (has_field k_schema kv) eqn:F3; cbn [negb orb andb]; [|reflexivity].
  whd_l. unfold k_has. destruct (alookup (t_chash tok) (known s)) as [e|] eqn:EK; cbn [negb]; [|reflexivity].
  whd_l. whd_s. unfold k_get. rewrite EK. whd_l.
  destruct (bytes_eqb pk (e_key e)); cbn [negb]; [|reflexivity].
  whd_l. whd_s. unfold k_get. rewrite EK. whd_l. rewrite Z.gtb_ltb.
  destruct (e_time e + 300 <? now); [reflexivity|].
  unfold has_field in F1. unfold opt_eqb. destruct (alookup k_name kv) as [nm|] eqn:EN; [|discriminate].
  whd_l. whd_s. cbn [j_get]. rewrite EN, EK. whd_l.
  destruct (bytes_eqb nm (e_name e)); cbn [negb]; [|reflexivity].
  whd_l. whd_s. rewrite EK. whd_l.
  assert (BODY : forall x, In x (atts_over (datt s) (md_hash hash m)) ->
            mbind (mbind (ENV g_get_authority x) (fun a => mret (bytes_eqb a me)))
                  (fun c : bool => if c then mret (CRet false) else mret (CNext tt)) s o
            = (s, o, Ok (if by_me (datt s) x then @CRet unit bool false else CNext tt))).
  { intros x Hx. unfold mbind. rewrite g_get_authority_eq, sql_first_find.
    destruct (atts_over_find _ _ _ Hx) as [r Fr]. rewrite Fr. unfold by_me. rewrite Fr.
    destruct (bytes_eqb (r_auth r) me); reflexivity. }
  destruct (e_md e) as [md|] eqn:EMD; cbn [opt_is_none negb];
    [whd_l; rewrite EK; whd_l; rewrite EMD, extras_filter; unfold dict_ne_opt;
     destruct (negb (dict_eqb (extras kv) md)); [reflexivity|]|];
    cbn beta iota; unfold mbind at 1; rewrite g_get_attestations_over_eq; cbn beta iota; unfold mbind at 1;
    rewrite (mfor_find _ (by_me (datt s)) false _ _ _ _ BODY), already_loop;
    destruct (already me (datt s) (md_hash hash m)); reflexivity.
Qed.

Definition m_res (x : option exn) : res (unit + unit) := match x with None => Ok (inl tt) | Some e => Raise e end.

Lemma sign_loop_gen (body : metadata * list attestation -> unit -> M (ctl unit unit)) pk (g : metadata -> list attestation) :
  (forall c s o, body c tt s o =
     match should_sign hash parse me s now pk (get_tree pk (pseus s)) (fst c) with
     | Raise e => (s, o, Raise e)
     | Ok false => (s, o, Ok (CNext tt))
     | Ok true =>
         (set_datt s (fst (add_att sigverify true pk me (mkAtt (md_hash hash (fst c)) (mysign (md_hash hash (fst c)))) (datt s))),
          o ++ [OAttest pk (mkAtt (md_hash hash (fst c)) (mysign (md_hash hash (fst c))))], Ok (CNext tt))
     end) ->
  forall mds s o tr, tr = get_tree pk (pseus s) ->
    mfor (map (fun m => (m, g m)) mds) body tt s o =
    (fst (fst (sign_loop hash sigverify mysign parse me true s now pk tr mds)),
     o ++ snd (fst (sign_loop hash sigverify mysign parse me true s now pk tr mds)),
     m_res (snd (sign_loop hash sigverify mysign parse me true s now pk tr mds))).
Proof.
  intros H. induction mds as [|m mds IH]; intros s o tr Etr.
  - simpl. rewrite app_nil_r. reflexivity.
  - cbn [map mfor sign_loop]. unfold mbind at 1. rewrite H. cbn [fst]. rewrite <- Etr.
    destruct (should_sign hash parse me s now pk tr m) as [[|]|e].
    + set (a := mkAtt (md_hash hash m) (mysign (md_hash hash m))).
      set (s' := set_datt s (fst (add_att sigverify true pk me a (datt s)))).
      rewrite (IH s' _ tr); [|subst s'; exact Etr].
      destruct (sign_loop hash sigverify mysign parse me true s' now pk tr mds) as [[s2 outs] x]. cbn [fst snd].
      rewrite <- app_assoc. reflexivity.
    + apply IH. exact Etr.
    + simpl. rewrite app_nil_r. reflexivity.
Qed.

Definition as_m (r : state * list output * option exn) (o : list output) : state * list output * res unit :=
  (fst (fst r), o ++ snd (fst r), match snd r with None => Ok tt | Some e => Raise e end).

Lemma as_m_no_outs s x o : as_m (s, [], x) o = (s, o, match x with None => Ok tt | Some e => Raise e end).
Proof. unfold as_m. simpl. rewrite app_nil_r. reflexivity. Qed.

Lemma g_received_eq peer mds toks atts fail s o :
  known_keys_unique s ->
  ENV g_received_disclosure_for_attest peer ((mds, fail_is fail 1), (toks, fail_is fail 0), tt, (atts, fail_is fail 2)) s o
  = as_m (recv_disclosure hash sigverify mysign parse me true s now peer mds toks atts fail) o.
Proof.
  intros WF. remember (recv_disclosure hash sigverify mysign parse me true s now peer mds toks atts fail) as R eqn:ER.
  unfold recv_disclosure in ER. unfold g_received_disclosure_for_attest.
  unfold mbind at 1. unfold mbind at 1. unfold mbind at 1. unfold mget at 1, mret at 1, mret at 1.
  rewrite existsb_map.
  destruct (existsb (fun x => bytes_eqb (e_key (snd x)) peer) (known s)) eqn:SOL; cbn [negb] in ER.
  2:{ subst R. rewrite as_m_no_outs. reflexivity. }
  unfold mbind at 1. unfold mbind at 1.
  rewrite g_substantiate_eq.
  pose proof (f_known _ _ _ _ _ (proj1 (substantiate_spec hash sigverify true s peer mds toks atts fail))) as K1.
  destruct (substantiate hash sigverify true s peer mds toks atts fail) as [s1 r]. cbn [fst snd] in K1 |- *.
  destruct r as [correct|e]; [|subst R; rewrite as_m_no_outs; reflexivity].
  unfold mbind at 1. unfold mbind at 1. unfold mbind at 1. unfold mget at 1, mret at 1.
  rewrite (mfilter_pure _ (fun k st => match alookup k (known st) with Some e => bytes_eqb (e_key e) peer | None => false end)).
  2:{ intros k Hk. mstep. unfold k_get. destruct (alookup_key_in k (known s1) Hk) as [v Ev]. rewrite Ev. reflexivity. }
  rewrite filter_keys; [|rewrite K1; exact WF].
  unfold mbind at 1. unfold mbind at 1. unfold mget at 1, mret at 1. unfold tree_elements at 1.
  set (required := map fst (filter (fun kv => bytes_eqb (e_key (snd kv)) peer) (known s1))) in *.
  set (tr := get_tree peer (pseus s1)) in *.
  set (kattrs := map (fun v_token => t_chash v_token) (elements tr)) in *.
  change (map t_chash (elements tr)) with kattrs in ER.
  cbv zeta.
  assert (REQ : forall (body : bytes -> unit -> M (ctl unit unit)) (s2 : state), pseus s2 = pseus s1 ->
     (forall x o3, body x tt s2 o3 =
        (let c_ := negb (mem x kattrs) in
         mbind (if c_ then mbind (mbind (mbind (mget (tree_elements peer)) (fun a13_ => mret (length a13_)))
                                        (fun a14_ => msend (OReqMissing peer a14_))) (fun _ => mret tt)
                else mret tt) (fun _ => mret (CNext tt))) s2 o3) ->
     forall o2, mfor required body tt s2 o2
     = (s2, o2 ++ map (fun _ => OReqMissing peer (length (elements tr))) (filter (fun h => negb (mem h kattrs)) required), Ok (inl tt))).
  { intros body s2 Ep Hb o2. apply (mfor_send _ (fun h => negb (mem h kattrs))). intros x o3. rewrite Hb. mstep.
    cbv zeta. destruct (negb (mem x kattrs)); cbn beta iota.
    - unfold tree_elements. rewrite Ep. reflexivity.
    - rewrite app_nil_r. reflexivity. }
  destruct (correct && existsb (fun h => mem h kattrs) required) eqn:GO.
  - unfold mbind at 1. unfold mbind at 1. rewrite g_get_credentials_eq.
    unfold mbind at 1.
    rewrite (sign_loop_gen _ peer (fun m => atts_over (datt s1) (md_hash hash m)) ) with (tr := tr); [|intros c st ou|reflexivity].
    2:{ unfold mbind at 1. rewrite g_should_sign_eq.
        destruct (should_sign hash parse me st now peer (get_tree peer (pseus st)) (fst c)) as [[|]|e]; [|reflexivity|reflexivity].
        unfold mbind at 1. unfold mbind at 1. rewrite g_create_attestation_eq.
        unfold mbind at 1. rewrite g_add_attestation_eq. reflexivity. }
    pose proof (same_but_datt_pseus _ _ (proj1 (sign_loop_spec hash sigverify mysign parse me true now peer tr
                                                  (credentials_of peer (dmd s1)) s1))) as Ps.
    destruct (sign_loop hash sigverify mysign parse me true s1 now peer tr (credentials_of peer (dmd s1))) as [[s3 outs3] x3].
    unfold st_of in Ps. cbn [fst snd] in Ps |- *.
    destruct x3 as [e3|]; cbn [m_res]; subst R; unfold as_m; cbn [fst snd].
    + reflexivity.
    + cbn beta iota. unfold mret at 1. unfold mbind at 1.
      rewrite (REQ _ s3 Ps); [|intros; reflexivity]. cbn beta iota. unfold mret. cbn [fst snd]. rewrite app_assoc. reflexivity.
  - subst R. unfold as_m. cbn [fst snd]. unfold mbind at 1. unfold mret at 1.
    unfold mbind at 1. rewrite (REQ _ s1 eq_refl); [|intros; reflexivity]. cbn beta iota. unfold mret. reflexivity.
Qed.

Lemma as_m_unit (m : M unit) r s o : m s o = as_m r o -> mbind m (fun _ => mret tt) s o = as_m r o.
Proof. intros H. unfold mbind. rewrite H. destruct r as [[s2 outs] [e|]]; reflexivity. Qed.

Lemma g_on_disclosure_eq peer mds toks atts fail s o : known_keys_unique s ->
  ENV g_on_disclosure peer ((mds, fail_is fail 1), (toks, fail_is fail 0), tt, (atts, fail_is fail 2)) s o
  = as_m (recv_disclosure hash sigverify mysign parse me true s now peer mds toks atts fail) o.
Proof. intros WF. apply as_m_unit. apply g_received_eq. exact WF. Qed.

Lemma g_on_missing_response_eq peer toks (fail : bool) s o : known_keys_unique s ->
  ENV g_on_missing_response peer (toks, fail) s o
  = as_m (recv_disclosure hash sigverify mysign parse me true s now peer [] toks [] (if fail then Some 0%nat else None)) o.
Proof.
  intros WF. apply as_m_unit.
  destruct fail; [apply (g_received_eq peer [] toks [] (Some 0%nat))|apply (g_received_eq peer [] toks [] None)]; exact WF.
Qed.

Lemma g_on_attest_eq peer a s o :
  ENV g_on_attest peer a s o = as_m (step hash sigverify mysign parse g_norm me rhl rsl true s now (EAttest peer a)) o.
Proof.
  unfold g_on_attest, as_m. cbn [step]. destruct a as [a|]; mstep; cbn [rt_att_unserialize].
  - rewrite g_add_attestation_eq. simpl. rewrite app_nil_r. reflexivity.
  - simpl. rewrite app_nil_r. reflexivity.
Qed.

Lemma g_add_known_hash_eq h name key md s o :
  ENV g_add_known_hash h name key md s o
  = as_m (step hash sigverify mysign parse g_norm me rhl rsl true s now (EKnown h name key md)) o.
Proof.
  unfold g_add_known_hash, g_pad_hash, as_m, g_norm. cbn [step]. cbv zeta.
  destruct (Z.of_nat (length h) =? 20); mstep; simpl; rewrite app_nil_r; reflexivity.
Qed.

Lemma wtoks_len_snoc out t : wtoks_len rhl rsl (out ++ [t]) = wtoks_len rhl rsl out + tokw rhl rsl.
Proof. unfold wtoks_len. rewrite app_length, Nat2Z.inj_add, Z.mul_add_distr_r. cbn [length]. rewrite Z.mul_1_l. reflexivity. Qed.

Lemma collect_gen (body : nat * token -> list token -> M (ctl (list token) unit)) kn :
  (forall i t out s o, body (i, t) out s o =
     (s, o, Ok (if Z.of_nat i >=? kn
                then if wtoks_len rhl rsl out + tokw rhl rsl >? 1296 then CBreak out else CNext (out ++ [t])
                else CNext out))) ->
  forall l i out s o,
    mfor (enumerate_from i l) body out s o =
    (s, o, Ok (inl (out ++ collect rhl rsl l (Z.of_nat i) kn (wtoks_len rhl rsl out)))).
Proof.
  intros H. induction l as [|t l IH]; intros i out s o.
  - simpl. rewrite app_nil_r. reflexivity.
  - cbn [enumerate_from mfor collect]. unfold mbind at 1. rewrite H.
    rewrite <- Z.geb_leb, <- Z.gtb_ltb.
    destruct (Z.of_nat i >=? kn).
    + destruct (wtoks_len rhl rsl out + tokw rhl rsl >? 1296).
      * simpl. rewrite app_nil_r. reflexivity.
      * rewrite IH, wtoks_len_snoc, <- app_assoc, Nat2Z.inj_succ, <- Z.add_1_r. reflexivity.
    + rewrite IH, Nat2Z.inj_succ, <- Z.add_1_r. reflexivity.
Qed.

Lemma g_on_request_missing_eq peer kn s o :
  ENV g_on_request_missing peer kn s o
  = as_m (step hash sigverify mysign parse g_norm me rhl rsl true s now (EReqMissing peer kn)) o.
Proof.
  unfold g_on_request_missing, as_m. cbn [step]. unfold req_missing, perm_of, k_get_default.
  cbv zeta. unfold mbind at 1. unfold mbind at 1. unfold mget at 1. unfold mbind at 1. unfold mbind at 1.
  unfold mget at 1, mret at 1, mret at 1.
  unfold mbind at 1.
  rewrite (collect_gen _ kn).
  - cbn beta iota. simpl. unfold mbind, msend, mret. simpl. reflexivity.
  - intros i t out s0 o0. cbn beta iota zeta.
    destruct (Z.of_nat i >=? kn); [|reflexivity].
    destruct (wtoks_len rhl rsl out + tokw rhl rsl >? 1296); reflexivity.
Qed.

Lemma nonempty_last {A} (l : list A) :
  (nonempty l = true -> exists x, last_opt l = Some x) /\ (nonempty l = false -> last_opt l = None).
Proof.
  split.
  - induction l as [|x l IH]; [discriminate|]. intros _. destruct l as [|y l]; [exists x; reflexivity|]. apply IH. reflexivity.
  - destruct l; [reflexivity|discriminate].
Qed.

Notation adv_tok := (adv_tok hash mysign g_norm me).
Notation adv_core s h := (adv_core hash sigverify mysign g_norm me s h json_out).
Notation adv_cred s h := (adv_cred hash sigverify mysign g_norm me s h json_out).

Definition cred_of (r : res (option (metadata * token))) : res (option (metadata * list attestation)) :=
  match r with
  | Ok (Some (md, _)) => Ok (Some (md, []))
  | Ok None => Ok None
  | Raise e => Raise e
  end.

Lemma g_create_credential_eq h after s o :
  after = last_opt (mdchain s) ->
  ENV g_create_credential me (g_norm h) tt after s o = (fst (adv_cred s h), o, cred_of (snd (adv_cred s h))).
Proof.
  intros Ea. remember (adv_cred s h) as c eqn:E. unfold P17_props.adv_cred in E. cbv zeta in E.
  unfold g_create_credential.
  assert (PRE : (match after with
                 | None => mret None
                 | Some v_after => mbind (mget (tree_elements me)) (fun a1_ => mret (find_key hash (m_tptr v_after) a1_))
                 end) s o
                = (s, o, Ok (match after with None => None | Some a => find_key hash (m_tptr a) (elements (get_tree me (pseus s))) end))).
  { destruct after; reflexivity. }
  rewrite (mbind_ok _ _ _ _ _ _ _ PRE). clear PRE.
  unfold mbind at 1. unfold with_tree at 1, rt_add_by_hash. cbn beta iota zeta.
  set (tok := mkToken _ (g_norm h) _ None).
  assert (Et : tok = adv_tok s h).
  { unfold tok, P17_props.adv_tok. rewrite <- Ea. destruct after as [a|]; [|reflexivity].
    destruct (find_key hash (m_tptr a) (elements (get_tree me (pseus s)))); reflexivity. }
  rewrite Et. clear Et tok. set (tok := adv_tok s h) in *.
  set (tr1 := append_elem hash (get_tree me (pseus s)) tok) in *.
  unfold g_add_credential. cbn [opt_or]. cbv zeta.
  unfold mbind at 1. unfold mbind at 1. unfold mbind at 1. unfold mbind at 1.
  unfold with_tree, rt_gather_token. cbn [pseus set_pseus]. rewrite get_tree_aset_same.
  destruct (gather_top hash sigverify me tr1 tok) as [[tr2 r]|e]; cbn beta iota; rewrite aset_aset;
    [|subst c; reflexivity].
  unfold mret at 1. unfold mret at 1. cbn beta iota.
  assert (ES : set_pseus (set_pseus s (aset me tr1 (pseus s))) (aset me tr2 (pseus s)) = set_pseus s (aset me tr2 (pseus s))) by reflexivity.
  rewrite ES. clear ES.
  destruct r as [r|]; cbn [opt_is_none negb]; [|subst c; reflexivity].
  rewrite gmd_ver. unfold new_md_signed. cbn [m_tptr]. rewrite bytes_eqb_refl, andb_true_r.
  destruct (md_verify sigverify me (mkMd (thash hash tok) json_out (mysign (thash hash tok ++ json_out))));
    subst c; [|reflexivity].
  unfold mbind at 1. rewrite g_insert_metadata_eq. cbv zeta. reflexivity.
Qed.


Lemma g_self_advertise_eq h n b md0 s o :
  ENV g_self_advertise h n b md0 s o = (fst (adv_core s h), o, cred_of (snd (adv_core s h))).
Proof.
  unfold g_self_advertise. cbv zeta.
  assert (PAD : (if Z.of_nat (length h) =? 20
                 then mbind (ENV g_pad_hash h) (fun v_attribute_hash => mret v_attribute_hash)
                 else mret h) s o = (s, o, Ok (g_norm h))).
  { unfold g_norm, g_pad_hash. destruct (Z.of_nat (length h) =? 20); reflexivity. }
  rewrite (mbind_ok _ _ _ _ _ _ _ PAD). clear PAD.
  assert (AFT : (mbind (mbind (mget mdchain) (fun a1_ => mret (nonempty a1_)))
                   (fun a4_ : bool => if a4_ then mbind (mbind (mget mdchain) (fun a2_ => mlift (list_last a2_))) (fun a3_ => mret (Some a3_))
                                      else mret None)) s o = (s, o, Ok (last_opt (mdchain s)))).
  { mstep. unfold list_last. destruct (nonempty_last (mdchain s)) as [N1 N2].
    destruct (nonempty (mdchain s)).
    - destruct (N1 eq_refl) as [x Ex]. rewrite Ex. reflexivity.
    - rewrite (N2 eq_refl). reflexivity. }
  unfold mbind at 1. unfold mbind at 1. rewrite AFT. clear AFT.
  rewrite (g_create_credential_eq h _ s o eq_refl). unfold P17_props.adv_core.
  destruct (adv_cred s h) as [s2 [[[md tk]|]|e]]; cbn [fst snd cred_of]; [|reflexivity..].
  mstep. cbn [fst m_tptr]. unfold tree_elements, d_get, find_key. cbn [pseus set_chains].
  destruct (find (fun x => bytes_eqb (thash hash x) (m_tptr md)) (elements (get_tree me (pseus s2)))); reflexivity.
Qed.

Lemma g_request_eq p h n b md0 s o :
  ENV g_request_attestation_advertisement p h n b md0 s o
  = as_m (adv_disclose hash sigverify me rhl rsl (Some p) jlen (adv_core s h)) o.
Proof.
  unfold g_request_attestation_advertisement. unfold mbind at 1. rewrite g_self_advertise_eq.
  destruct (adv_core_shape hash sigverify mysign g_norm me s h json_out) as [tr [dm [ch [mc [E [_ [_ TK]]]]]]].
  remember (adv_disclose hash sigverify me rhl rsl (Some p) jlen (adv_core s h)) as R eqn:ER. unfold adv_disclose in ER.
  destruct (adv_core s h) as [s3 [[[md tk]|]|e]]; cbn [fst snd cred_of] in *;
    [|subst R; rewrite as_m_no_outs; reflexivity..].
  specialize (TK md tk eq_refl). subst s3. mstep. unfold rt_disclose, rt_send_disclosure, msend.
  cbv zeta in ER. cbn [map fst pseus chain perms set_perms] in *. rewrite get_tree_aset_same in *. rewrite TK.
  destruct (tree_verify hash sigverify me tr tk 1000); subst R; unfold as_m; simpl; rewrite ?app_nil_r; reflexivity.
Qed.
End Gen.

Section Top.
Variable hash : bytes -> bytes.
Variable sigverify : bytes -> bytes -> bytes -> bool.
Variable mysign : bytes -> bytes.
Variable parse : bytes -> jdoc.
Variable me : bytes.
Variable rhl rsl : nat.

Notation hstep := (step hash sigverify mysign parse g_norm me rhl rsl true).
Notation hrun := (run hash sigverify mysign parse g_norm me rhl rsl true).
Notation gstep := (g_step hash sigverify mysign parse me rhl rsl).
Notation grun := (g_run hash sigverify mysign parse me rhl rsl).

Lemma run_m_of {A} (m : M A) s (r : state * list output * option exn) (q : res A) :
  m s [] = (fst (fst r), [] ++ snd (fst r), q) ->
  (match q with Ok _ => None | Raise e => Some e end) = snd r ->
  run_m m s = r.
Proof.
  intros H1 H2. unfold run_m. rewrite H1. destruct r as [[s1 o1] x]. simpl in *. subst x. destruct q; reflexivity.
Qed.

Lemma run_m_as (m : M unit) s r : m s [] = as_m r [] -> run_m m s = r.
Proof.
  intros H. unfold run_m. rewrite H. unfold as_m. destruct r as [[s1 o1] [e|]]; reflexivity.
Qed.

Lemma gen_step_refines s now ev : known_keys_unique s -> gstep s now ev = hstep s now ev.
Proof.
  intros WF. destruct ev as [h name key md|[p|] h json jl|p mds toks atts fail|p toks fail|p a|p kn]; unfold g_step.
  - apply run_m_as. apply g_add_known_hash_eq.
  - apply run_m_as. cbn [step]. rewrite advertise_eq. apply g_request_eq.
  - unfold run_m. rewrite g_self_advertise_eq. cbn [step]. rewrite advertise_eq. unfold adv_disclose.
    destruct (adv_core hash sigverify mysign g_norm me s h json) as [s3 [[[md tk]|]|e]]; reflexivity.
  - apply run_m_as. apply g_on_disclosure_eq. exact WF.
  - apply run_m_as. apply g_on_missing_response_eq. exact WF.
  - apply run_m_as. apply g_on_attest_eq.
  - apply run_m_as. apply g_on_request_missing_eq.
Qed.

Lemma gen_run_refines : forall evs s, known_keys_unique s -> grun s evs = hrun s evs.
Proof.
  induction evs as [|[now ev] evs IH]; intros s WF; [reflexivity|].
  cbn [g_run run]. rewrite (gen_step_refines s now ev WF).
  pose proof (known_keys_unique_step hash sigverify mysign parse g_norm me rhl rsl true s now ev WF) as W1.
  destruct (hstep s now ev) as [[s1 o1] x1]. unfold st_of in W1. cbn [fst] in W1. rewrite (IH s1 W1). reflexivity.
Qed.

Lemma gen_step_reachable pre now ev :
  gstep (fst (grun (init me) pre)) now ev = hstep (fst (hrun (init me) pre)) now ev.
Proof. rewrite (gen_run_refines pre _ (known_keys_unique_init me)). apply gen_step_refines. apply known_keys_unique_final. apply known_keys_unique_init. Qed.
End Top.

(* the handler table of __init__ and the packet limit are the ones the glue / the hand model assume *)
Definition expected_handlers : list (bytes * bytes) :=
  [([68; 105; 115; 99; 108; 111; 115; 101; 80; 97; 121; 108; 111; 97; 100], [111; 110; 95; 100; 105; 115; 99; 108; 111; 115; 117; 114; 101]);
   ([65; 116; 116; 101; 115; 116; 80; 97; 121; 108; 111; 97; 100], [111; 110; 95; 97; 116; 116; 101; 115; 116]);
   ([82; 101; 113; 117; 101; 115; 116; 77; 105; 115; 115; 105; 110; 103; 80; 97; 121; 108; 111; 97; 100],
    [111; 110; 95; 114; 101; 113; 117; 101; 115; 116; 95; 109; 105; 115; 115; 105; 110; 103]);
   ([77; 105; 115; 115; 105; 110; 103; 82; 101; 115; 112; 111; 110; 115; 101; 80; 97; 121; 108; 111; 97; 100],
    [111; 110; 95; 109; 105; 115; 115; 105; 110; 103; 95; 114; 101; 115; 112; 111; 110; 115; 101])].
