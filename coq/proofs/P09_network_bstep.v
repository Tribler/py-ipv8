(* C09, path level, circuits under construction - every event of a node preserves the family invariant,
   and what the node sends for the family is a cell on one of its links, in the right direction, early
   enough.  Events that create nothing for the family go through the frame lemmas of P09_network_step;
   the handshake events (create / created / extend / extended, the deferred bodies of on_create and
   on_extend, the originator's retries) are followed through the code of the model. *)
From Coq Require Import ZArith List Bool Lia.
From IPV8V Require Import gen.G09_rules model.M09_reclaim model.M09_network spec.S09_reclaim proofs.P09_alist proofs.P09_build
  proofs.P09_network_frame proofs.P09_network_node proofs.P09_network_step proofs.P09_network_path
  proofs.P09_network_binv.
Import ListNotations.
Open Scope Z_scope.

Section BStep.
Variable st : settings.
Variable D : Z.
Variable F : family.
Variable O x0 : Z.
Variable h : nat.
Variable tq : Z.
Hypothesis HD : 0 <= D.
Hypothesis Hwf : fam_ok_b F O x0 h = true.

Notation I := (IF F).
Notation ngoodF := (ngoodF st D F O x0 h tq).
Notation mgoodF := (mgoodF D F h tq).
Notation circ_good := (circ_good st F O x0 tq).
Notation relay_good := (relay_good D F h tq).
Notation exit_good := (exit_good D h tq).
Notation cache_good := (cache_good F).
Notation start_good := (start_good D F O x0 h tq).
Notation alive0 := (alive0 x0).
Notation TmaxB := (TmaxB D h tq).
Notation T0 := (T0 F x0).
Notation frame := (frame st I).

(* the node's new state is good and every cell it sends (stamped t, a relayed cell inheriting the kind of the
   cell it relays) is good *)
Definition outs_good (n t inherit : Z) (o : list out) : Prop :=
  forall d c e mm, In (OCell d c e mm) o -> mgoodF (FCell n d c e (if mm =? 0 then inherit else mm) t).

Definition node_ok (n t inherit : Z) (so : node * list out) : Prop :=
  ngoodF n (fst so) /\ outs_good n t inherit (snd so).

Lemma outs_good_nil n t inh : outs_good n t inh [].
Proof. intros d c e mm []. Qed.

Lemma node_ok_nil n t inh s : ngoodF n s -> node_ok n t inh (s, []).
Proof. intro G. split; [exact G | apply outs_good_nil]. Qed.

Lemma outs_good_app n t inh o1 o2 : outs_good n t inh o1 -> outs_good n t inh o2 -> outs_good n t inh (o1 ++ o2).
Proof. intros H1 H2 d c e mm H. apply in_app_or in H. destruct H; eauto. Qed.

Lemma outs_good_no_I n t inh o : no_I_cells I o -> outs_good n t inh o.
Proof.
  intros H d c e mm Hin ix Hx. exfalso. pose proof (H _ _ _ _ Hin) as Hc.
  pose proof (IF_of_aget F _ _ Hx). congruence.
Qed.

Lemma outs_good_no_cells n t inh o : no_cells o -> outs_good n t inh o.
Proof. intros H d c e mm Hin. exfalso. eapply H; eauto. Qed.

Lemma good_frame n s s' (touch : Z -> Prop) :
  ngoodF n s -> frame touch s s' ->
  (forall x, I x = true -> touch x -> now s <= TmaxB) -> (alive0 s -> now s <= tq) -> ngoodF n s'.
Proof.
  intros G Fr Ht Ha. apply (ngoodF_frame_flip st D F O x0 h tq n s s' touch G Fr Ht).
  intros c c' Hc _ Kc _. apply Ha. exists c. auto.
Qed.

Lemma good_frame0 n s s' :
  ngoodF n s -> frame (fun _ => False) s s' -> (alive0 s -> now s <= tq) -> ngoodF n s'.
Proof. intros G Fr Ha. eapply good_frame; eauto. intros x _ []. Qed.

(* a cell the originator puts on its own circuit, by tq *)
Lemma origin_cell_good t d e mm :
  t <= tq -> In d T0 -> kind_dn_b mm = true -> mgoodF (FCell O d x0 e mm t).
Proof.
  intros Ht Hd Hk. destruct (fam_root F O x0 h Hwf) as (i0 & H0 & L0 & P0 & _ & T0').
  intros ix Hx. rewrite H0 in Hx. inversion Hx; subst ix.
  left. rewrite P0, T0', L0. split; [reflexivity|]. split; [exact Hd|]. split; [exact Hk|]. simpl. lia.
Qed.

(* what start_hop needs of the circuit record it is given *)
Definition pre_circ (s : node) (c : circuit) : Prop :=
  0 <= c_hops c /\ (c_hops c <> 0 -> In (c_first c) T0)
  /\ ((c_closing c = true /\ exists due, In (due, KCirc, x0) (sleeping s) /\ due <= tq + s_remove_delay st)
      \/ (c_closing c = false /\ c_hops c < c_goal c
          /\ creation (c_ro c) + build_bound st (c_goal c) + s_remove_delay st <= tq)).

Lemma send_cell_out_in s dst cid mid ls d c e mm :
  In (OCell d c e mm) (snd (fst (send_cell st s dst cid mid ls))) -> d = dst /\ c = cid /\ mm = mid.
Proof.
  destruct (send_cell_out st s dst cid mid ls) as (early & E). rewrite E. intros [H|[]]. inversion H; auto.
Qed.

Lemma send_cell_ok n s dst x mid ls t inh :
  ngoodF n s -> (alive0 s -> now s <= tq) -> mid <> 0 -> (forall e, mgoodF (FCell n dst x e mid t)) ->
  node_ok n t inh (let '(s', o, _) := send_cell st s dst x mid ls in (s', o)).
Proof.
  intros G Ha Hm Hc.
  pose proof (send_cell_frame st I (fun _ => False) s dst x mid ls) as Fs.
  pose proof (send_cell_out_in s dst x mid ls) as Os.
  destruct (send_cell st s dst x mid ls) as [[s' o] l']. simpl in Fs, Os. split; simpl.
  - exact (good_frame0 n s s' G Fs Ha).
  - intros d c e mm Hin. destruct (Os _ _ _ _ Hin) as (Ed & Ec & Em). subst d c mm.
    assert (E : (mid =? 0) = false) by lia. rewrite E. apply Hc.
Qed.

Lemma start_hop_goodF s c tries ini p ls t inh :
  ngoodF O s -> now s = t -> t <= tq -> pre_circ s c ->
  (c_hops c = 0 -> forall nxt, p_next p = Some nxt -> In nxt T0) ->
  node_ok O t inh (fst (start_hop st s x0 c tries ini p ls)).
Proof.
  intros G Hn Ht (Hh & Hf & Hst) Hp.
  assert (Ha : forall s', now s' = t -> alive0 s' -> now s' <= tq) by (intros s' E _; rewrite E; exact Ht).
  destruct (p_next p) as [nxt|] eqn:Ep.
  - rewrite (start_hop_some st s x0 c tries ini p ls nxt Ep).
    set (c1 := hop_circ c nxt). set (s1 := set_circuits (aset x0 c1 (circuits s)) s).
    set (sm := set_retries (adel x0 (retries s1)) s1).
    assert (Fc : In (c_first c1) T0).
    { unfold c1. simpl. destruct (c_hops c =? 0) eqn:E0; [apply Hp; [lia | reflexivity] | apply Hf; lia]. }
    assert (G1 : ngoodF O s1).
    { apply bgood_set_circuit; [exact G|]. intros _.
      split; [reflexivity|]. split; [reflexivity|]. split; [exact Fc|]. split; [exact Hh|]. split.
      - simpl. intros Hz u Eu. inversion Eu; subst u. apply Hp; [exact Hz | reflexivity].
      - exact Hst. }
    assert (Gm : ngoodF O sm) by (apply (good_frame0 O s1); [exact G1 | apply frame_del_retry | apply Ha; exact Hn]).
    assert (G2 : ngoodF O (hop_state st s x0 c tries ini p nxt)).
    { change (ngoodF O (set_retries (aset x0 (hop_retry st s tries ini p) (retries sm)) sm)).
      apply bgood_add_retry; [exact Gm | auto]. }
    rewrite <- let3_fst. apply send_cell_ok; [exact G2 | exact (Ha (hop_state st s x0 c tries ini p nxt) Hn) | destruct ini; discriminate|].
    intro e. apply origin_cell_good; auto. destruct ini; reflexivity.
  - rewrite (start_hop_none st s x0 c tries ini p ls Ep). simpl.
    split; [|apply outs_good_nil]. apply bgood_defer; [exact G | exact Logic.I].
Qed.

Lemma ours_goodF s v p ls t inh c :
  ngoodF O s -> now s = t -> (alive0 s -> t <= tq) -> aget x0 (circuits s) = Some c ->
  (forall c', aget x0 (circuits (fst (fst (ours st s x0 v p ls)))) = Some c' ->
              c_closing c' = true \/ c_hops c' < c_goal c') ->
  node_ok O t inh (fst (ours st s x0 v p ls)).
Proof.
  intros G Hn Hal Hc Hun. unfold ours in *. rewrite Hc in *.
  pose proof (node_ok_nil O t inh s G) as R0.
  destruct (c_unver c) as [u|] eqn:Eu; [|exact R0].
  destruct v; [|split; [apply bgood_defer; [exact G | exact Logic.I] | apply outs_good_nil]|exact R0].
  assert (Ix : I x0 = true) by (destruct (fam_root F O x0 h Hwf) as (i0 & H0 & _); apply IF_some; eauto).
  destruct (b_circ G _ _ Ix Hc) as (_ & _ & Hf & Hh & Hu & Hst).
  set (c1 := mkCirc (c_ro c) (c_goal c) (c_hops c + 1) (c_closing c) None
                    (if c_hops c =? 0 then u else c_first c) (c_early c)) in *.
  set (s1 := set_circuits (aset x0 c1 (circuits s)) s) in *.
  assert (Fc : In (c_first c1) T0).
  { unfold c1. simpl. destruct (c_hops c =? 0) eqn:E0; [exact (Hu ltac:(lia) u Eu) | exact Hf]. }
  assert (G1 : (c_closing c = true \/ c_hops c + 1 < c_goal c) -> ngoodF O s1).
  { intro Hs. apply bgood_set_circuit; [exact G|]. intros _.
    split; [reflexivity|]. split; [reflexivity|]. split; [exact Fc|]. split; [simpl; lia|]. split.
    - simpl. intros Hz. lia.
    - simpl. destruct Hst as [(K & W)|(K & Hlt & Hcr)]; [left; auto | right].
      destruct Hs as [Hs|Hs]; [congruence|]. auto. }
  assert (Ha1 : alive0 s1 -> now s1 <= tq).
  { intros (c' & Hc' & K'). unfold s1 in Hc'. simpl in Hc'. rewrite aget_aset, Z.eqb_refl in Hc'.
    inversion Hc'; subst c'. simpl in K'. simpl. rewrite Hn. apply Hal. exists c. auto. }
  unfold c_state, circuit_state in *. cbn [c_closing c_hops c_goal c1] in *.
  destruct (c_closing c) eqn:Kc.
  - (* closing: nothing more happens *)
    simpl in *. split; [apply G1; left; reflexivity | apply outs_good_nil].
  - destruct (c_hops c + 1 <? c_goal c) eqn:Elt.
    + (* still extending: the next extend goes out *)
      change (1 =? CIRCUIT_STATE_EXTENDING) with true in *. cbv iota in *.
      assert (Gs1 : ngoodF O s1) by (apply G1; right; lia).
      change (retries s1) with (retries s) in *.
      destruct (aget x0 (retries s)) as [rt|] eqn:Er; [|exact (node_ok_nil _ _ _ _ Gs1)].
      assert (Ht : t <= tq) by (apply Hal; exists c; auto).
      apply start_hop_goodF; auto.
      * apply (good_frame0 O s1); [exact Gs1 | exact (frame_del_retry st I _ s1 x0) | exact Ha1].
      * split; [simpl; lia|]. split; [intros _; exact Fc|]. right. simpl.
        destruct Hst as [(K & _)|(_ & _ & Hcr)]; [congruence|]. split; [reflexivity|]. split; [lia | exact Hcr].
      * simpl. intros Hz. lia.
    + (* it would be ready: excluded *)
      change (0 =? CIRCUIT_STATE_EXTENDING) with false in *. change (0 =? CIRCUIT_STATE_READY) with true in *.
      cbv iota in *. exfalso.
      assert (X : aget x0 (circuits (fst (fst (set_retries (adel x0 (retries s1)) s1, @nil out, ls)))) = Some c1).
      { simpl. rewrite aget_aset, Z.eqb_refl. reflexivity. }
      destruct (Hun _ X) as [K|K]; simpl in K; [congruence | lia].
Qed.

Lemma refresh_ok n t inh x len so :
  node_ok n t inh so -> now (fst so) = t -> (I x = true -> t <= TmaxB) ->
  node_ok n t inh (refresh x len t so).
Proof.
  intros [G Og] Hn Ht. unfold refresh. destruct (aget x (circuits (fst so))) as [c|] eqn:Ec; [|split; assumption].
  split; [|exact Og]. simpl.
  apply (ngoodF_frame_flip st D F O x0 h tq n (fst so) _ (fun y => y = x)); [exact G | | |].
  - apply frame_set_circuit. intros _. exists c. split; [exact Ec|]. simpl. repeat split; auto.
  - intros y Hi Hy. subst y. rewrite Hn. auto.
  - intros c0 c' H0 H' K0 K'. exfalso. simpl in H'. rewrite aget_aset in H'.
    destruct (x0 =? x) eqn:E; [|congruence]. apply Z.eqb_eq in E. subst x. rewrite Ec in H0.
    inversion H0; subst c0. inversion H'; subst c'. simpl in K'. congruence.
Qed.

Lemma refresh_circ x len t so y c :
  aget y (circuits (fst so)) = Some c ->
  exists c', aget y (circuits (fst (refresh x len t so))) = Some c'
             /\ c_closing c' = c_closing c /\ c_hops c' = c_hops c /\ c_goal c' = c_goal c.
Proof.
  intro H. unfold refresh. destruct (aget x (circuits (fst so))) as [cx|] eqn:Ec; [|eauto].
  simpl. rewrite aget_aset. destruct (y =? x) eqn:E; [|eauto].
  apply Z.eqb_eq in E. subst y. rewrite Ec in H. inversion H; subst cx. eexists. split; [reflexivity|]. auto.
Qed.

Lemma kind_dn_facts mid : kind_dn_b mid = true -> mid <> 0 /\ mid <> MSG_CREATED /\ mid <> MSG_EXTENDED.
Proof. unfold kind_dn_b, MSG_CREATED, MSG_EXTENDED. simpl. lia. Qed.
Lemma kind_upw_facts mid :
  kind_upw_b mid = true -> mid <> 0 /\ mid <> MSG_CREATE /\ mid <> MSG_EXTEND /\ mid <> MSG_PING.
Proof. unfold kind_upw_b, MSG_CREATE, MSG_EXTEND, MSG_PING. simpl. lia. Qed.

Lemma lvl_child iy x ix : aget x F = Some ix -> f_from iy = Some x -> (exists y, aget y F = Some iy) ->
  f_lvl iy = S (f_lvl ix) /\ In (f_par iy) (f_tgts ix).
Proof.
  intros Hx Hf (y & Hy). destruct (fam_info F O x0 h Hwf _ _ Hy) as (_ & _ & H). rewrite Hf in H.
  destruct H as (ix' & Hx' & L & P). rewrite Hx in Hx'. inversion Hx'; subst ix'. auto.
Qed.

(* the part that goes through the frame lemmas: relayed cells, data, ping, pong, and control messages that
   find nothing to act on *)
Lemma family_cell_framed n s src x plain early len cr ls t mid sent ix :
  ngoodF n s -> now s = t -> (alive0 s -> t <= tq) -> aget x F = Some ix ->
  mgoodF (FCell src n x early mid sent) -> t <= sent + D ->
  (aget x (relays s) = None -> forall m, cr = COk m -> mid = 0 \/ msg_id m = mid) ->
  cell_ok_l I s x cr ->
  node_ok n t mid (recv_cell st s src x plain early len cr ls).
Proof.
  intros G Hn Hal Hx M Hlife Hty Hok.
  pose proof (mgoodF_deadline D F O x0 h tq HD Hwf _ _ _ _ _ _ t ix M Hx Hlife) as Hdead.
  destruct (fam_info F O x0 h Hwf _ _ Hx) as (Hl & Hpt & Hfrom).
  destruct (recv_cell_frame_l st I s src x plain early len cr ls Hok) as [Fr Oc].
  destruct (recv_cell st s src x plain early len cr ls) as [s' o]. simpl in Fr, Oc. split; simpl.
  - apply (good_frame n s s' (cell_touch s x)); auto; [intros y _ _; lia | intro A; rewrite Hn; auto].
  - intros d c e mm Hin iy Hy. pose proof (IF_of_aget F _ _ Hy) as Ic.
    assert (Nh : 0 <= Z.of_nat h) by lia.
    destruct (Oc _ _ _ _ Hin Ic) as [(r & Hr & Ed & Ec & Em)|(Hr & Ed & Ec & Em & Hcr & Hh)].
    + (* relayed *)
      subst d c mm. change (0 =? 0) with true. cbv iota.
      destruct (b_rel G _ _ _ Hx Hr) as [_ [(Hnt & iy' & Hy' & Py & Fy & Pe)|(Hnp & z & iz & Fz & Nz & Hz & Pz)]].
      * rewrite Hy in Hy'. inversion Hy'; subst iy'.
        destruct (lvl_child iy x ix Hx Fy ltac:(eauto)) as [Ly _].
        destruct (M _ Hx) as [(Es & _ & Hk & Hs)|(En' & _)]; [|exfalso; apply Hpt; rewrite <- En'; exact Hnt].
        left. split; [congruence|]. split; [exact Pe|]. split; [exact Hk|]. rewrite Ly.
        exact (sent_down_next _ _ _ _ _ Hs Hlife).
      * rewrite Nz in Hy. rewrite Hz in Hy. inversion Hy; subst iy.
        destruct (lvl_child ix z iz Hz Fz ltac:(eauto)) as [Lx Px].
        destruct (M _ Hx) as [(_ & Hd & _)|(_ & _ & Hk & Hs)]; [exfalso; apply Hpt; rewrite <- Hnp; exact Hd|].
        right. split; [exact Pz|]. split; [rewrite Hnp; exact Px|]. split; [exact Hk|]. rewrite Lx in Hs.
        exact (sent_up_next _ _ _ _ _ _ Hs Hlife).
    + (* the pong *)
      subst d c mm. change (MSG_PONG =? 0) with false. cbv iota.
      rewrite Hx in Hy. inversion Hy; subst iy.
      destruct (Hty Hr _ Hcr) as [E|E]; simpl in E.
      * exfalso. destruct (M _ Hx) as [(_ & _ & Hk & _)|(_ & _ & Hk & _)];
          [apply kind_dn_facts in Hk | apply kind_upw_facts in Hk]; tauto.
      * destruct (M _ Hx) as [(Es & Hd & Hk & Hs)|(_ & _ & Hk & _)].
        -- right. split; [exact Es|]. split; [exact Hd|]. split; [reflexivity|].
           exact (sent_turn _ _ _ _ _ _ HD (proj2 Hl) Hs Hlife).
        -- exfalso. apply kind_upw_facts in Hk. unfold MSG_PING in *. lia.
Qed.

Lemma family_cell_ok n s src x plain early len cr ls t mid sent ix :
  ngoodF n s -> now s = t -> (alive0 s -> t <= tq) -> aget x F = Some ix ->
  mgoodF (FCell src n x early mid sent) -> t <= sent + D ->
  (aget x (relays s) = None -> forall m, cr = COk m -> mid = 0 \/ msg_id m = mid) ->
  ident_ok_b s (ERecvCell src x plain early len cr ls) = true ->
  (n = O -> forall c', aget x0 (circuits (fst (recv_cell st s src x plain early len cr ls))) = Some c' ->
              c_closing c' = true \/ c_hops c' < c_goal c') ->
  node_ok n t mid (recv_cell st s src x plain early len cr ls).
Proof.
  intros G Hn Hal Hx M Hlife Hty Hid Hun.
  assert (Framed : cell_ok_l I s x cr -> node_ok n t mid (recv_cell st s src x plain early len cr ls))
    by (apply (family_cell_framed n s src x plain early len cr ls t mid sent ix); auto).
  destruct (aget x (relays s)) as [r|] eqn:Er; [apply Framed; intros E; congruence|].
  destruct cr as [| |m]; try (apply Framed; intros _ m E; discriminate).
  specialize (Hty eq_refl m eq_refl).
  pose proof (mgoodF_deadline D F O x0 h tq HD Hwf _ _ _ _ _ _ t ix M Hx Hlife) as Hdead.
  destruct (fam_info F O x0 h Hwf _ _ Hx) as (Hl & Hpt & Hfrom).
  pose proof (IF_of_aget F _ _ Hx) as Ix.
  assert (Nh : 0 <= Z.of_nat h) by lia.
  assert (Kmid : mid <> 0).
  { destruct (M _ Hx) as [(_ & _ & Hk & _)|(_ & _ & Hk & _)];
      [apply kind_dn_facts in Hk | apply kind_upw_facts in Hk]; tauto. }
  destruct Hty as [Hty|Hty]; [congruence|].
  pose proof (node_ok_nil n t mid s G) as Same.
  assert (Plain : msg_id m <> MSG_CREATE -> msg_id m <> MSG_EXTEND -> handle_local I s x m ->
                  node_ok n t mid (recv_cell st s src x plain early len (COk m) ls)).
  { intros H1 H2 Hloc. apply Framed. intros _ m' Em. inversion Em; subst m'. split; [intros _; split; assumption | exact Hloc]. }
  (* the tail of process_cell after a handler whose result is good *)
  assert (Tail : (recv_cell st s src x plain early len (COk m) ls = refresh x len (now s) (dispatch st s src x m ls) ->
                  node_ok n t mid (dispatch st s src x m ls)) ->
                 node_ok n t mid (recv_cell st s src x plain early len (COk m) ls)).
  { intros Hh. destruct (recv_cell_unrelayed st s src x plain early len (COk m) ls Er) as [E|(m2 & Em2 & E)].
    - rewrite E. exact Same.
    - inversion Em2; subst m2. specialize (Hh E). rewrite E. rewrite Hn. apply refresh_ok; [exact Hh | | auto].
      rewrite dispatch_now. exact Hn. }
  (* the originator's retry cache matches: _ours_on_created_extended *)
  assert (Ours : forall m' v p, m = m' -> n = O -> x = x0 ->
            recv_cell st s src x plain early len (COk m') ls
             = refresh x len (now s) (let '(s', o', _) := ours st s x0 v p ls in (s', o')) ->
            node_ok n t mid (let '(s', o', _) := ours st s x0 v p ls in (s', o'))).
  { intros m' v p Em En Ex E. subst n x m'. destruct (aget x0 (circuits s)) as [c|] eqn:Ec.
    - pose proof (ours_goodF s v p ls t mid c G Hn Hal Ec) as Ho.
      destruct (ours st s x0 v p ls) as [[s' o'] l'] eqn:Eo. simpl in *. apply Ho.
      intros c' Hc'. destruct (refresh_circ x0 len (now s) (s', o') x0 c' Hc') as (c2 & H2 & K2 & Hh2 & Hg2).
      rewrite E in Hun. destruct (Hun eq_refl _ H2) as [K|K]; [left; rewrite <- K2; exact K | right; rewrite <- Hh2, <- Hg2; exact K].
    - unfold ours. rewrite Ec. exact Same. }
  destruct m as [ident|ident v p|ident|ident v p|a b c l| | |mm]; simpl in Hty.
  - (* create: the body of on_create is deferred *)
    apply Tail. intros _. simpl.
    destruct (M _ Hx) as [(Es & Hd & _ & Hs)|(_ & _ & Hk & _)];
      [|exfalso; apply kind_upw_facts in Hk; unfold MSG_CREATE in *; lia].
    split; [|apply outs_good_nil]. apply bgood_defer; [exact G|].
    simpl. intros ix' Hx'. rewrite Hx in Hx'. inversion Hx'; subst ix'. split; [exact Hd|]. split; [exact Es|]. nia.
  - (* created *)
    destruct (aget ident (creates s)) as [cc|] eqn:Ecc.
    + (* the answer to one of this node's creates: it becomes a relay *)
      apply Tail. intros _. simpl. rewrite Ecc.
      simpl in Hid. rewrite Ecc in Hid. assert (Eto : cc_to cc = x) by lia.
      destruct (b_creates G _ _ Ecc) as (iy & iz & Hy & Hz & Py & Fy & Pe & Pp);
        [left; rewrite Eto; exact Ix|].
      rewrite Eto in Hy. rewrite Hx in Hy. inversion Hy; subst iy. set (z := cc_from cc) in *.
      destruct (lvl_child ix z iz Hz Fy ltac:(eauto)) as [Lx Px].
      destruct (M _ Hx) as [(_ & _ & Hk & _)|(En' & Hs' & Hk & Hs)];
        [exfalso; apply kind_dn_facts in Hk; unfold MSG_CREATED in *; lia|].
      set (s1 := set_creates (adel ident (creates s)) s).
      assert (G1 : ngoodF n s1) by (apply (good_frame0 n s); [exact G | apply frame_del_create | rewrite Hn; exact Hal]).
      pose proof (node_ok_nil n t mid s1 G1) as Same1.
      change (relays s1) with (relays s). change (exits s1) with (exits s).
      destruct (ahas z (relays s)); [exact Same1|].
      destruct (aget z (exits s)) as [e0|] eqn:Ez; [|exact Same1].
      set (s2 := defer (DRemove KExit z 0 true) s1).
      assert (G2 : ngoodF n s2) by (apply bgood_defer; [exact G1 | exact Logic.I]).
      match goal with |- context [aset z ?fw (aset (cc_to cc) ?bw _)] => set (FW := fw); set (BW := bw) end.
      set (sa := set_relays (aset (cc_to cc) BW (relays s2)) s2).
      assert (Ga : ngoodF n sa).
      { apply bgood_add_relay; [exact G2 | | rewrite Eto; congruence].
        rewrite Eto. intros ix' Hx'. rewrite Hx in Hx'. inversion Hx'; subst ix'. split; [simpl; lia|].
        right. split; [congruence|]. exists z, iz. simpl. auto. }
      set (s3 := set_relays (aset z FW (relays sa)) sa).
      assert (G3 : ngoodF n s3).
      { apply bgood_add_relay; [exact Ga | | intro Hc; exfalso; pose proof (IF_of_aget F _ _ Hz); congruence].
        intros iz' Hz'. rewrite Hz in Hz'. inversion Hz'; subst iz'. split; [simpl; lia|].
        left. split; [rewrite <- Py; exact Px|]. exists ix. simpl. rewrite Eto. auto. }
      change (node_ok n t mid (let '(s', o', _) := send_cell st s3 (cc_peer cc) z MSG_EXTENDED ls in (s', o'))).
      apply send_cell_ok; [exact G3 | intro A; change (now s3) with (now s); rewrite Hn; exact (Hal A) | discriminate|].
      intros e iz' Hz'. rewrite Hz in Hz'. inversion Hz'; subst iz'.
      right. split; [exact Pp|]. split; [rewrite <- Py; exact Px|]. split; [reflexivity|]. rewrite Lx in Hs.
      exact (sent_up_next _ _ _ _ _ _ Hs Hlife).
    + destruct (aget x (retries s)) as [rt|] eqn:Ert.
      * (* the originator's own create answered *)
        destruct (b_retries G _ _ Ix Ert) as [En Ex].
        apply Tail. intro E. simpl in E |- *.
        rewrite Ecc, Ert in E |- *.
        destruct (rt_ident rt =? ident); [|exact Same].
        subst x. apply (Ours (MCreated ident v p) v p); auto.
      * apply Plain; [discriminate | discriminate|]. simpl. split; [intros cc Hc; congruence | intros rt Hr; congruence].
  - (* extend: the body of on_extend is deferred *)
    apply Tail. intros _. simpl.
    destruct (M _ Hx) as [(Es & Hd & _ & Hs)|(_ & _ & Hk & _)];
      [|exfalso; apply kind_upw_facts in Hk; unfold MSG_EXTEND in *; lia].
    split; [|apply outs_good_nil]. apply bgood_defer; [exact G|].
    simpl. intros ix' Hx'. rewrite Hx in Hx'. inversion Hx'; subst ix'. split; [exact Hd|]. nia.
  - (* extended *)
    destruct (aget x (retries s)) as [rt|] eqn:Ert.
    + destruct (b_retries G _ _ Ix Ert) as [En Ex].
      apply Tail. intro E. simpl in E |- *.
      rewrite Ert in E |- *.
      destruct (rt_ident rt =? ident); [|exact Same].
      subst x. apply (Ours (MExtended ident v p) v p); auto.
    + apply Plain; [discriminate | discriminate|]. simpl. intros rt Hr; congruence.
  - apply Plain; [discriminate | discriminate | exact Logic.I].
  - apply Plain; [discriminate | discriminate | exact Logic.I].
  - apply Plain; [discriminate | discriminate | exact Logic.I].
  - apply Tail. intros _. simpl. exact Same.
Qed.

Lemma framed_event_ok n s e t inh :
  ngoodF n s -> now s = t -> (alive0 s -> t <= tq) -> ev_ok_l I s e -> other_event I e ->
  node_ok n t inh (step_at st s e).
Proof.
  intros G Hn Hal Hok Hnf.
  destruct (step_at_frame_l st I s e Hok) as [Fr Oc].
  destruct (step_at st s e) as [s' o]. simpl in Fr, Oc. split; simpl.
  - apply (good_frame n s s' (ev_touch s e)); auto; [|intro A; rewrite Hn; auto].
    intros x Hi Hx. apply (b_starts G _ (other_event_touch I s e x Hnf (b_rel_out G) Hi Hx) Hi).
  - (* the pings of the originator while it is still building *)
    intros d c e0 mm Hin ic Hc. pose proof (IF_of_aget F _ _ Hc) as Ic.
    destruct (other_event_outs I s e o Hnf (b_rel_out G) Oc _ _ _ _ Hin Ic)
      as (circ & Hcirc & Hcl & Hd & Hm). subst d mm.
    destruct (b_circ G _ _ Ic Hcirc) as (En & Ex & Hf & _). subst n c.
    assert (Ht : t <= tq) by (apply Hal; exists circ; auto).
    exact (origin_cell_good t (c_first circ) e0 MSG_PING Ht Hf eq_refl ic Hc).
Qed.

Lemma aset_aset {A} k (v1 v2 : A) l : aset k v2 (aset k v1 l) = aset k v2 l.
Proof.
  induction l as [|[k0 v0] tl IH]; simpl; [rewrite Z.eqb_refl; reflexivity|].
  destruct (k =? k0) eqn:E; simpl; [rewrite Z.eqb_refl; reflexivity | rewrite E, IH; reflexivity].
Qed.

Lemma run_event_ok n s i eo tg tc nb p ls t inh :
  ngoodF n s -> now s = t -> (alive0 s -> t <= tq) ->
  bquiet_b st F O x0 tq t true n s (ERun i eo tg tc nb p ls) = true ->
  node_ok n t inh (step_at st s (ERun i eo tg tc nb p ls)).
Proof.
  intros G Hn Hal Hq. simpl in Hq.
  assert (Framed : forall d, nth_error (starts s) i = Some d -> harmless I d ->
                     (forall src cid ident, d = DExtend src cid ident -> I tc = false) ->
                     node_ok n t inh (step_at st s (ERun i eo tg tc nb p ls))).
  { intros d En H1 H2. apply framed_event_ok; auto; [|exact Logic.I].
    intros d0 E0. rewrite En in E0. inversion E0; subst d0. auto. }
  cbn [step_at] in *. destruct (nth_error (starts s) i) as [d|] eqn:En; [|exact (node_ok_nil _ _ _ _ G)].
  pose proof (b_starts G _ (nth_error_In _ _ En)) as Hd.
  set (s0 := set_starts (remove_nth i (starts s)) s).
  assert (G0 : ngoodF n s0).
  { apply (good_frame0 n s); [exact G | | rewrite Hn; exact Hal].
    apply frame_sub_starts. intros d0 H0. eapply in_remove_nth; eauto. }
  assert (Hal0 : alive0 s0 -> t <= tq) by exact Hal.
  assert (Nh : 0 <= Z.of_nat h) by lia.
  destruct d as [k c dd rn|src x ident|src x ident|x tr ini|x].
  - apply (Framed _ eq_refl); [exact Logic.I | intros; discriminate].
  - (* on_create *)
    destruct (aget x F) as [ix|] eqn:Hx.
    + destruct (Hd ix Hx) as (Hnt & Esrc & Hnow). destruct (fam_info F O x0 h Hwf _ _ Hx) as (Hl & _).
      pose proof (node_ok_nil n t inh s0 G0) as R0.
      simpl. destruct (negb (s_any_flag st)); [exact R0|].
      destruct (ahas x (createds s)); [exact R0|].
      destruct (ahas x (circuits s) || ahas x (relays s) || ahas x (exits s)); [exact R0|].
      destruct (negb (should_join (s_max_joined st) (zlen (relays s)) (zlen (exits s)))); [exact R0|].
      set (s1 := set_createds (aset x (now s + s_unstable_timeout st) (createds s0)) s0).
      set (s2 := set_exits (aset x (mkExit (ro_new (now s)) src false false []) (exits s1)) s1).
      assert (G1 : ngoodF n s1).
      { apply bgood_add_created; [exact G0|]. intros ix' Hx'. congruence. }
      assert (G2 : ngoodF n s2).
      { apply bgood_add_exit; [exact G1|]. intros ix' Hx'. rewrite Hx in Hx'. inversion Hx'; subst ix'.
        split; [exact Hnt|]. split; [exact Esrc|]. simpl. unfold P09_network_binv.TmaxB. nia. }
      change (node_ok n t inh (let '(s3, o, _) := send_cell st s2 src x MSG_CREATED ls in (s3, o))).
      apply send_cell_ok; [exact G2 | intro A; change (now s2) with (now s); rewrite Hn; exact (Hal A) | discriminate|].
      intros e' ix' Hx'. rewrite Hx in Hx'. inversion Hx'; subst ix'.
      right. split; [exact Esrc|]. split; [exact Hnt|]. split; [reflexivity|]. nia.
    + apply (Framed _ eq_refl); [simpl; apply IF_none; exact Hx | intros; discriminate].
  - (* on_extend *)
    destruct (aget x F) as [ix|] eqn:Hx.
    + destruct (Hd ix Hx) as (Hnt & Hnow). destruct (fam_info F O x0 h Hwf _ _ Hx) as (Hl & Hpt & _).
      pose proof (node_ok_nil n t inh s0 G0) as R0'.
      destruct eo.
      2:{ simpl. destruct (negb (s_relay_flag st)); [exact R0'|]. destruct (negb (ahas x (createds s))); exact R0'. }
      simpl in Hq.
      apply andb_true_iff in Hq. destruct Hq as [Hex Hq].
      destruct (aget tc F) as [iy|] eqn:Hy; [|discriminate].
      repeat (apply andb_true_iff in Hq; destruct Hq as [Hq ?]).
      assert (Py : f_par iy = n) by (apply Z.eqb_eq; exact Hq).
      assert (Fy : f_from iy = Some x) by (unfold optz_is in H0; destruct (f_from iy); [f_equal; lia | discriminate]).
      assert (Ty : In tg (f_tgts iy)) by (apply inl_in; assumption).
      destruct (lvl_child iy x ix Hx Fy ltac:(eauto)) as [Ly _].
      pose proof (node_ok_nil n t inh s0 G0) as R0.
      simpl. destruct (negb (s_relay_flag st)); [exact R0|].
      destruct (negb (ahas x (createds s))); [exact R0|].
      simpl negb. cbv iota.
      assert (Nc : aget x (circuits s) = None).
      { destruct (aget x (circuits s)) as [c|] eqn:Ec; [|reflexivity]. exfalso.
        pose proof (IF_of_aget F _ _ Hx) as Ix.
        destruct (b_circ G _ _ Ix Ec) as (EO & Ex0 & _). subst n x.
        destruct (fam_root F O x0 h Hwf) as (i0 & H0' & _ & P0 & _). rewrite H0' in Hx. inversion Hx; subst ix.
        apply Hpt. rewrite P0. rewrite <- EO. exact Hnt. }
      rewrite Nc. apply ahas_aget in Hex. destruct Hex as (e & He). rewrite He.
      destruct (b_exit G _ _ _ Hx He) as (_ & Pe & _).
      match goal with |- context [aset nb ?CC (creates s)] => set (cc := CC) end.
      set (s1 := set_creates (aset nb cc (creates s0)) s0).
      assert (G1 : ngoodF n s1).
      { apply bgood_add_create; [exact G0|]. intros _. exists iy, ix. simpl. auto 10. }
      change (node_ok n t inh (let '(s2, o, _) := send_cell st s1 tg tc MSG_CREATE ls in (s2, o))).
      apply send_cell_ok; [exact G1 | intro A; change (now s1) with (now s); rewrite Hn; exact (Hal A) | discriminate|].
      intros e' iy' Hy'. rewrite Hy in Hy'. inversion Hy'; subst iy'.
      left. split; [congruence|]. split; [exact Ty|]. split; [reflexivity|]. rewrite Ly. nia.
    + apply (Framed _ eq_refl); [simpl; apply IF_none; exact Hx|].
      intros src' cid' id' E'. inversion E'; subst. apply negb_true_iff in Hq. exact Hq.
  - (* the originator's retry *)
    destruct (I x) eqn:Ix.
    + destruct (Hd Ix) as (EO & Ex0 & Hnow). subst n x. simpl in Hq. unfold inF in Hq. unfold IF, inF in Ix.
      rewrite Ix in Hq. simpl in Hq.
      simpl. change (circuits s0) with (circuits s). destruct (aget x0 (circuits s)) as [c|] eqn:Ec;
        [|exact (node_ok_nil _ _ _ _ G0)].
      assert (Ix' : I x0 = true) by exact Ix.
      destruct (b_circ G _ _ Ix' Ec) as (_ & _ & Hf & Hh & Hu & Hstt).
      assert (Ht : t <= tq) by (rewrite <- Hn; exact Hnow).
      pose proof (start_hop_goodF s0 c tr ini p ls t inh G0 Hn Ht) as Hs.
      destruct (start_hop st s0 x0 c tr ini p ls) as [[s1 o1] l1]. simpl in *. apply Hs.
      * split; [exact Hh|]. split; [intros _; exact Hf | exact Hstt].
      * intros Hz nxt Ep. assert (Z0 : (c_hops c =? 0) = true) by (apply Z.eqb_eq; exact Hz). rewrite Z0 in Hq. simpl in Hq.
        unfold pick_in_tgts in Hq. rewrite Ep in Hq. apply inl_in. exact Hq.
    + apply (Framed _ eq_refl); [exact Ix | intros; discriminate].
  - apply (Framed _ eq_refl); [exact Logic.I | intros; discriminate].
Qed.

Lemma retry_timeout_ok n s cid t inh :
  ngoodF n s -> now s = t -> (alive0 s -> t <= tq) -> node_ok n t inh (step_at st s (ERetryTimeout cid)).
Proof.
  intros G Hn Hal. destruct (I cid) eqn:Ic.
  2:{ apply framed_event_ok; auto; [|exact Logic.I]. simpl. intros rt _. exact Ic. }
  cbn [step_at]. destruct (aget cid (retries s)) as [rt|] eqn:Er; [|exact (node_ok_nil _ _ _ _ G)].
  destruct (b_retries G _ _ Ic Er) as [En Ex]. subst n cid.
  set (s1 := set_retries (adel x0 (retries s)) s).
  assert (G1 : ngoodF O s1) by (apply (good_frame0 O s); [exact G | apply frame_del_retry | rewrite Hn; exact Hal]).
  change (circuits s1) with (circuits s).
  destruct (aget x0 (circuits s)) as [c|] eqn:Ec; [|exact (node_ok_nil _ _ _ _ G1)].
  destruct (c_closing c) eqn:Kc; [exact (node_ok_nil _ _ _ _ G1)|].
  destruct (retry_gives_up (rt_cands rt) (rt_tries rt)); (split; [|apply outs_good_nil]); simpl;
    apply bgood_defer; try exact G1; try exact Logic.I.
  simpl. intros _. split; [reflexivity|]. split; [reflexivity|]. change (now s1) with (now s). rewrite Hn.
  apply Hal. exists c. auto.
Qed.

Lemma start_hop_over s c tries ini p ls nxt :
  p_next p = Some nxt ->
  start_hop st (set_circuits (aset x0 c (circuits s)) s) x0 c tries ini p ls = start_hop st s x0 c tries ini p ls.
Proof. intro Ep. unfold start_hop. rewrite Ep. simpl. rewrite aset_aset. reflexivity. Qed.

Lemma create_circuit_ok n s cid goal p ls t inh :
  ngoodF n s -> now s = t -> (alive0 s -> t <= tq) ->
  bquiet_b st F O x0 tq t true n s (ECreateCircuit cid goal p ls) = true ->
  node_ok n t inh (step_at st s (ECreateCircuit cid goal p ls)).
Proof.
  intros G Hn Hal Hq. simpl in Hq. destruct (I cid) eqn:Ic.
  2:{ apply framed_event_ok; auto; try exact Ic; exact Logic.I. }
  unfold IF, inF in Ic. unfold inF in Hq. rewrite Ic in Hq. simpl in Hq.
  repeat (apply andb_true_iff in Hq; destruct Hq as [Hq ?]).
  assert (n = O) by lia. assert (cid = x0) by lia. subst n cid.
  cbn [step_at]. destruct (p_next p) as [nxt|] eqn:Ep; [|exact (node_ok_nil _ _ _ _ G)].
  match goal with |- context [start_hop st _ x0 ?C ?T true p ls] => set (c := C); set (tr := T) end.
  rewrite (start_hop_over s c tr true p ls nxt Ep).
  pose proof (start_hop_goodF s c tr true p ls t inh G Hn ltac:(lia)) as Hs.
  destruct (start_hop st s x0 c tr true p ls) as [[s1 o1] l1]. simpl in *. apply Hs.
  - split; [simpl; lia|]. split; [simpl; intro; lia|]. right. simpl. rewrite Hn. split; [reflexivity|]. split; lia.
  - intros _ nxt' Ep'. unfold pick_in_tgts in H2. rewrite Ep in H2. rewrite Ep in Ep'. inversion Ep'; subst nxt'.
    apply inl_in. exact H2.
Qed.

Lemma nonfamily_cell_ok n s src cid plain early len cr ls t inh :
  ngoodF n s -> now s = t -> (alive0 s -> t <= tq) -> I cid = false ->
  ident_ok_b s (ERecvCell src cid plain early len cr ls) = true ->
  node_ok n t inh (step_at st s (ERecvCell src cid plain early len cr ls)).
Proof.
  intros G Hn Hal Ic Hid. apply framed_event_ok; auto. simpl. intros _ m Em. subst cr. split.
  - intro Hc. congruence.
  - destruct m; simpl; auto.
    + split; [|intros rt _; exact Ic]. intros cc Hcc. simpl in Hid. rewrite Hcc in Hid.
      assert (Eto : cc_to cc = cid) by lia.
      pose proof (b_creates G _ _ Hcc) as Hg.
      destruct (I (cc_from cc)) eqn:If.
      * exfalso. destruct Hg as (iy & iz & Hy & _); [right; exact If|].
        rewrite Eto in Hy. apply IF_none in Ic. congruence.
      * split; [reflexivity | rewrite Eto; exact Ic].
Qed.

Lemma local_event_ok n s e t inh :
  ngoodF n s -> now s = t -> (alive0 s -> t <= tq) ->
  bquiet_b st F O x0 tq t true n s e = true -> ident_ok_b s e = true ->
  node_ok n t inh (step_at st s e).
Proof.
  intros G Hn Hal Hq Hid.
  destruct e as [src cid plain early len cr ls|src cid reason| |ls|i eo tg tc nb pk ls|i|cid|cid|number
                 |cid goal pk ls|k cid dd rn|dst cid ls|cid len allowed ls].
  - apply nonfamily_cell_ok; auto. simpl in Hq. apply negb_true_iff in Hq. exact Hq.
  - apply framed_event_ok; auto; exact Logic.I.
  - apply framed_event_ok; auto; exact Logic.I.
  - apply framed_event_ok; auto; exact Logic.I.
  - apply run_event_ok; auto.
  - apply framed_event_ok; auto; exact Logic.I.
  - apply retry_timeout_ok; auto.
  - apply framed_event_ok; auto; exact Logic.I.
  - apply framed_event_ok; auto; exact Logic.I.
  - apply create_circuit_ok; auto.
  - apply framed_event_ok; auto; exact Logic.I.
  - apply framed_event_ok; auto; [|exact Logic.I]. simpl in *. apply negb_true_iff in Hq. exact Hq.
  - apply framed_event_ok; auto; [|exact Logic.I]. simpl in *. apply negb_true_iff in Hq. exact Hq.
Qed.

End BStep.
