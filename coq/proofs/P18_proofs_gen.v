(* C18 (extension) - the functions translated from the source on every run (gen/G18_proofs.v) compute exactly what
   the hand models M18_range / M18_hom / M18_bitpairs / M18_driver compute (the *_refines lemmas and the *_eq
   equations), and the properties of the range proof and of the verifier's bookkeeping restated over the
   translated code. *)
From Coq Require Import ZArith List Bool Lia ZifyBool QArith Btauto Permutation.
From IPV8V Require Import lib.PyErr lib.Bytes model.M18_hom model.M18_range model.M18_bitpairs model.M18_gen_rt model.M18_driver gen.G18_proofs
  spec.S18_bgn proofs.P18_range proofs.P18_driver.
Import ListNotations.
Open Scope Z_scope.

Lemma draw_while_exit c q m x : draw_while c q m = Ok x -> c x = false.
Proof.
  induction q as [|d q IH]; cbn [draw_while]; [discriminate|].
  destruct (m =? 0); [discriminate|]. destruct (c (d mod m)) eqn:E; [exact IH|]. intros H; inversion H; subst. exact E.
Qed.

Section Refine.
  Variable G : Type.
  Variable gmul : G -> G -> G.
  Variable gone : G.
  Variable ginv : G -> G.
  Variable geqb : G -> G -> bool.
  Variable PKg PKh : G.
  Variable Hsh : G -> G -> Z.
  Variable gmodulus : G -> Z.

  (* EL.create / SQR.create read their three / four random numbers off the stream *)
  Lemma g_el_create_eq x r1 r2 g1 h1 g2 h2 b bitspace t l sec :
    g_el_create G gmul gone ginv Hsh gmodulus x r1 r2 g1 h1 g2 h2 b bitspace t l sec =
    match sec with
    | w :: n1 :: n2 :: rest => Ok (el_create G gmul gone ginv Hsh x r1 r2 g1 h1 g2 h2 (w, n1, n2), rest)
    | _ => Raise OutOfFuel
    end.
  Proof. destruct sec as [|w [|n1 [|n2 rest]]]; reflexivity. Qed.

  Lemma g_sqr_create_eq x r1 gg hh b bitspace sec :
    g_sqr_create G gmul gone ginv Hsh gmodulus x r1 gg hh b bitspace sec =
    match sec with
    | r2 :: w :: n1 :: n2 :: rest => Ok (sqr_create G gmul gone ginv Hsh x r1 gg hh (r2, w, n1, n2), rest)
    | _ => Raise OutOfFuel
    end.
  Proof. destruct sec as [|r2 [|w [|n1 [|n2 rest]]]]; reflexivity. Qed.

  Lemma el_check_refines e g1 h1 g2 h2 y1 y2 :
    g_el_check G gmul gone ginv Hsh e g1 h1 g2 h2 y1 y2 = Ok (el_check G gmul gone ginv Hsh e g1 h1 g2 h2 y1 y2).
  Proof. reflexivity. Qed.

  Lemma sqr_check_refines s gg hh y :
    g_sqr_check G gmul gone ginv Hsh s gg hh y = Ok (sqr_check G gmul gone ginv Hsh s gg hh y).
  Proof. reflexivity. Qed.

  Lemma generate_response_refines p s t : g_generate_response p s t = Ok (generate_response p s t).
  Proof. reflexivity. Qed.

  Lemma range_check_refines pd a b s t x y u v :
    g_range_check G gmul gone ginv geqb PKg PKh Hsh pd a b s t x y u v =
    Ok (range_check G gmul gone ginv geqb PKg PKh Hsh pd a b s t (x, y, u, v)).
  Proof.
    unfold g_range_check, range_check. rewrite ?el_check_refines, ?sqr_check_refines. cbn [bind]. cbv zeta.
    rewrite ?sqr_check_refines. cbn [bind]. f_equal.
    (* the verdict is the conjunction of the same tests, in whatever order the source states them *)
    all: repeat match goal with |- context [geqb ?x ?y] => generalize (geqb x y); intro end.
    all: repeat match goal with |- context [el_check ?a1 ?a2 ?a3 ?a4 ?a5 ?a6 ?a7 ?a8 ?a9 ?a10 ?a11 ?a12] =>
                             generalize (el_check a1 a2 a3 a4 a5 a6 a7 a8 a9 a10 a11 a12); intro end.
    all: repeat match goal with |- context [sqr_check ?a1 ?a2 ?a3 ?a4 ?a5 ?a6 ?a7 ?a8 ?a9] =>
                             generalize (sqr_check a1 a2 a3 a4 a5 a6 a7 a8 a9); intro end.
    all: generalize (x >? 0), (y >? 0); intros; btauto.
  Qed.

  Lemma create_attest_pair_refines v a b bitspace rd rest :
    g_create_attest_pair G gmul gone ginv PKg PKh Hsh gmodulus v a b bitspace (queues_of rd) (sec_of rd ++ rest) =
    bind (create_attest_pair G gmul gone ginv PKg PKh Hsh v a b rd) (fun r => Ok (r, rest)).
  Proof.
    unfold g_create_attest_pair, create_attest_pair, queues_of, sec_of.
    destruct rd as [r ra raa w dm4 dm1 dr1 dr2 [[e1 e2] e3] [[[s1 s2] s3] s4] [[[q1 q2] q3] q4]].
    cbn [nth draw1 bind d_r d_ra d_raa d_w d_m4 d_m1 d_r1 d_r2 d_el d_sq1 d_sq2 sec3 sec4 app]. cbv zeta.
    unfold py_isqrt.
    repeat (match goal with
            | |- context [if ?c then Raise ?e else _] => destruct c; cbn [bind draw_until]; [reflexivity|]
            end).
    reflexivity.
  Qed.

  Lemma draw1_inv q x : draw1 q = Ok x -> exists tl, q = x :: tl.
  Proof. destruct q; cbn; intros H; inversion H. eexists; reflexivity. Qed.

  (* the loop `while not x: x = draw % k` either accepts a draw that is non-zero modulo k, or fails - never with ValueError *)
  Lemma draw_until_cases q k r : draw_until q k = r ->
    match r with
    | Ok x => exists d, x = d mod k /\ (k =? 0) = false /\ (d mod k =? 0) = false
    | Raise e => e <> ValueError
    end.
  Proof.
    intros <-. induction q as [|d q IH]; cbn [draw_until]; [discriminate|].
    destruct (k =? 0) eqn:Ek; [discriminate|]. destruct (d mod k =? 0) eqn:Ed; [exact IH|]. exists d. auto.
  Qed.

  Lemma sec_draw_inv sec x rest : sec_draw sec = Ok (x, rest) -> sec = x :: rest.
  Proof. destruct sec; cbn; intros H; inversion H. reflexivity. Qed.

  (* One walk through the translated builder, whatever the queues and the stream contain (rejected draws included):
     what it returns is what the hand model returns on the draws it accepted, and ValueError can only come from the
     square root of a negative number. *)
  Lemma create_attest_pair_cases v a b bitspace rq sec :
    match g_create_attest_pair G gmul gone ginv PKg PKh Hsh gmodulus v a b bitspace rq sec with
    | Ok (r, _) => exists rd, create_attest_pair G gmul gone ginv PKg PKh Hsh v a b rd = Ok r
    | Raise e => e = ValueError -> exists w, w * w * (v - a + 1) * (b - v + 1) < 0
    end.
  Proof.
    unfold g_create_attest_pair. cbv zeta.
    destruct (nth 0 rq []) as [|r0 ?]; cbn [draw1 bind]; [discriminate|].
    destruct (nth 1 rq []) as [|ra ?]; cbn [draw1 bind]; [discriminate|].
    destruct (nth 2 rq []) as [|raa ?]; cbn [draw1 bind]; [discriminate|].
    destruct (nth 3 rq []) as [|w ?]; cbn [draw1 bind]; [discriminate|].
    unfold py_isqrt. set (mst := w * w * (v - a + 1) * (b - v + 1)).
    destruct (mst <? 0) eqn:E0; cbn [bind]; [intros _; exists w; fold mst; lia|].
    destruct (draw_until (nth 4 rq []) (Z.sqrt mst - 1)) as [m4|e4] eqn:U4; cbn [bind]; apply draw_until_cases in U4;
      [destruct U4 as (d4 & -> & K4 & N4)|intros He; destruct (U4 He)].
    destruct (draw_until (nth 5 rq []) _) as [m1|e5] eqn:U5; cbn [bind]; apply draw_until_cases in U5;
      [destruct U5 as (d1 & -> & K5 & N5)|intros He; destruct (U5 He)].
    destruct (draw_until (nth 6 rq []) _) as [r1|e6] eqn:U6; cbn [bind]; apply draw_until_cases in U6;
      [destruct U6 as (d6 & -> & K6 & N6)|intros He; destruct (U6 He)].
    destruct (draw_until (nth 7 rq []) _) as [r2|e7] eqn:U7; cbn [bind]; apply draw_until_cases in U7;
      [destruct U7 as (d7 & -> & K7 & N7)|intros He; destruct (U7 He)].
    rewrite g_el_create_eq. destruct sec as [|ew [|en1 [|en2 sA]]]; cbn [bind]; try discriminate.
    rewrite g_sqr_create_eq. destruct sA as [|a1 [|a2 [|a3 [|a4 sB]]]]; cbn [bind]; try discriminate.
    rewrite g_sqr_create_eq. destruct sB as [|b1 [|b2 [|b3 [|b4 sC]]]]; cbn [bind]; try discriminate.
    exists (MkRR r0 ra raa w d4 d1 d6 d7 (ew, en1, en2) (a1, a2, a3, a4) (b1, b2, b3, b4)).
    unfold create_attest_pair. cbn [d_r d_ra d_raa d_w d_m4 d_m1 d_r1 d_r2 d_el d_sq1 d_sq2]. cbv zeta.
    fold mst. rewrite E0, K4, N4, K5, N5, K6, N6, N7. reflexivity.
  Qed.

  Lemma create_attest_pair_sound v a b bitspace rq sec r rest :
    g_create_attest_pair G gmul gone ginv PKg PKh Hsh gmodulus v a b bitspace rq sec = Ok (r, rest) ->
    exists rd, create_attest_pair G gmul gone ginv PKg PKh Hsh v a b rd = Ok r.
  Proof. intros H. pose proof (create_attest_pair_cases v a b bitspace rq sec) as Hc. rewrite H in Hc. exact Hc. Qed.

  Lemma draw_until_m1 q : draw_until q (-1) = Raise OutOfFuel.
  Proof.
    induction q as [|d q IH]; [reflexivity|]. cbn [draw_until]. replace (-1 =? 0) with false by reflexivity.
    pose proof (Z.mod_neg_bound d (-1) ltac:(lia)). destruct (d mod -1 =? 0) eqn:E; [exact IH|lia].
  Qed.

  Lemma gen_range_inside_not_refused_l v a b bitspace rq sec : a <= v <= b ->
    g_create_attest_pair G gmul gone ginv PKg PKh Hsh gmodulus v a b bitspace rq sec <> Raise ValueError.
  Proof.
    intros Hv H. pose proof (create_attest_pair_cases v a b bitspace rq sec) as Hc. rewrite H in Hc.
    destruct (Hc eq_refl) as (w & Hw). pose proof (mst_nonneg w v a b Hv). lia.
  Qed.

  Lemma gen_range_outside_unbuildable_l v a b bitspace rq sec : a <= b -> v < a \/ b < v ->
    g_create_attest_pair G gmul gone ginv PKg PKh Hsh gmodulus v a b bitspace rq sec = Raise ValueError \/
    g_create_attest_pair G gmul gone ginv PKg PKh Hsh gmodulus v a b bitspace rq sec = Raise OutOfFuel.
  Proof.
    intros Hab Hout. unfold g_create_attest_pair. cbv zeta.
    destruct (nth 0 rq []) as [|r0 ?]; [right; reflexivity|]. cbn [draw1 bind].
    destruct (nth 1 rq []) as [|ra ?]; [right; reflexivity|]. cbn [draw1 bind].
    destruct (nth 2 rq []) as [|raa ?]; [right; reflexivity|]. cbn [draw1 bind].
    destruct (nth 3 rq []) as [|w ?]; [right; reflexivity|]. cbn [draw1 bind].
    unfold py_isqrt. set (mst := w * w * (v - a + 1) * (b - v + 1)).
    pose proof (mst_nonpos w v a b Hab Hout) as Hmst. fold mst in Hmst.
    destruct (mst <? 0) eqn:E0; [left; reflexivity|]. right. cbn [bind].
    assert (mst = 0) by lia. rewrite H. change (Z.sqrt 0 - 1) with (-1). rewrite draw_until_m1. reflexivity.
  Qed.

  Lemma gen_range_complete_l : abelian_group G gmul gone ginv -> (forall x, geqb x x = true) ->
    forall v a b bitspace rq sec pub priv rest s t resp,
    g_create_attest_pair G gmul gone ginv PKg PKh Hsh gmodulus v a b bitspace rq sec = Ok ((pub, priv), rest) ->
    0 <= p_m2 priv -> 0 < s -> 0 < t ->
    g_generate_response priv s t = Ok resp ->
    let '(x, y, u, w) := resp in
    g_range_check G gmul gone ginv geqb PKg PKh Hsh pub a b s t x y u w = Ok true.
  Proof.
    intros Hg R v a b bitspace rq sec pub priv rest s t resp Hc Hm2 Hs Ht Hr.
    destruct (create_attest_pair_sound _ _ _ _ _ _ _ _ Hc) as (rd & Hrd).
    rewrite generate_response_refines in Hr. inversion Hr; subst resp; clear Hr.
    pose proof (range_complete_l G gmul gone ginv geqb PKg PKh Hsh Hg R v a b rd pub priv s t Hrd Hm2 Hs Ht) as Hok.
    unfold generate_response in *. rewrite range_check_refines. f_equal. exact Hok.
  Qed.
  (* what the verifier can draw (create_challenges over _safe_rndint), for every content of the queues *)
  Lemma challenges_large rq s t : g_pb_create_challenges G PKg gmodulus rq = Ok (s, t) ->
    (s <? LARGE_INTEGER) = false /\ (t <? LARGE_INTEGER) = false.
  Proof.
    unfold g_pb_create_challenges. cbv zeta.
    destruct (g_safe_rndint _ (nth 0 rq [])) as [s0|] eqn:E0; [|discriminate]. cbn [bind].
    destruct (g_safe_rndint _ (nth 1 rq [])) as [t0|] eqn:E1; [|discriminate]. cbn [bind].
    intros [= <- <-]. apply draw_while_exit in E0, E1. auto.
  Qed.

  (* every challenge the verifier can draw is answered honestly by the prover - never with the random garbage
     meant for challenges that are "too small" *)
  Lemma challenge_domain_is_answered_l rq s t priv rq' : g_pb_create_challenges G PKg gmodulus rq = Ok (s, t) ->
    g_pb_create_challenge_response G PKg gmodulus priv s t rq' = Ok (generate_response priv s t).
  Proof.
    intros H. destruct (challenges_large rq s t H) as [Hs Ht]. unfold g_pb_create_challenge_response.
    (* whatever way the guard is written: it cannot hold for values the loop of _safe_rndint lets through *)
    match goal with |- (if ?c then _ else _) = _ => destruct c eqn:Eg end; [exfalso; unfold LARGE_INTEGER in *; lia|].
    reflexivity.
  Qed.

  Lemma gen_honest_range_exchange_accepted_l : abelian_group G gmul gone ginv -> (forall x, geqb x x = true) ->
    forall v a b bitspace rq sec pub priv rest crq s t rq',
    g_create_attest_pair G gmul gone ginv PKg PKh Hsh gmodulus v a b bitspace rq sec = Ok ((pub, priv), rest) ->
    0 <= p_m2 priv -> g_pb_create_challenges G PKg gmodulus crq = Ok (s, t) ->
    exists x y u w, g_pb_create_challenge_response G PKg gmodulus priv s t rq' = Ok (x, y, u, w) /\
                    g_range_check G gmul gone ginv geqb PKg PKh Hsh pub a b s t x y u w = Ok true.
  Proof.
    intros Hg Hr v a b bitspace rq sec pub priv rest crq s t rq' Hc Hm2 Hd.
    rewrite (challenge_domain_is_answered_l crq s t priv rq' Hd).
    destruct (challenges_large crq s t Hd) as [Hs Ht]. unfold LARGE_INTEGER in *.
    pose proof (gen_range_complete_l Hg Hr v a b bitspace rq sec pub priv rest s t
                  (generate_response priv s t) Hc Hm2 ltac:(lia) ltac:(lia) (generate_response_refines priv s t)) as Hok.
    unfold generate_response in *. eexists _, _, _, _. split; [reflexivity|exact Hok].
  Qed.
End Refine.

Section RefineDriver.
  Variable A R : Type.
  Variable sha : bytes -> Z.
  Variable proc : A -> option bytes -> R -> res A.
  Variable hon : Z -> R -> res bool.
  Variable empty_agg : A.
  Variable alg_honesty : bool.

  (* Both sides are evaluated along the same case analysis, outermost test first, so that every split discards
     the branches it rules out on both sides at once. *)
  Lemma on_challenge_response_refines st hh resp d b q :
    g_on_challenge_response A R sha proc hon empty_agg alg_honesty st hh resp d b q =
    on_challenge_response sha proc hon empty_agg alg_honesty st hh resp d b q.
  Proof.
    unfold g_on_challenge_response, on_challenge_response, match_challenge, next_challenge, pend_pop, pend_has, list_remove,
      for_find_assign.
    cbn.
    destruct (pend_get (vs_pending st) hh) as [hc|]; [|reflexivity].
    destruct (vs_active st); cbn; [|reflexivity].
    destruct (existsb (Z.eqb hh) (vs_hashed st)); cbn;
      [destruct (for_remove_first (fun challenge : bytes => sha challenge =? hh) (vs_chals st) None) as [o l]; cbn|].
    all: destruct (hc <? 0); cbn.
    all: match goal with
         | |- context [proc ?g ?c ?r] => destruct (proc g c r) as [a|e]; cbn; [|reflexivity]
         | |- context [hon ?v ?r] => destruct (hon v r) as [[|]|e]; cbn; try reflexivity
         end.
    all: destruct (Z.of_nat (length _) =? 0); cbn; try reflexivity.
    (* what to send next *)
    all: destruct (alg_honesty && d); cbn.
    all: try match goal with |- context [fresh_honesty sha ?p ?k None] =>
               destruct (fresh_honesty sha p k None) as [[[|x c]|]|e]; cbn; try reflexivity end.
    all: try match goal with |- context [pend_get ?p (sha (?x :: ?c))] =>
               destruct (pend_get p (sha (x :: c))); cbn; try reflexivity end.
    all: match goal with |- context [find ?f ?l] => destruct (find f l) as [[|y c']|]; reflexivity end.
  Qed.

  Local Notation gstep := (g_on_challenge_response A R sha proc hon empty_agg alg_honesty).

  Lemma gen_not_outstanding_ignored st hh resp d b q : pend_get (vs_pending st) hh = None ->
    gstep st hh resp d b q = Ok (st, []).
  Proof. rewrite on_challenge_response_refines. apply not_outstanding_ignored_l. Qed.

  Lemma gen_ended_is_silent st hh resp d b q : vs_active st = false ->
    exists st' : vstate A, gstep st hh resp d b q = Ok (st', []) /\ vs_active st' = false /\ vs_agg st' = vs_agg st /\
                vs_hashed st' = vs_hashed st /\ vs_chals st' = vs_chals st.
  Proof. rewrite on_challenge_response_refines. apply ended_is_silent_l. Qed.

  Lemma gen_answer_matched_by_hash st hh resp d b q hc st' out : vs_ok sha st -> vs_active st = true ->
    pend_get (vs_pending st) hh = Some hc -> hc < 0 -> In hh (vs_hashed st) ->
    gstep st hh resp d b q = Ok (st', out) ->
    exists c, In c (vs_chals st) /\ sha c = hh /\ proc (vs_agg st) (Some c) resp = Ok (vs_agg st') /\
      vs_hashed st' = remove_first hh (vs_hashed st) /\ vs_ok sha st' /\
      (vs_hashed st' = [] -> out = [VCallback (vs_agg st')] /\ vs_active st' = false).
  Proof. rewrite on_challenge_response_refines. apply answer_matched_by_hash_l. Qed.

  Lemma gen_failed_honesty_check_ends st hh resp d b q hc : vs_active st = true ->
    pend_get (vs_pending st) hh = Some hc -> 0 <= hc -> hon hc resp = Ok false ->
    exists st' : vstate A, gstep st hh resp d b q = Ok (st', [VCallback empty_agg]) /\ vs_active st' = false.
  Proof. rewrite on_challenge_response_refines. apply failed_honesty_check_ends_l. Qed.

  Lemma run_with_ext f g : (forall st hh resp d b q, f st hh resp d b q = g st hh resp d b q) ->
    forall answers st, @run_with A R f st answers = run_with g st answers.
  Proof.
    intros H. induction answers as [|[[hh resp] [[d b] q]] tl IH]; intros st; [reflexivity|].
    cbn [run_with]. rewrite H. destruct (g st hh resp d b q) as [r|e]; [|reflexivity]. cbn [bind]. rewrite IH. reflexivity.
  Qed.

  Lemma gen_run_all_answers chals0 : NoDup (map sha chals0) -> alg_honesty = false ->
    forall answers st, vs_ok sha st -> vs_active st = true -> all_outstanding st -> incl (vs_chals st) chals0 ->
    Permutation (map fst answers) (vs_hashed st) -> vs_hashed st <> [] ->
    forall afin, fold_answers sha proc chals0 (vs_agg st) answers = Ok afin ->
    exists st' : vstate A, run_with gstep st (map (fun a => (fst a, snd a, (false, 0, @nil bytes))) answers) = Ok (st', [VCallback afin]) /\
                vs_agg st' = afin /\ vs_active st' = false /\ vs_hashed st' = [] /\ vs_chals st' = [].
  Proof.
    intros Hnd Hh answers st. rewrite (run_with_ext _ _ on_challenge_response_refines). apply (run_all_answers A R sha proc hon empty_agg alg_honesty chals0 Hnd Hh).
  Qed.
End RefineDriver.

Section RefineBoneh.
  Variable G : Type.
  Variable gmul : G -> G -> G.
  Variable gone : G.
  Variable ginv : G -> G.
  Variable geqb : G -> G -> bool.
  Variable PKg : G.
  Variable SKt1 : Z.
  Lemma decode_refines ms c : g_decode G gmul gone ginv geqb PKg SKt1 ms c = Ok (decode G gmul gone ginv geqb PKg SKt1 ms c).
  Proof. reflexivity. Qed.
  Lemma challenge_response_refines c :
    g_create_challenge_response G gmul gone ginv geqb PKg SKt1 c = Ok (challenge_response G gmul gone ginv geqb PKg SKt1 c).
  Proof. unfold g_create_challenge_response, challenge_response. rewrite decode_refines. cbn [bind]. destruct (decode _ _ _ _ _ _ _ _ _); reflexivity. Qed.
  Lemma process_challenge_response_refines m r : g_process_challenge_response m r = rm_incr m r.
  Proof. unfold g_process_challenge_response. destruct (rm_incr m r); reflexivity. Qed.
  Lemma create_empty_refines : g_create_empty_relativity_map = Ok rm_empty.
  Proof. reflexivity. Qed.
  Lemma qdiv_inject w v : (v =? 0) = false -> qdiv (inject_Z w) (inject_Z v) = Ok (inject_Z w / inject_Z v)%Q.
  Proof.
    intros Hv. unfold qdiv. destruct (Qeq_bool (inject_Z v) 0) eqn:E; [|reflexivity].
    apply Qeq_bool_eq in E. unfold Qeq, inject_Z in E; cbn in E. lia.
  Qed.
  Lemma rm_lookup_ok m k : 0 <= k <= 3 -> rm_lookup m k = Ok (rget m k).
  Proof. intros Hk. unfold rm_lookup. destruct ((k =? 0) || (k =? 1) || (k =? 2) || (k =? 3)) eqn:E; [reflexivity|lia]. Qed.

  (* the loop `for k, v in expected.items()` with a body that does what one round of match_loop does *)
  Lemma for_items_keys_match e o body :
    (forall k acc, 0 <= k <= 3 ->
       body k (rget e k) acc =
       Ok (if rget e k <? rget o k then inl 0%Q
           else if (rget e k =? 0) || (rget o k =? 0) then inr acc
           else inr (acc * (inject_Z (rget o k) / inject_Z (rget e k)))%Q)) ->
    forall ks acc, Forall (fun k => 0 <= k <= 3) ks ->
    bind (for_items_keys ks e body acc) (fun r => match r with inl x => Ok x | inr m => Ok m end) = Ok (match_loop ks e o acc).
  Proof.
    intros Hbody. induction ks as [|k ks IH]; intros acc Hks; [reflexivity|]. inversion Hks as [|? ? Hk Hks']; subst.
    cbn [for_items_keys match_loop]. rewrite (Hbody k acc Hk). cbn [bind].
    destruct (rget e k <? rget o k); [reflexivity|].
    destruct ((rget e k =? 0) || (rget o k =? 0)); apply IH; exact Hks'.
  Qed.

  Lemma relativity_match_refines e o : g_binary_relativity_match e o = Ok (relativity_match e o).
  Proof.
    unfold g_binary_relativity_match, relativity_match, for_items. cbv zeta.
    apply for_items_keys_match; [|repeat constructor; lia].
    intros k acc Hk. rewrite (rm_lookup_ok o k Hk). cbn [bind por].
    destruct (rget e k <? rget o k); [reflexivity|].
    destruct (rget e k =? 0) eqn:Ev; [reflexivity|]. cbn [bind orb].
    destruct (rget o k =? 0); [reflexivity|]. rewrite (qdiv_inject _ _ Ev). reflexivity.
  Qed.
  Lemma certainty_refines e o : g_binary_relativity_certainty e o = Ok (certainty e o).
  Proof. unfold g_binary_relativity_certainty, certainty. rewrite relativity_match_refines. reflexivity. Qed.
End RefineBoneh.

