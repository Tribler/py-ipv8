(* Invariants of the task manager model and the lemmas behind task_name_exclusive, replace_order,
   shutdown_refuses, shutdown_cancels_all; and what holds of a manager that is shut down and has no live task
   (quiet_out, tstep_quiet, tstep_settled), on which P11_lifecycle.v builds. *)
From Coq Require Import ZArith List Bool Lia.
From IPV8V Require Import model.M11_tasks.
Import ListNotations.
Open Scope Z_scope.

Lemma name_eqb_eq a b : name_eqb a b = true <-> a = b.
Proof.
  destruct a, b; simpl; split; intro H; try discriminate; try congruence.
  - apply Z.eqb_eq in H. congruence.
  - inversion H. apply Z.eqb_refl.
  - apply andb_true_iff in H. destruct H as [H1 H2]. apply Z.eqb_eq in H1, H2. congruence.
  - inversion H. rewrite !Z.eqb_refl. reflexivity.
Qed.
Lemma name_eqb_refl a : name_eqb a a = true.
Proof. apply name_eqb_eq. reflexivity. Qed.
Lemma name_eqb_neq a b : name_eqb a b = false <-> a <> b.
Proof.
  split.
  - intros H E. apply name_eqb_eq in E. congruence.
  - intros H. destruct (name_eqb a b) eqn:E; [apply name_eqb_eq in E; contradiction|reflexivity].
Qed.

Lemma nlookup_nset_same n v m : nlookup n (nset n v m) = Some v.
Proof.
  induction m as [|[k w] r IH]; simpl.
  - rewrite name_eqb_refl. reflexivity.
  - destruct (name_eqb k n) eqn:E; simpl; rewrite E; [reflexivity|exact IH].
Qed.
Lemma nlookup_nset_other n n' v m : n <> n' -> nlookup n' (nset n v m) = nlookup n' m.
Proof.
  intros Hne. induction m as [|[k w] r IH]; simpl.
  - apply name_eqb_neq in Hne. rewrite Hne. reflexivity.
  - destruct (name_eqb k n) eqn:E; simpl.
    + apply name_eqb_eq in E. subst k. apply name_eqb_neq in Hne. rewrite Hne. reflexivity.
    + destruct (name_eqb k n'); [reflexivity|exact IH].
Qed.
Lemma nlookup_ndel_same n m : nlookup n (ndel n m) = None.
Proof.
  induction m as [|[k w] r IH]; simpl; [reflexivity|].
  destruct (name_eqb k n) eqn:E; simpl; [exact IH|]. rewrite E. exact IH.
Qed.
Lemma nlookup_ndel_other n n' m : n <> n' -> nlookup n' (ndel n m) = nlookup n' m.
Proof.
  intros Hne. induction m as [|[k w] r IH]; simpl; [reflexivity|].
  destruct (name_eqb k n) eqn:E; simpl.
  - apply name_eqb_eq in E. subst k. apply name_eqb_neq in Hne. rewrite Hne. exact IH.
  - destruct (name_eqb k n'); [reflexivity|exact IH].
Qed.
Lemma nlookup_In n m v : nlookup n m = Some v -> In n (map fst m).
Proof.
  induction m as [|[k w] r IH]; simpl; [discriminate|].
  destruct (name_eqb k n) eqn:E.
  - apply name_eqb_eq in E. intros _. now left.
  - intros H. right. exact (IH H).
Qed.

Lemma nth_error_upd {A} (l : list A) i f j :
  nth_error (upd l i f) j = if Nat.eqb j i then option_map f (nth_error l j) else nth_error l j.
Proof.
  revert i j. induction l as [|x r IH]; intros i j.
  - destruct i, j; simpl; try reflexivity; destruct (Nat.eqb j i); reflexivity.
  - destruct i, j; simpl; try reflexivity. apply IH.
Qed.
Lemma length_upd {A} (l : list A) i f : length (upd l i f) = length l.
Proof. revert i. induction l as [|x r IH]; intros [|i]; simpl; auto. Qed.

Lemma get_upd_task s tid f j :
  get (upd_task s tid f) j = if Nat.eqb j tid then option_map f (get s j) else get s j.
Proof. unfold get, upd_task; simpl. apply nth_error_upd. Qed.

Lemma get_add_ready s hs j : get (add_ready s hs) j = get s j.
Proof. reflexivity. Qed.

Lemma trun_cons s o r :
  trun s (o :: r) = (fst (trun (fst (tstep s o)) r), snd (tstep s o) ++ snd (trun (fst (tstep s o)) r)).
Proof. simpl. destruct (tstep s o) as [s1 o1]. simpl. destruct (trun s1 r). reflexivity. Qed.
Lemma process_all_cons s h r :
  process_all s (h :: r)
  = (fst (process_all (fst (process s h)) r), snd (process s h) ++ snd (process_all (fst (process s h)) r)).
Proof. simpl. destruct (process s h) as [s1 o1]. simpl. destruct (process_all s1 r). reflexivity. Qed.

Record inv (s : tm) : Prop := mkInv {
  inv_pend : forall n tid, nlookup n (pending s) = Some tid -> exists t, get s tid = Some t /\ t_name t = n;
  inv_track : forall tid t, get s tid = Some t -> live t = true -> nlookup (t_name t) (pending s) = Some tid;
  inv_ready : forall tid c, In (HCb (Some tid) c) (ready s) -> st_done s tid = true }.

Definition no_livep (s : tm) : Prop := forall tid t, get s tid = Some t -> live t = false.

Lemma get_lt s j t : get s j = Some t -> (j < length (tasks s))%nat.
Proof. unfold get. intros H. apply nth_error_Some. congruence. Qed.

(* one task, earlier and later: it keeps its name, is not revived, and stays done *)
Definition tle (t t' : task) : Prop :=
  t_name t' = t_name t /\ (live t' = true -> live t = true) /\ (is_done (t_st t) = true -> is_done (t_st t') = true).

Lemma tle_refl t : tle t t.
Proof. split; [reflexivity|split; intros H; exact H]. Qed.
Lemma tle_trans a b c : tle a b -> tle b c -> tle a c.
Proof. intros [N1 [L1 D1]] [N2 [L2 D2]]. split; [congruence|split; auto]. Qed.
Lemma tle_creq t : tle t (with_creq t).
Proof. split; [reflexivity|split; [|intros H; exact H]]. unfold live. simpl. rewrite andb_false_r. discriminate. Qed.
Lemma tle_cbs c t : tle t (with_cbs c t).
Proof. split; [reflexivity|split; intros H; exact H]. Qed.
Lemma tle_st x t : (is_done (t_st t) = true -> is_done x = true) -> tle t (with_st x t).
Proof.
  intros H. split; [reflexivity|split; [|exact H]]. unfold live. simpl.
  intros L. apply andb_true_iff in L. destruct L as [Lx Lc]. rewrite Lc, andb_true_r.
  destruct (is_done (t_st t)); [|reflexivity]. rewrite (H eq_refl) in Lx. discriminate.
Qed.
Lemma tle_finish t : tle t (with_cbs [] (with_st SDone t)).
Proof. apply (tle_trans _ (with_st SDone t)); [apply tle_st; reflexivity|apply tle_cbs]. Qed.

(* one manager, earlier and later: the shutdown flag is the same, every task of s is still there and has
   evolved as above; only if `fresh` may tasks have been created *)
Definition after (fresh : bool) (s s' : tm) : Prop :=
  shut s' = shut s
  /\ (if fresh then (length (tasks s) <= length (tasks s'))%nat else length (tasks s') = length (tasks s))
  /\ forall tid t t', get s tid = Some t -> get s' tid = Some t' -> tle t t'.

Lemma after_shut b s s' : after b s s' -> shut s' = shut s.
Proof. intros A. exact (proj1 A). Qed.
Lemma after_len_eq s s' : after false s s' -> length (tasks s') = length (tasks s).
Proof. intros A. exact (proj1 (proj2 A)). Qed.
Lemma after_tle b s s' tid t t' : after b s s' -> get s tid = Some t -> get s' tid = Some t' -> tle t t'.
Proof. intros A. exact (proj2 (proj2 A) tid t t'). Qed.

Lemma after_weaken b s s' : after false s s' -> after b s s'.
Proof. intros [H1 [H2 H3]]. split; [exact H1|split; [|exact H3]]. destruct b; [rewrite H2; apply le_n|exact H2]. Qed.

Lemma after_len b s s' : after b s s' -> (length (tasks s) <= length (tasks s'))%nat.
Proof. intros [_ [H _]]. destruct b; [exact H|rewrite H; apply le_n]. Qed.

(* the tasks of s are found again in s' *)
Lemma after_old b s s' tid t : after b s s' -> get s tid = Some t -> exists t', get s' tid = Some t' /\ tle t t'.
Proof.
  intros A H. destruct (get s' tid) as [t'|] eqn:E.
  - exists t'. split; [reflexivity|]. exact (after_tle _ _ _ _ _ _ A H E).
  - apply nth_error_None in E. pose proof (after_len _ _ _ A). apply get_lt in H. lia.
Qed.
(* and when nothing was created, the tasks of s' come from s *)
Lemma after_back s s' tid t' : after false s s' -> get s' tid = Some t' -> exists t, get s tid = Some t /\ tle t t'.
Proof.
  intros A H. destruct (get s tid) as [t|] eqn:E.
  - exists t. split; [reflexivity|]. exact (after_tle _ _ _ _ _ _ A E H).
  - apply nth_error_None in E. rewrite <- (after_len_eq _ _ A) in E. apply get_lt in H. lia.
Qed.

Lemma after_trans b a s1 s2 : after b a s1 -> after b s1 s2 -> after b a s2.
Proof.
  intros A1 A2. split; [|split].
  - rewrite (after_shut _ _ _ A2). exact (after_shut _ _ _ A1).
  - destruct A1 as [_ [L1 _]], A2 as [_ [L2 _]]. destruct b; [exact (Nat.le_trans _ _ _ L1 L2)|congruence].
  - intros tid t t2 H H2. destruct (after_old _ _ _ _ _ A1 H) as [t1 [H1 T1]].
    exact (tle_trans _ _ _ T1 (after_tle _ _ _ _ _ _ A2 H1 H2)).
Qed.

Lemma after_done b s s' tid : after b s s' -> st_done s tid = true -> st_done s' tid = true.
Proof.
  intros A. unfold st_done. destruct (get s tid) as [t|] eqn:E; [|discriminate].
  destruct (after_old _ _ _ _ _ A E) as [t' [-> [_ [_ D]]]]. exact D.
Qed.

Lemma after_dead s s' tid t' :
  after false s s' -> (forall t, get s tid = Some t -> live t = false) -> get s' tid = Some t' -> live t' = false.
Proof.
  intros A N H. destruct (after_back _ _ _ _ A H) as [t [E [_ [L _]]]].
  destruct (live t') eqn:Lt; [|reflexivity]. rewrite <- (N _ E). symmetry. apply L. reflexivity.
Qed.
Lemma after_no_live s s' : after false s s' -> no_livep s -> no_livep s'.
Proof. intros A N tid t'. apply (after_dead _ _ _ _ A). exact (N tid). Qed.

(* the elementary changes *)
Lemma same_after b s s' : tasks s' = tasks s -> shut s' = shut s -> after b s s'.
Proof.
  intros Ht Hs. apply after_weaken. split; [exact Hs|split; [rewrite Ht; reflexivity|]].
  unfold get. rewrite Ht. intros tid t t' H H'. rewrite H in H'. injection H' as <-. apply tle_refl.
Qed.
Definition after_refl b s : after b s s := same_after b s s eq_refl eq_refl.

Lemma upd_after s tid f : (forall t, get s tid = Some t -> tle t (f t)) -> after false s (upd_task s tid f).
Proof.
  intros G. split; [reflexivity|split; [apply length_upd|]].
  intros j t t' H H'. rewrite get_upd_task, H in H'.
  destruct (Nat.eqb_spec j tid) as [->|_]; injection H' as <-; [exact (G _ H)|apply tle_refl].
Qed.

Lemma finish_after s tid : after false s (finish s tid).
Proof.
  unfold finish. destruct (get s tid) as [t|]; [|apply after_refl].
  eapply after_trans; [apply upd_after|apply same_after; reflexivity]. intros t0 _. apply tle_finish.
Qed.

Lemma do_cancel_after s tid : after false s (do_cancel s tid).
Proof.
  unfold do_cancel. destruct (get s tid) as [t|] eqn:Eg; [|apply after_refl].
  assert (C : after false s (upd_task s tid with_creq)) by (apply upd_after; intros t0 _; apply tle_creq).
  destruct (t_st t) eqn:Es; [exact C| |exact C|apply after_refl].
  destruct (t_kind t).
  - eapply after_trans; [apply upd_after|apply same_after; reflexivity].
    intros t0 H. replace t0 with t by congruence.
    eapply tle_trans; [apply tle_creq|apply tle_st]. simpl. rewrite Es. discriminate.
  - exact (after_trans _ _ _ _ C (finish_after _ tid)).
Qed.

Lemma cancel_pending_after s n : after false s (fst (cancel_pending s n)).
Proof.
  unfold cancel_pending. destruct (nlookup n (pending s)) as [tid|]; [|apply after_refl].
  destruct (st_done s tid); [apply after_refl|].
  exact (after_trans _ _ _ _ (do_cancel_after s tid) (same_after _ _ _ eq_refl eq_refl)).
Qed.

Lemma cancel_names_after ns : forall s, after false s (cancel_names s ns).
Proof.
  induction ns as [|n r IH]; intros s; [apply after_refl|].
  exact (after_trans _ _ _ _ (cancel_pending_after s n) (IH _)).
Qed.

(* register_task is the only place where a task is created, and it creates none once the manager is shut down *)
Lemma register_shut s n k : shut s = true -> register s n k = (s, RRefused).
Proof. intros H. unfold register. rewrite H. reflexivity. Qed.

Lemma register_after s n k : after (negb (shut s)) s (fst (register s n k)).
Proof.
  unfold register. destruct (shut s) eqn:Hs; [apply after_refl|]. destruct (is_active s n); [apply after_refl|].
  split; [symmetry; exact Hs|split].
  - simpl. rewrite app_length. apply Nat.le_add_r.
  - intros tid t t' H H'. unfold get in *. simpl in H'.
    rewrite nth_error_app1, H in H' by (apply nth_error_Some; congruence). injection H' as <-. apply tle_refl.
Qed.

Lemma run_cb_after s owner c : after (negb (shut s)) s (fst (run_cb s owner c)).
Proof.
  destruct c as [n|n]; simpl.
  - destruct owner as [tid|]; [|apply after_refl].
    destruct (nlookup n (pending s)) as [cur|]; [|apply after_refl].
    destruct (Nat.eqb cur tid); [apply same_after; reflexivity|apply after_refl].
  - pose proof (register_after s n KCoro) as H. destruct (register s n KCoro). exact H.
Qed.

Lemma process_after s h : after (negb (shut s)) s (fst (process s h)).
Proof.
  destruct h as [tid|tid|owner c]; simpl; [| |apply run_cb_after].
  - destruct (get s tid) as [t|] eqn:Eg; [|apply after_refl].
    destruct (t_st t) eqn:Es; try apply after_refl. apply after_weaken.
    destruct (t_creq t); [apply finish_after|]. apply upd_after.
    intros t0 H. replace t0 with t by congruence. apply tle_st. rewrite Es. discriminate.
  - destruct (get s tid) as [t|]; [|apply after_refl].
    destruct (t_st t); try apply after_refl. apply after_weaken, finish_after.
Qed.

Lemma process_all_after hs : forall s, after (negb (shut s)) s (fst (process_all s hs)).
Proof.
  induction hs as [|h r IH]; intros s; [apply after_refl|]. rewrite process_all_cons.
  pose proof (process_after s h) as A. pose proof (IH (fst (process s h))) as B. rewrite (after_shut _ _ _ A) in B.
  exact (after_trans _ _ _ _ A B).
Qed.

(* every operation except a Shutdown that takes effect is such a step: only shutdown_task_manager changes the flag,
   and once it is set nothing is created *)
Lemma tstep_after s o : (o = Shutdown -> shut s = true) -> after (negb (shut s)) s (fst (tstep s o)).
Proof.
  intros Hsd. destruct o as [n k|b k|n|n| |tid|tid|]; simpl.
  - pose proof (register_after s n k) as H. destruct (register s n k). exact H.
  - set (s0 := mkTM (tasks s) (pending s) (shut s) (counter s + 1) (ready s)).
    pose proof (register_after s0 (Anon b (counter s + 1)) k) as H. destruct (register s0 _ k).
    exact (after_trans _ _ _ _ (same_after _ s s0 eq_refl eq_refl) H).
  - apply after_weaken, cancel_pending_after.
  - pose proof (cancel_pending_after s n) as H. destruct (cancel_pending s n) as [s1 old]. apply after_weaken.
    refine (after_trans _ _ _ _ H _). destruct old as [tid|]; [|apply same_after; reflexivity].
    destruct (st_done s1 tid); [apply same_after; reflexivity|]. apply upd_after. intros t0 _. apply tle_cbs.
  - rewrite (Hsd eq_refl). apply after_refl.
  - destruct (get s tid) as [t|] eqn:Eg; [|apply after_refl].
    destruct (t_st t) eqn:Es; try apply after_refl. apply after_weaken. destruct (t_kind t); [|apply finish_after].
    eapply after_trans; [apply upd_after|apply same_after; reflexivity].
    intros t0 H. replace t0 with t by congruence. apply tle_st. rewrite Es. discriminate.
  - apply after_weaken, do_cancel_after.
  - exact (after_trans _ _ _ _ (same_after _ s (set_ready s []) eq_refl eq_refl) (process_all_after (ready s) (set_ready s []))).
Qed.

Lemma live_not_st_done s tid t : get s tid = Some t -> live t = true -> st_done s tid = false.
Proof.
  intros H L. unfold st_done. rewrite H. apply andb_true_iff in L. destruct L as [L _]. apply negb_true_iff, L.
Qed.

Lemma inv_same s s' : inv s -> tasks s' = tasks s -> pending s' = pending s -> incl (ready s') (ready s) -> inv s'.
Proof.
  intros [P T R] Ht Hp Hr. constructor; unfold st_done, get; rewrite Ht, ?Hp; [exact P|exact T|].
  intros tid c H. exact (R _ _ (Hr _ H)).
Qed.

Lemma upd_inv s tid f : inv s -> (forall t, get s tid = Some t -> tle t (f t)) -> inv (upd_task s tid f).
Proof.
  intros [P T R] G. pose proof (upd_after s tid f G) as A. constructor.
  - intros n j H. destruct (P _ _ H) as [t [Hg Hn]]. destruct (after_old _ _ _ _ _ A Hg) as [t' [Hg' [N' _]]].
    exists t'. split; [exact Hg'|congruence].
  - intros j t' H L. destruct (after_back _ _ _ _ A H) as [t [Hg [N' [L' _]]]]. rewrite N'. exact (T _ _ Hg (L' L)).
  - intros j c H. exact (after_done _ _ _ _ A (R _ _ H)).
Qed.

Lemma add_ready_inv s hs :
  inv s -> (forall tid c, In (HCb (Some tid) c) hs -> st_done s tid = true) -> inv (add_ready s hs).
Proof.
  intros [P T R] Hh. constructor; [exact P|exact T|].
  intros j c H. apply in_app_iff in H. destruct H as [H|H]; [exact (R _ _ H)|exact (Hh _ _ H)].
Qed.

Lemma ndel_inv s n :
  inv s -> (forall tid t, get s tid = Some t -> live t = true -> t_name t <> n) ->
  inv (set_pending s (ndel n (pending s))).
Proof.
  intros [P T R] Hn. constructor; simpl.
  - intros n' j H. destruct (name_eqb n n') eqn:E.
    + apply name_eqb_eq in E. subst n'. rewrite nlookup_ndel_same in H. discriminate.
    + apply name_eqb_neq in E. rewrite nlookup_ndel_other in H by assumption. exact (P _ _ H).
  - intros j t H L. rewrite nlookup_ndel_other; [exact (T _ _ H L)|].
    intros E. exact (Hn _ _ H L (eq_sym E)).
  - exact R.
Qed.

Lemma finish_inv s tid : inv s -> inv (finish s tid).
Proof.
  intros I. unfold finish. destruct (get s tid) as [t|] eqn:Eg; [|exact I].
  apply add_ready_inv; [apply upd_inv; [exact I|intros t0 _; apply tle_finish]|].
  intros j c H. apply in_map_iff in H. destruct H as [x [Hx _]]. injection Hx as <- _.
  unfold st_done. rewrite get_upd_task, Nat.eqb_refl, Eg. reflexivity.
Qed.

(* after cancel() the task is not live *)
Lemma do_cancel_inv s tid :
  inv s -> inv (do_cancel s tid) /\ forall t', get (do_cancel s tid) tid = Some t' -> live t' = false.
Proof.
  intros I. unfold do_cancel. destruct (get s tid) as [t|] eqn:Eg; [|split; [exact I|congruence]].
  assert (C : inv (upd_task s tid with_creq)) by (apply upd_inv; [exact I|intros t0 _; apply tle_creq]).
  assert (D : forall t', get (upd_task s tid with_creq) tid = Some t' -> live t' = false).
  { intros t' H. rewrite get_upd_task, Nat.eqb_refl, Eg in H. injection H as <-. apply andb_false_r. }
  destruct (t_st t) eqn:Es; [exact (conj C D)| |exact (conj C D)|].
  - destruct (t_kind t).
    + split.
      * apply add_ready_inv; [apply upd_inv; [exact I|]|intros j c [H|[]]; discriminate].
        intros t0 H. replace t0 with t by congruence.
        eapply tle_trans; [apply tle_creq|apply tle_st]. simpl. rewrite Es. discriminate.
      * intros t' H. rewrite get_add_ready, get_upd_task, Nat.eqb_refl, Eg in H. injection H as <-. reflexivity.
    + split; [exact (finish_inv _ tid C)|]. intros t'. exact (after_dead _ _ _ _ (finish_after _ tid) D).
  - split; [exact I|]. intros t' H. replace t' with t by congruence. unfold live. rewrite Es. reflexivity.
Qed.

(* cancel_pending_task: afterwards no live task carries that name *)
Lemma cancel_pending_inv s n :
  inv s -> inv (fst (cancel_pending s n))
  /\ forall tid t, get (fst (cancel_pending s n)) tid = Some t -> live t = true -> t_name t <> n.
Proof.
  intros I. unfold cancel_pending. destruct (nlookup n (pending s)) as [tid|] eqn:El.
  - destruct (st_done s tid) eqn:Ed; simpl.
    + split; [exact I|]. intros j t H L E. pose proof (inv_track s I _ _ H L) as Ht. rewrite E, El in Ht.
      injection Ht as <-. rewrite (live_not_st_done _ _ _ H L) in Ed. discriminate.
    + destruct (do_cancel_inv s tid I) as [I1 D1].
      assert (Hno : forall j t, get (do_cancel s tid) j = Some t -> live t = true -> t_name t <> n).
      { intros j t H L E. destruct (after_back _ _ _ _ (do_cancel_after s tid) H) as [t0 [G0 [N0 [L0 _]]]].
        pose proof (inv_track s I _ _ G0 (L0 L)) as Ht. rewrite <- N0, E, El in Ht. injection Ht as <-.
        rewrite (D1 _ H) in L. discriminate. }
      split; [apply ndel_inv; assumption|exact Hno].
  - split; [exact I|]. intros j t H L E. pose proof (inv_track s I _ _ H L) as Ht. congruence.
Qed.

Lemma cancel_pending_result s n tid :
  snd (cancel_pending s n) = Some tid -> nlookup n (pending s) = Some tid.
Proof.
  unfold cancel_pending. destruct (nlookup n (pending s)) as [j|]; [|discriminate].
  destruct (st_done s j); simpl; congruence.
Qed.

Lemma cancel_names_inv ns : forall s,
  inv s -> inv (cancel_names s ns)
  /\ forall tid t, get (cancel_names s ns) tid = Some t -> live t = true -> ~ In (t_name t) ns.
Proof.
  induction ns as [|n r IH]; intros s I; simpl; [split; [exact I|intros tid t _ _ []]|].
  destruct (cancel_pending_inv s n I) as [I1 N1]. destruct (IH _ I1) as [I2 N2]. split; [exact I2|].
  intros j t H L [E|Hin]; [|exact (N2 _ _ H L Hin)].
  destruct (after_back _ _ _ _ (cancel_names_after r _) H) as [t1 [G1 [Nm [L1 _]]]].
  apply (N1 _ _ G1 (L1 L)). congruence.
Qed.

Lemma register_inv s n k : inv s -> inv (fst (register s n k)).
Proof.
  intros I. pose proof (register_after s n k) as A. unfold register in *. destruct (shut s); [exact I|].
  destruct (is_active s n) eqn:Ea; [exact I|]. simpl in A. destruct I as [P T R]. constructor; simpl.
  - intros n' j H. destruct (name_eqb n n') eqn:E.
    + apply name_eqb_eq in E. subst n'. rewrite nlookup_nset_same in H. injection H as <-.
      eexists. unfold get. simpl. rewrite nth_error_app2, Nat.sub_diag by apply le_n. split; reflexivity.
    + apply name_eqb_neq in E. rewrite nlookup_nset_other in H by assumption.
      destruct (P _ _ H) as [t0 [G0 N0]]. destruct (after_old _ _ _ _ _ A G0) as [t' [G' [N' _]]].
      exists t'. split; [exact G'|congruence].
  - intros j t' H L. unfold get in H. simpl in H.
    destruct (Nat.lt_ge_cases j (length (tasks s))) as [Hlt|Hge].
    + rewrite nth_error_app1 in H by assumption. pose proof (T _ _ H L) as Ht.
      rewrite nlookup_nset_other; [exact Ht|]. intros ->. unfold is_active in Ea.
      rewrite Ht, (live_not_st_done _ _ _ H L) in Ea. discriminate.
    + rewrite nth_error_app2 in H by assumption.
      destruct (j - length (tasks s))%nat as [|d] eqn:Ej; [|destruct d; discriminate].
      injection H as <-. simpl. rewrite nlookup_nset_same. f_equal. lia.
  - intros j c H. apply (after_done _ _ _ _ A), (R j c).
    apply in_app_iff in H. destruct H as [H|H]; [exact H|]. destruct k; [destruct H as [H|[]]; discriminate|destruct H].
Qed.

(* replace_task's callback only ever runs once the task it replaced is done *)
Definition out_ok (o : out) : Prop :=
  match o with ORepl (Some _) b _ => b = true | _ => True end.

Lemma inv_no_output s : inv s -> inv s /\ Forall out_ok [].
Proof. intros I. split; [exact I|constructor]. Qed.

Lemma run_cb_inv s owner c :
  inv s -> (forall tid, owner = Some tid -> st_done s tid = true) ->
  inv (fst (run_cb s owner c)) /\ Forall out_ok (snd (run_cb s owner c)).
Proof.
  intros I Ho. destruct c as [n|n]; simpl.
  - destruct owner as [tid|]; [|exact (inv_no_output s I)].
    destruct (nlookup n (pending s)) as [cur|] eqn:El; [|exact (inv_no_output s I)].
    destruct (Nat.eqb_spec cur tid) as [->|_]; [|exact (inv_no_output s I)].
    apply inv_no_output, ndel_inv; [exact I|]. intros j t H L En. subst n.
    pose proof (inv_track s I _ _ H L) as Ht. rewrite El in Ht. injection Ht as <-.
    pose proof (Ho _ eq_refl) as Hd. rewrite (live_not_st_done _ _ _ H L) in Hd. discriminate.
  - pose proof (register_inv s n KCoro I) as I'. destruct (register s n KCoro) as [s' r]. split; [exact I'|].
    constructor; [|constructor]. destruct owner as [tid|]; [exact (Ho _ eq_refl)|exact Logic.I].
Qed.

Lemma process_inv s h :
  inv s -> (forall tid c, h = HCb (Some tid) c -> st_done s tid = true) ->
  inv (fst (process s h)) /\ Forall out_ok (snd (process s h)).
Proof.
  intros I Hh. destruct h as [tid|tid|owner c]; simpl.
  - destruct (get s tid) as [t|] eqn:Eg; [|exact (inv_no_output s I)].
    destruct (t_st t) eqn:Es; try exact (inv_no_output s I).
    destruct (t_creq t); [exact (inv_no_output _ (finish_inv s tid I))|].
    split; [|constructor; [exact Logic.I|constructor]]. apply upd_inv; [exact I|].
    intros t0 H. replace t0 with t by congruence. apply tle_st. rewrite Es. discriminate.
  - destruct (get s tid) as [t|]; [|exact (inv_no_output s I)].
    destruct (t_st t); try exact (inv_no_output s I). exact (inv_no_output _ (finish_inv s tid I)).
  - apply run_cb_inv; [exact I|]. intros tid ->. exact (Hh tid c eq_refl).
Qed.

Lemma process_all_inv hs : forall s,
  inv s -> (forall tid c, In (HCb (Some tid) c) hs -> st_done s tid = true) ->
  inv (fst (process_all s hs)) /\ Forall out_ok (snd (process_all s hs)).
Proof.
  induction hs as [|h r IH]; intros s I Hh; [exact (inv_no_output s I)|]. rewrite process_all_cons.
  destruct (process_inv s h I) as [I1 O1]; [intros tid c ->; apply (Hh tid c); left; reflexivity|].
  destruct (IH _ I1) as [I2 O2].
  - intros tid c H. apply (after_done _ _ _ _ (process_after s h)), (Hh tid c). right. exact H.
  - split; [exact I2|apply Forall_app; split; assumption].
Qed.

(* every operation keeps the invariant; replace callbacks are in order *)
Lemma tstep_inv s o : inv s -> inv (fst (tstep s o)) /\ Forall out_ok (snd (tstep s o)).
Proof.
  intros I. destruct o as [n k|b k|n|n| |tid|tid|]; simpl.
  - pose proof (register_inv s n k I) as I'. destruct (register s n k).
    split; [exact I'|constructor; [exact Logic.I|constructor]].
  - set (s0 := mkTM (tasks s) (pending s) (shut s) (counter s + 1) (ready s)).
    pose proof (register_inv s0 (Anon b (counter s + 1)) k (inv_same s s0 I eq_refl eq_refl (incl_refl _))) as I'.
    destruct (register s0 _ k). split; [exact I'|constructor; [exact Logic.I|constructor]].
  - exact (inv_no_output _ (proj1 (cancel_pending_inv s n I))).
  - destruct (cancel_pending_inv s n I) as [I1 _]. destruct (cancel_pending s n) as [s1 old]. simpl in I1.
    destruct old as [tid|].
    + destruct (st_done s1 tid) eqn:Ed.
      * apply inv_no_output, add_ready_inv; [exact I1|]. intros j c [H|[]]. injection H as <- _. exact Ed.
      * apply inv_no_output, upd_inv; [exact I1|intros t0 _; apply tle_cbs].
    + apply inv_no_output, add_ready_inv; [exact I1|]. intros j c [H|[]]. discriminate.
  - destruct (shut s); [exact (inv_no_output s I)|]. apply inv_no_output, cancel_names_inv.
    apply (inv_same s); [exact I|reflexivity|reflexivity|apply incl_refl].
  - destruct (get s tid) as [t|] eqn:Eg; [|exact (inv_no_output s I)].
    destruct (t_st t) eqn:Es; try exact (inv_no_output s I).
    destruct (t_kind t); [|exact (inv_no_output _ (finish_inv s tid I))].
    apply inv_no_output, add_ready_inv; [apply upd_inv; [exact I|]|intros j c [H|[]]; discriminate].
    intros t0 H. replace t0 with t by congruence. apply tle_st. rewrite Es. discriminate.
  - exact (inv_no_output _ (proj1 (do_cancel_inv s tid I))).
  - apply process_all_inv; [|exact (inv_ready s I)]. apply (inv_same s); [exact I|reflexivity|reflexivity|intros h []].
Qed.

Lemma inv_init : inv init_tm.
Proof.
  constructor; simpl.
  - intros n tid H. discriminate.
  - intros tid t H. destruct tid; discriminate.
  - intros tid c [].
Qed.

Lemma trun_inv ops : forall s, inv s -> inv (fst (trun s ops)) /\ Forall out_ok (snd (trun s ops)).
Proof.
  induction ops as [|o r IH]; intros s I; [exact (inv_no_output s I)|]. rewrite trun_cons.
  destruct (tstep_inv s o I) as [I1 O1]. destruct (IH _ I1) as [I2 O2].
  split; [exact I2|apply Forall_app; split; assumption].
Qed.

Definition reachable (s : tm) : Prop := exists ops, s = fst (trun init_tm ops).

Lemma reachable_inv s : reachable s -> inv s.
Proof. intros [ops ->]. apply trun_inv, inv_init. Qed.

(* register_task under a name whose task is still active (registered, unfinished, nobody cancelled
   it) raises and changes nothing *)
Lemma name_exclusive s tid t k :
  inv s -> shut s = false -> get s tid = Some t -> live t = true -> register s (t_name t) k = (s, RRaise).
Proof.
  intros I Hs Hg L. unfold register, is_active.
  rewrite Hs, (inv_track s I _ _ Hg L), (live_not_st_done _ _ _ Hg L). reflexivity.
Qed.

(* replace_task itself never starts or registers anything synchronously *)
Lemma replace_deferred s n :
  snd (tstep s (Replace n)) = [] /\ length (tasks (fst (tstep s (Replace n)))) = length (tasks s).
Proof.
  simpl. pose proof (after_len_eq _ _ (cancel_pending_after s n)) as A. destruct (cancel_pending s n) as [s1 old]. simpl in A.
  destruct old as [tid|]; [|exact (conj eq_refl A)].
  destruct (st_done s1 tid); [exact (conj eq_refl A)|]. split; [reflexivity|]. simpl. rewrite length_upd. exact A.
Qed.

Lemma no_live_iff s : no_live s = true <-> no_livep s.
Proof.
  unfold no_live, no_livep. rewrite forallb_forall. split.
  - intros H tid t Hg. apply nth_error_In, H, negb_true_iff in Hg. exact Hg.
  - intros H t Hin. apply In_nth_error in Hin. destruct Hin as [tid Hg]. rewrite (H tid t Hg). reflexivity.
Qed.

(* shutdown_task_manager asks every task that could still act to stop: a live task is registered under its
   name, and cancel_all_pending_tasks goes through all registered names *)
Lemma shutdown_no_live s :
  inv s -> shut s = false -> shut (fst (tstep s Shutdown)) = true /\ no_livep (fst (tstep s Shutdown)).
Proof.
  intros I Hs. simpl. rewrite Hs. set (s0 := mkTM (tasks s) (pending s) true (counter s) (ready s)).
  assert (I0 : inv s0) by (apply (inv_same s); [exact I|reflexivity|reflexivity|apply incl_refl]).
  destruct (cancel_names_inv (map fst (pending s)) s0 I0) as [_ N].
  pose proof (cancel_names_after (map fst (pending s)) s0) as A. split; [exact (after_shut _ _ _ A)|].
  intros tid t H. destruct (live t) eqn:L; [|reflexivity]. exfalso. apply (N _ _ H L).
  destruct (after_back _ _ _ _ A H) as [t0 [G0 [Nm [L0 _]]]]. rewrite Nm.
  exact (nlookup_In _ _ _ (inv_track s0 I0 _ _ G0 (L0 L))).
Qed.

(* once shut down and without a live task: nothing is created, nothing becomes live, whatever is attempted *)
Definition quiet_out (o : out) : Prop :=
  match o with
  | OStarted _ => False
  | OReg r => r = RRefused
  | ORepl _ _ r => r = RRefused
  end.

Lemma process_quiet s h : shut s = true -> no_livep s -> Forall quiet_out (snd (process s h)).
Proof.
  intros Hs N. destruct h as [tid|tid|owner [n|n]]; simpl.
  - destruct (get s tid) as [t|] eqn:Eg; [|constructor]. destruct (t_st t) eqn:Es; try constructor.
    destruct (t_creq t) eqn:Ec; [constructor|].
    pose proof (N _ _ Eg) as L. unfold live in L. rewrite Es, Ec in L. discriminate.
  - destruct (get s tid) as [t|]; [|constructor]. destruct (t_st t); constructor.
  - destruct owner as [tid|]; [|constructor]. destruct (nlookup n (pending s)) as [cur|]; [|constructor].
    destruct (Nat.eqb cur tid); constructor.
  - rewrite (register_shut s n KCoro Hs). constructor; [reflexivity|constructor].
Qed.

Lemma shut_after s s' : shut s = true -> after (negb (shut s)) s s' -> after false s s'.
Proof. intros Hs A. rewrite Hs in A. exact A. Qed.

Lemma process_all_quiet hs : forall s, shut s = true -> no_livep s -> Forall quiet_out (snd (process_all s hs)).
Proof.
  induction hs as [|h r IH]; intros s Hs N; [constructor|]. rewrite process_all_cons.
  pose proof (shut_after _ _ Hs (process_after s h)) as A.
  apply Forall_app. split; [exact (process_quiet s h Hs N)|]. apply IH; [|exact (after_no_live _ _ A N)].
  rewrite (after_shut _ _ _ A). exact Hs.
Qed.

Lemma tstep_quiet s o : shut s = true -> no_livep s ->
  after false s (fst (tstep s o)) /\ Forall quiet_out (snd (tstep s o)).
Proof.
  intros Hs N. split; [exact (shut_after _ _ Hs (tstep_after s o (fun _ => Hs)))|].
  destruct o as [n k|b k|n|n| |tid|tid|].
  - simpl. rewrite (register_shut s n k Hs). constructor; [reflexivity|constructor].
  - simpl. rewrite register_shut by exact Hs. constructor; [reflexivity|constructor].
  - constructor.
  - rewrite (proj1 (replace_deferred s n)). constructor.
  - simpl. rewrite Hs. constructor.
  - simpl. destruct (get s tid) as [t|]; [|constructor]. destruct (t_st t); try constructor.
    destruct (t_kind t); constructor.
  - constructor.
  - exact (process_all_quiet (ready s) (set_ready s []) Hs N).
Qed.

Lemma after_quiet s s' : after false s s' -> shut s = true -> no_livep s -> shut s' = true /\ no_livep s'.
Proof. intros A Hs N. split; [rewrite (after_shut _ _ _ A); exact Hs|exact (after_no_live _ _ A N)]. Qed.

Lemma trun_quiet ops : forall s, shut s = true -> no_livep s ->
  after false s (fst (trun s ops)) /\ Forall quiet_out (snd (trun s ops)).
Proof.
  induction ops as [|o r IH]; intros s Hs N; [split; [apply after_refl|constructor]|]. rewrite trun_cons.
  destruct (tstep_quiet s o Hs N) as [A1 O1]. destruct (after_quiet _ _ A1 Hs N) as [Hs1 N1].
  destruct (IH _ Hs1 N1) as [A2 O2]. split; [exact (after_trans _ _ _ _ A1 A2)|apply Forall_app; split; assumption].
Qed.

(* a manager that is shut down has no live task: the flag is only ever set by shutdown_task_manager *)
Lemma tstep_settled s o :
  inv s -> (shut s = true -> no_livep s) -> shut (fst (tstep s o)) = true -> no_livep (fst (tstep s o)).
Proof.
  intros I Hq Hs'. destruct (shut s) eqn:Hs; [exact (after_no_live _ _ (proj1 (tstep_quiet s o Hs (Hq eq_refl))) (Hq eq_refl))|].
  assert (K : o <> Shutdown -> shut (fst (tstep s o)) = false).
  { intros Hne. rewrite <- Hs. apply (after_shut (negb (shut s))), tstep_after. intros E. contradiction. }
  destruct o; try (rewrite K in Hs' by discriminate; discriminate). apply shutdown_no_live; assumption.
Qed.

Lemma trun_settled ops : forall s,
  inv s -> (shut s = true -> no_livep s) -> shut (fst (trun s ops)) = true -> no_livep (fst (trun s ops)).
Proof.
  induction ops as [|o r IH]; intros s I Hq; [exact Hq|]. rewrite trun_cons.
  apply IH; [apply tstep_inv, I|apply tstep_settled; assumption].
Qed.

Lemma reachable_settled s : reachable s -> shut s = true -> no_livep s.
Proof. intros [ops ->]. apply trun_settled; [apply inv_init|discriminate]. Qed.

Lemma shutdown_quiet s :
  inv s -> (shut s = true -> no_livep s) -> shut (fst (tstep s Shutdown)) = true /\ no_livep (fst (tstep s Shutdown)).
Proof.
  intros I Hq. destruct (shut s) eqn:Hs; [|exact (shutdown_no_live s I Hs)].
  simpl. rewrite Hs. exact (conj Hs (Hq eq_refl)).
Qed.

(* after shutdown_task_manager, whatever happens next: every register_* returns a completed future,
   no task is created, no task body starts, and no task is live *)
Lemma shutdown_final s ops :
  inv s -> (shut s = true -> no_livep s) ->
  let s1 := fst (tstep s Shutdown) in
  shut s1 = true /\ no_live s1 = true
  /\ Forall quiet_out (snd (trun s1 ops))
  /\ length (tasks (fst (trun s1 ops))) = length (tasks s1)
  /\ shut (fst (trun s1 ops)) = true
  /\ no_live (fst (trun s1 ops)) = true.
Proof.
  intros I Hq s1. destruct (shutdown_quiet s I Hq) as [Sh1 N1].
  destruct (trun_quiet ops s1 Sh1 N1) as [A O2]. destruct (after_quiet _ _ A Sh1 N1) as [Sh2 N2]. apply no_live_iff in N1, N2.
  split; [exact Sh1|split; [exact N1|split; [exact O2|split; [exact (after_len_eq _ _ A)|split; [exact Sh2|exact N2]]]]].
Qed.
