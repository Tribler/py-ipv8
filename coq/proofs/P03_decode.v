(* Decoder discipline: an accepted decode stays inside the buffer, moves forward, and every
   length-prefixed part really has its declared length.  A lemma x_l states theorem x of props/C03.v; it lives here
   because other proofs use it. *)
From Coq Require Import ZArith List Bool Lia ZifyBool.
From IPV8V Require Import lib.PyErr lib.Bytes lib.BE model.M02_wire proofs.P02_roundtrip.
Import ListNotations.
Open Scope Z_scope.

Lemma take_ok n off data bs : take n off data = Ok bs -> (off + n <= length data)%nat /\ length bs = n.
Proof.
  unfold take. destruct (off + n <=? length data)%nat eqn:E; [|discriminate]. intros H. inversion H; subst.
  apply Nat.leb_le in E. split; [exact E|]. rewrite firstn_length, skipn_length. lia.
Qed.

(* a field of fixed width: n bytes are taken, the end is n further *)
Lemma take_then_bounds {A} n off data (g : bytes -> A) v off' :
  (do b <- take n off data; Ok (g b, (off + n)%nat)) = Ok (v, off') -> (off <= off' <= length data)%nat.
Proof.
  destruct (take n off data) eqn:E; cbn [bind]; [|discriminate]. apply take_ok in E as [E _].
  intros H. inversion H; subst. lia.
Qed.

Section B.
Variable key_ok : bytes -> bool.
Notation unpack := (unpack key_ok).
Notation unpack_msg := (unpack_msg key_ok).

Definition fmt_in_bounds (f : fmt) : Prop := forall data off v off',
  (off <= length data)%nat -> unpack f data off = Ok (v, off') -> (off <= off' <= length data)%nat.
Definition msg_in_bounds (m : msgfmt) : Prop := forall data off vs off',
  (off <= length data)%nat -> unpack_msg m data off = Ok (vs, off') -> (off <= off' <= length data)%nat.

Lemma varlen_bounds lw base data off b o :
  varlen_unpack lw base data off = Ok (b, o) ->
  (off <= o <= length data)%nat /\ o = (off + lw + length b)%nat /\
  exists l, take lw off data = Ok l /\ length b = (Z.to_nat (be_decode l) * base)%nat.
Proof.
  unfold varlen_unpack. destruct (take lw off data) as [l|] eqn:El; cbn [bind]; [|discriminate].
  destruct (off + lw + Z.to_nat (be_decode l) * base <=? length data)%nat eqn:E; [|discriminate].
  intros H. inversion H; subst. apply Nat.leb_le in E.
  assert (Hl : length (firstn (Z.to_nat (be_decode l) * base) (skipn (off + lw) data)) = (Z.to_nat (be_decode l) * base)%nat).
  { rewrite firstn_length, skipn_length. lia. }
  rewrite Hl. split; [lia|]. split; [reflexivity|]. exists l. split; [reflexivity|reflexivity].
Qed.

Lemma addr_bounds ip_only data off a o :
  addr_unpack ip_only data off = Ok (a, o) -> (off <= o <= length data)%nat.
Proof.
  unfold addr_unpack. destruct (take 1 off data) as [t|] eqn:Et; cbn [bind]; [|discriminate].
  apply take_ok in Et as [Ht _].
  destruct (be_decode t =? 1).
  - destruct (take 6 (off + 1) data) as [b|] eqn:Eb; cbn [bind]; [|discriminate]. apply take_ok in Eb as [Hb _].
    intros H; inversion H; subst. lia.
  - destruct (be_decode t =? 3).
    + destruct (take 18 (off + 1) data) as [b|] eqn:Eb; cbn [bind]; [|discriminate]. apply take_ok in Eb as [Hb _].
      intros H; inversion H; subst. lia.
    + destruct (negb ip_only && (be_decode t =? 2)); [|discriminate].
      destruct (take 2 (off + 1) data) as [l|] eqn:El; cbn [bind]; [|discriminate].
      destruct (negb (utf8_valid _)); [discriminate|].
      destruct (take 2 (off + 3 + Z.to_nat (be_decode l)) data) as [p|] eqn:Ep; cbn [bind]; [|discriminate].
      apply take_ok in Ep as [Hp _]. intros H; inversion H; subst. lia.
Qed.

Lemma b_listbody f (IH : fmt_in_bounds f) n : forall data off vs off',
  (off <= length data)%nat -> unpack_n (unpack f) n data off = Ok (vs, off') -> (off <= off' <= length data)%nat.
Proof.
  induction n as [|n IHn]; intros data off vs off' Ho H; cbn [unpack_n] in H.
  - inversion H; subst. lia.
  - destruct (unpack f data off) as [[v o1]|] eqn:E1; cbn [bind] in H; [|discriminate].
    destruct (unpack_n (unpack f) n data o1) as [[vs' o2]|] eqn:E2; cbn [bind] in H; [|discriminate].
    inversion H; subst. pose proof (IH _ _ _ _ Ho E1) as B1.
    assert (Ho1 : (o1 <= length data)%nat) by lia. pose proof (IHn _ _ _ _ Ho1 E2) as B2. lia.
Qed.

Lemma bounds_all : (forall f, fmt_in_bounds f) /\ (forall m, msg_in_bounds m).
Proof.
  apply fmt_msg_ind.
  - intros ps data off v off' _. apply take_then_bounds.
  - intros data off v off' _. apply take_then_bounds.
  - intros data off v off' Ho H. cbn [M02_wire.unpack] in H. inversion H; subst. lia.
  - intros lw base utf8 data off v off' Ho H. cbn [M02_wire.unpack] in H.
    destruct (varlen_unpack lw base data off) as [[b o]|] eqn:E; cbn [bind] in H; [|discriminate].
    apply varlen_bounds in E as [E _].
    destruct utf8; [destruct (utf8_valid b); [|discriminate]|]; inversion H; subst; lia.
  - intros data off v off' _. apply take_then_bounds.
  - intros ip_only data off v off' Ho H. cbn [M02_wire.unpack] in H.
    destruct (addr_unpack ip_only data off) as [[a o]|] eqn:E; cbn [bind] in H; [|discriminate].
    apply addr_bounds in E. inversion H; subst. lia.
  - intros w data off v off' _. apply take_then_bounds.
  - intros e lw data off v off' Ho H. cbn [M02_wire.unpack] in H.
    destruct (take lw off data) as [l|] eqn:E; cbn [bind] in H; [|discriminate].
    cbv zeta in H.
    destruct (off + lw + Z.to_nat (le_decode l) * psize e <=? length data)%nat eqn:E2; [|discriminate].
    apply Nat.leb_le in E2. inversion H; subst. lia.
  - intros data off v off' Ho H. cbn [M02_wire.unpack] in H.
    destruct (addr_unpack true data off) as [[a o1]|] eqn:E1; cbn [bind] in H; [|discriminate].
    destruct (varlen_unpack 2 1 data o1) as [[k o2]|] eqn:E2; cbn [bind] in H; [|discriminate].
    apply addr_bounds in E1. apply varlen_bounds in E2 as [E2 _].
    destruct (key_ok k); [|discriminate]. inversion H; subst. lia.
  - intros lw f IH data off v off' Ho H. cbn [M02_wire.unpack] in H.
    destruct (take lw off data) as [l|] eqn:E; cbn [bind] in H; [|discriminate]. apply take_ok in E as [E _].
    destruct (unpack_n (unpack f) (Z.to_nat (be_decode l)) data (off + lw)) as [[vs o]|] eqn:E2; cbn [bind] in H; [|discriminate].
    apply (b_listbody f IH) in E2; [|lia]. inversion H; subst. lia.
  - intros m IH data off v off' Ho H. rewrite unpack_nested in H.
    destruct (take 2 off data) as [l|] eqn:E; cbn [bind] in H; [|discriminate]. cbv zeta in H.
    destruct (off + 2 + Z.to_nat (be_decode l) <=? length data)%nat eqn:E2; [|discriminate].
    apply Nat.leb_le in E2.
    destruct (unpack_msg m _ 0) as [[vs o]|]; cbn [bind] in H; [|discriminate]. inversion H; subst. lia.
  - intros data off vs off' Ho H. cbn in H. inversion H; subst. lia.
  - intros f IHf m IHm data off vs off' Ho H. rewrite unpack_msg_cons in H.
    destruct (unpack f data off) as [[v o1]|] eqn:E1; cbn [bind] in H; [|discriminate].
    destruct (unpack_msg m data o1) as [[vs' o2]|] eqn:E2; cbn [bind] in H; [|discriminate].
    inversion H; subst. pose proof (IHf _ _ _ _ Ho E1) as B1. assert (Ho1 : (o1 <= length data)%nat) by lia. pose proof (IHm _ _ _ _ Ho1 E2). lia.
Qed.

Lemma unpack_bounds_l f data off v off' :
  (off <= length data)%nat -> unpack f data off = Ok (v, off') -> (off <= off' <= length data)%nat.
Proof. apply (proj1 bounds_all). Qed.

Lemma unpack_msg_bounds_l m data off vs off' :
  (off <= length data)%nat -> unpack_msg m data off = Ok (vs, off') -> (off <= off' <= length data)%nat.
Proof. apply (proj2 bounds_all). Qed.

Lemma unpack_all_exact_l m data off vs :
  (off <= length data)%nat -> unpack_all key_ok m data off = Ok vs ->
  unpack_msg m data off = Ok (vs, length data).
Proof.
  intros Ho H. unfold unpack_all in H.
  destruct (unpack_msg m data off) as [[vs' o]|] eqn:E; cbn [bind] in H; [|discriminate].
  destruct (o <? length data)%nat eqn:El; [discriminate|]. inversion H; subst.
  apply unpack_msg_bounds_l in E as B; [|exact Ho]. apply Nat.ltb_ge in El.
  f_equal. f_equal. lia.
Qed.

(* the declared length of a length-prefixed field is the length of the decoded field *)
Lemma varlen_declared_l lw base data off b o :
  unpack (FVarLen lw base false) data off = Ok (VBytes b, o) ->
  exists l, take lw off data = Ok l /\ length b = (Z.to_nat (be_decode l) * base)%nat
            /\ o = (off + lw + length b)%nat /\ (o <= length data)%nat.
Proof.
  intros H. cbn [M02_wire.unpack] in H.
  destruct (varlen_unpack lw base data off) as [[b' o']|] eqn:E; cbn [bind] in H; [|discriminate].
  inversion H; subst. apply varlen_bounds in E as (B & Eo & l & Hl & Hlen).
  exists l. repeat split; auto. lia.
Qed.

Lemma nested_declared_l m data off vs o :
  unpack (FNested m) data off = Ok (VMsg vs, o) ->
  exists l, take 2 off data = Ok l /\ o = (off + 2 + Z.to_nat (be_decode l))%nat /\ (o <= length data)%nat.
Proof.
  intros H. rewrite unpack_nested in H.
  destruct (take 2 off data) as [l|] eqn:E; cbn [bind] in H; [|discriminate]. cbv zeta in H.
  destruct (off + 2 + Z.to_nat (be_decode l) <=? length data)%nat eqn:E2; [|discriminate].
  apply Nat.leb_le in E2.
  destruct (unpack_msg m _ 0) as [[vs' o']|]; cbn [bind] in H; [|discriminate]. inversion H; subst.
  exists l. repeat split; auto.
Qed.

End B.
