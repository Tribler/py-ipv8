(* C14 - from the structural invariant to the statements of spec/S14_kademlia.v; reachable tables;
   the concrete history used by the examples of props/C14.v. *)
From Coq Require Import ZArith List Bool Arith Lia.
From IPV8V Require Import lib.PyErr model.M14_routing spec.S14_kademlia
  proofs.P14_bits proofs.P14_bucket proofs.P14_table.
Import ListNotations.
Open Scope Z_scope.

Lemma is_prefix_iff p l : is_prefix p l <-> starts_with p l = true.
Proof. unfold is_prefix. symmetry. apply starts_with_iff. Qed.

Lemma valid_of_inv W cap me rt : inv W cap me rt -> valid_table W cap rt.
Proof.
  intros I. destruct (inv_mkRT W cap me rt I) as (t & -> & H).
  assert (At : forall k b, tget t k = Ok b ->
                 bucket_ok W cap k b /\ (k = [] \/ exists q x, k = q ++ [x] /\ starts_with q me = true))
    by (intros k b G; apply (wf_bucket_at W cap me k [] t b H G)).
  constructor; unfold bucket_at, table_nodes; cbn [tr own].
  - intros k1 b1 k2 b2 G1 G2 P. apply is_prefix_iff in P. eapply wf_prefix_free; eauto.
  - intros i L. destruct (wf_owner W cap me t i H L) as (k & b & E & G & S & U).
    exists k, b. split; [exact G|]. split; [apply is_prefix_iff; exact S|]. split; [exact E|].
    intros k' b' G' P'. apply is_prefix_iff in P'. eauto.
  - intros k b G. destruct (At k b G) as (OK & _). split; [exact (bucket_ok_prefix W cap k b OK) | exact (bucket_ok_len W cap k b OK)].
  - intros k b n G Hn. destruct (At k b G) as (OK & _).
    destruct (bucket_ok_id W cap k b OK _ (in_map nid _ _ Hn)) as [L S]. split; [exact L | apply is_prefix_iff, S].
  - intros k b G. destruct (At k b G) as (OK & _). exact (bucket_ok_cap W cap k b OK).
  - eapply wf_NoDup; eauto.
  - intros k b G. destruct (At k b G) as (_ & [->|(q & x & -> & S)]); [left; reflexivity|].
    right. exists q, x. split; [reflexivity | apply is_prefix_iff, S].
Qed.

Lemma run_app W cap ops1 : forall ops2 rt rt1,
  run W cap rt ops1 = Ok rt1 -> run W cap rt (ops1 ++ ops2) = run W cap rt1 ops2.
Proof.
  induction ops1 as [|o ops1 IH]; intros ops2 rt rt1 E; cbn [run app] in *.
  - injection E as ->. reflexivity.
  - destruct (step W cap rt o) as [rt'|]; cbn [bind] in *; [|discriminate]. eauto.
Qed.

Lemma reachable_init W cap me : reachable W cap me (rt_init me).
Proof. exists []. split; [constructor | reflexivity]. Qed.

Lemma reachable_step W cap me rt o rt' :
  reachable W cap me rt -> op_ok W o -> step W cap rt o = Ok rt' -> reachable W cap me rt'.
Proof.
  intros (ops & F & E) Ho St. exists (ops ++ [o]). split.
  - apply Forall_app. split; [exact F | constructor; [exact Ho | constructor]].
  - rewrite (run_app _ _ _ _ _ _ E). cbn [run]. rewrite St. reflexivity.
Qed.

Lemma reachable_inv W cap me rt : (0 < cap)%nat -> reachable W cap me rt -> inv W cap me rt.
Proof.
  intros Hc (ops & F & E).
  destruct (run_ok W cap me Hc ops (rt_init me) (inv_init W cap me) F) as (rt' & E' & I).
  congruence.
Qed.

Lemma reachable_wf W cap me rt :
  (0 < cap)%nat -> reachable W cap me rt -> exists t, rt = mkRT me t /\ wf W cap me [] t.
Proof.
  intros Hc R. apply inv_mkRT, reachable_inv; assumption.
Qed.

(* a concrete history (non-vacuity examples
   of props/C14.v): 4-bit identifiers, capacity 2, own id 0110 *)
Definition ex_id (z : Z) : bits := Z_to_bits 4 z.
Definition ex_node (z rtt failed : Z) : node := mkNode (ex_id z) z z rtt failed.
Definition ex_ops : list op :=
  [Add (ex_node 6 10 0); Add (ex_node 7 10 0); Add (ex_node 4 10 0); Add (ex_node 12 10 0);
   Add (ex_node 13 10 2); Add (ex_node 14 3 0); Touch (ex_id 7) 50 3; Add (ex_node 5 10 0);
   RemoveBad; Add (ex_node 7 1 0)].
Definition ex_table : list (bits * list Z) :=
  match run 4 2 (rt_init (ex_id 6)) ex_ops with
  | Ok rt => map (fun kb : bits * bucket => (fst kb, map ntag (bnodes (snd kb)))) (titems (tr rt))
  | Raise _ => []
  end.
Definition ex_closest (target k : Z) (excl : option Z) : list Z :=
  match run 4 2 (rt_init (ex_id 6)) ex_ops with
  | Ok rt => match closest rt (ex_id target) (Z.to_nat k) (option_map ex_id excl) with Ok l => map ntag l | Raise _ => [] end
  | Raise _ => []
  end.
