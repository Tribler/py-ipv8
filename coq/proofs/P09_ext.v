(* C09 - most of what a node does only extends its state harmlessly (P09_inv.ext): refreshing or
   adding entries, queueing tasks, putting cells on the wire. *)
From Coq Require Import ZArith List Bool Lia.
From IPV8V Require Import model.M09_reclaim spec.S09_reclaim proofs.P09_alist proofs.P09_more proofs.P09_inv.
Import ListNotations.
Open Scope Z_scope.

Section Ext.
Variable st : settings.
Hypothesis Hst : settings_ok st.

Lemma ext_set_circuit s cid c c1 :
  side_inv s -> aget cid (circuits s) = Some c ->
  c_goal c1 = c_goal c -> c_hops c1 = c_hops c -> c_closing c1 = c_closing c ->
  creation (c_ro c1) = creation (c_ro c) -> la (c_ro c) <= la (c_ro c1) -> la (c_ro c1) <= now s ->
  ext s (set_circuits (aset cid c1 (circuits s)) s).
Proof.
  intros Hs Hc G Hh K C L M. pose proof (ext_refl s Hs) as R. destruct R.
  constructor; simpl; auto.
  intros cid' c' H. rewrite aget_aset in H. destruct (cid' =? cid) eqn:E.
  - apply Z.eqb_eq in E; subst cid'. inversion H; subst c'. exists c. repeat split; auto.
  - apply x_circuits; exact H.
Qed.

Lemma ext_del_circuit s cid : side_inv s -> ext s (set_circuits (adel cid (circuits s)) s).
Proof.
  intros Hs. pose proof (ext_refl s Hs) as R. destruct R. constructor; simpl; auto.
  intros cid' c' H. rewrite aget_adel in H. destruct (cid' =? cid); [discriminate|]. apply x_circuits; exact H.
Qed.

Lemma ext_set_relay s cid r1 :
  side_inv s ->
  ((exists r, aget cid (relays s) = Some r /\ la (r_ro r) <= la (r_ro r1)) \/ now s <= la (r_ro r1)) ->
  ext s (set_relays (aset cid r1 (relays s)) s).
Proof.
  intros Hs Hr. pose proof (ext_refl s Hs) as R. destruct R. constructor; simpl; auto.
  intros cid' r' H. rewrite aget_aset in H. destruct (cid' =? cid) eqn:E.
  - apply Z.eqb_eq in E; subst cid'. inversion H; subst r'. exact Hr.
  - apply x_relays; exact H.
Qed.

Lemma ext_del_relay s cid : side_inv s -> ext s (set_relays (adel cid (relays s)) s).
Proof.
  intros Hs. pose proof (ext_refl s Hs) as R. destruct R. constructor; simpl; auto.
  intros cid' c' H. rewrite aget_adel in H. destruct (cid' =? cid); [discriminate|]. apply x_relays; exact H.
Qed.

Lemma ext_set_exit s cid e1 :
  side_inv s ->
  ((exists e, aget cid (exits s) = Some e /\ la (e_ro e) <= la (e_ro e1)) \/ now s <= la (e_ro e1)) ->
  ext s (set_exits (aset cid e1 (exits s)) s).
Proof.
  intros Hs Hr. pose proof (ext_refl s Hs) as R. destruct R. constructor; simpl; auto.
  intros cid' r' H. rewrite aget_aset in H. destruct (cid' =? cid) eqn:E.
  - apply Z.eqb_eq in E; subst cid'. inversion H; subst r'. exact Hr.
  - apply x_exits; exact H.
Qed.

Lemma ext_del_exit s cid : side_inv s -> ext s (set_exits (adel cid (exits s)) s).
Proof.
  intros Hs. pose proof (ext_refl s Hs) as R. destruct R. constructor; simpl; auto.
  intros cid' c' H. rewrite aget_adel in H. destruct (cid' =? cid); [discriminate|]. apply x_exits; exact H.
Qed.

Definition not_dretry (d : deferred) : Prop := match d with DRetry _ _ _ => False | _ => True end.

Lemma ext_defer s d : side_inv s -> not_dretry d -> ext s (defer d s).
Proof.
  intros Hs Hd. pose proof (ext_refl s Hs) as R. destruct R. unfold defer. constructor; simpl; auto.
  - intros x H. apply in_or_app; left; exact H.
  - intros cid tries ini H. apply in_app_or in H. destruct H as [H|[H|[]]]; [exact H|].
    subst d. destruct Hd.
Qed.

Lemma ext_set_createds s x : side_inv s -> ext s (set_createds x s).
Proof. intros Hs. pose proof (ext_refl s Hs) as R. destruct R. constructor; simpl; auto. Qed.

Lemma ext_set_creates s x : side_inv s -> ext s (set_creates x s).
Proof. intros Hs. pose proof (ext_refl s Hs) as R. destruct R. constructor; simpl; auto. Qed.

Lemma ext_step s s1 s2 : side_inv s -> ext s s1 -> (side_inv s1 -> ext s1 s2) -> ext s s2.
Proof. intros Hs X1 X2. eapply ext_trans; [exact X1|]. apply X2. eapply side_inv_ext; eauto. Qed.

Lemma send_cell_ext s dst cid mid ls :
  side_inv s -> ext s (fst (fst (send_cell st s dst cid mid ls))).
Proof.
  intros Hs. unfold send_cell. destruct (take ls) as [n ls'].
  destruct (aget cid (circuits s)) as [c|] eqn:Ec; simpl.
  - destruct Hs as [H1 H2]. destruct (H2 _ _ Ec).
    eapply ext_set_circuit; eauto; simpl; try reflexivity; try lia. split; assumption.
  - destruct (aget cid (relays s)) as [r|] eqn:Er; simpl.
    + apply ext_set_relay; [exact Hs|]. left. exists r. split; [exact Er|]. simpl. lia.
    + apply ext_refl; exact Hs.
Qed.

Lemma inv_send_cell w s dst cid mid ls :
  inv_gen st w s -> inv_gen st w (fst (fst (send_cell st s dst cid mid ls))).
Proof. intro Hi. eapply inv_ext; [exact Hst | exact Hi|]. apply send_cell_ext. apply Hi. Qed.

Lemma exit_sendto_la cid e len tnow :
  let e' := fst (exit_sendto cid e len tnow) in
  la (e_ro e') = la (e_ro e) \/ la (e_ro e') = tnow.
Proof. unfold exit_sendto. destruct (e_open e); simpl; auto. Qed.

Lemma drain_la cid q : forall e tnow,
  let e' := fst (drain cid e q tnow) in la (e_ro e') = la (e_ro e) \/ la (e_ro e') = tnow.
Proof.
  induction q as [|len tl IH]; intros e tnow; simpl; [left; reflexivity|].
  destruct (exit_sendto cid e len tnow) as [e1 o1] eqn:E1.
  destruct (drain cid e1 tl tnow) as [e2 o2] eqn:E2. simpl.
  pose proof (exit_sendto_la cid e len tnow) as H1. rewrite E1 in H1. simpl in H1.
  pose proof (IH e1 tnow) as H2. rewrite E2 in H2. simpl in H2.
  destruct H2 as [H2|H2]; [rewrite H2; exact H1 | right; exact H2].
Qed.

Lemma handle_data_ext s src cid a b c len :
  side_inv s -> ext s (fst (handle_data s src cid a b c len)).
Proof.
  intros Hs. unfold handle_data.
  destruct (match aget cid (circuits s) with Some c0 => a && (src =? c_first c0) | None => false end).
  - destruct (aget cid (circuits s)) as [ci|] eqn:Ec; [|apply ext_refl; exact Hs].
    destruct Hs as [H1 H2]. destruct (H2 _ _ Ec).
    eapply ext_set_circuit; eauto; simpl; try reflexivity; try lia. split; assumption.
  - destruct b; [apply ext_refl; exact Hs|].
    destruct (aget cid (exits s)) as [e|] eqn:Ee; [|apply ext_refl; exact Hs].
    destruct (negb (e_enabled e) && negb (src =? e_peer e)); [apply ext_refl; exact Hs|].
    set (e1 := mkExit (e_ro e) (e_peer e) true (e_open e) (e_queue e)).
    assert (K : forall e2 (o2 : list out), la (e_ro e2) = la (e_ro e) \/ la (e_ro e2) = now s ->
              ext s (fst (if negb (e_enabled e) then defer (DOpen cid) (set_exits (aset cid e2 (exits s)) s)
                          else set_exits (aset cid e2 (exits s)) s, o2))).
    { intros e2 o2 Hl.
      assert (X : ext s (set_exits (aset cid e2 (exits s)) s)).
      { apply ext_set_exit; [exact Hs|]. destruct Hl as [Hl|Hl]; [left; exists e; split; [exact Ee|lia] | right; lia]. }
      destruct (negb (e_enabled e)); [|exact X].
      eapply ext_step; [exact Hs | exact X|]. intro Hs1. apply ext_defer; [exact Hs1 | exact I]. }
    destruct c; [|apply K; left; reflexivity].
    pose proof (exit_sendto_la cid e1 len (now s)) as Hl.
    destruct (exit_sendto cid e1 len (now s)) as [e2 o2]. apply K. exact Hl.
Qed.

Lemma recv_destroy_ext s src cid reason : side_inv s -> ext s (recv_destroy s src cid reason).
Proof.
  intros Hs. rewrite recv_destroy_eq.
  assert (D : forall s0 k c dd rn, side_inv s0 -> ext s0 (defer (DRemove k c dd rn) s0)).
  { intros. apply ext_defer; [assumption | exact I]. }
  destruct (relay_adjacent s src cid).
  { destruct (aget cid (relays s)) as [nxt|]; [|apply ext_refl; exact Hs].
    apply (ext_step s (defer (DRemove KRelay cid reason false) s)); [exact Hs | apply D; exact Hs|].
    intro Hs1. apply D; exact Hs1. }
  destruct (exit_adjacent s src cid); [apply D; exact Hs|].
  destruct (circuit_adjacent s src cid); [apply D; exact Hs | apply ext_refl; exact Hs].
Qed.

Lemma ping_all_ext cs s ls : side_inv s -> ext s (fst (ping_all st s cs ls)).
Proof.
  apply (ping_all_rel st (fun a b => side_inv a -> ext a b)).
  - exact ext_refl.
  - intros a b c X1 X2 Hs. eapply ext_step; eauto.
  - intros; apply send_cell_ext; assumption.
Qed.

End Ext.
