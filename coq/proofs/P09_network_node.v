(* C09, path level - the frame property of every function of the node model, up to recv_cell.

   `closedI s`: the node's bookkeeping does not link the id set I with anything outside it and cannot
   create entries for it any more (no route leads from outside I into I, no retry / create cache and no
   deferred handler body names I).  Under closedI every event that is not a cell for an id of I leaves the
   I-entries alone and sends no cell for I except pings on own circuits; a cell for an id of I stamps only
   the entry it travels along, and what it makes the node send is either the relayed cell or the pong to
   its sender. *)
From Coq Require Import ZArith List Bool.
From IPV8V Require Import gen.G09_rules model.M09_reclaim spec.S09_reclaim proofs.P09_alist proofs.P09_build
  proofs.P09_network_frame.
Import ListNotations.
Open Scope Z_scope.

Section NodeFrames.
Variable st : settings.
Variable I : Z -> bool.

Notation frame := (frame st I).
Notation harmless := (harmless I).

Record closedI (s : node) : Prop := mkClosed {
  k_rel : forall x r, I x = false -> aget x (relays s) = Some r -> I (r_next r) = false;
  k_creates : forall k cc, aget k (creates s) = Some cc -> I (cc_from cc) = false /\ I (cc_to cc) = false;
  k_retries : forall x rt, aget x (retries s) = Some rt -> I x = false;
  k_starts : forall d, In d (starts s) -> harmless d
}.

Lemma closed_frame (touch : Z -> Prop) s s' : closedI s -> frame touch s s' -> closedI s'.
Proof.
  intros [r k t d] F. constructor.
  - intros x r' Hi H. destruct (f_rel_out _ _ _ _ _ F _ _ Hi H) as [(r0 & H0 & N)|N]; [|exact N].
    rewrite N. eauto.
  - intros n cc H. destruct (f_creates _ _ _ _ _ F _ _ H) as [H0|H0]; eauto.
  - intros x rt H. destruct (I x) eqn:Hi; [|reflexivity].
    destruct (f_retries _ _ _ _ _ F _ _ Hi H) as (rt0 & H0). rewrite <- Hi. eauto.
  - intros d0 H. destruct (f_starts _ _ _ _ _ F _ H) as [H0|[H0 _]]; eauto.
Qed.

Definition no_I_cells (o : list out) : Prop :=
  forall d c e m, In (OCell d c e m) o -> I c = false.

Lemma no_I_nil : no_I_cells [].
Proof. intros d c e m []. Qed.

Lemma no_I_app o1 o2 : no_I_cells o1 -> no_I_cells o2 -> no_I_cells (o1 ++ o2).
Proof. intros H1 H2 d c e m H. apply in_app_or in H. destruct H; eauto. Qed.

Lemma send_cell_frame (touch : Z -> Prop) s dst cid mid ls :
  frame touch s (fst (fst (send_cell st s dst cid mid ls))).
Proof.
  unfold send_cell. destruct (take ls) as [n ls'].
  destruct (aget cid (circuits s)) as [c|] eqn:Ec; simpl.
  - apply frame_set_circuit. intros _. exists c. split; [exact Ec | simpl; repeat split; auto].
  - destruct (aget cid (relays s)) as [r|] eqn:Er; simpl; [|apply frame_refl].
    apply frame_set_relay; intros _.
    + exists r. simpl. auto.
    + left. exists r. simpl. auto.
Qed.

Lemma send_cell_out s dst cid mid ls :
  exists early, snd (fst (send_cell st s dst cid mid ls)) = [OCell dst cid early mid].
Proof.
  unfold send_cell. destruct (take ls) as [n ls'].
  destruct (aget cid (circuits s)) as [c|]; simpl; [eauto|].
  destruct (aget cid (relays s)) as [r|]; simpl; eauto.
Qed.

Lemma send_cell_no_I s dst cid mid ls :
  I cid = false -> no_I_cells (snd (fst (send_cell st s dst cid mid ls))).
Proof.
  intro Hc. destruct (send_cell_out s dst cid mid ls) as (early & E). rewrite E.
  intros d c e m [H|[]]. inversion H; subst. exact Hc.
Qed.

Lemma start_hop_frame (touch : Z -> Prop) s cid c tries ini p ls :
  I cid = false ->
  frame touch s (fst (fst (start_hop st s cid c tries ini p ls)))
  /\ no_I_cells (snd (fst (start_hop st s cid c tries ini p ls))).
Proof.
  intro Hc. destruct (p_next p) as [nxt|] eqn:Ep.
  - rewrite (start_hop_some st s cid c tries ini p ls nxt Ep). split; [|apply send_cell_no_I; exact Hc].
    eapply frame_trans; [|apply send_cell_frame]. unfold hop_state.
    set (s1 := set_circuits (aset cid (hop_circ c nxt) (circuits s)) s).
    apply frame_trans with (b := s1); [apply frame_set_circuit; intro H; congruence|].
    apply frame_trans with (b := set_retries (adel cid (retries s1)) s1); [apply frame_del_retry|].
    exact (frame_add_retry st I touch (set_retries (adel cid (retries s1)) s1) cid _ Hc).
  - rewrite (start_hop_none st s cid c tries ini p ls Ep). split; [|apply no_I_nil].
    apply frame_defer; [exact Logic.I | intros x H; discriminate].
Qed.

Lemma ours_frame (touch : Z -> Prop) s cid v p ls :
  I cid = false ->
  frame touch s (fst (fst (ours st s cid v p ls))) /\ no_I_cells (snd (fst (ours st s cid v p ls))).
Proof.
  intro Hc. unfold ours.
  destruct (aget cid (circuits s)) as [c|]; [|split; [apply frame_refl | apply no_I_nil]].
  destruct (c_unver c) as [h|]; [|split; [apply frame_refl | apply no_I_nil]].
  destruct v; simpl; try (split; [apply frame_refl | apply no_I_nil]).
  - match goal with |- context [mkCirc ?a ?b ?c0 ?d ?e ?f ?g] => set (c1 := mkCirc a b c0 d e f g) end.
    set (s1 := set_circuits (aset cid c1 (circuits s)) s).
    assert (F1 : frame touch s s1) by (apply frame_set_circuit; intro H; congruence).
    destruct (c_state c1 =? CIRCUIT_STATE_EXTENDING).
    + destruct (aget cid (retries s)) as [rt|]; [|split; [exact F1 | apply no_I_nil]].
      destruct (start_hop_frame touch (set_retries (adel cid (retries s1)) s1) cid c1 (rt_tries rt) false p ls Hc)
        as [F3 O3].
      split; [|exact O3]. apply frame_trans with (b := s1); [exact F1|].
      apply frame_trans with (b := set_retries (adel cid (retries s1)) s1); [apply frame_del_retry | exact F3].
    + destruct (c_state c1 =? CIRCUIT_STATE_READY); simpl; (split; [|apply no_I_nil]); [|exact F1].
      apply frame_trans with (b := s1); [exact F1 | exact (frame_del_retry st I touch s1 cid)].
  - split; [|apply no_I_nil]. apply frame_defer; [exact Logic.I | intros x H; discriminate].
Qed.

Definition no_cells (o : list out) : Prop := forall d c e m, ~ In (OCell d c e m) o.

Lemma no_cells_no_I o : no_cells o -> no_I_cells o.
Proof. intros H d c e m Hin. exfalso; eapply H; eauto. Qed.

Lemma exit_sendto_facts cid e len tnow :
  let r := exit_sendto cid e len tnow in
  e_peer (fst r) = e_peer e
  /\ (la (e_ro (fst r)) = la (e_ro e) \/ la (e_ro (fst r)) = tnow) /\ no_cells (snd r).
Proof.
  unfold exit_sendto. destruct (e_open e); simpl; (split; [reflexivity|]); (split; [auto|]);
    intros d c e0 m H; simpl in H; intuition discriminate.
Qed.

Lemma drain_facts cid q : forall e tnow,
  let r := drain cid e q tnow in
  e_peer (fst r) = e_peer e
  /\ (la (e_ro (fst r)) = la (e_ro e) \/ la (e_ro (fst r)) = tnow) /\ no_cells (snd r).
Proof.
  induction q as [|len tl IH]; intros e tnow; simpl; [split; [reflexivity|]; split; [auto | intros d c e0 m []]|].
  pose proof (exit_sendto_facts cid e len tnow) as H1.
  destruct (exit_sendto cid e len tnow) as [e1 o1]. simpl in H1.
  pose proof (IH e1 tnow) as H2. destruct (drain cid e1 tl tnow) as [e2 o2]. simpl in H2. simpl.
  destruct H1 as [P1 [L1 N1]], H2 as [P2 [L2 N2]]. split; [congruence|]. split.
  - destruct L2 as [L2|L2]; [rewrite L2; exact L1 | right; exact L2].
  - intros d c e0 m H. apply in_app_or in H. destruct H; [eapply N1 | eapply N2]; eauto.
Qed.

Lemma handle_data_frame (touch : Z -> Prop) s src cid a b c len :
  (I cid = true -> touch cid) ->
  frame touch s (fst (handle_data s src cid a b c len)) /\ no_cells (snd (handle_data s src cid a b c len)).
Proof.
  intro Ht. unfold handle_data.
  assert (N0 : no_cells []) by (intros d c0 e m []).
  destruct (match aget cid (circuits s) with Some c0 => a && (src =? c_first c0) | None => false end).
  - destruct (aget cid (circuits s)) as [c0|] eqn:Ec; simpl; [|split; [apply frame_refl | exact N0]].
    split; [|exact N0]. apply frame_set_circuit. intros Hi. exists c0. split; [exact Ec|]. simpl.
    repeat split; auto.
  - destruct b; [split; [apply frame_refl | exact N0]|].
    destruct (aget cid (exits s)) as [e|] eqn:Ee; [|split; [apply frame_refl | exact N0]].
    destruct (negb (e_enabled e) && negb (src =? e_peer e)); [split; [apply frame_refl | exact N0]|].
    set (e1 := mkExit (e_ro e) (e_peer e) true (e_open e) (e_queue e)).
    assert (X : exists e2 o, (if c then exit_sendto cid e1 len (now s) else (e1, [])) = (e2, o)
                             /\ e_peer e2 = e_peer e
                             /\ (la (e_ro e2) = la (e_ro e) \/ la (e_ro e2) = now s) /\ no_cells o).
    { destruct c.
      - pose proof (exit_sendto_facts cid e1 len (now s)) as H.
        destruct (exit_sendto cid e1 len (now s)) as [e2 o]. simpl in H. exists e2, o. split; [reflexivity | exact H].
      - exists e1, []. split; [reflexivity|]. split; [reflexivity|]. split; [left; reflexivity | exact N0]. }
    destruct X as (e2 & o & E & Pe & L & N). rewrite E.
    set (s1 := set_exits (aset cid e2 (exits s)) s).
    assert (F1 : frame touch s s1).
    { apply frame_set_exit. intro Hi. exists e. split; [exact Ee|]. split; [exact Pe|].
      destruct L as [L|L]; [left; exact L | right; split; [apply Ht; exact Hi | exact L]]. }
    destruct (negb (e_enabled e)); simpl; (split; [|exact N]); [|exact F1].
    eapply frame_trans; [exact F1|]. apply frame_defer; [exact Logic.I|].
    intros x H Hi. inversion H; subst x. split; [apply Ht; exact Hi|].
    unfold s1. simpl. rewrite aget_aset, Z.eqb_refl. discriminate.
Qed.

Lemma holds_id_comm s cid :
  (ahas cid (circuits s) || ahas cid (exits s) || ahas cid (relays s)) = holds_id s cid.
Proof. unfold holds_id. destruct (ahas cid (circuits s)), (ahas cid (exits s)), (ahas cid (relays s)); reflexivity. Qed.

Definition handshake_free (cid : Z) (m : cellmsg) : Prop :=
  I cid = true -> msg_id m <> MSG_CREATE /\ msg_id m <> MSG_EXTEND.

(* the only cell for I that a handler can send: the pong, back to the sender, on the same id *)
Definition only_pong (s : node) (src cid : Z) (m : cellmsg) (o : list out) : Prop :=
  forall d c e mm, In (OCell d c e mm) o -> I c = true ->
    d = src /\ c = cid /\ mm = MSG_PONG /\ m = MPing /\ holds_id s cid = true.

Lemma no_I_only_pong s src cid m o : no_I_cells o -> only_pong s src cid m o.
Proof. intros H d c e mm Hin Hi. rewrite (H _ _ _ _ Hin) in Hi. discriminate. Qed.

(* what the handler needs to know about the node's bookkeeping, stated locally: the create-request cache the
   message hits (if any) does not name I, and a retry cache under the cell's id means the id is not in I *)
Definition handle_local (s : node) (cid : Z) (m : cellmsg) : Prop :=
  match m with
  | MCreated ident _ _ =>
      (forall cc, aget ident (creates s) = Some cc -> I (cc_from cc) = false /\ I (cc_to cc) = false)
      /\ (forall rt, aget cid (retries s) = Some rt -> I cid = false)
  | MExtended _ _ _ => forall rt, aget cid (retries s) = Some rt -> I cid = false
  | _ => True
  end.

Lemma closed_handle_local s cid m : closedI s -> handle_local s cid m.
Proof.
  intros K. destruct m; simpl; auto.
  - split; [intros cc H; exact (k_creates _ K _ _ H) | intros rt H; exact (k_retries _ K _ _ H)].
  - intros rt H; exact (k_retries _ K _ _ H).
Qed.

Lemma handle_frame_l (touch : Z -> Prop) s src cid m ls :
  handle_local s cid m -> handshake_free cid m -> (I cid = true -> touch cid) ->
  frame touch s (fst (fst (handle st s src cid m ls)))
  /\ only_pong s src cid m (snd (fst (handle st s src cid m ls))).
Proof.
  intros K Hm Ht.
  assert (R0 : frame touch s s /\ only_pong s src cid m []) by (split; [apply frame_refl | intros d c e mm []]).
  assert (Ours : forall v p, I cid = false ->
            frame touch s (fst (fst (ours st s cid v p ls))) /\ only_pong s src cid m (snd (fst (ours st s cid v p ls)))).
  { intros v p Hc.
    destruct (ours_frame touch s cid v p ls Hc) as [F O]. split; [exact F | apply no_I_only_pong; exact O]. }
  destruct m as [ident|ident v p|ident|ident v p|a b c len| | |mid]; simpl; try exact R0.
  - (* create *)
    split; [|intros d c e mm []]. apply frame_defer; [|intros x H; discriminate].
    simpl. destruct (I cid) eqn:Hi; [|reflexivity]. destruct (Hm Hi) as [H _]. simpl in H. congruence.
  - (* created *)
    destruct (aget ident (creates s)) as [cc|] eqn:Ecc.
    + destruct (proj1 K _ Ecc) as [Hf Hto].
      set (s1 := set_creates (adel ident (creates s)) s).
      assert (F1 : frame touch s s1) by apply frame_del_create.
      destruct (ahas (cc_from cc) (relays s)); [split; [exact F1 | intros d c e mm []]|].
      destruct (aget (cc_from cc) (exits s)) as [e|]; [|split; [exact F1 | intros d c e mm []]].
      split.
      * eapply frame_trans; [|apply send_cell_frame].
        set (s2 := defer (DRemove KExit (cc_from cc) 0 true) s1).
        assert (F2 : frame touch s1 s2) by (apply frame_defer; [exact Logic.I | intros x H; discriminate]).
        match goal with |- P09_network_frame.frame _ _ _ _ (set_relays (aset _ ?fw (aset _ ?bw _)) _) =>
          set (FW := fw); set (BW := bw) end.
        set (sa := set_relays (aset (cc_to cc) BW (relays s2)) s2).
        assert (Fa : frame touch s2 sa) by (apply frame_set_relay; intro H; [congruence | right; exact Hf]).
        assert (Fb : frame touch sa (set_relays (aset (cc_from cc) FW (relays sa)) sa))
          by (apply frame_set_relay; intro H; [congruence | right; exact Hto]).
        apply frame_trans with (b := s1); [exact F1|]. apply frame_trans with (b := s2); [exact F2|].
        apply frame_trans with (b := sa); [exact Fa | exact Fb].
      * apply no_I_only_pong. apply send_cell_no_I. exact Hf.
    + destruct (aget cid (retries s)) as [rt|] eqn:Er; [|exact R0].
      destruct (rt_ident rt =? ident); [|exact R0]. apply Ours. exact (proj2 K _ Er).
  - (* extend *)
    split; [|intros d c e mm []]. apply frame_defer; [|intros x H; discriminate].
    simpl. destruct (I cid) eqn:Hi; [|reflexivity]. destruct (Hm Hi) as [_ H]. simpl in H. congruence.
  - (* extended *)
    destruct (aget cid (retries s)) as [rt|] eqn:Er; [|exact R0].
    destruct (rt_ident rt =? ident); [|exact R0]. apply Ours. exact (K _ Er).
  - (* ping *)
    rewrite holds_id_comm. destruct (holds_id s cid) eqn:Hh; [|exact R0].
    set (s1 := match aget cid (exits s) with
               | Some e => set_exits (aset cid (e_with_ro (ro_beat (now s)) e) (exits s)) s
               | None => s end).
    assert (F1 : frame touch s s1).
    { unfold s1. destruct (aget cid (exits s)) as [e|] eqn:Ee; [|apply frame_refl].
      apply frame_set_exit. intro Hi. exists e. split; [exact Ee|]. split; [reflexivity|]. right. split; [apply Ht; exact Hi | reflexivity]. }
    split; [eapply frame_trans; [exact F1 | apply send_cell_frame]|].
    destruct (send_cell_out s1 src cid MSG_PONG ls) as (early & E). rewrite E.
    intros d c e mm [H|[]] Hi. inversion H; subst. auto.
Qed.

Lemma handle_frame (touch : Z -> Prop) s src cid m ls :
  closedI s -> handshake_free cid m -> (I cid = true -> touch cid) ->
  frame touch s (fst (fst (handle st s src cid m ls)))
  /\ only_pong s src cid m (snd (fst (handle st s src cid m ls))).
Proof. intros K. apply handle_frame_l. apply closed_handle_local. exact K. Qed.

End NodeFrames.
