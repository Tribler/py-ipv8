(* Lemmas about the listener table: a listener that is absent from the wrapped endpoint's tables is not called and
   stays absent under operations that do not mention it; remove_listener makes it absent; conversely a listener
   added under a prefix is notified. *)
From Coq Require Import ZArith List Bool.
From IPV8V Require Import lib.PyErr lib.Bytes model.M11_listeners.
Import ListNotations.
Open Scope Z_scope.

Lemma memz_In x l : memz x l = true <-> In x l.
Proof.
  induction l as [|y r IH]; simpl; [split; [discriminate|tauto]|].
  rewrite orb_true_iff, IH, Z.eqb_eq. tauto.
Qed.

Lemma without_In l x ls : In x (without l ls) <-> In x ls /\ x <> l.
Proof.
  unfold without. rewrite filter_In, negb_true_iff, Z.eqb_neq. tauto.
Qed.

Lemma without_not_in l ls : ~ In l (without l ls).
Proof. rewrite without_In. tauto. Qed.

(* l occurs neither in the global list nor in any prefix entry *)
Definition absent (l : lid) (t : table) : Prop :=
  ~ In l (glob t) /\ forall p ls, In (p, ls) (pmap t) -> ~ In l ls.

Lemma plookup_In p m ls : plookup p m = Some ls -> exists q, In (q, ls) m.
Proof.
  induction m as [|[q v] r IH]; simpl; [discriminate|].
  destruct (bytes_eqb q p).
  - intros H; inversion H; subst. exists q. now left.
  - intros H. destruct (IH H) as [q' Hq]. exists q'. now right.
Qed.

Lemma pset_In p v m q ls : In (q, ls) (pset p v m) -> ls = v \/ In (q, ls) m.
Proof.
  induction m as [|[q' v'] r IH]; simpl.
  - intros [H|[]]. inversion H. now left.
  - destruct (bytes_eqb q' p); simpl.
    + intros [H|H]; [inversion H; now left|right; now right].
    + intros [H|H]; [right; now left|]. destruct (IH H) as [?|?]; [now left|right; now right].
Qed.

Lemma prune_In l g m q ls : In (q, ls) (prune l g m) -> exists ls0, In (q, ls0) m /\ ls = without l ls0.
Proof.
  induction m as [|[q' v'] r IH]; simpl; [tauto|].
  destruct (set_eqb (without l v') g); simpl.
  - intros H. destruct (IH H) as [x [Hx ?]]. exists x. split; [now right|assumption].
  - intros [H|H].
    + inversion H; subst. exists v'. split; [now left|reflexivity].
    + destruct (IH H) as [x [Hx ?]]. exists x. split; [now right|assumption].
Qed.

Lemma rem_absent t l : absent l (t_rem t l).
Proof.
  unfold absent, t_rem; simpl. split; [apply without_not_in|].
  intros p ls H. apply prune_In in H. destruct H as [ls0 [_ ->]]. apply without_not_in.
Qed.

Lemma rem_keeps_absent t l y : absent l t -> absent l (t_rem t y).
Proof.
  intros [Hg Hp]. unfold absent, t_rem; simpl. split.
  - rewrite without_In. tauto.
  - intros p ls H. apply prune_In in H. destruct H as [ls0 [Hin ->]].
    rewrite without_In. intros [Hx _]. exact (Hp _ _ Hin Hx).
Qed.

Lemma add_keeps_absent t l x : x <> l -> absent l t -> absent l (t_add t x).
Proof.
  intros Hne [Hg Hp]. unfold absent, t_add; simpl. split.
  - rewrite in_app_iff. simpl. intros [H|[H|[]]]; [tauto|congruence].
  - intros p ls H. apply in_map_iff in H. destruct H as [[q v] [Heq Hin]]. simpl in Heq.
    inversion Heq; subst. rewrite in_app_iff. simpl. intros [H|[H|[]]]; [exact (Hp _ _ Hin H)|congruence].
Qed.

Lemma addp_keeps_absent t l x p t' : x <> l -> absent l t -> t_addp t x p = Ok t' -> absent l t'.
Proof.
  intros Hne [Hg Hp]. unfold t_addp. destruct (Nat.eqb (length p) PREFIXLEN); [|discriminate].
  intros H; inversion H; subst; clear H. unfold absent; simpl. split; [assumption|].
  intros q ls H. apply pset_In in H. destruct H as [->|H]; [|exact (Hp _ _ H)].
  rewrite in_app_iff. simpl. intros [H|[H|H]]; [|congruence|tauto].
  destruct (plookup p (pmap t)) eqn:E; [|destruct H].
  apply plookup_In in E. destruct E as [q' Hq']. exact (Hp _ _ Hq' H).
Qed.

Lemma targets_absent t l d : absent l t -> ~ In l (t_targets t d).
Proof.
  intros [Hg Hp]. unfold t_targets. destruct (plookup (prefix_of d) (pmap t)) eqn:E; [|assumption].
  apply plookup_In in E. destruct E as [q Hq]. exact (Hp _ _ Hq).
Qed.

Lemma notify_absent t l d : absent l t -> ~ In l (t_notify t d).
Proof.
  intros Ha. unfold t_notify. rewrite filter_In. intros [H _]. exact (targets_absent _ _ _ Ha H).
Qed.

Definition mentions (l : lid) (o : lop) : bool :=
  match o with AddL x => x =? l | AddP x _ => x =? l | _ => false end.

Lemma step_wrap e o : wrap (fst (step e o)) = wrap e.
Proof.
  destruct o; simpl; try reflexivity.
  - destruct (f_add (wapi (wrap e))); reflexivity.
  - destruct (f_addp (wapi (wrap e))).
    + destruct (t_addp (inner e) l p); reflexivity.
    + destruct (t_addp (own e) l p); reflexivity.
  - destruct (f_rem (wapi (wrap e))); reflexivity.
  - destruct (wrap e) eqn:E; simpl; congruence.
Qed.

Lemma forwards_split a : forwards_all a = true ->
  f_add a = true /\ f_addp a = true /\ f_rem a = true /\ f_notify_prefix a = true.
Proof. unfold forwards_all. rewrite !andb_true_iff. tauto. Qed.

Lemma step_keeps_absent e o l : mentions l o = false -> absent l (inner e) -> absent l (inner (fst (step e o))).
Proof.
  intros Hm Ha. destruct o; simpl in *.
  - destruct (f_add (wapi (wrap e))); [|exact Ha]. apply add_keeps_absent; [apply Z.eqb_neq; assumption|assumption].
  - destruct (f_addp (wapi (wrap e))).
    + destruct (t_addp (inner e) l0 p) eqn:E; [|exact Ha].
      eapply addp_keeps_absent; [apply Z.eqb_neq; eassumption|eassumption|eassumption].
    + destruct (t_addp (own e) l0 p); exact Ha.
  - destruct (f_rem (wapi (wrap e))); [|exact Ha]. apply rem_keeps_absent. assumption.
  - destruct Ha as [Hg Hp]. split; assumption.
  - assumption.
  - assumption.
  - destruct (wrap e); assumption.
Qed.

Lemma run_keeps_absent ops : forall e l,
  Forall (fun o => mentions l o = false) ops -> absent l (inner e) -> absent l (inner (run e ops)).
Proof.
  induction ops as [|o r IH]; intros e l Hall Ha; simpl; [assumption|].
  inversion Hall; subst. apply IH; [assumption|]. apply step_keeps_absent; assumption.
Qed.

Lemma called_absent e l o : absent l (inner e) -> ~ In l (called e o).
Proof.
  intros Ha. unfold called. destruct o; simpl; try (intros []).
  - destruct (f_add (wapi (wrap e))); intros [].
  - destruct (f_addp (wapi (wrap e))).
    + destruct (t_addp (inner e) l0 p); intros [].
    + destruct (t_addp (own e) l0 p); intros [].
  - destruct (f_rem (wapi (wrap e))); intros [].
  - apply notify_absent. assumption.
  - destruct (wrap e); simpl; try (apply notify_absent; assumption).
    unfold tunnel_notify. rewrite filter_In. intros [H _].
    destruct (f_notify_prefix (wapi (wrap e))).
    + exact (targets_absent _ _ _ Ha H).
    + destruct Ha as [Hg _]. exact (Hg H).
Qed.

(* remove_listener through a wrapper that forwards it takes the listener off the wrapped endpoint *)
Lemma absent_step_rem e l : forwards_all (wapi (wrap e)) = true -> absent l (inner (fst (step e (RemL l)))).
Proof.
  intros F. apply forwards_split in F. destruct F as [_ [_ [F3 _]]]. simpl. rewrite F3. apply rem_absent.
Qed.

(* ... and in any later history that does not register l again it stays off, for every earlier history
   (e is arbitrary); with called_absent: it is never called again *)
Lemma removed_absent e l ops :
  forwards_all (wapi (wrap e)) = true ->
  Forall (fun x => mentions l x = false) ops ->
  absent l (inner (run (fst (step e (RemL l))) ops)).
Proof.
  intros Hf Hall. apply run_keeps_absent; [exact Hall|exact (absent_step_rem e l Hf)].
Qed.

Lemma plookup_pset_same p v m : plookup p (pset p v m) = Some v.
Proof.
  induction m as [|[q w] r IH]; simpl.
  - rewrite bytes_eqb_refl. reflexivity.
  - destruct (bytes_eqb q p) eqn:E; simpl; rewrite E; [reflexivity|exact IH].
Qed.

(* conversely, a listener registered under a prefix on an open endpoint IS notified of a datagram with that prefix *)
Lemma addp_notified t l p body t' :
  opened t = true -> t_addp t l p = Ok t' -> In l (t_notify t' (p ++ body)).
Proof.
  intros Ho Hadd. unfold t_addp in Hadd. destruct (Nat.eqb_spec (length p) PREFIXLEN) as [Hlen|_]; [|discriminate].
  injection Hadd as <-.
  unfold t_notify, t_targets, prefix_of, deliver_ok. simpl pmap. simpl opened.
  replace (firstn PREFIXLEN (p ++ body)) with p
    by (rewrite <- Hlen, firstn_app, Nat.sub_diag, firstn_all; symmetry; apply app_nil_r).
  rewrite plookup_pset_same, Ho. apply filter_In. split; [|reflexivity].
  apply in_or_app. right. left. reflexivity.
Qed.
