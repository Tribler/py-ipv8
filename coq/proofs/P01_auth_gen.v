(* Lemmas for props/C01x.v: the translated decorators (gen/G01_auth.v) under the runtime of model/M01_auth_gen.v.
   The proofs about the receiving decorators use only generic tactics (unfold the monad, destruct the innermost scrutinee,
   normalise what the runtime primitives returned), so that a reordering or renaming in the source that keeps the
   behaviour still proves, while a changed behaviour leaves a goal open; they do depend on how the source writes
   `2 + len(key)`.  The sender (ezr_pack_hand) is followed step by step. *)
From Coq Require Import ZArith List Bool Lia ZifyBool.
From Coq Require String.
Import String.StringSyntax.
Delimit Scope string_scope with string.   (* string literals only: String's length / concat / ++ must not shadow List's *)
From IPV8V Require Import lib.PyErr lib.Bytes model.M02_wire model.M01_auth gen.G01_auth model.M01_auth_gen
  proofs.P02_roundtrip proofs.P01_auth.
Import ListNotations.
Open Scope Z_scope.

(* destruct the innermost scrutinee of a match in hypothesis H *)
Ltac dm H :=
  match type of H with
  | context [match ?x with _ => _ end] =>
      lazymatch x with
      | context [match _ with _ => _ end] => fail
      | _ => destruct x eqn:?
      end
  end.
Ltac rewrite_find := repeat match goal with H : net_find _ _ = _ |- _ => rewrite H end.
Ltac unfold_monad H := unfold bindM, liftr, readM, retM, raiseM in H.
Ltac rt_cbn H :=
  cbn [RT rt_unpack_auth rt_unpack_list rt_pack_list rt_key_from_public_bin rt_get_signature_length rt_is_valid_signature
       rt_create_signature rt_prefix rt_my_key rt_my_public_key_bin rt_verified_get rt_peer_add_address rt_new_peer
       St PubKey SecKey PeerRef RetV] in H.
(* split H : <translated body> s = (s', r) into its execution paths; paths that end in `(s, Raise e) = (s', r)` with the
   initial state are closed by `leaf` *)
Ltac paths H leaf :=
  repeat (dm H; cbn beta iota zeta in H;
          try (match type of H with (_, Raise _) = _ => injection H as <- <-; solve [leaf] end)).

Lemma net_find_update_same n k f :
  net_find (net_update n k f) k = match net_find n k with Some p => Some (f p) | None => None end.
Proof.
  induction n as [|[k' p] tl IH]; [reflexivity|]. cbn [net_update net_find].
  destruct (bytes_eqb k' k) eqn:E; cbn [net_find]; rewrite E; [reflexivity|exact IH].
Qed.

Lemma net_find_update_other n k k' f : k' <> k -> net_find (net_update n k f) k' = net_find n k'.
Proof.
  intros Hne. induction n as [|[k0 p] tl IH]; [reflexivity|]. cbn [net_update net_find].
  destruct (bytes_eqb k0 k) eqn:E; cbn [net_find].
  - apply bytes_eqb_eq in E. subst k0. destruct (bytes_eqb k k') eqn:E2; [apply bytes_eqb_eq in E2; congruence|reflexivity].
  - destruct (bytes_eqb k0 k'); [reflexivity|exact IH].
Qed.

Lemma net_find_app n m k :
  net_find (n ++ m) k = match net_find n k with Some p => Some p | None => net_find m k end.
Proof.
  induction n as [|[k' p] tl IH]; [reflexivity|]. cbn [app net_find]. destruct (bytes_eqb k' k); [reflexivity|exact IH].
Qed.

Lemma net_find_in n k p : net_find n k = Some p -> In (k, p) n.
Proof.
  induction n as [|[k' q] tl IH]; [discriminate|]. cbn [net_find]. destruct (bytes_eqb k' k) eqn:E; intros H.
  - apply bytes_eqb_eq in E. injection H as <-. subst. left. reflexivity.
  - right. apply IH, H.
Qed.

Lemma net_find_keys n k : In k (net_keys n) <-> net_find n k <> None.
Proof.
  unfold net_keys. induction n as [|[k' q] tl IH]; cbn [map In net_find fst].
  - split; [intros []|intros H; congruence].
  - destruct (bytes_eqb k' k) eqn:E.
    + apply bytes_eqb_eq in E. split; [discriminate|]. intros _. left. exact E.
    + rewrite <- IH. split; [intros [H|H]; [subst; rewrite bytes_eqb_refl in E; discriminate|exact H]|intros H; right; exact H].
Qed.

Lemma add_addr_key p a : p_key (add_addr p a) = p_key p.
Proof. unfold add_addr. destruct (p_frozen p); reflexivity. Qed.

Lemma net_wf_update n k f : (forall p, p_key (f p) = p_key p) -> net_wf n -> net_wf (net_update n k f).
Proof.
  intros Hf Hwf. induction n as [|[k' p] tl IH]; [exact Hwf|].
  assert (Htl : net_wf tl) by (intros a b Hin; apply Hwf; right; exact Hin).
  cbn [net_update]. destruct (bytes_eqb k' k); intros a b [Hin|Hin].
  - injection Hin as <- <-. rewrite Hf. apply Hwf. left. reflexivity.
  - apply Hwf. right. exact Hin.
  - apply Hwf. left. exact Hin.
  - apply (IH Htl). exact Hin.
Qed.

Lemma net_wf_app n k p : net_wf n -> p_key p = k -> net_wf (n ++ [(k, p)]).
Proof.
  intros Hwf Hk a b Hin. apply in_app_or in Hin as [Hin|[Hin|[]]]; [apply Hwf, Hin|]. injection Hin as <- <-. exact Hk.
Qed.

Section P.
Variable key_ok : bytes -> bool.
Variable verify : bytes -> bytes -> bytes -> bool.
Variable siglen : bytes -> res nat.
Variable sign : bytes -> bytes -> bytes.
Variable my_prefix my_sk my_pk : bytes.
Notation RT := (RT key_ok verify siglen sign my_prefix my_sk my_pk).
Notation handler := (handler key_ok verify siglen sign my_prefix my_sk my_pk).
Notation signed_by := (signed_by key_ok verify siglen).
Notation authentic := (authentic key_ok verify siglen).
Notation deliver := (deliver key_ok verify siglen sign my_prefix my_sk my_pk).
Notation deliver_res := (deliver_res key_ok verify siglen sign my_prefix my_sk my_pk).
Notation run_deliveries := (run_deliveries key_ok verify siglen sign my_prefix my_sk my_pk).

Notation accepts := (accepts key_ok verify siglen).
Notation accepted := (accepted key_ok verify siglen).

Lemma unpack_auth_key data a z :
  rtm_unpack_auth key_ok data 23 = Ok (a, z) -> key_field key_ok data = Some (public_key_bin a).
Proof.
  unfold rtm_unpack_auth, key_field. intros H.
  change (23 <? 0) with false in H. cbv iota in H. change (Z.to_nat 23) with 23%nat in H.
  destruct (unpack key_ok auth_fmt data 23) as [[v o]|]; cbn [bind] in H; [|discriminate].
  destruct v; try discriminate. injection H as Ha _. subst a. reflexivity.
Qed.

Lemma key_field_unpack_auth data pk :
  key_field key_ok data = Some pk -> exists z, rtm_unpack_auth key_ok data 23 = Ok (mkAuth pk, z).
Proof.
  unfold rtm_unpack_auth, key_field. intros H.
  change (23 <? 0) with false. cbv iota. change (Z.to_nat 23) with 23%nat.
  destruct (unpack key_ok auth_fmt data 23) as [[v o]|]; [|discriminate].
  destruct v; try discriminate. injection H as ->. cbn [bind]. eexists. reflexivity.
Qed.

Lemma key_from_bin pk k :
  rtm_key_from_public_bin siglen pk = Ok k -> fst k = pk /\ siglen pk = Ok (snd k).
Proof.
  unfold rtm_key_from_public_bin. destruct (siglen pk); cbn [bind]; intros H; [|discriminate].
  injection H as <-. split; reflexivity.
Qed.

Lemma verified_get_some s k p :
  rtm_verified_get s k = Some p -> p = PKnown k /\ exists q, net_find (net s) k = Some q.
Proof. unfold rtm_verified_get. destruct (net_find (net s) k); intros H; [|discriminate]. injection H as <-. eauto. Qed.

Lemma verified_get_none s k : rtm_verified_get s k = None -> net_find (net s) k = None.
Proof. unfold rtm_verified_get. destruct (net_find (net s) k); intros H; [discriminate|reflexivity]. Qed.

Lemma add_address_known k a s s0 r :
  rtm_peer_add_address (PKnown k) a s = (s0, r) ->
  r = Ok (PKnown k) /\ s0 = with_net s (net_update (net s) k (fun q => add_addr q a)).
Proof. cbn. intros H. injection H as <- <-. split; reflexivity. Qed.

Lemma new_peer_ok pk n a : siglen pk = Ok n -> rtm_new_peer siglen pk a = Ok (PFresh (mkPeer pk [a] false)).
Proof. unfold rtm_new_peer. intros ->. reflexivity. Qed.

Lemma accepts_intro payloads data a z k objs lo :
  rtm_unpack_auth key_ok data 23 = Ok (a, z) ->
  rtm_key_from_public_bin siglen (public_key_bin a) = Ok k ->
  negb (verify (fst k) (slice data None (Some (- Z.of_nat (snd k)))) (slice data (Some (- Z.of_nat (snd k))) None)) = false ->
  rtm_unpack_list key_ok payloads (slice data (Some lo) (Some (- Z.of_nat (snd k)))) 23 = Ok objs ->
  lo = 2 + blen (public_key_bin a) ->       (* however the source writes that sum *)
  accepts payloads data (public_key_bin a) objs.
Proof.
  intros Hu Hk Hv Hl ->. apply key_from_bin in Hk as [Hf Hn]. rewrite Hf in Hv.
  apply negb_false_iff in Hv.
  split.
  - split; [eapply unpack_auth_key; eauto|]. exists (snd k). split; [assumption|]. split; [assumption|].
    apply slice_partition.
  - exists (snd k). split; assumption.
Qed.
Ltac use_accepts_intro := eapply accepts_intro; [eassumption|eassumption|eassumption|eassumption|lia].

(* normalise what the runtime primitives returned on one execution path *)
Ltac norm_rt :=
  repeat match goal with
  | H : rtm_verified_get _ _ = Some _ |- _ => apply verified_get_some in H as [-> [? ?]]
  | H : rtm_verified_get _ _ = None |- _ => apply verified_get_none in H
  | H : rtm_peer_add_address (PKnown _) _ _ = (_, _) |- _ => apply add_address_known in H as [? ->]
  | H : Ok _ = Ok _ |- _ => injection H as H; try subst
  | H : Raise _ = Ok _ |- _ => discriminate H
  | H : Ok _ = Raise _ |- _ => discriminate H
  | H : is_some None = true |- _ => discriminate H
  | H : is_some (Some _) = false |- _ => discriminate H
  | H : rtm_key_from_public_bin _ _ = Ok _, H2 : rtm_new_peer _ _ _ = _ |- _ =>
      rewrite (new_peer_ok _ _ _ (proj2 (key_from_bin _ _ H))) in H2
  end.
Ltac leaf_left := left; split; [reflexivity|eexists; reflexivity].

(* lazy_wrapper: for ANY decorated function func, the wrapper either raises with the receiver's state untouched, or the
   datagram is accepted for the key pk it carries and the wrapper's whole effect and result is ONE call of func, with
   the Peer of key pk (the verified one after add_address(source), else a new one) and exactly the decoded payloads. *)
Lemma lazy_wrapper_shape payloads (func : callee RT) src data (s s' : state) (r : res unit) :
  lazy_wrapper__wrapper RT payloads func src data s = (s', r) ->
  (s' = s /\ exists e, r = Raise e) \/
  exists pk objs, accepts payloads data pk objs /\
     (s', r) = func (@HPeer RT (snd (peer_handed s pk src))) (map APayload objs) (fst (peer_handed s pk src)).
Proof.
  unfold lazy_wrapper__wrapper. intros H. autounfold with translated_helpers in H. rt_cbn H. unfold_monad H.
  paths H leaf_left.
  all: norm_rt.
  all: solve [right; eexists; eexists; split; [use_accepts_intro|];
              unfold peer_handed; rewrite_find; cbn [fst snd]; symmetry; eassumption].
Qed.

Lemma lazy_wrapper_wd_shape payloads (func : callee RT) src data (s s' : state) (r : res unit) :
  lazy_wrapper_wd__wrapper RT payloads func src data s = (s', r) ->
  (s' = s /\ exists e, r = Raise e) \/
  exists pk objs, accepts payloads data pk objs /\
     (s', r) = func (@HPeer RT (snd (peer_handed s pk src))) (map APayload objs ++ [AData data]) (fst (peer_handed s pk src)).
Proof.
  unfold lazy_wrapper_wd__wrapper. intros H. autounfold with translated_helpers in H. rt_cbn H. unfold_monad H.
  paths H leaf_left.
  all: norm_rt.
  all: solve [right; eexists; eexists; split; [use_accepts_intro|];
              unfold peer_handed; rewrite_find; cbn [fst snd]; symmetry; eassumption].
Qed.

(* the unsigned decorators never touch the Network and hand over the source address only *)
Lemma lazy_wrapper_unsigned_shape payloads (func : callee RT) src data (s s' : state) (r : res unit) :
  lazy_wrapper_unsigned__wrapper RT payloads func src data s = (s', r) ->
  (s' = s /\ exists e, r = Raise e) \/
  exists objs, rtm_unpack_list key_ok payloads data 23 = Ok objs /\
     (s', r) = func (@HAddr RT src) (map APayload objs) s.
Proof.
  unfold lazy_wrapper_unsigned__wrapper. intros H. autounfold with translated_helpers in H. rt_cbn H. unfold_monad H.
  paths H leaf_left.
  all: solve [right; eexists; split; [first [eassumption|reflexivity]|symmetry; eassumption]].
Qed.

Lemma lazy_wrapper_unsigned_wd_shape payloads (func : callee RT) src data (s s' : state) (r : res unit) :
  lazy_wrapper_unsigned_wd__wrapper RT payloads func src data s = (s', r) ->
  (s' = s /\ exists e, r = Raise e) \/
  exists objs, rtm_unpack_list key_ok payloads data 23 = Ok objs /\
     (s', r) = func (@HAddr RT src) (map APayload objs ++ [AKw "data"%string data]) s.
Proof.
  unfold lazy_wrapper_unsigned_wd__wrapper. cbv zeta. intros H.
  apply lazy_wrapper_unsigned_shape in H as [H|(objs & Hl & H)]; [left; exact H|].
  right. exists objs. split; assumption.
Qed.

Lemma unpack_objs_length cs : forall data off objs o,
  unpack_objs key_ok cs data off = Ok (objs, o) -> List.length objs = List.length cs.
Proof.
  induction cs as [|c tl IH]; intros data off objs o H; cbn [unpack_objs] in H.
  - injection H as <- _. reflexivity.
  - destruct (unpack_msg key_ok (msg_of_list c) data off) as [[vs o1]|]; cbn [bind] in H; [|discriminate].
    destruct (unpack_objs key_ok tl data o1) as [[r o2]|] eqn:E; cbn [bind] in H; [|discriminate].
    injection H as <- _. cbn [List.length]. f_equal. eapply IH. exact E.
Qed.

Lemma unpack_list_length cs data off objs :
  rtm_unpack_list key_ok cs data off = Ok objs -> List.length objs = List.length cs.
Proof.
  unfold rtm_unpack_list. destruct (off <? 0); [discriminate|].
  destruct (unpack_objs key_ok cs data (Z.to_nat off)) as [[o1 o2]|] eqn:E; cbn [bind]; [|discriminate].
  destruct (_ <? _)%nat; [discriminate|]. intros H. injection H as <-. eapply unpack_objs_length. exact E.
Qed.

(* _ez_unpack_auth (hand-parsed authenticated messages): returns only for an accepted datagram, never touches the state *)
Lemma ez_unpack_auth_sound pc data (s s' : state) r :
  EZ_ez_unpack_auth RT pc data s = (s', r) ->
  s' = s /\
  forall a g p, r = Ok (a, g, p) -> accepts [GlobalTimeDistributionPayload_cls; pc] data (public_key_bin a) [g; p].
Proof.
  intros H. autounfold with translated_helpers in H. rt_cbn H. unfold_monad H.
  paths H ltac:(split; [reflexivity|intros; discriminate]).
  all: norm_rt.
  all: injection H as <- <-; split; [reflexivity|]; intros a' g' p' Hr; injection Hr as <- <- <-.
  all: match goal with Hl : rtm_unpack_list _ _ _ _ = Ok ?l |- _ =>
         pose proof (unpack_list_length _ _ _ _ Hl) as Hlen; cbn in Hlen;
         destruct l as [|g [|p [|? ?]]]; try discriminate Hlen end.
  all: repeat match goal with Hn : py_nth _ _ = Ok _ |- _ => cbn in Hn; injection Hn as <- end.
  all: change [GlobalTimeDistributionPayload_cls; pc] with ([GlobalTimeDistributionPayload_cls] ++ [pc]).
  all: use_accepts_intro.
Qed.

(* _ez_unpack_noauth: no authentication at all (nothing to prove but that it is pure) *)
Lemma ez_unpack_noauth_pure pc data (s s' : state) r :
  EZ_ez_unpack_noauth_gt RT pc data s = (s', r) -> s' = s.
Proof.
  intros H. autounfold with translated_helpers in H. rt_cbn H. unfold_monad H. cbv zeta in H.
  repeat (dm H; cbn beta iota zeta in H); injection H as <- _; reflexivity.
Qed.

Lemma peer_handed_other s pk src k : k <> pk -> net_find (net (fst (peer_handed s pk src))) k = net_find (net s) k.
Proof.
  intros Hne. unfold peer_handed. destruct (net_find (net s) pk); cbn [fst with_net net]; [|reflexivity].
  apply net_find_update_other. exact Hne.
Qed.

Lemma peer_handed_wf s pk src : net_wf (net s) -> net_wf (net (fst (peer_handed s pk src))).
Proof.
  intros Hwf. unfold peer_handed. destruct (net_find (net s) pk); cbn [fst with_net net]; [|exact Hwf].
  apply net_wf_update; [intros; apply add_addr_key|exact Hwf].
Qed.

Lemma peer_handed_calls s pk src : calls (fst (peer_handed s pk src)) = calls s.
Proof. unfold peer_handed. destruct (net_find (net s) pk); reflexivity. Qed.

(* the reference names key pk: the Network's entry pk, or a loose object carrying pk *)
Definition names (p : pref) (pk : bytes) : Prop := match p with PKnown k => k = pk | PFresh q => p_key q = pk end.

Lemma peer_handed_names s pk src : names (snd (peer_handed s pk src)) pk.
Proof. unfold peer_handed. destruct (net_find (net s) pk); reflexivity. Qed.

Lemma add_verified_spec p pk s :
  names p pk ->
  names (snd (add_verified p s)) pk
  /\ (forall k, k <> pk -> net_find (net (fst (add_verified p s))) k = net_find (net s) k)
  /\ (net_wf (net s) -> net_wf (net (fst (add_verified p s))))
  /\ calls (fst (add_verified p s)) = calls s.
Proof.
  intros Hn. destruct p as [k|q]; cbn [names] in Hn; cbn [add_verified].
  - cbn [fst snd names]. repeat split; auto.
  - destruct (net_find (net s) (p_key q)) eqn:E; cbn [fst snd names with_net net calls].
    + repeat split; auto.
      * intros k Hk. apply net_find_update_other. congruence.
      * apply net_wf_update. reflexivity.
    + repeat split; auto.
      * intros k Hk. rewrite net_find_app. destruct (net_find (net s) k); [reflexivity|].
        cbn [net_find]. destruct (bytes_eqb (p_key q) k) eqn:E2; [apply bytes_eqb_eq in E2; congruence|reflexivity].
      * intros Hwf. apply net_wf_app; auto.
Qed.

Lemma add_address_spec p pk a s :
  names p pk ->
  exists p1 s1, rtm_peer_add_address p a s = (s1, Ok p1) /\ names p1 pk
  /\ (forall k, k <> pk -> net_find (net s1) k = net_find (net s) k)
  /\ (net_wf (net s) -> net_wf (net s1))
  /\ calls s1 = calls s.
Proof.
  intros Hn. destruct p as [k|q]; cbn [names] in Hn; cbn [rtm_peer_add_address].
  - subst k. eexists. eexists. split; [reflexivity|]. cbn [names with_net net calls]. repeat split; auto.
    + intros k Hk. apply net_find_update_other. exact Hk.
    + apply net_wf_update. intros. apply add_addr_key.
  - eexists. eexists. split; [reflexivity|]. cbn [names]. rewrite add_addr_key. repeat split; auto.
Qed.

Lemma run_hops_spec ops : forall p pk s,
  names p pk ->
  (forall k, k <> pk -> net_find (net (run_hops ops p s)) k = net_find (net s) k)
  /\ (net_wf (net s) -> net_wf (net (run_hops ops p s)))
  /\ calls (run_hops ops p s) = calls s.
Proof.
  induction ops as [|[|a] tl IH]; intros p pk s Hn; cbn [run_hops].
  - repeat split; auto.
  - destruct (add_verified_spec p pk s Hn) as (Hn1 & Ho & Hw & Hc).
    destruct (add_verified p s) as [s1 p1]. cbn [fst snd] in *.
    destruct (IH p1 pk s1 Hn1) as (Ho2 & Hw2 & Hc2).
    repeat split.
    + intros k Hk. rewrite Ho2, Ho; auto.
    + auto.
    + congruence.
  - destruct (add_address_spec p pk a s Hn) as (p1 & s1 & E & Hn1 & Ho & Hw & Hc). rewrite E.
    destruct (IH p1 pk s1 Hn1) as (Ho2 & Hw2 & Hc2).
    repeat split.
    + intros k Hk. rewrite Ho2, Ho; auto.
    + auto.
    + congruence.
Qed.

(* what one delivery does to the receiver, whatever the datagram and whatever the handler does with its Peer *)
Definition snap_of (s : state) (pk : bytes) (src : paddr) : cfirst :=
  snapshot key_ok verify siglen sign my_prefix my_sk my_pk (fst (peer_handed s pk src)) (@HPeer RT (snd (peer_handed s pk src))).

Lemma snap_of_key s pk src : net_wf (net s) -> exists addrs b, snap_of s pk src = CPeer pk addrs b.
Proof.
  intros Hwf. unfold snap_of, peer_handed. destruct (net_find (net s) pk) as [q|] eqn:E; cbn [fst snd snapshot].
  - cbn [with_net net]. rewrite net_find_update_same, E. rewrite add_addr_key.
    rewrite (Hwf pk q (net_find_in _ _ _ E)). eauto.
  - cbn [p_key p_addrs]. eauto.
Qed.

(* a signed decorator that called the handler: the delivery is accepted for pk, the handler is entered once with the
   Peer of pk, and whatever the handler does with that Peer touches the entry pk of the Network only *)
Lemma signed_call_accepted kind payloads beh src data s s' r args pk objs :
  accepts payloads data pk objs -> signed_kind kind = true ->
  (s', r) = handler beh (@HPeer RT (snd (peer_handed s pk src))) args (fst (peer_handed s pk src)) ->
  accepted (mkD kind payloads beh src data) pk
  /\ calls s' = calls s ++ [(snap_of s pk src, args)]
  /\ (forall k, k <> pk -> net_find (net s') k = net_find (net s) k)
  /\ (net_wf (net s) -> net_wf (net s')).
Proof.
  intros Hacc Hk Hcall.
  apply (f_equal fst) in Hcall. unfold M01_auth_gen.handler in Hcall. cbv beta iota zeta in Hcall. cbn [fst] in Hcall.
  pose proof (peer_handed_names s pk src) as Hn.
  set (s1 := mkState (net (fst (peer_handed s pk src)))
               (calls (fst (peer_handed s pk src)) ++ [(snapshot key_ok verify siglen sign my_prefix my_sk my_pk
                  (fst (peer_handed s pk src)) (@HPeer RT (snd (peer_handed s pk src))), args)])).
  destruct (run_hops_spec beh (snd (peer_handed s pk src)) pk s1 Hn) as (Ho & Hw & Hc).
  change (s' = run_hops beh (snd (peer_handed s pk src)) s1) in Hcall. subst s'.
  split; [split; [exact Hk|exists objs; exact Hacc]|]. split; [|split].
  - rewrite Hc. unfold s1. cbn [calls]. rewrite peer_handed_calls. reflexivity.
  - intros k Hne. rewrite Ho by exact Hne. unfold s1. cbn [net]. apply peer_handed_other. exact Hne.
  - intros Hwf. apply Hw. unfold s1. cbn [net]. apply peer_handed_wf. exact Hwf.
Qed.

Lemma deliver_step s d :
  (* rejected (or an unsigned decorator): the Network is untouched, and a signed handler was not entered *)
  (net (deliver s d) = net s /\
   (calls (deliver s d) = calls s \/
    exists args, signed_kind (d_kind d) = false /\ calls (deliver s d) = calls s ++ [(CAddr (d_src d), args)]))
  \/
  (* accepted: authentic for the key pk it carries; the handler is entered once, with the Peer of pk; nothing but the
     entry pk of the Network differs afterwards *)
  (exists pk args, accepted d pk
     /\ calls (deliver s d) = calls s ++ [(snap_of s pk (d_src d), args)]
     /\ (forall k, k <> pk -> net_find (net (deliver s d)) k = net_find (net s) k)
     /\ (net_wf (net s) -> net_wf (net (deliver s d)))).
Proof.
  unfold deliver, deliver_res. destruct d as [kind payloads beh src data]. cbn [d_kind d_payloads d_beh d_src d_data].
  destruct (wrapper_of key_ok verify siglen sign my_prefix my_sk my_pk kind payloads (handler beh) src data s) as [s' r] eqn:E.
  cbn [fst].
  destruct kind; cbn [wrapper_of] in E;
    [apply lazy_wrapper_shape in E|apply lazy_wrapper_wd_shape in E
    |apply lazy_wrapper_unsigned_shape in E|apply lazy_wrapper_unsigned_wd_shape in E].
  1,2: destruct E as [[-> _]|(pk & objs & Hacc & Hcall)]; [left; auto|right; exists pk; eexists; eapply signed_call_accepted; eauto].
  all: destruct E as [[-> _]|(objs & _ & Hcall)]; [left; auto|left].
  all: unfold M01_auth_gen.handler in Hcall; injection Hcall as -> _; cbn [net calls snapshot]; split; [reflexivity|].
  all: right; eexists; split; reflexivity.
Qed.

Lemma deliver_wf s d : net_wf (net s) -> net_wf (net (deliver s d)).
Proof.
  intros Hwf. destruct (deliver_step s d) as [[-> _]|(pk & args & _ & _ & _ & Hw)]; [exact Hwf|apply Hw, Hwf].
Qed.

Lemma deliver_find s d k :
  net_find (net (deliver s d)) k = net_find (net s) k \/ accepted d k.
Proof.
  destruct (deliver_step s d) as [[-> _]|(pk & args & Hau & _ & Ho & _)]; [left; reflexivity|].
  destruct (bytes_eqb k pk) eqn:E.
  - apply bytes_eqb_eq in E. subst. right. exact Hau.
  - left. apply Ho. intros ->. rewrite bytes_eqb_refl in E. discriminate.
Qed.

Lemma run_wf ds : forall s, net_wf (net s) -> net_wf (net (run_deliveries ds s)).
Proof.
  unfold M01_auth_gen.run_deliveries. induction ds as [|d tl IH]; intros s Hwf; cbn [fold_left]; [exact Hwf|].
  apply IH. apply deliver_wf. exact Hwf.
Qed.

(* for EVERY sequence of incoming datagrams and every key k: the Network's entry for k after the sequence is the one
   before it, unless the sequence contains a datagram that is authentic for k *)
Lemma run_find ds : forall s k,
  net_find (net (run_deliveries ds s)) k = net_find (net s) k \/ exists d, In d ds /\ accepted d k.
Proof.
  unfold M01_auth_gen.run_deliveries. induction ds as [|d tl IH]; intros s k; cbn [fold_left]; [left; reflexivity|].
  destruct (IH (deliver s d) k) as [E|(d' & Hin & Hau)].
  - destruct (deliver_find s d k) as [E2|Hau]; [left; congruence|right; exists d; split; [left; reflexivity|exact Hau]].
  - right. exists d'. split; [right; exact Hin|exact Hau].
Qed.

(* every handler entry of a history: a Peer-taking entry carries the key of an authentic datagram of the history *)
Lemma run_calls ds : forall s c,
  net_wf (net s) ->
  In c (calls (run_deliveries ds s)) ->
  In c (calls s)
  \/ (exists a args d, c = (CAddr a, args) /\ In d ds /\ signed_kind (d_kind d) = false /\ a = d_src d)
  \/ (exists pk addrs b args d, c = (CPeer pk addrs b, args) /\ In d ds /\ accepted d pk).
Proof.
  unfold M01_auth_gen.run_deliveries. induction ds as [|d tl IH]; intros s c Hwf Hin; cbn [fold_left] in Hin; [left; exact Hin|].
  destruct (IH (deliver s d) c (deliver_wf s d Hwf) Hin) as [Hc|[H|H]].
  - destruct (deliver_step s d) as [[_ [E|(args & Hk & E)]]|(pk & args & Hau & E & _ & _)]; rewrite E in Hc.
    + left. exact Hc.
    + apply in_app_or in Hc as [Hc|[Hc|[]]]; [left; exact Hc|]. right. left.
      exists (d_src d), args, d. split; [symmetry; exact Hc|]. split; [left; reflexivity|]. split; [exact Hk|reflexivity].
    + apply in_app_or in Hc as [Hc|[Hc|[]]]; [left; exact Hc|]. right. right.
      destruct (snap_of_key s pk (d_src d) Hwf) as (addrs & b & Es). rewrite Es in Hc.
      exists pk, addrs, b, args, d. split; [symmetry; exact Hc|]. split; [left; reflexivity|exact Hau].
  - right. left. destruct H as (a & args & d' & H1 & Hd & H2 & H3). exists a, args, d'. auto using in_cons.
  - right. right. destruct H as (pk & addrs & b & args & d' & H1 & Hd & Hau). exists pk, addrs, b, args, d'. auto using in_cons.
Qed.

End P.

Section Q.
Variable key_ok : bytes -> bool.
Variable verify : bytes -> bytes -> bytes -> bool.
Variable siglen : bytes -> res nat.
Variable sign : bytes -> bytes -> bytes.
Variable my_prefix my_sk my_pk : bytes.
Notation RT := (RT key_ok verify siglen sign my_prefix my_sk my_pk).
Notation accepts := (accepts key_ok verify siglen).

(* one payload class after the other = the concatenated format list (the hand model's view) *)
Lemma unpack_msg_app c : forall m data off,
  unpack_msg key_ok (msg_of_list (c ++ m)) data off =
  (do (vs, o1) <- unpack_msg key_ok (msg_of_list c) data off;
   do (r, o2) <- unpack_msg key_ok (msg_of_list m) data o1; Ok (vs ++ r, o2)).
Proof.
  induction c as [|f c IH]; intros m data off.
  - cbn [app msg_of_list]. change (unpack_msg key_ok MNil data off) with (@Ok (list val * nat) ([], off)). cbn [bind].
    destruct (unpack_msg key_ok (msg_of_list m) data off) as [[r o2]|]; reflexivity.
  - cbn [app msg_of_list]. rewrite !unpack_msg_cons.
    destruct (unpack key_ok f data off) as [[v o1]|]; cbn [bind]; [|reflexivity].
    rewrite IH. destruct (unpack_msg key_ok (msg_of_list c) data o1) as [[vs o2]|]; cbn [bind]; [|reflexivity].
    destruct (unpack_msg key_ok (msg_of_list m) data o2) as [[r o3]|]; reflexivity.
Qed.

Lemma unpack_objs_flat cs : forall data off,
  unpack_msg key_ok (msg_of_list (concat cs)) data off =
  (do (objs, o) <- unpack_objs key_ok cs data off; Ok (concat objs, o)).
Proof.
  induction cs as [|c cs IH]; intros data off; [reflexivity|].
  cbn [concat unpack_objs]. rewrite unpack_msg_app.
  destruct (unpack_msg key_ok (msg_of_list c) data off) as [[vs o1]|]; cbn [bind]; [|reflexivity].
  rewrite IH. destruct (unpack_objs key_ok cs data o1) as [[r o2]|]; reflexivity.
Qed.

Lemma unpack_list_flat cs data :
  unpack_all key_ok (msg_of_list (concat cs)) data 23 = (do objs <- rtm_unpack_list key_ok cs data 23; Ok (concat objs)).
Proof.
  unfold unpack_all, rtm_unpack_list. change (23 <? 0) with false. cbv iota. change (Z.to_nat 23) with 23%nat.
  rewrite unpack_objs_flat. destruct (unpack_objs key_ok cs data 23) as [[objs o]|]; cbn [bind]; [|reflexivity].
  destruct (o <? Datatypes.length data)%nat; reflexivity.
Qed.

(* the translated decorator accepts exactly what the hand model M01_auth.wrapper_signed accepts *)
Lemma accepts_hand cs data pk objs :
  accepts cs data pk objs ->
  wrapper_signed key_ok verify siglen (msg_of_list (concat cs)) data = Ok (Invoke pk (concat objs)).
Proof.
  intros [[Hkf (n & Hn & Hv & _)] (n' & Hn' & Hl)]. rewrite Hn in Hn'. injection Hn' as <-.
  unfold wrapper_signed. unfold key_field in Hkf.
  destruct (unpack key_ok auth_fmt data 23) as [[v o]|]; [|discriminate]. destruct v; try discriminate.
  injection Hkf as ->. cbn [bind]. rewrite Hn. cbn [bind]. cbv zeta.
  rewrite unpack_list_flat, Hl. cbn [bind]. rewrite Hv. reflexivity.
Qed.

Lemma hand_accepts cs data pk vs :
  wrapper_signed key_ok verify siglen (msg_of_list (concat cs)) data = Ok (Invoke pk vs) ->
  exists objs, vs = concat objs /\ accepts cs data pk objs.
Proof.
  intros H. destruct (auth_only_if_valid_l _ _ _ _ _ _ _ H) as (n & o & Hu & Hn & Hv & Hp & Ha).
  rewrite unpack_list_flat in Ha.
  destruct (rtm_unpack_list key_ok cs (slice data (Some (2 + blen pk)) (Some (- Z.of_nat n))) 23) as [objs|] eqn:El;
    cbn [bind] in Ha; [|discriminate].
  injection Ha as <-. exists objs. split; [reflexivity|].
  split.
  - split; [unfold key_field; rewrite Hu; reflexivity|]. exists n. auto.
  - exists n. auto.
Qed.

(* completeness: an accepted datagram does reach the decorated function (forward execution of the translated body) *)
Lemma accepts_facts cs data pk objs :
  accepts cs data pk objs ->
  exists z n, rtm_unpack_auth key_ok data 23 = Ok (mkAuth pk, z)
    /\ rtm_key_from_public_bin siglen pk = Ok (pk, n)
    /\ siglen pk = Ok n
    /\ verify pk (slice data None (Some (- Z.of_nat n))) (slice data (Some (- Z.of_nat n)) None) = true
    /\ rtm_unpack_list key_ok cs (slice data (Some (2 + blen pk)) (Some (- Z.of_nat n))) 23 = Ok objs.
Proof.
  intros [[Hkf (n & Hn & Hv & _)] (n' & Hn' & Hl)]. rewrite Hn in Hn'. injection Hn' as <-.
  destruct (key_field_unpack_auth key_ok _ _ Hkf) as [z Hz]. exists z, n.
  unfold rtm_key_from_public_bin. rewrite Hn. cbn [bind]. auto.
Qed.

Ltac forward_rt :=
  repeat (cbn [public_key_bin fst snd negb is_some];
          match goal with
          | H : ?x = _ |- context [match ?x with _ => _ end] => rewrite H
          | H : ?x = _ |- context [if ?x then _ else _] => rewrite H
          | H : ?x = _ |- context [negb ?x] => rewrite H
          | |- context [blen ?k + 2] => rewrite (Z.add_comm (blen k) 2)     (* however the source writes that sum *)
          end; cbn beta iota zeta).

Lemma lazy_wrappers_complete payloads (func : callee RT) src data (s : state) pk objs :
  accepts payloads data pk objs ->
  lazy_wrapper__wrapper RT payloads func src data s =
  func (@HPeer RT (snd (peer_handed s pk src))) (map APayload objs) (fst (peer_handed s pk src))
  /\
  lazy_wrapper_wd__wrapper RT payloads func src data s =
  func (@HPeer RT (snd (peer_handed s pk src))) (map APayload objs ++ [AData data]) (fst (peer_handed s pk src)).
Proof.
  intros Hacc. destruct (accepts_facts _ _ _ _ Hacc) as (z & n & Hu & Hk & Hn & Hv & Hl).
  pose proof (new_peer_ok siglen pk n src Hn) as Hnew.
  split; [unfold lazy_wrapper__wrapper|unfold lazy_wrapper_wd__wrapper].
  all: unfold peer_handed; autounfold with translated_helpers.
  all: cbn [M01_auth_gen.RT rt_unpack_auth rt_unpack_list rt_key_from_public_bin rt_get_signature_length rt_is_valid_signature
            rt_verified_get rt_peer_add_address rt_new_peer St PubKey PeerRef RetV].
  all: unfold bindM, liftr, readM, retM, raiseM, rtm_verified_get.
  all: destruct (net_find (net s) pk) as [q|] eqn:Ef; forward_rt; cbn [rtm_peer_add_address]; forward_rt; reflexivity.
Qed.

(* the sender: what the translated ezr_pack produces is what the hand model's ez_pack produces *)
Lemma pack_msg_app c : forall m v1 v2 a b,
  pack_msg key_ok (msg_of_list c) v1 = Ok a -> pack_msg key_ok (msg_of_list m) v2 = Ok b ->
  pack_msg key_ok (msg_of_list (c ++ m)) (v1 ++ v2) = Ok (a ++ b).
Proof.
  induction c as [|f c IH]; intros m v1 v2 a b H1 H2.
  - cbn [msg_of_list] in H1. destruct v1; cbn in H1; [|discriminate]. injection H1 as <-. exact H2.
  - cbn [msg_of_list] in H1. destruct v1 as [|v v1]; [cbn in H1; discriminate|]. rewrite pack_msg_cons in H1.
    destruct (pack key_ok f v) as [x|] eqn:Ex; cbn [bind] in H1; [|discriminate].
    destruct (pack_msg key_ok (msg_of_list c) v1) as [y|] eqn:Ey; cbn [bind] in H1; [|discriminate].
    injection H1 as <-. cbn [app msg_of_list]. rewrite pack_msg_cons, Ex. cbn [bind].
    rewrite (IH m v1 v2 y b Ey H2). cbn [bind]. rewrite app_assoc. reflexivity.
Qed.

Lemma pack_list_flat insts : forall b,
  rtm_pack_list key_ok insts = Ok b ->
  pack_msg key_ok (msg_of_list (concat (map fst insts))) (concat (map snd insts)) = Ok b.
Proof.
  unfold rtm_pack_list. induction insts as [|[c vs] tl IH]; intros b H; cbn [map concat_res concat fst snd] in *.
  - injection H as <-. reflexivity.
  - destruct (pack_msg key_ok (msg_of_list c) vs) as [x|] eqn:Ex; cbn [bind] in H; [|discriminate].
    destruct (concat_res _) as [y|] eqn:Ey; cbn [bind] in H; [|discriminate]. injection H as <-.
    apply pack_msg_app; [exact Ex|apply IH; reflexivity].
Qed.

Lemma ezr_pack_hand msg_num insts (s s' : state) data :
  EZ_ezr_pack RT msg_num insts true s = (s', Ok data) ->
  s' = s /\
  ez_pack key_ok sign my_sk my_pk my_prefix msg_num (msg_of_list (concat (map fst insts))) (concat (map snd insts)) = Ok data.
Proof.
  intros H. autounfold with translated_helpers in H.
  cbn [M01_auth_gen.RT rt_pack_list rt_create_signature rt_prefix rt_my_key rt_my_public_key_bin St SecKey] in H.
  unfold bindM, liftr, retM in H. cbv beta iota zeta in H.
  unfold py_bytes1 in H. destruct ((0 <=? msg_num) && (msg_num <? 256)); [|discriminate].
  destruct (rtm_pack_list key_ok _) as [b|] eqn:Ep; [|discriminate].
  injection H as <- <-. split; [reflexivity|].
  unfold rtm_pack_list in Ep. cbn [app map concat_res fst snd] in Ep.
  change BinMemberAuthenticationPayload_cls with [auth_fmt] in Ep. cbn [msg_of_list] in Ep. rewrite pack_msg_cons in Ep.
  destruct (pack key_ok auth_fmt (VBytes my_pk)) as [a|] eqn:Ea; cbn [bind] in Ep; [|discriminate].
  cbn [pack_msg bind] in Ep. rewrite app_nil_r in Ep.
  destruct (concat_res _) as [y|] eqn:Ey; cbn [bind] in Ep; [|discriminate]. injection Ep as <-.
  unfold ez_pack. rewrite Ea. cbn [bind]. rewrite (pack_list_flat insts y Ey). cbn [bind]. cbv zeta.
  rewrite <- !app_assoc. reflexivity.
Qed.

End Q.
