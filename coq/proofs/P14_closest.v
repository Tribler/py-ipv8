(* C14 - closest_nodes returns exactly the k live nodes nearest to the target, nearest first. *)
From Coq Require Import ZArith List Bool Arith Lia Permutation Sorted.
From IPV8V Require Import lib.Lists lib.PyErr model.M14_routing spec.S14_kademlia
  proofs.P14_bits proofs.P14_trie proofs.P14_bucket proofs.P14_table.
Import ListNotations.
Open Scope Z_scope.

Lemma NoDup_map_inj_on {B C} (f : B -> C) l :
  (forall a b, In a l -> In b l -> f a = f b -> a = b) -> NoDup l -> NoDup (map f l).
Proof.
  induction l as [|x l IH]; intros Inj N; cbn; [constructor|]. inversion N as [|? ? Hx N']; subst.
  constructor.
  - rewrite in_map_iff. intros (y & E & Hy). apply Inj in E; [|right; exact Hy|left; reflexivity]. subst. contradiction.
  - apply IH; auto. intros a b Ha Hb. apply Inj; right; assumption.
Qed.

Lemma in_by_id (U l : list node) n :
  NoDup (map nid U) -> incl l U -> In n U -> In (nid n) (map nid l) -> In n l.
Proof.
  intros N I Hn Hi. apply in_map_iff in Hi as (m & E & Hm).
  assert (m = n) by (eapply (NoDup_map_inj nid); eauto). subst. exact Hm.
Qed.

Lemma ss_app_inv {B} (R : B -> B -> Prop) l1 : forall l2,
  StronglySorted R (l1 ++ l2) -> StronglySorted R l1 /\ forall a b, In a l1 -> In b l2 -> R a b.
Proof.
  induction l1 as [|x l1 IH]; intros l2 S; [split; [constructor | intros a b []]|].
  cbn in S. apply StronglySorted_inv in S as [S F]. destruct (IH _ S) as [S1 Hab]. rewrite Forall_forall in F.
  split.
  - constructor; [exact S1|]. apply Forall_forall. intros y Hy. apply F, in_or_app. auto.
  - intros a b [->|Ha] Hb; [apply F, in_or_app|]; auto.
Qed.

Lemma ss_firstn {B} (R : B -> B -> Prop) l k : StronglySorted R l -> StronglySorted R (firstn k l).
Proof. intros S. rewrite <- (firstn_skipn k l) in S. apply ss_app_inv in S. apply S. Qed.

Lemma union_app a l1 l2 : union a (l1 ++ l2) = union (union a l1) l2.
Proof. unfold union. apply fold_left_app. Qed.

Lemma union_spec new : forall acc,
  (forall n, In n (union acc new) -> In n acc \/ In n new) /\
  (forall i, In i (map nid acc) \/ In i (map nid new) -> In i (map nid (union acc new))) /\
  (NoDup (map nid acc) -> NoDup (map nid (union acc new))).
Proof.
  unfold union. induction new as [|x new IH]; intros acc; cbn [fold_left].
  - split; [auto|]. split; [|auto]. intros i [H|[]]. exact H.
  - destruct (has_id (nid x) acc) eqn:Hx.
    + destruct (IH acc) as (A & B & C). split; [|split; [|exact C]].
      * intros n Hn. destruct (A n Hn); [left | right; right]; assumption.
      * intros i [H|[<-|H]]; apply B; [left; exact H | left; apply has_id_true, Hx | right; exact H].
    + destruct (IH (acc ++ [x])) as (A & B & C). split; [|split].
      * intros n Hn. destruct (A n Hn) as [H|H]; [|right; right; exact H].
        apply in_app_iff in H as [H|[<-|[]]]; [left; exact H | right; left; reflexivity].
      * intros i H. apply B. rewrite map_app, in_app_iff. cbn [map In]. destruct H as [H|[H|H]]; auto.
      * intros N. apply C. rewrite map_app. apply NoDup_snoc; [exact N|]. apply has_id_false, Hx.
Qed.

Section Sorting.
Variable target : bits.
Definition dist_key (n : node) : Z := dist (nid n) target.
Definition dist_le (a b : node) : Prop := dist_key a <= dist_key b.
Definition dist_lt (a b : node) : Prop := dist_key a < dist_key b.

(* the undecorated insertion sort the keyed one is equal to *)
Fixpoint insert_by (x : node) (l : list node) : list node :=
  match l with
  | [] => [x]
  | h :: tl => if dist_key x <=? dist_key h then x :: h :: tl else h :: insert_by x tl
  end.

Definition decorate (n : node) : Z * node := (dist_key n, n).

Lemma insert_key_decorate x l : insert_key (decorate x) (map decorate l) = map decorate (insert_by x l).
Proof.
  induction l as [|h l IH]; cbn [insert_key insert_by map]; [reflexivity|].
  cbn [decorate fst]. destruct (dist_key x <=? dist_key h); [reflexivity|]. cbn [map]. rewrite <- IH. reflexivity.
Qed.

Lemma sort_undecorated l : sort_by_dist target l = fold_right insert_by [] l.
Proof.
  change (sort_by_dist target l) with (map snd (fold_right insert_key [] (map decorate l))).
  assert (E : fold_right insert_key [] (map decorate l) = map decorate (fold_right insert_by [] l)).
  { induction l as [|x l IH]; [reflexivity|]. cbn [map fold_right]. rewrite IH. apply insert_key_decorate. }
  rewrite E, map_map. cbn [decorate snd]. apply map_id.
Qed.

Lemma insert_perm x l : Permutation (insert_by x l) (x :: l).
Proof.
  induction l as [|h l IH]; cbn [insert_by]; [reflexivity|].
  destruct (dist_key x <=? dist_key h); [reflexivity|].
  etransitivity; [apply perm_skip; exact IH | apply perm_swap].
Qed.

Lemma sort_cons x l : sort_by_dist target (x :: l) = insert_by x (sort_by_dist target l).
Proof. rewrite !sort_undecorated. reflexivity. Qed.

Lemma sort_perm l : Permutation (sort_by_dist target l) l.
Proof.
  induction l as [|x l IH]; [reflexivity|]. rewrite sort_cons.
  etransitivity; [apply insert_perm | apply perm_skip; exact IH].
Qed.

Lemma insert_sorted x l : StronglySorted dist_le l -> StronglySorted dist_le (insert_by x l).
Proof.
  induction 1 as [|h l S IH F]; cbn [insert_by]; [repeat constructor|].
  destruct (dist_key x <=? dist_key h) eqn:E.
  - apply Z.leb_le in E. constructor; [constructor; assumption|]. constructor; [exact E|].
    eapply Forall_impl; [|exact F]. unfold dist_le, dist_key in *. intros y Hy. lia.
  - apply Z.leb_gt in E. constructor; [exact IH|]. apply Forall_forall. intros y Hy.
    apply (Permutation_in _ (insert_perm x l)) in Hy. destruct Hy as [<-|Hy].
    + unfold dist_le, dist_key in *. lia.
    + rewrite Forall_forall in F. apply F. exact Hy.
Qed.

Lemma sort_sorted l : StronglySorted dist_le (sort_by_dist target l).
Proof. induction l as [|x l IH]; [constructor|]. rewrite sort_cons. apply insert_sorted. exact IH. Qed.

Lemma ss_strict l : StronglySorted dist_le l -> NoDup (map dist_key l) -> StronglySorted dist_lt l.
Proof.
  induction 1 as [|h l S IH F]; intros N; [constructor|]. cbn in N. inversion N as [|? ? Hh N']; subst.
  constructor; [auto|]. apply Forall_forall. intros y Hy. rewrite Forall_forall in F. specialize (F y Hy).
  assert (dist_key h <> dist_key y) by (intros E; apply Hh; rewrite E; apply in_map; exact Hy).
  unfold dist_le, dist_lt in *. lia.
Qed.

End Sorting.

Lemma live_eligible excl n : live excl n = true <-> eligible excl n.
Proof.
  unfold live, eligible, is_bad. rewrite andb_true_iff, negb_true_iff, Z.leb_gt.
  destruct excl as [e|]; [rewrite negb_true_iff, bits_eqb_neq|]; intuition lia.
Qed.

Section ClosestFacts.
Variable W : nat.
Variable cap : nat.
Variable me : bits.
Notation wf := (wf W cap me).

Variable t : trie bucket.
Variable target : bits.
Variable excl : option bits.
Variable kk : nat.                        (* max_nodes *)
Hypothesis Hwf : wf [] t.
Hypothesis Htarget : length target = W.

Let U := all_nodes t.
Let lv := filter (live excl) U.           (* the live nodes of the table (minus exclude_node) *)

Variable pk : bits.                       (* key of the bucket that owns the target *)
Variable pb : bucket.
Hypothesis Hleaf : tfind t pk = leaf pb.
Hypothesis Hpk : starts_with pk target = true.

(* what one level of the walk collects: the live nodes below the first j bits of pk *)
Definition near (j : nat) : list node := filter (live excl) (all_nodes (tfind t (firstn j pk))).

Lemma tfind_prefix_nonempty j : tfind t (firstn j pk) <> Empty.
Proof.
  intros E. rewrite <- (firstn_skipn j pk) in Hleaf. rewrite tfind_app, E, tfind_Empty in Hleaf. discriminate.
Qed.

Lemma near_iff j n :
  In n (near j) <-> In n U /\ live excl n = true /\ starts_with (firstn j pk) (nid n) = true.
Proof.
  unfold near. rewrite filter_In.
  assert (HU : In n (all_nodes (tfind t (firstn j pk))) -> In n U) by apply all_nodes_tfind.
  pose proof (fun HU => all_nodes_tfind_iff W cap me (firstn j pk) [] t n Hwf (tfind_prefix_nonempty j) HU) as Iff.
  cbn [app] in Iff. tauto.
Qed.

Lemma near_mono i j : (i <= j)%nat -> incl (near j) (near i).
Proof.
  intros Le n Hn. apply near_iff in Hn as (HU & L & St). apply near_iff. split; [exact HU|]. split; [exact L|].
  eapply starts_with_trans; [apply (starts_with_firstn_mono i j pk Le) | exact St].
Qed.

Lemma near_in_U j : incl (near j) U.
Proof. intros n Hn. apply near_iff in Hn. tauto. Qed.

Lemma near_in_lv j : incl (near j) lv.
Proof. intros n Hn. apply (near_mono 0 j) in Hn; [exact Hn | apply Nat.le_0_l]. Qed.

Lemma NoDup_U : NoDup (map nid U).
Proof. apply (wf_NoDup W cap me t [] Hwf). Qed.

(* nodes |= <the nodes of level j>, when everything collected so far belongs to that level *)
Lemma union_level acc j :
  NoDup (map nid acc) -> incl acc (near j) ->
  NoDup (map nid (union acc (near j))) /\ forall n, In n (union acc (near j)) <-> In n (near j).
Proof.
  intros N I. destruct (union_spec (near j) acc) as (A & B & C). split; [auto|]. intros n. split.
  - intros H. apply A in H as [H|H]; auto.
  - intros H. apply (in_by_id U); [apply NoDup_U | | apply (near_in_U j); exact H | apply B; right; apply in_map; exact H].
    intros m Hm. apply A in Hm as [Hm|Hm]; apply (near_in_U j); auto.
Qed.

Lemma walk_unfold i acc :
  walk t pk excl kk i acc =
  let acc' := union acc (near i) in
  if (kk <? length acc')%nat then Ok acc' else match i with O => Ok acc' | S j => walk t pk excl kk j acc' end.
Proof. destruct i; cbn [walk]; rewrite under_ok; reflexivity. Qed.

(* the walk stops at some level j with exactly the live nodes of that level; it stops before the root
   only with more than k nodes *)
Lemma walk_spec i : forall acc,
  NoDup (map nid acc) -> incl acc (near i) ->
  exists j r, (j <= i)%nat /\ walk t pk excl kk i acc = Ok r /\ NoDup (map nid r) /\
              (forall n, In n r <-> In n (near j)) /\ (j = 0%nat \/ (kk < length r)%nat).
Proof.
  induction i as [|i IH]; intros acc N I; rewrite walk_unfold; cbv zeta;
    destruct (union_level acc _ N I) as [Nu Eq];
    destruct (_ <? _)%nat eqn:Lt; try apply Nat.ltb_lt in Lt.
  - exists 0%nat, (union acc (near 0)).
    split; [apply le_n|]. split; [reflexivity|]. split; [exact Nu|]. split; [exact Eq | right; exact Lt].
  - exists 0%nat, (union acc (near 0)).
    split; [apply le_n|]. split; [reflexivity|]. split; [exact Nu|]. split; [exact Eq | left; reflexivity].
  - exists (S i), (union acc (near (S i))).
    split; [apply le_n|]. split; [reflexivity|]. split; [exact Nu|]. split; [exact Eq | right; exact Lt].
  - destruct (IH (union acc (near (S i))) Nu) as (j & r & Le & E & Hr); [|exists j, r; auto].
    intros n Hn. apply Eq in Hn. apply (near_mono i (S i)); auto.
Qed.

Lemma lv_iff n : In n lv <-> In n (table_nodes (mkRT me t)) /\ eligible excl n.
Proof. unfold lv. rewrite filter_In, live_eligible. reflexivity. Qed.

Lemma NoDup_lv : NoDup lv.
Proof. apply NoDup_filter, (NoDup_map_inv nid), NoDup_U. Qed.

Lemma lv_len n : In n lv -> length (nid n) = W.
Proof. intros H. apply lv_iff in H as [H _]. apply (wf_all_nodes W cap me t [] n Hwf H). Qed.

(* distinct live nodes lie at distinct distances *)
Lemma NoDup_keys l :
  incl l lv -> NoDup (map nid l) -> NoDup (map (dist_key target) l).
Proof.
  intros I N. apply NoDup_map_inj_on; [|eapply NoDup_map_inv; exact N].
  intros a b Ha Hb E. apply dist_inj in E; try (rewrite Htarget; apply lv_len; auto).
  apply (NoDup_map_inj nid U); [apply NoDup_U | | | exact E]; eapply lv_iff; eauto.
Qed.

Lemma closest_from_walk j r :
  NoDup (map nid r) -> (forall n, In n r <-> In n (near j)) -> (j = 0%nat \/ (kk < length r)%nat) ->
  k_closest (mkRT me t) target excl kk (firstn kk (sort_by_dist target r)).
Proof.
  intros Nr Hr Hj.
  set (sr := sort_by_dist target r).
  pose proof (sort_perm target r) as P. fold sr in P.
  assert (Isub : incl r lv) by (intros n Hn; apply (near_in_lv j), Hr, Hn).
  assert (Isr : incl sr lv) by (intros n Hn; apply Isub; eapply Permutation_in; eauto).
  assert (Nsr : NoDup (map nid sr)).
  { eapply Permutation_NoDup; [|exact Nr]. apply Permutation_map. symmetry. exact P. }
  assert (SS : StronglySorted (dist_lt target) sr).
  { apply ss_strict; [apply sort_sorted | apply NoDup_keys; assumption]. }
  constructor.
  - apply ss_firstn. exact SS.
  - intros n Hn. apply lv_iff, Isr. eapply in_firstn; eauto.
  - intros elig Ne He. rewrite firstn_length, (Permutation_length P).
    assert (PL : Permutation elig lv).
    { apply NoDup_Permutation; [exact Ne | apply NoDup_lv |]. intros n. rewrite He, lv_iff. reflexivity. }
    rewrite (Permutation_length PL). destruct Hj as [->|Lt].
    + f_equal. apply Permutation_length, NoDup_Permutation; [eapply NoDup_map_inv; exact Nr | apply NoDup_lv | exact Hr].
    + assert (length r <= length lv)%nat by (apply NoDup_incl_length; [eapply NoDup_map_inv; exact Nr | exact Isub]).
      lia.
  - intros n m Hn Hm Em Hnm. assert (Hm' : In m lv) by (apply lv_iff; auto).
    assert (Hn' : In n sr) by (eapply in_firstn; eauto).
    destruct (starts_with (firstn j pk) (nid m)) eqn:Sm.
    + (* m was collected but cut off: it comes later in the sorted list *)
      assert (Hmr : In m r) by (apply Hr, near_iff; apply filter_In in Hm'; tauto).
      assert (Hms : In m sr) by (eapply Permutation_in; [symmetry; exact P | exact Hmr]).
      rewrite <- (firstn_skipn kk sr) in Hms, SS. apply in_app_iff in Hms as [Hms|Hms]; [contradiction|].
      apply ss_app_inv in SS as [_ SS]. apply SS; assumption.
    + (* m lies outside the sub-tree that was collected: it shares fewer leading bits with the target *)
      assert (Hnr : In n r) by (eapply Permutation_in; [exact P | exact Hn']).
      apply Hr in Hnr. apply near_iff in Hnr as (HnU & _ & Sn).
      apply (xor_order_by_common_prefix (firstn j pk)); auto.
      * eapply starts_with_trans; [apply starts_with_firstn | exact Hpk].
      * rewrite Htarget. apply (wf_all_nodes W cap me t [] n Hwf HnU).
      * rewrite Htarget. apply lv_len. exact Hm'.
Qed.

End ClosestFacts.

(* closest_nodes on a valid table: no exception, and the result is the k-closest list *)
Lemma closest_ok W cap me t target kk excl :
  wf W cap me [] t -> length target = W ->
  exists res, closest (mkRT me t) target kk excl = Ok res /\ k_closest (mkRT me t) target excl kk res.
Proof.
  intros Hwf Ht.
  destruct (find_bucket_ok W cap me t target Hwf Ht) as (k & b & E & Sk & Fk & _).
  unfold closest. cbn [tr]. rewrite (find_bucket_prefix t target k b E).
  destruct (walk_spec W cap me t excl kk Hwf k b Fk (length k) []) as (j & r & _ & Ew & Nr & Hr & Hj);
    [constructor | intros n [] |].
  rewrite Ew. cbn [bind]. eexists. split; [reflexivity|].
  eapply closest_from_walk; eauto.
Qed.

Lemma sorted_prefix_k_closest W cap me t target excl kk :
  wf W cap me [] t -> length target = W ->
  k_closest (mkRT me t) target excl kk (firstn kk (sort_by_dist target (filter (live excl) (all_nodes t)))).
Proof.
  intros H L. destruct (find_bucket_ok W cap me t target H L) as (k & b & _ & Sk & Fk & _).
  apply (closest_from_walk W cap me t target excl kk H L k b Fk Sk 0%nat).
  - apply NoDup_map_filter. eapply wf_NoDup; eauto.
  - intros n. reflexivity.
  - left. reflexivity.
Qed.

Lemma ss_lt_unique target (l1 : list node) : forall l2,
  StronglySorted (dist_lt target) l1 -> StronglySorted (dist_lt target) l2 ->
  (forall n, In n l1 <-> In n l2) -> l1 = l2.
Proof.
  induction l1 as [|x l1 IH]; intros l2 S1 S2 Eq.
  - destruct l2 as [|y l2]; [reflexivity|]. exfalso. apply (Eq y). left. reflexivity.
  - destruct l2 as [|y l2]; [exfalso; apply (Eq x); left; reflexivity|].
    apply StronglySorted_inv in S1 as [S1 F1]. apply StronglySorted_inv in S2 as [S2 F2].
    rewrite Forall_forall in F1, F2.
    assert (x = y).
    { destruct (proj1 (Eq x) (or_introl eq_refl)) as [->|Hx]; [reflexivity|].
      destruct (proj2 (Eq y) (or_introl eq_refl)) as [->|Hy]; [reflexivity|].
      specialize (F1 _ Hy). specialize (F2 _ Hx). unfold dist_lt in *. lia. }
    subst y. f_equal. apply IH; auto. intros n. split; intros Hn.
    + destruct (proj1 (Eq n) (or_intror Hn)) as [<-|H]; [|exact H].
      specialize (F1 _ Hn). unfold dist_lt in F1. lia.
    + destruct (proj2 (Eq n) (or_intror Hn)) as [<-|H]; [|exact H].
      specialize (F2 _ Hn). unfold dist_lt in F2. lia.
Qed.

Lemma ss_lt_NoDup target l : StronglySorted (dist_lt target) l -> NoDup l.
Proof.
  induction 1 as [|x l S IH F]; constructor; [|exact IH].
  intros Hx. rewrite Forall_forall in F. specialize (F x Hx). unfold dist_lt in F. lia.
Qed.

Definition node_eq_dec (a b : node) : {a = b} + {a <> b}.
Proof. decide equality; try apply Z.eq_dec; apply (list_eq_dec bool_dec). Defined.

Lemma incl_or_witness (l1 l2 : list node) : incl l1 l2 \/ exists n, In n l1 /\ ~ In n l2.
Proof.
  induction l1 as [|x l1 IH]; [left; intros n []|].
  destruct (in_dec node_eq_dec x l2) as [Hx|Hx]; [|right; exists x; split; [left; reflexivity | exact Hx]].
  destruct IH as [I|(n & Hn & Hn')]; [left | right; exists n; split; [right|]; auto].
  intros n [<-|Hn]; auto.
Qed.

(* two answers of the same length: a node in one but not the other would be both nearer and farther than
   a node the other has in its place *)
Lemma k_closest_incl rt target excl k r1 r2 :
  NoDup (map nid (table_nodes rt)) ->
  k_closest rt target excl k r1 -> k_closest rt target excl k r2 -> incl r2 r1.
Proof.
  intros N K1 K2.
  set (elig := filter (live excl) (table_nodes rt)).
  assert (Ne : NoDup elig) by (apply NoDup_filter; eapply NoDup_map_inv; exact N).
  assert (He : forall n, In n elig <-> In n (table_nodes rt) /\ eligible excl n).
  { intros n. unfold elig. rewrite filter_In, live_eligible. reflexivity. }
  pose proof (kc_count _ _ _ _ _ K1 elig Ne He) as L1. pose proof (kc_count _ _ _ _ _ K2 elig Ne He) as L2.
  pose proof (ss_lt_NoDup _ _ (kc_sorted _ _ _ _ _ K1)) as N1.
  destruct (incl_or_witness r2 r1) as [I|(m & Hm & Hm')]; [exact I|exfalso].
  destruct (incl_or_witness r1 r2) as [I|(n & Hn & Hn')].
  - apply Hm'. assert (Le : (length r2 <= length r1)%nat) by lia.
    exact (@NoDup_length_incl _ r1 r2 N1 Le I m Hm).
  - destruct (kc_members _ _ _ _ _ K1 n Hn) as [Tn En]. destruct (kc_members _ _ _ _ _ K2 m Hm) as [Tm Em].
    pose proof (kc_nearest _ _ _ _ _ K1 n m Hn Tm Em Hm').
    pose proof (kc_nearest _ _ _ _ _ K2 m n Hm Tn En Hn'). lia.
Qed.
