(* C19x - the symbolic exploration of an upgrade is sound for every concrete file:
   1. boolean equalities reflect equality;
   2. a symbolic statement step that stays inside the modelled fragment is matched by the concrete step on
      every concretisation (rows of the source tables with the assumed width and distinctness);
   3. hence the transaction machine over symbolic contents simulates the one over concrete rows;
   4. hence a closed, classified set of symbolic contents bounds what any kill history can publish. *)
From Coq Require Import ZArith List Bool Lia.
From IPV8V Require Import lib.Bytes model.M19_sqltx spec.S19x_legacy.
Import ListNotations.
Open Scope Z_scope.

(* the four list equalities of the model are separate fixpoints of one shape *)
Lemma leqb_eq_of_shape {A} (eqb : A -> A -> bool) (leqb : list A -> list A -> bool) :
  (forall x y, eqb x y = true -> x = y) ->
  (forall a b, leqb a b = match a, b with
                          | [], [] => true
                          | x :: a', y :: b' => eqb x y && leqb a' b'
                          | _, _ => false
                          end) ->
  forall a b, leqb a b = true -> a = b.
Proof.
  intros He Hl. induction a as [|x a IH]; intros [|y b] H; rewrite Hl in H; try discriminate; [reflexivity|].
  apply andb_true_iff in H as [H1 H2]. f_equal; auto.
Qed.

Lemma zl_eqb_eq a b : zl_eqb a b = true -> a = b.
Proof. apply (leqb_eq_of_shape Z.eqb); [apply Z.eqb_eq|intros [|? ?] [|? ?]; reflexivity]. Qed.

Lemma nl_eqb_eq a b : nl_eqb a b = true -> a = b.
Proof. apply (leqb_eq_of_shape Nat.eqb); [apply Nat.eqb_eq|intros [|? ?] [|? ?]; reflexivity]. Qed.

Lemma rows_eqb_eq a b : rows_eqb a b = true -> a = b.
Proof. apply (leqb_eq_of_shape zl_eqb); [apply zl_eqb_eq|intros [|? ?] [|? ?]; reflexivity]. Qed.

Lemma content_eqb_eq a b : content_eqb a b = true -> a = b.
Proof.
  destruct a, b; cbn; intros H; try discriminate.
  - apply rows_eqb_eq in H. congruence.
  - apply andb_true_iff in H as [H1 H2]. apply Z.eqb_eq in H1. apply zl_eqb_eq in H2. congruence.
Qed.

Lemma tab_eqb_eq a b : tab_eqb a b = true -> a = b.
Proof.
  unfold tab_eqb. destruct a as [i p n c], b as [i' p' n' c']; cbn [xt_id xt_pk xt_ncols xt_rows]. intros H.
  apply andb_true_iff in H as [H H4]. apply andb_true_iff in H as [H H3]. apply andb_true_iff in H as [H1 H2].
  apply Z.eqb_eq in H1. apply nl_eqb_eq in H2. apply Nat.eqb_eq in H3. apply content_eqb_eq in H4. congruence.
Qed.

Lemma state_eqb_eq a b : state_eqb a b = true -> a = b.
Proof. apply (leqb_eq_of_shape tab_eqb); [apply tab_eqb_eq|intros [|? ?] [|? ?]; reflexivity]. Qed.

Lemma mem_exact_In d l : mem_exact d l = true -> In d l.
Proof.
  unfold mem_exact. intros H. apply existsb_exists in H as [x [Hx E]]. apply state_eqb_eq in E. subst. exact Hx.
Qed.

Lemma in_nat_In i l : in_nat i l = true <-> In i l.
Proof.
  unfold in_nat. rewrite existsb_exists. split.
  - intros [x [Hx E]]. apply Nat.eqb_eq in E. subst. exact Hx.
  - intros H. exists i. split; [exact H|apply Nat.eqb_refl].
Qed.

(* same_state: the same tables, whatever their order *)
Lemma sub_state_find a b : sub_state a b = true ->
  forall t x, find_tab a t = Some x -> find_tab b t = Some x.
Proof.
  intros S t x F. unfold find_tab in F. apply find_some in F as [Hin Hid]. apply Z.eqb_eq in Hid.
  unfold sub_state in S. rewrite forallb_forall in S. specialize (S x Hin). rewrite Hid in S.
  destruct (find_tab b t) as [y|]; [|discriminate]. apply tab_eqb_eq in S. congruence.
Qed.

Lemma same_state_find a b : same_state a b = true -> forall t, find_tab a t = find_tab b t.
Proof.
  unfold same_state. intros H t. apply andb_true_iff in H as [H1 H2].
  destruct (find_tab a t) as [x|] eqn:Fa.
  - symmetry. eapply sub_state_find; eauto.
  - destruct (find_tab b t) as [y|] eqn:Fb; [|reflexivity].
    rewrite (sub_state_find _ _ H2 _ _ Fb) in Fa. discriminate.
Qed.

Section Conc.
Variable srcs : list source.
Variable env : Z -> list xrow.
Hypothesis WF : wf_env srcs env.

Definition conc_tab (x : xtab content) : xtab (list xrow) :=
  mkXT (xt_id x) (xt_pk x) (xt_ncols x) (conc_rows env (xt_rows x)).

Lemma conc_map d : conc env d = map conc_tab d.
Proof. reflexivity. Qed.

Lemma find_tab_conc d t : find_tab (conc env d) t = option_map conc_tab (find_tab d t).
Proof.
  unfold find_tab. induction d as [|x d IH]; cbn; [reflexivity|].
  destruct (xt_id x =? t); [reflexivity|exact IH].
Qed.

Lemma remove_tab_conc d t : remove_tab (conc env d) t = conc env (remove_tab d t).
Proof.
  unfold remove_tab. induction d as [|x d IH]; cbn; [reflexivity|].
  destruct (xt_id x =? t); cbn; [exact IH|]. f_equal. exact IH.
Qed.

Lemma replace_tab_conc d t n : replace_tab (conc env d) t (conc_tab n) = conc env (replace_tab d t n).
Proof.
  unfold replace_tab. induction d as [|x d IH]; cbn; [reflexivity|].
  f_equal; [|exact IH]. destruct (xt_id x =? t); reflexivity.
Qed.

Lemma conc_app d x : conc env (d ++ [x]) = conc env d ++ [conc_tab x].
Proof. unfold conc. rewrite map_app. reflexivity. Qed.

Lemma find_src_In s sc : find_src srcs s = Some sc -> In sc srcs /\ src_id sc = s.
Proof.
  unfold find_src. intros H. apply find_some in H as [H1 H2]. apply Z.eqb_eq in H2. auto.
Qed.

Lemma wf_src s sc : find_src srcs s = Some sc ->
  NoDup (map (xkey (src_pk sc)) (env s)) /\ Forall (fun r => length r = src_ncols sc) (env s).
Proof.
  intros H. apply find_src_In in H as [H1 H2]. unfold wf_env in WF. rewrite Forall_forall in WF.
  specialize (WF _ H1). rewrite H2 in WF. exact WF.
Qed.

Lemma map_nth_eq (pk : list nat) (a b : xrow) :
  map (fun i => nth i a NULLV) pk = map (fun i => nth i b NULLV) pk ->
  forall i, In i pk -> nth i a NULLV = nth i b NULLV.
Proof.
  induction pk as [|j pk IH]; cbn; intros H i Hi; [contradiction|].
  inversion H. destruct Hi as [Hi|Hi]; [subst; assumption|auto].
Qed.

Lemma xkey_finer opk pk a b :
  (forall i, In i opk -> In i pk) -> xkey pk a = xkey pk b -> xkey opk a = xkey opk b.
Proof.
  intros S H. unfold xkey in *. apply map_ext_in. intros i Hi. apply (map_nth_eq pk a b H). auto.
Qed.

Lemma xkey_app opk (r ext : xrow) :
  (forall i, In i opk -> (i < length r)%nat) -> xkey opk (r ++ ext) = xkey opk r.
Proof.
  intros H. unfold xkey. apply map_ext_in. intros i Hi. apply app_nth1. auto.
Qed.

Lemma NoDup_map_finer {A B C} (f : A -> B) (g : A -> C) l :
  (forall a b, In a l -> In b l -> g a = g b -> f a = f b) -> NoDup (map f l) -> NoDup (map g l).
Proof.
  induction l as [|x l IH]; cbn; intros H N; [constructor|].
  inversion N as [|? ? Nx Nl]; subst. constructor.
  - intros Hin. apply in_map_iff in Hin as [y [Ey Hy]]. apply Nx.
    rewrite (H x y (or_introl eq_refl) (or_intror Hy) (eq_sym Ey)). apply in_map. exact Hy.
  - apply IH; [|exact Nl]. intros a b Ha Hb. apply H; right; assumption.
Qed.

Lemma has_xkey_false pk k acc : ~ In k (map (xkey pk) acc) -> has_xkey pk k acc = false.
Proof.
  intros H. unfold has_xkey. destruct (existsb _ acc) eqn:E; [|reflexivity].
  exfalso. apply existsb_exists in E as [r [Hr Er]]. apply bytes_eqb_eq in Er. apply H.
  rewrite <- Er. apply in_map. exact Hr.
Qed.

Lemma ins_all_nodup pk ig : forall l acc,
  NoDup (map (xkey pk) (acc ++ l)) -> ins_all pk ig l acc = Some (acc ++ l).
Proof.
  induction l as [|r l IH]; intros acc N; cbn [ins_all].
  - rewrite app_nil_r. reflexivity.
  - rewrite has_xkey_false.
    + replace (acc ++ r :: l) with ((acc ++ [r]) ++ l) by (rewrite <- app_assoc; reflexivity).
      apply IH. rewrite <- app_assoc. exact N.
    + rewrite map_app in N. cbn [map] in N. apply NoDup_remove_2 in N.
      intros Hin. apply N. apply in_or_app. left. exact Hin.
Qed.

Lemma sym_rows_nodup s sc ext pk :
  find_src srcs s = Some sc ->
  subset_nat (src_pk sc) pk = true -> forallb (fun i => (i <? src_ncols sc)%nat) (src_pk sc) = true ->
  NoDup (map (xkey pk) (map (fun r => r ++ ext) (env s))).
Proof.
  intros Hs Sub Lt. destruct (wf_src s sc Hs) as [N L]. rewrite map_map.
  eapply NoDup_map_finer; [|exact N].
  intros a b Ha Hb E. rewrite Forall_forall in L.
  assert (Hlt : forall r, In r (env s) -> forall i, In i (src_pk sc) -> (i < length r)%nat).
  { intros r Hr i Hi. rewrite (L r Hr). rewrite forallb_forall in Lt. apply Nat.ltb_lt. apply Lt. exact Hi. }
  rewrite <- (xkey_app (src_pk sc) a ext (Hlt a Ha)), <- (xkey_app (src_pk sc) b ext (Hlt b Hb)).
  eapply xkey_finer; [|exact E]. intros i Hi. unfold subset_nat in Sub. rewrite forallb_forall in Sub.
  apply in_nat_In. apply Sub. exact Hi.
Qed.

Lemma set_nth_app_r : forall (r ext : xrow) col v,
  (length r <= col)%nat -> set_nth col v (r ++ ext) = r ++ set_nth (col - length r) v ext.
Proof.
  induction r as [|x r IH]; intros ext col v H; cbn [length app].
  - rewrite Nat.sub_0_r. reflexivity.
  - destruct col as [|col]; [cbn in H; lia|]. cbn [set_nth]. cbn [length] in H.
    rewrite IH by lia. reflexivity.
Qed.

(* the step.  `step_sound p c`: the concrete result c is the symbolic result p, concretised, unless p is unknown;
   the lemmas below are the shapes in which the two results come out of one branch of apply_s / apply_c, and
   `leaf` applies the one that fits *)
Definition step_sound (p : xres * xstate content) (c : xres * xstate (list xrow)) : Prop :=
  fst p <> XUnknown -> c = (fst p, conc env (snd p)).

Lemma step_sound_unknown d c : step_sound (XUnknown, d) c.
Proof. intros U. elim U. reflexivity. Qed.

Lemma step_sound_same r d : step_sound (r, d) (r, conc env d).
Proof. intros _. reflexivity. Qed.

Lemma step_sound_replace r d t n n' :
  n' = conc_tab n -> step_sound (r, replace_tab d t n) (r, replace_tab (conc env d) t n').
Proof. intros -> _. cbn [fst snd]. rewrite replace_tab_conc. reflexivity. Qed.

Lemma step_sound_remove r d t : step_sound (r, remove_tab d t) (r, remove_tab (conc env d) t).
Proof. intros _. cbn [fst snd]. rewrite remove_tab_conc. reflexivity. Qed.

Lemma step_sound_app r d x : step_sound (r, d ++ [x]) (r, conc env d ++ [conc_tab x]).
Proof. intros _. cbn [fst snd]. rewrite conc_app. reflexivity. Qed.

Local Ltac leaf :=
  first [apply step_sound_unknown | apply step_sound_same | apply step_sound_replace; reflexivity | apply step_sound_remove
        | apply step_sound_app].

Lemma apply_s_sound d q : step_sound (apply_s srcs d q) (apply_c (conc env d) q).
Proof.
  destruct q as [id pk n|a b|a|ig t row|t col v|ig dst src|t n|t col v|t col v wcol wv];
    cbn [apply_s apply_c]; rewrite ?find_tab_conc.
  - (* create *)
    destruct (find_tab d id); cbn [option_map]; leaf.
  - (* rename *)
    destruct (find_tab d a) as [ta|]; cbn [option_map]; [|leaf].
    destruct (find_tab d b); cbn [option_map]; leaf.
  - (* drop *)
    destruct (find_tab d a); cbn [option_map]; leaf.
  - (* insert *)
    destruct (find_tab d t) as [[i pk n [rows|s ext]]|];
      cbn [option_map conc_tab xt_ncols xt_pk xt_rows conc_rows]; [|leaf..].
    destruct (negb (length row =? n)%nat); [leaf|].
    destruct (has_xkey pk (xkey pk row) rows); leaf.
  - (* delete *)
    destruct (find_tab d t) as [[i pk n [rows|s ext]]|];
      cbn [option_map conc_tab xt_ncols xt_pk xt_rows conc_rows]; leaf.
  - (* insert .. select *)
    destruct (find_tab d dst) as [[i pk n cd]|]; cbn [option_map]; [|leaf].
    destruct (find_tab d src) as [[i' pk' n' cs]|]; cbn [option_map conc_tab xt_ncols xt_pk xt_rows]; [|leaf].
    destruct (negb (n =? n')%nat); [leaf|].
    destruct cd as [[|a0 acc]|s0 e0]; [| |leaf]; destruct cs as [rows|s ext]; cbn [conc_rows].
    + destruct (ins_all pk ig rows []); leaf.
    + (* every row of the source table arrives: they are distinct on the destination key *)
      destruct (find_src srcs s) as [sc|] eqn:Hs; [|leaf].
      destruct (subset_nat (src_pk sc) pk && forallb (fun i => (i <? src_ncols sc)%nat) (src_pk sc)) eqn:Hc; [|leaf].
      apply andb_true_iff in Hc as [Hc1 Hc2].
      rewrite (ins_all_nodup pk ig _ []) by (eapply sym_rows_nodup; eauto). leaf.
    + destruct (ins_all pk ig rows (a0 :: acc)); leaf.
    + leaf.
  - (* add column *)
    destruct (find_tab d t) as [[i pk n' c]|]; cbn [option_map conc_tab xt_ncols xt_pk xt_rows]; [|leaf].
    destruct (n' =? n)%nat; [|leaf].
    destruct c as [rows|s ext]; cbn [conc_rows]; [leaf|].
    apply step_sound_replace. unfold conc_tab. cbn [xt_id xt_pk xt_ncols xt_rows conc_rows]. rewrite map_map. f_equal.
    apply map_ext. intros r. rewrite app_assoc. reflexivity.
  - (* update column *)
    destruct (find_tab d t) as [[i pk n c]|]; cbn [option_map conc_tab xt_ncols xt_pk xt_rows]; [|leaf].
    destruct (in_nat col pk || negb (col <? n)%nat); [leaf|].
    destruct c as [rows|s ext]; cbn [conc_rows]; [leaf|].
    destruct (find_src srcs s) as [sc|] eqn:Hs; [|leaf].
    destruct ((src_ncols sc <=? col)%nat && (src_ncols sc + length ext =? n)%nat) eqn:Hc; [|leaf].
    apply andb_true_iff in Hc as [Hc1 _]. apply Nat.leb_le in Hc1.
    apply step_sound_replace. unfold conc_tab, set_rows.
    cbn [xt_id xt_pk xt_ncols xt_rows conc_rows]. rewrite map_map. f_equal.
    destruct (wf_src s sc Hs) as [_ L]. rewrite Forall_forall in L.
    apply map_ext_in. intros r Hr. rewrite set_nth_app_r; rewrite (L r Hr); [reflexivity|exact Hc1].
  - (* update where *)
    destruct (find_tab d t) as [[i pk n [rows|s ext]]|];
      cbn [option_map conc_tab xt_ncols xt_pk xt_rows conc_rows]; [| |leaf];
      destruct (in_nat col pk || negb (col <? n)%nat); leaf.
Qed.

Corollary apply_sound d q r d' :
  apply_s srcs d q = (r, d') -> r <> XUnknown -> apply_c (conc env d) q = (r, conc env d').
Proof. intros E U. pose proof (apply_s_sound d q) as H. rewrite E in H. exact (H U). Qed.

Lemma version_sound d v : version_s d = Some v -> version_c (conc env d) = Some v.
Proof.
  unfold version_s, version_c. rewrite find_tab_conc. destruct (find_tab d X_OPTION) as [tb|]; cbn [option_map]; [|auto].
  destruct (xt_rows tb) as [rows|s ext] eqn:Er; [|discriminate]. cbn [conc_tab xt_rows]. rewrite Er. auto.
Qed.

End Conc.

(* the version read depends on the option table only *)
Lemma version_of_find (a b : xstate (list xrow)) :
  find_tab a X_OPTION = find_tab b X_OPTION -> version_c a = version_c b.
Proof. unfold version_c. intros H. rewrite H. reflexivity. Qed.

Lemma map_app_nil_id (l : list xrow) : map (fun r : list Z => r ++ []) l = l.
Proof. induction l as [|x l IH]; cbn; [reflexivity|]. rewrite app_nil_r, IH. reflexivity. Qed.

Section Sim.
Context {D1 D2 : Type}.
Variable app1 : D1 -> xstmt -> xres * D1.
Variable app2 : D2 -> xstmt -> xres * D2.
Variable ver1 : D1 -> option Z.
Variable ver2 : D2 -> option Z.
Variable g : D1 -> D2.
Hypothesis Happ : forall d q r d', app1 d q = (r, d') -> r <> XUnknown -> app2 (g d) q = (r, g d').
Hypothesis Hver : forall d v, ver1 d = Some v -> ver2 (g d) = Some v.

Definition conn_map (c : conn (D:=D1)) : conn (D:=D2) := mkConn (g (c_dur c)) (g (c_view c)) (c_intx c).

Lemma sim_exec c s r c' :
  sqlite_exec app1 c s = (r, c') -> r <> XUnknown -> sqlite_exec app2 (conn_map c) s = (r, conn_map c').
Proof.
  destruct s as [| |q]; cbn [sqlite_exec conn_map c_intx c_dur c_view].
  - destruct (c_intx c); intros E _; injection E as <- <-; reflexivity.
  - destruct (c_intx c); intros E _; injection E as <- <-; reflexivity.
  - destruct (app1 (c_view c) q) as [r1 v] eqn:Ea. intros E U.
    assert (U1 : r1 <> XUnknown).
    { destruct r1; try discriminate. injection E as <- _. exact U. }
    rewrite (Happ _ _ _ _ Ea U1).
    destruct r1; [|injection E as <- <-; reflexivity|congruence].
    destruct (c_intx c); injection E as <- <-; reflexivity.
Qed.

Lemma sim_sqls : forall l c tr c' o,
  run_sqls app1 c l = (tr, c', o) -> o <> OUnknown -> run_sqls app2 (conn_map c) l = (map conn_map tr, conn_map c', o).
Proof.
  induction l as [|s l IH]; intros c tr c' o E U; cbn [run_sqls] in *.
  - injection E as <- <- <-. reflexivity.
  - destruct (sqlite_exec app1 c s) as [r c1] eqn:Ex.
    destruct r.
    + rewrite (sim_exec _ _ _ _ Ex ltac:(discriminate)).
      destruct (run_sqls app1 c1 l) as [[tr2 c2] o2] eqn:E2. injection E as <- <- <-.
      rewrite (IH _ _ _ _ E2 U). reflexivity.
    + rewrite (sim_exec _ _ _ _ Ex ltac:(discriminate)). injection E as <- <- <-. reflexivity.
    + injection E as _ _ <-. congruence.
Qed.

Lemma sim_prog : forall ops c tr c' o,
  run_prog app1 c ops = (tr, c', o) -> o <> OUnknown -> run_prog app2 (conn_map c) ops = (map conn_map tr, conn_map c', o).
Proof.
  induction ops as [|op ops IH]; intros c tr c' o E U; cbn [run_prog] in *.
  - injection E as <- <- <-. reflexivity.
  - unfold run_pyop in *. destruct (run_sqls app1 c (expand (c_intx c) op)) as [[tr1 c1] o1] eqn:E1.
    cbn [conn_map c_intx].
    destruct o1.
    + rewrite (sim_sqls _ _ _ _ _ E1 ltac:(discriminate)).
      destruct (run_prog app1 c1 ops) as [[tr2 c2] o2] eqn:E2. injection E as <- <- <-.
      rewrite (IH _ _ _ _ E2 U). rewrite map_app. reflexivity.
    + rewrite (sim_sqls _ _ _ _ _ E1 ltac:(discriminate)). injection E as <- <- <-. reflexivity.
    + injection E as _ _ <-. congruence.
Qed.

Variable cfg : ucfg.

Lemma sim_open c tr c' o :
  xopen app1 ver1 cfg c = (tr, c', o) -> o <> OUnknown -> xopen app2 ver2 cfg (conn_map c) = (map conn_map tr, conn_map c', o).
Proof.
  unfold xopen. cbn [conn_map c_view]. destruct (ver1 (c_view c)) as [v0|] eqn:Ev; [|intros E U; injection E as _ _ <-; congruence].
  rewrite (Hver _ _ Ev).
  destruct (v0 =? 0); [apply sim_prog|].
  destruct ((v0 <? 1) || (u_latest cfg <? v0)); [intros E U; injection E as _ _ <-; congruence|].
  apply sim_prog.
Qed.

Lemma sim_process c snaps cf o :
  xprocess app1 ver1 cfg c [] = (snaps, cf, o) -> o <> OUnknown ->
  xprocess app2 ver2 cfg (conn_map c) [] = (map conn_map snaps, conn_map cf, o).
Proof.
  unfold xprocess. destruct (xopen app1 ver1 cfg c) as [[tr0 c1] o1] eqn:Eo. intros E U.
  assert (U1 : o1 <> OUnknown) by (destruct o1; injection E as _ _ <-; congruence).
  rewrite (sim_open _ _ _ _ Eo U1).
  destruct o1; cbn [run_calls] in *; injection E as <- <- <-; cbn [map]; rewrite ?map_app; reflexivity.
Qed.

Lemma process_open c snaps cf :
  xprocess app2 ver2 cfg c [] = (snaps, cf, ODone) -> exists tr, xopen app2 ver2 cfg c = (tr, cf, ODone).
Proof.
  unfold xprocess. destruct (xopen app2 ver2 cfg c) as [[tr c1] o].
  destruct o; cbn [run_calls]; intros E; try discriminate. injection E as _ <-. eauto.
Qed.

End Sim.

(* open-only histories: every process is killed at its k-th instant (beyond the end: it ran to its end) *)
Definition kills (ks : list nat) : list (list (nat * xrow) * nat) := map (fun k => ([], k)) ks.

(* what is claimed of a file `start` (its rows given by env) opened again and again, the opens killed at ks:
   nothing is pending and, table by table, the published content is one of the targets; the next open succeeds and
   ends, table by table, in `final`, published *)
Definition kill_safe (cfg : ucfg) (start : xstate content) (targets : list (xstate content))
                     (final : xstate content) (env : Z -> list xrow) (ks : list nat) : Prop :=
  let c := xhistory apply_c version_c cfg (fresh_conn (conc env start)) (kills ks) in
  c_intx c = false /\ c_view c = c_dur c /\
  (exists t, In t targets /\ forall id, find_tab (c_dur c) id = find_tab (conc env t) id) /\
  exists tr cf, xopen apply_c version_c cfg c = (tr, cf, ODone) /\
                c_intx cf = false /\ forall id, find_tab (c_dur cf) id = find_tab (conc env final) id.

Section Main.
Variable srcs : list source.
Variable cfg : ucfg.
Variable start : xstate content.
Variable targets : list (xstate content).
Variable final : xstate content.
Variable R : list (xstate content).          (* in props/C19x.v: `reach srcs cfg start`, computed *)
Hypothesis Checked : closed_check srcs cfg start R && class_check srcs cfg targets final R = true.
Variable env : Z -> list xrow.
Hypothesis WF : wf_env srcs env.

Lemma closed_R :
  In start R /\
  forall d, In d R -> exists snaps df, sym_open srcs cfg d = Some (snaps, df) /\
                                       (forall x, In x snaps -> In x R) /\ In df R.
Proof.
  pose proof Checked as C. apply andb_true_iff in C as [C _]. unfold closed_check in C.
  apply andb_true_iff in C as [C1 C2]. split; [apply mem_exact_In; exact C1|].
  intros d Hd. rewrite forallb_forall in C2. specialize (C2 d Hd).
  destruct (sym_open srcs cfg d) as [[snaps df]|]; [|discriminate].
  apply andb_true_iff in C2 as [A B]. exists snaps, df. split; [reflexivity|]. split; [|apply mem_exact_In; exact B].
  intros x Hx. rewrite forallb_forall in A. apply mem_exact_In. apply A. exact Hx.
Qed.

(* crash reads the published content only, so this is all that is needed of the connection an open leaves *)
Lemma sym_open_conc d snaps df :
  sym_open srcs cfg d = Some (snaps, df) ->
  exists csnaps cf,
    xprocess apply_c version_c cfg (fresh_conn (conc env d)) [] = (csnaps, cf, ODone) /\
    map c_dur csnaps = map (conc env) snaps /\ c_dur cf = conc env df /\ c_intx cf = false.
Proof.
  unfold sym_open. destruct (xprocess (apply_s srcs) version_s cfg (fresh_conn d) []) as [[ss cf] o] eqn:E.
  destruct o; try discriminate. destruct (c_intx cf) eqn:Ei; [discriminate|]. intros H. injection H as <- <-.
  exists (map (conn_map (conc env)) ss), (conn_map (conc env) cf).
  split; [|split; [rewrite !map_map; reflexivity|split; [reflexivity|exact Ei]]].
  exact (sim_process (apply_s srcs) apply_c version_s version_c (conc env)
           (apply_sound srcs env WF) (version_sound env) cfg _ _ _ _ E ltac:(discriminate)).
Qed.

(* the invariant of every kill history: the file is the concretisation of a member of R, nothing pending *)
Lemma history_in_reach : forall ks d, In d R ->
  exists d', In d' R /\
    xhistory apply_c version_c cfg (fresh_conn (conc env d)) (kills ks) = fresh_conn (conc env d').
Proof.
  induction ks as [|k ks IH]; intros d Hd; cbn [kills map xhistory]; [eauto|].
  destruct (proj2 closed_R d Hd) as [snaps [df [Eo [Hsn Hdf]]]].
  destruct (sym_open_conc d snaps df Eo) as [csnaps [cf [Ep [Em [Ef _]]]]].
  fold (kills ks). rewrite Ep.
  (* what the k-th instant has published is the k-th symbolic snapshot, concretised *)
  change (crash (nth k csnaps cf)) with (fresh_conn (c_dur (nth k csnaps cf))).
  rewrite <- (map_nth c_dur), Em, Ef, (map_nth (conc env)). apply IH.
  destruct (nth_in_or_default k snaps df) as [H|H]; [apply Hsn; exact H|rewrite H; exact Hdf].
Qed.

Lemma class_R d : In d R ->
  (exists t, In t targets /\ same_state d t = true) /\
  exists snaps df, sym_open srcs cfg d = Some (snaps, df) /\ same_state df final = true.
Proof.
  intros Hd. pose proof Checked as C. apply andb_true_iff in C as [_ C]. unfold class_check in C.
  rewrite forallb_forall in C. specialize (C d Hd).
  apply andb_true_iff in C as [A B]. split.
  - apply existsb_exists in A as [t [Ht E]]. eauto.
  - destruct (sym_open srcs cfg d) as [[snaps df]|]; [|discriminate]. eauto.
Qed.

Lemma same_state_conc a b :
  same_state a b = true -> forall t, find_tab (conc env a) t = find_tab (conc env b) t.
Proof. intros H t. rewrite !find_tab_conc, (same_state_find _ _ H). reflexivity. Qed.

Theorem upgrade_kill_safe : forall ks, kill_safe cfg start targets final env ks.
Proof.
  intros ks. unfold kill_safe. destruct (history_in_reach ks start (proj1 closed_R)) as [d [Hd E]]. rewrite E.
  destruct (class_R d Hd) as [[t [Ht St]] [snaps [df [Eo Sf]]]].
  split; [reflexivity|]. split; [reflexivity|]. split.
  - exists t. split; [exact Ht|]. exact (same_state_conc _ _ St).
  - destruct (sym_open_conc d snaps df Eo) as [csnaps [cf [Ep [_ [Ef Ei]]]]].
    destruct (process_open apply_c version_c cfg _ _ _ Ep) as [tr Ex].
    exists tr, cf. split; [exact Ex|]. split; [exact Ei|]. rewrite Ef. exact (same_state_conc _ _ Sf).
Qed.

End Main.

(* with R the set the model's own exploration computes *)
Corollary upgrade_check_safe srcs cfg start targets final :
  upgrade_check srcs cfg start targets final = true ->
  forall env, wf_env srcs env -> forall ks, kill_safe cfg start targets final env ks.
Proof. unfold upgrade_check. apply upgrade_kill_safe. Qed.
