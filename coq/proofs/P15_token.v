(* C15 - tokens, the store gate, and invariants over arbitrary operation sequences; then the base64 of the model
   (the text a token is bound to) and the toy instance of the primitives. *)
From Coq Require Import ZArith List Bool Lia.
From IPV8V Require Import lib.PyErr lib.Bytes gen.G15_consts model.M15_dht_store proofs.P15_storage.
Import ListNotations.
Open Scope Z_scope.

Lemma app_eq_len_tail {A} (a c b d : list A) : a ++ b = c ++ d -> length b = length d -> a = c /\ b = d.
Proof.
  revert c; induction a as [|x a IH]; intros c H Hl.
  - destruct c as [|y c]; [auto|]. cbn [app] in H. subst b. cbn [length] in Hl. rewrite app_length in Hl. lia.
  - destruct c as [|y c].
    + cbn [app] in H. subst d. cbn [length] in Hl. rewrite app_length in Hl. lia.
    + cbn [app] in H. inversion H; subst. destruct (IH c H2 Hl) as [-> ->]. auto.
Qed.

(* the first occurrence of x splits a list uniquely *)
Lemma split_first_unique {A} (x : A) (a a' r r' : list A) :
  ~ In x a -> ~ In x a' -> a ++ x :: r = a' ++ x :: r' -> a = a' /\ r = r'.
Proof.
  revert a'; induction a as [|y a IH]; intros a' Ha Ha' H.
  - destruct a' as [|y' a']; cbn [app] in H; [inversion H; auto|].
    inversion H; subst. exfalso. apply Ha'. left. reflexivity.
  - destruct a' as [|y' a']; cbn [app] in H.
    + inversion H; subst. exfalso. apply Ha. left. reflexivity.
    + inversion H; subst. destruct (IH a') as [-> ->]; auto.
      * intro F. apply Ha. right. exact F.
      * intro F. apply Ha'. right. exact F.
Qed.

Section Token.
Variable hash : bytes -> bytes.
Variable enc : bytes -> bytes.
Variable verify : bytes -> bytes -> bytes -> bool.
Variable siglen : bytes -> res nat.

Notation ident := (ident hash enc).
Notation token_for := (token_for hash enc).
Notation check_token := (check_token hash enc).
Notation store_gate := (store_gate hash enc).
Notation on_store := (on_store hash enc verify siglen).
Notation on_find := (on_find hash enc).
Notation step := (step hash enc verify siglen).
Notation run := (run hash enc verify siglen).
Notation unserialize := (unserialize verify siglen).
Notation add_value := (add_value hash verify siglen).
Notation add_values := (add_values hash verify siglen).
Notation put := (put hash).

Lemma check_token_iff st rq tok :
  check_token st rq tok = true <-> exists s, In s (secrets st) /\ tok = token_for rq s.
Proof.
  unfold M15_dht_store.check_token. rewrite existsb_exists. split; intros [s [H1 H2]]; exists s; split; auto.
  - apply bytes_eqb_eq in H2. symmetry. exact H2.
  - apply bytes_eqb_eq. symmetry. exact H2.
Qed.

Lemma store_gate_iff st rq tok vals :
  store_gate st rq tok vals = true <->
  Forall (fun v => blen v <= MAX_ENTRY_SIZE) vals /\ Z.of_nat (length vals) <= MAX_VALUES_IN_STORE
  /\ exists s, In s (secrets st) /\ tok = token_for rq s.
Proof.
  unfold M15_dht_store.store_gate. rewrite !andb_true_iff, !negb_true_iff, check_token_iff.
  assert (H : existsb (fun v => MAX_ENTRY_SIZE <? blen v) vals = false <-> Forall (fun v => blen v <= MAX_ENTRY_SIZE) vals).
  { induction vals as [|v vals IH]; cbn [existsb]; [split; [constructor | reflexivity]|].
    rewrite orb_false_iff, IH. split.
    - intros [H1 H2]. constructor; [lia | exact H2].
    - intros H. inversion H; subst. split; [lia | assumption]. }
  rewrite H. split.
  - intros [[H1 H2] H3]. split; [exact H1|]. split; [lia | exact H3].
  - intros [H1 [H2 H3]]. split; [split; [exact H1 | lia] | exact H3].
Qed.

Lemma on_store_rejected st rq now tok target vals nc :
  store_gate st rq tok vals = false -> on_store st rq now tok target vals nc = (st, RStore false None).
Proof. intros E. unfold M15_dht_store.on_store. rewrite E. reflexivity. Qed.

Section Ident.
Hypothesis hash_inj : forall a b, hash a = hash b -> a = b.
Hypothesis enc_inj : forall a b, enc (hash a) = enc (hash b) -> hash a = hash b.   (* injective on digests *)

Lemma ident_inj rq rq' :
  ~ In 32 (r_addr rq) -> ~ In 32 (r_addr rq') -> ident rq = ident rq' ->
  r_addr rq = r_addr rq' /\ r_pk rq = r_pk rq'.
Proof.
  intros Ha Ha' H. unfold M15_dht_store.ident in H. apply app_inv_head in H.
  assert (H' : (r_addr rq ++ [44]) ++ 32 :: (enc (hash (r_pk rq)) ++ [62])
               = (r_addr rq' ++ [44]) ++ 32 :: (enc (hash (r_pk rq')) ++ [62])).
  { rewrite <- !app_assoc. exact H. }
  apply split_first_unique in H'.
  - destruct H' as [H1 H2]. apply app_inj_tail in H1 as [H1 _]. apply app_inj_tail in H2 as [H2 _].
    split; [exact H1|]. apply hash_inj. apply enc_inj. exact H2.
  - intro F. apply in_app_or in F as [F|[F|[]]]; [contradiction | discriminate].
  - intro F. apply in_app_or in F as [F|[F|[]]]; [contradiction | discriminate].
Qed.

Lemma token_inj rq rq' s s' :
  ~ In 32 (r_addr rq) -> ~ In 32 (r_addr rq') -> length s = length s' ->
  token_for rq s = token_for rq' s' -> r_addr rq = r_addr rq' /\ r_pk rq = r_pk rq' /\ s = s'.
Proof.
  intros Ha Ha' Hl H. unfold M15_dht_store.token_for in H. apply hash_inj in H.
  apply app_eq_len_tail in H as [H1 H2]; [|exact Hl].
  destruct (ident_inj rq rq' Ha Ha' H1) as [H3 H4]. auto.
Qed.
End Ident.

Definition rotations (ops : list op) : list bytes :=
  flat_map (fun o => match o with ORotate s => [s] | _ => [] end) ops.

Lemma rotations_cons o ops :
  rotations (o :: ops) = match o with ORotate s => s :: rotations ops | _ => rotations ops end.
Proof. destruct o; reflexivity. Qed.

Lemma step_secrets st o :
  secrets (fst (step st o)) = match o with
                              | ORotate s => lastn (Z.to_nat TOKEN_SECRETS_MAXLEN) (secrets st ++ [s])
                              | _ => secrets st
                              end.
Proof.
  destruct o; cbn [M15_dht_store.step fst]; try reflexivity.
  - unfold M15_dht_store.on_store. destruct (store_gate st rq token values); [|reflexivity].
    destruct (add_values _ _ _ _ _); reflexivity.
  - unfold M15_dht_store.on_store_peer. destruct (negb _); [reflexivity|]. destruct (negb _); reflexivity.
Qed.

Lemma run_cons st o ops : run st (o :: ops) = (fst (run (fst (step st o)) ops), snd (step st o) :: snd (run (fst (step st o)) ops)).
Proof.
  cbn [M15_dht_store.run]. destruct (step st o) as [st1 r]. cbn [fst snd].
  destruct (run st1 ops) as [st2 rs]. reflexivity.
Qed.

Lemma run_app st a b : fst (run st (a ++ b)) = fst (run (fst (run st a)) b).
Proof.
  revert st; induction a as [|o a IH]; intros st; [reflexivity|].
  cbn [app]. rewrite !run_cons. cbn [fst]. apply IH.
Qed.

(* the secrets after a run are a suffix of the start's secrets followed by the rotations; once something was
   rotated in, the deque bound holds *)
Lemma run_secrets_suffix ops : forall st,
  exists p, secrets st ++ rotations ops = p ++ secrets (fst (run st ops))
    /\ ((rotations ops = [] /\ secrets (fst (run st ops)) = secrets st)
        \/ (length (secrets (fst (run st ops))) <= Z.to_nat TOKEN_SECRETS_MAXLEN)%nat).
Proof.
  induction ops as [|o ops IH]; intros st; [exists []; split; [apply app_nil_r | left; auto]|].
  rewrite run_cons. cbn [fst]. destruct (IH (fst (step st o))) as (p & E & H). rewrite step_secrets in E, H.
  rewrite rotations_cons. destruct o; try (exists p; split; assumption).
  unfold lastn in E, H. set (l := secrets st ++ [secret]) in *. set (n := (length l - _)%nat) in *.
  exists (firstn n l ++ p). split.
  - change (secrets st ++ secret :: rotations ops) with (secrets st ++ [secret] ++ rotations ops).
    rewrite app_assoc. fold l. rewrite <- (firstn_skipn n l) at 1. rewrite <- !app_assoc. f_equal. exact E.
  - right. destruct H as [[_ ->]|H]; [|exact H]. rewrite skipn_length. lia.
Qed.

Lemma lastn_nonempty {A} n (l : list A) : (1 <= n)%nat -> l <> [] -> lastn n l <> [].
Proof.
  intros Hn Hl F. apply (f_equal (@length A)) in F. unfold lastn in F. rewrite skipn_length in F. cbn [length] in F.
  destruct l; [congruence|]. cbn [length] in F. lia.
Qed.

(* a node always has a secret to issue tokens with *)
Lemma step_secrets_nonempty st o :
  1 <= TOKEN_SECRETS_MAXLEN -> secrets st <> [] -> secrets (fst (step st o)) <> [].
Proof.
  intros HM H. rewrite step_secrets. destruct o; try exact H.
  apply lastn_nonempty; [lia|]. destruct (secrets st); discriminate.
Qed.

Lemma run_secrets_nonempty ops : forall st,
  1 <= TOKEN_SECRETS_MAXLEN -> secrets st <> [] -> secrets (fst (run st ops)) <> [].
Proof.
  induction ops as [|o ops IH]; intros st HM H; [exact H|].
  rewrite run_cons. apply IH; [exact HM | apply step_secrets_nonempty; assumption].
Qed.

(* a token generated in st for rq' and accepted by the store gate after any operations was generated for the same
   address and key, and fewer than TOKEN_SECRETS_MAXLEN rotations have happened since *)
Lemma token_window_from_generate
  (hash_inj : forall a b, hash a = hash b -> a = b) (enc_inj : forall a b, enc (hash a) = enc (hash b) -> hash a = hash b)
  st rq' ops rq vals :
  secrets st <> [] ->
  NoDup (secrets st ++ rotations ops) ->
  (forall s s', In s (secrets st ++ rotations ops) -> In s' (secrets st ++ rotations ops) -> length s = length s') ->
  ~ In 32 (r_addr rq) -> ~ In 32 (r_addr rq') ->
  store_gate (fst (run st ops)) rq (generate_token hash enc st rq') vals = true ->
  r_addr rq' = r_addr rq /\ r_pk rq' = r_pk rq /\ Z.of_nat (length (rotations ops)) < Z.max 1 TOKEN_SECRETS_MAXLEN.
Proof.
  intros Hne Hnd Hlen Ha Ha' Hg. unfold generate_token in Hg.
  destruct (exists_last Hne) as [a [x Hs]]. rewrite Hs, last_last in Hg.
  apply store_gate_iff in Hg as [_ [_ [s [Hin Ht]]]].
  destruct (run_secrets_suffix ops st) as (p & E & Hb).
  apply (token_inj hash_inj enc_inj) in Ht; [|assumption|assumption|apply Hlen; [rewrite Hs | rewrite E]; rewrite !in_app_iff; cbn; auto].
  destruct Ht as [H1 [H2 H3]]. subst s. split; [exact H1|]. split; [exact H2|].
  destruct Hb as [[-> _]|Hb]; [cbn [length]; lia|].
  (* x is the last secret of st; it occurs once, so what follows it in the suffix is exactly the rotations *)
  assert (Hxa : ~ In x a).
  { pose proof Hnd as Hn. rewrite Hs, <- app_assoc in Hn. apply NoDup_remove_2 in Hn. rewrite in_app_iff in Hn. tauto. }
  apply in_split in Hin as (s1 & s2 & HS). rewrite E, HS, (app_assoc p) in Hnd. apply NoDup_remove_2 in Hnd.
  rewrite Hs, HS, <- app_assoc, (app_assoc p) in E. apply split_first_unique in E as [_ ->].
  - rewrite HS, app_length in Hb. cbn [length] in Hb. lia.
  - exact Hxa.
  - rewrite in_app_iff in Hnd. tauto.
Qed.

(* rotations driven by a timer of period P *)
Fixpoint timed_ok (P last : Z) (tops : list (Z * op)) : Prop :=
  match tops with
  | [] => True
  | (t, ORotate _) :: tl => t = last + P /\ timed_ok P t tl
  | (_, _) :: tl => timed_ok P last tl
  end.
Fixpoint last_rotation (last : Z) (tops : list (Z * op)) : Z :=
  match tops with
  | [] => last
  | (t, ORotate _) :: tl => last_rotation t tl
  | (_, _) :: tl => last_rotation last tl
  end.

Lemma last_rotation_count P tops : forall last,
  timed_ok P last tops -> last_rotation last tops = last + P * Z.of_nat (length (rotations (map snd tops))).
Proof.
  induction tops as [|[t o] tops IH]; intros last H; cbn [last_rotation map snd]; [cbn; lia|].
  rewrite rotations_cons. destruct o; cbn [timed_ok] in H; try (apply IH; exact H).
  destruct H as [-> H]. rewrite (IH _ H). cbn [length]. lia.
Qed.

(* the id a value is filed under: sha1 of the signer's key, or sha1 of the value itself when unsigned
   (Python's `id_ or sha1(data)`: an empty digest, which SHA-1 never produces, would fall back as well) *)
Definition value_id (pk : option bytes) (value : bytes) : bytes :=
  eff_id hash (match pk with Some (x :: r) => Some (hash (x :: r)) | _ => None end) value.

(* a stored value is authentic: its bytes read back (plain, or signed with a signature that verifies), and it is
   filed under the id and version they carry *)
Definition authentic (v : value) : Prop :=
  exists d pk ver, unserialize (v_data v) = Ok (Some (d, pk, ver))
                   /\ v_version v = ver /\ v_id v = value_id pk (v_data v).

(* the storage after one step, by operation *)
Lemma step_store st o :
  store (fst (step st o)) =
  match o with
  | OStore rq now tok target vals nc =>
      if store_gate st rq tok vals then fst (add_values (store st) now target vals (store_max_age nc)) else store st
  | OClean now => clean now (store st)
  | OPut now key data id ma ver => put (store st) now key data id ma ver
  | _ => store st
  end.
Proof.
  destruct o; cbn [M15_dht_store.step fst]; try reflexivity.
  - unfold M15_dht_store.on_store. destruct (store_gate st rq token values); [|reflexivity].
    destruct (add_values _ _ _ _ _); reflexivity.
  - unfold M15_dht_store.on_store_peer. destruct (negb _); [reflexivity|]. destruct (negb _); reflexivity.
Qed.

(* a preorder on storages that holds across every put, and across the maintenance runs one allows, holds across
   store requests, steps and whole runs *)
Section Rel.
Variable R : storage -> storage -> Prop.
Hypothesis R_refl : forall s, R s s.
Hypothesis R_trans : forall a b c, R a b -> R b c -> R a c.
Hypothesis R_put : forall s now key data id ma ver, R s (put s now key data id ma ver).
Variable cleans : Z -> Prop.
Hypothesis R_clean : forall now s, cleans now -> R s (clean now s).

Lemma add_values_rel vals : forall s now key ma, R s (fst (add_values s now key vals ma)).
Proof.
  induction vals as [|x vals IH]; intros s now key ma; cbn [M15_dht_store.add_values]; [apply R_refl|].
  unfold M15_dht_store.add_value.
  destruct (unserialize x) as [[[[d pk] ver]|]|e]; cbn [bind fst]; [| apply IH | apply R_refl].
  eapply R_trans; [apply R_put | apply IH].
Qed.

Lemma step_rel st o : (forall now, o = OClean now -> cleans now) -> R (store st) (store (fst (step st o))).
Proof.
  intros Hc. rewrite step_store. destruct o; try apply R_refl.
  - destruct (store_gate st rq token values); [apply add_values_rel | apply R_refl].
  - apply R_clean, Hc. reflexivity.
  - apply R_put.
Qed.

Lemma run_rel ops : forall st,
  (forall now, In (OClean now) ops -> cleans now) -> R (store st) (store (fst (run st ops))).
Proof.
  induction ops as [|o ops IH]; intros st Hc; [apply R_refl|].
  rewrite run_cons. cbn [fst]. eapply R_trans; [apply step_rel | apply IH].
  - intros now ->. apply Hc. left. reflexivity.
  - intros now H. apply Hc. right. exact H.
Qed.
End Rel.

Lemma add_value_sound s now key value ma s' k v :
  add_value s now key value ma = Ok s' -> In v (sget s' k) ->
  In v (sget s k) \/ (k = key /\ v_data v = value /\ v_last v = now /\ v_maxage v = ma /\ authentic v).
Proof.
  unfold M15_dht_store.add_value.
  destruct (unserialize value) as [[[[d pk] ver]|]|e] eqn:Eu; cbn [bind]; [| |discriminate].
  - intros H Hin. inversion H; subst. clear H. apply put_sound in Hin as [Hin|[-> ->]]; [left; exact Hin|].
    right. cbn [v_data v_last v_maxage]. repeat split; auto.
    exists d, pk, ver. cbn [v_data v_version v_id]. split; [exact Eu|]. split; [reflexivity|].
    unfold value_id. destruct pk as [[|x r]|]; reflexivity.
  - intros H Hin. inversion H; subst. left. exact Hin.
Qed.

Lemma add_values_sound vals : forall s now key ma s' err k v,
  add_values s now key vals ma = (s', err) -> In v (sget s' k) ->
  In v (sget s k) \/ (k = key /\ In (v_data v) vals /\ v_last v = now /\ v_maxage v = ma /\ authentic v).
Proof.
  induction vals as [|x vals IH]; intros s now key ma s' err k v H Hin; cbn [M15_dht_store.add_values] in H.
  - inversion H; subst. left. exact Hin.
  - destruct (add_value s now key x ma) as [s1|e] eqn:Ea.
    + destruct (IH _ _ _ _ _ _ _ _ H Hin) as [H1|[H1 [H2 H3]]].
      * destruct (add_value_sound _ _ _ _ _ _ _ _ Ea H1) as [H4|[H4 [H5 H6]]]; [left; exact H4|].
        right. split; [exact H4|]. split; [left; symmetry; exact H5 | exact H6].
      * right. split; [exact H1|]. split; [right; exact H2 | exact H3].
    + inversion H; subst. left. exact Hin.
Qed.

Lemma store_max_age_range nc : 0 <= MAX_ENTRY_AGE -> 0 <= store_max_age nc <= MAX_ENTRY_AGE.
Proof.
  intros H. unfold store_max_age.
  assert (Hp : 0 < 2 ^ Z.max 0 (nc - TARGET_NODES + 1)) by (apply Z.pow_pos_nonneg; lia).
  split; [apply Z.div_pos; lia|].
  apply Z.div_le_upper_bound; [lia|]. nia.
Qed.

Lemma step_store_sound st o k v :
  (forall now key data id ma ver, o <> OPut now key data id ma ver) ->
  In v (sget (store (fst (step st o))) k) ->
  In v (sget (store st) k)
  \/ exists rq now tok vals nc,
       o = OStore rq now tok k vals nc /\ store_gate st rq tok vals = true
       /\ In (v_data v) vals /\ v_last v = now /\ v_maxage v = store_max_age nc /\ authentic v.
Proof.
  intros Hput. rewrite step_store. destruct o; try (intros H; left; exact H).
  - destruct (store_gate st rq token values) eqn:Eg; [|intros H; left; exact H]. intros Hin.
    destruct (add_values_sound _ _ _ _ _ _ _ _ _ (surjective_pairing _) Hin) as [H|[-> H]]; [left; exact H|].
    right. exists rq, now, token, values, num_closer. auto.
  - intros H. left. rewrite sget_clean in H. apply filter_In in H. tauto.
  - exfalso. eapply Hput. reflexivity.
Qed.

Definition no_put (ops : list op) : Prop :=
  forall o, In o ops -> forall now key data id ma ver, o <> OPut now key data id ma ver.

Lemma run_ids_unique ops st : ids_unique (store st) -> ids_unique (store (fst (run st ops))).
Proof.
  apply (run_rel (fun s s' => ids_unique s -> ids_unique s')) with (cleans := fun _ => True); auto.
  - apply put_ids_unique.
  - intros now s _. apply clean_ids_unique.
Qed.

Definition no_clean (ops : list op) : Prop := forall o, In o ops -> forall now, o <> OClean now.

(* as long as no maintenance run removes it, a stored (key, id) keeps a version at least as high as any it had *)
Lemma run_keeps ops st : no_clean ops -> keeps (store st) (store (fst (run st ops))).
Proof.
  intros Hc. apply (run_rel keeps keeps_refl keeps_trans (put_keeps hash) (fun _ => False)).
  - intros now s [].
  - intros now H. exact (Hc _ H now eq_refl).
Qed.

(* find never changes the state and hands out the token of the newest secret *)
Lemma find_pure_l st rq target off force :
  on_find st rq target off force
  = (st, RFind (hash (ident rq ++ last (secrets st) []))
               (if force then [] else get (store st) target off (Some MAX_VALUES_IN_FIND))).
Proof. reflexivity. Qed.

End Token.

(* the base64 encoder of the model has a decoder, hence is injective on byte strings: the identity text a token is
   bound to determines the member id *)
(* the value of a base64 character: its position in the alphabet; -1 for every other character, '=' among them *)
Definition b64d (c : Z) : Z :=
  if (65 <=? c) && (c <=? 90) then c - 65
  else if (97 <=? c) && (c <=? 122) then c - 71
  else if (48 <=? c) && (c <=? 57) then c + 4
  else if c =? 43 then 62 else if c =? 47 then 63 else -1.

Lemma b64d_b64c i : 0 <= i < 64 -> b64d (b64c i) = i.
Proof.
  intros H.
  assert (C : forallb (fun n => b64d (b64c (Z.of_nat n)) =? Z.of_nat n) (seq 0 64) = true) by (vm_compute; reflexivity).
  rewrite forallb_forall in C. specialize (C (Z.to_nat i)). rewrite Z2Nat.id in C by lia.
  apply Z.eqb_eq, C, in_seq. lia.
Qed.

Lemma b64c_not_pad i : 0 <= i < 64 -> b64c i =? 61 = false.
Proof.
  intros H. apply Z.eqb_neq. intros E. apply (f_equal b64d) in E. rewrite b64d_b64c in E by exact H.
  change (b64d 61) with (-1) in E. lia.
Qed.

Fixpoint b64_dec (l : bytes) : bytes :=
  match l with
  | c1 :: c2 :: c3 :: c4 :: tl =>
      b64d c1 * 4 + b64d c2 / 16 ::
      (if c3 =? 61 then [] else
       b64d c2 mod 16 * 16 + b64d c3 / 4 ::
       (if c4 =? 61 then [] else b64d c3 mod 4 * 64 + b64d c4 :: b64_dec tl))
  | _ => []
  end.

Lemma digits b m n : 0 < m -> 0 <= b < m * n -> (0 <= b / m < n /\ 0 <= b mod m < m) /\ b / m * m + b mod m = b.
Proof.
  intros Hm Hb. split; [split|].
  - split; [apply Z.div_pos | apply Z.div_lt_upper_bound]; lia.
  - apply Z.mod_pos_bound, Hm.
  - rewrite (Z.div_mod b m) at 3 by lia. ring.
Qed.

Lemma undigits q r m : 0 <= r < m -> (q * m + r) / m = q /\ (q * m + r) mod m = r.
Proof.
  intros H. rewrite Z.div_add_l, Z.div_small, (Z.add_comm (q * m)), Z_mod_plus_full, Z.mod_small by lia.
  split; [apply Z.add_0_r | reflexivity].
Qed.

(* three bytes <-> four sextets; a final group of one or two bytes is the case c = 0 / b = c = 0 *)
Lemma sextets a b c : 0 <= a < 256 -> 0 <= b < 256 -> 0 <= c < 256 ->
  (0 <= a / 4 < 64 /\ 0 <= a mod 4 * 16 + b / 16 < 64 /\ 0 <= b mod 16 * 4 + c / 64 < 64 /\ 0 <= c mod 64 < 64)
  /\ a / 4 * 4 + (a mod 4 * 16 + b / 16) / 16 = a
  /\ (a mod 4 * 16 + b / 16) mod 16 * 16 + (b mod 16 * 4 + c / 64) / 4 = b
  /\ (b mod 16 * 4 + c / 64) mod 4 * 64 + c mod 64 = c.
Proof.
  intros Ha Hb Hc.
  destruct (digits a 4 64) as ((A1 & A2) & A); [lia | lia|].
  destruct (digits b 16 16) as ((B1 & B2) & B); [lia | lia|].
  destruct (digits c 64 4) as ((C1 & C2) & C); [lia | lia|].
  destruct (undigits (a mod 4) (b / 16) 16 B1) as [-> ->]. destruct (undigits (b mod 16) (c / 64) 4 C1) as [-> ->].
  split; [split; [exact A1 | split; [lia | split; [lia | exact C2]]] | split; [exact A | split; [exact B | exact C]]].
Qed.

Lemma list_ind3 {A} (P : list A -> Prop) :
  P [] -> (forall a, P [a]) -> (forall a b, P [a; b]) -> (forall a b c tl, P tl -> P (a :: b :: c :: tl)) ->
  forall l, P l.
Proof. intros H0 H1 H2 H3. fix IH 1. intros [|a [|b [|c tl]]]; [exact H0 | apply H1 | apply H2 | apply H3, IH]. Qed.

Lemma b64_dec_b64 a : bytes_ok a -> b64_dec (b64 a) = a.
Proof.
  unfold bytes_ok. induction a as [|a|a b|a b c tl IH] using list_ind3; intros H; [reflexivity| | |].
  - apply Forall_cons_iff in H as [Ha _].
    destruct (sextets a 0 0 Ha) as ((R1 & R2 & _) & E & _); [lia | lia|].
    cbn [b64]. rewrite <- (Z.add_0_r (a mod 4 * 16) : a mod 4 * 16 + 0 / 16 = _).
    cbn [b64_dec]. rewrite !b64d_b64c, E by assumption. reflexivity.
  - apply Forall_cons_iff in H as [Ha H]. apply Forall_cons_iff in H as [Hb _].
    destruct (sextets a b 0 Ha Hb) as ((R1 & R2 & R3 & _) & Ea & Eb & _); [lia|].
    cbn [b64]. rewrite <- (Z.add_0_r (b mod 16 * 4) : b mod 16 * 4 + 0 / 64 = _).
    cbn [b64_dec]. rewrite (b64c_not_pad _ R3), !b64d_b64c, Ea, Eb by assumption. reflexivity.
  - apply Forall_cons_iff in H as [Ha H]. apply Forall_cons_iff in H as [Hb H]. apply Forall_cons_iff in H as [Hc H].
    destruct (sextets a b c Ha Hb Hc) as ((R1 & R2 & R3 & R4) & Ea & Eb & Ec).
    cbn [b64 b64_dec]. rewrite (b64c_not_pad _ R3), (b64c_not_pad _ R4), !b64d_b64c, Ea, Eb, Ec, IH by assumption.
    reflexivity.
Qed.

Lemma toy_enc_inj a b : toy_enc a = toy_enc b -> a = b.
Proof.
  revert b; induction a as [|x a IH]; intros [|y b] H; cbn [toy_enc flat_map app] in H; try discriminate; [reflexivity|].
  injection H; intros H3 H2 H1. f_equal; [Z.div_mod_to_equations; lia | apply IH; exact H3].
Qed.

Lemma toy_sign_ok sk msg : length (toy_sign sk msg) = 2%nat /\ toy_verify sk msg (toy_sign sk msg) = true.
Proof. split; [reflexivity | apply bytes_eqb_refl]. Qed.
