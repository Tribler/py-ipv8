(* C09 - association lists with dict semantics, list plumbing. *)
From Coq Require Import ZArith List Bool.
From IPV8V Require Import model.M09_reclaim.
Import ListNotations.
Open Scope Z_scope.

Lemma aget_aset {A} k k' (v : A) l :
  aget k' (aset k v l) = if k' =? k then Some v else aget k' l.
Proof.
  induction l as [|[k0 v0] tl IH]; simpl.
  - destruct (k' =? k) eqn:E; reflexivity.
  - destruct (k =? k0) eqn:E0; simpl.
    + apply Z.eqb_eq in E0; subst k0. destruct (k' =? k); reflexivity.
    + destruct (k' =? k0) eqn:E1.
      * apply Z.eqb_eq in E1; subst k0. destruct (k' =? k) eqn:E2; [|reflexivity].
        apply Z.eqb_eq in E2; subst. rewrite Z.eqb_refl in E0; discriminate.
      * exact IH.
Qed.

Lemma aget_adel {A} k k' (l : list (Z * A)) :
  aget k' (adel k l) = if k' =? k then None else aget k' l.
Proof.
  induction l as [|[k0 v0] tl IH]; simpl.
  - destruct (k' =? k); reflexivity.
  - destruct (k =? k0) eqn:E0; simpl.
    + apply Z.eqb_eq in E0; subst k0. rewrite IH. destruct (k' =? k); reflexivity.
    + destruct (k' =? k0) eqn:E1.
      * apply Z.eqb_eq in E1; subst k0. destruct (k' =? k) eqn:E2; [|reflexivity].
        apply Z.eqb_eq in E2; subst. rewrite Z.eqb_refl in E0; discriminate.
      * exact IH.
Qed.

Lemma aget_aset_other {A} k k' (v : A) l : k' <> k -> aget k' (aset k v l) = aget k' l.
Proof. intro H. rewrite aget_aset. destruct (Z.eqb_spec k' k); [contradiction | reflexivity]. Qed.

Lemma aget_adel_other {A} k k' (l : list (Z * A)) : k' <> k -> aget k' (adel k l) = aget k' l.
Proof. intro H. rewrite aget_adel. destruct (Z.eqb_spec k' k); [contradiction | reflexivity]. Qed.

Lemma ahas_aget {A} k (l : list (Z * A)) : ahas k l = true <-> exists v, aget k l = Some v.
Proof.
  unfold ahas. destruct (aget k l) as [v|]; split; intro H;
    [exists v; reflexivity | reflexivity | discriminate | destruct H; discriminate].
Qed.

Lemma ahas_false {A} k (l : list (Z * A)) : ahas k l = false <-> aget k l = None.
Proof. unfold ahas. destruct (aget k l); split; intro H; try reflexivity; discriminate. Qed.

Lemma aget_in {A} k (v : A) l : aget k l = Some v -> In (k, v) l.
Proof.
  induction l as [|[k0 v0] tl IH]; simpl; [discriminate|].
  destruct (k =? k0) eqn:E; intro H.
  - apply Z.eqb_eq in E; subst. inversion H; subst. left; reflexivity.
  - right; auto.
Qed.

Lemma in_aget {A} k (v : A) l : In (k, v) l -> exists v', aget k l = Some v'.
Proof.
  induction l as [|[k0 v0] tl IH]; simpl; [tauto|].
  intros [H|H].
  - inversion H; subst. rewrite Z.eqb_refl. eauto.
  - destruct (k =? k0); eauto.
Qed.

Lemma in_remove_nth {A} (x : A) i l : In x (remove_nth i l) -> In x l.
Proof.
  revert i; induction l as [|y tl IH]; intros [|i]; simpl; auto.
  intros [H|H]; [left; exact H | right; eauto].
Qed.

Lemma in_remove_nth_other {A} (x y : A) i l :
  In x l -> nth_error l i = Some y -> x <> y -> In x (remove_nth i l).
Proof.
  revert i; induction l as [|z tl IH]; intros [|i]; simpl; try tauto.
  - intros [H|H] E N; [inversion E; subst; congruence | exact H].
  - intros [H|H] E N; [left; exact H | right; eauto].
Qed.

Lemma fst_let3 {A B C : Type} (x : A * B * C) : fst (let '(a, b, _) := x in (a, b)) = fst (fst x).
Proof. destruct x as [[? ?] ?]; reflexivity. Qed.

Lemma fst_let2 {A B C : Type} (x : A * B) (f : B -> C) : fst (let '(a, b) := x in (a, f b)) = fst x.
Proof. destruct x; reflexivity. Qed.

Lemma nth_error_in' {A} (l : list A) i x : nth_error l i = Some x -> In x l.
Proof. apply nth_error_In. Qed.
