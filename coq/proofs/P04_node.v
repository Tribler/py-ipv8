(* C04: what one node does with one cell - the way into process_cell, and the relay steps. *)
From Coq Require Import ZArith List Bool Lia.
From IPV8V Require Import lib.PyErr lib.Bytes model.M02_wire model.M03_recv model.M04_onion spec.S04_onion_spec
  proofs.P04_base.
Import ListNotations.
Open Scope Z_scope.

Section Node.
Variables key nonce : Type.
Variable enc : key -> dir -> nonce -> bytes -> bytes.
Variable dec : key -> dir -> bytes -> option bytes.
Notation node := (node key).
Notation on_packet := (on_packet enc dec).
Notation process_cell := (process_cell enc dec).
Notation relay_cell := (relay_cell enc dec).
Notation incoming_crypto := (incoming_crypto dec).
Notation outgoing_crypto := (outgoing_crypto enc).
Notation ep_send_cell := (ep_send_cell enc).
Notation community_on_cell_packet := (community_on_cell_packet enc).
Notation on_packet_from_circuit := (on_packet_from_circuit enc).

(* process_cell after from_bin *)
Definition process_cell_c (nd : node) (src : addr) (c : cell) (rnd : Z -> bytes) (ns : nat -> nonce)
  : res (node * list action) :=
  if has (cl_cid c) (n_relays nd) then relay_cell nd c ns
  else
    do oc <- incoming_crypto nd c;
    match oc with
    | None => Ok (nd, [])
    | Some c1 =>
        if (length (cl_msg c1) =? 0)%nat then Ok (nd, [])
        else
          do m0 <- idx (cl_msg c1) 0;
          if (negb (cl_early c1) && (m0 =? 4)) || (n_max_early nd <=? 0) then Ok (nd, [])
          else if cl_plain c1 && negb (NO_CRYPTO m0) then Ok (nd, [])
          else community_on_cell_packet nd src (cell_to_bin (n_prefix nd) c1) rnd ns
    end.

Lemma on_packet_cell (nd : node) src c rnd ns :
  length (n_prefix nd) = 22%nat -> cid_ok (cl_cid c) ->
  on_packet nd src (cell_to_bin (n_prefix nd) c) rnd ns = process_cell_c nd src c rnd ns.
Proof.
  intros Hp Hc. unfold M04_onion.on_packet.
  rewrite cell_to_bin_prefix by exact Hp. rewrite bytes_eqb_refl. cbn [negb].
  pose proof (cell_to_bin_blen (n_prefix nd) c Hp) as Hl. pose proof (blen_nonneg (cl_msg c)) as Hn.
  destruct (22 <? blen (cell_to_bin (n_prefix nd) c)) eqn:E; [|lia].
  rewrite cell_to_bin_idx22 by exact Hp. cbn [bind]. rewrite Z.eqb_refl.
  unfold M04_onion.process_cell.
  destruct (blen (cell_to_bin (n_prefix nd) c) <? 29) eqn:E2; [lia|].
  rewrite from_bin_to_bin by assumption. cbn [bind]. reflexivity.
Qed.

Lemma on_packet_relay (nd : node) src c r rnd ns :
  length (n_prefix nd) = 22%nat -> cid_ok (cl_cid c) -> assoc (cl_cid c) (n_relays nd) = Some r ->
  on_packet nd src (cell_to_bin (n_prefix nd) c) rnd ns = relay_cell nd c ns.
Proof.
  intros Hp Hc Ha. rewrite on_packet_cell by assumption. unfold process_cell_c, has. rewrite Ha. reflexivity.
Qed.

(* a route with budget left passes the relay_early check *)
Lemma early_budget (early : bool) cnt mx : (early = true -> cnt < mx) -> early && (mx <=? cnt) = false.
Proof. destruct early; [|reflexivity]. intros H. specialize (H eq_refl). cbn [andb]. lia. Qed.

Lemma relay_forward_step (nd : node) src cid cid' pk nxt k cnt body early n rnd ns :
  aead_correct enc dec ->
  length (n_prefix nd) = 22%nat -> cid_ok cid ->
  assoc cid (n_relays nd) = Some (mkRR cid' (mkHop pk nxt (Some k)) FORWARD false cnt) ->
  (early = true -> cnt < n_max_early nd) ->
  on_packet nd src (cell_to_bin (n_prefix nd) (mkCell cid (enc k FORWARD n body) false early)) rnd ns
  = Ok (set_relays nd (upd cid (mkRR cid' (mkHop pk nxt (Some k)) FORWARD false (cnt + 1)) (n_relays nd)),
        [Send nxt (cell_to_bin (n_prefix nd) (mkCell cid' body false early))]).
Proof.
  intros C Hp Hc Ha He. erewrite on_packet_relay by eassumption.
  unfold M04_onion.relay_cell. cbn [cl_plain cl_cid cl_early]. rewrite Ha.
  cbn [rr_early rr_rdv rr_dir rr_hop rr_cid]. rewrite (early_budget early cnt _ He).
  unfold decrypt_cell. cbn [cl_plain cl_msg decrypt_hops h_keys]. rewrite C. reflexivity.
Qed.

Lemma relay_forward_drop (nd : node) src cid r k body early rnd ns :
  length (n_prefix nd) = 22%nat -> cid_ok cid ->
  assoc cid (n_relays nd) = Some r -> rr_rdv r = false -> rr_dir r = FORWARD -> h_keys (rr_hop r) = Some k ->
  dec k FORWARD body = None ->
  on_packet nd src (cell_to_bin (n_prefix nd) (mkCell cid body false early)) rnd ns = Ok (nd, []).
Proof.
  intros Hp Hc Ha Hr Hd Hk Hn. erewrite on_packet_relay by eassumption.
  unfold M04_onion.relay_cell. cbn [cl_plain cl_cid cl_early]. rewrite Ha.
  destruct (early && (n_max_early nd <=? rr_early r)); [reflexivity|].
  rewrite Hr, Hd. unfold decrypt_cell. cbn [cl_plain cl_msg decrypt_hops]. rewrite Hk, Hn. reflexivity.
Qed.

Lemma relay_backward_step (nd : node) src cid cid' pk prv k cnt body early rnd ns :
  length (n_prefix nd) = 22%nat -> cid_ok cid ->
  assoc cid (n_relays nd) = Some (mkRR cid' (mkHop pk prv (Some k)) BACKWARD false cnt) ->
  (early = true -> cnt < n_max_early nd) ->
  on_packet nd src (cell_to_bin (n_prefix nd) (mkCell cid body false early)) rnd ns
  = Ok (set_relays nd (upd cid (mkRR cid' (mkHop pk prv (Some k)) BACKWARD false (cnt + 1)) (n_relays nd)),
        [Send prv (cell_to_bin (n_prefix nd) (mkCell cid' (enc k BACKWARD (ns O) body) false early))]).
Proof.
  intros Hp Hc Ha He. erewrite on_packet_relay by eassumption.
  unfold M04_onion.relay_cell. cbn [cl_plain cl_cid cl_early]. rewrite Ha.
  cbn [rr_early rr_rdv rr_dir rr_hop rr_cid]. rewrite (early_budget early cnt _ He). reflexivity.
Qed.

(* a rendezvous relay: peel the layer of the side the cell came from, add the layer of the other side *)
Lemma rendezvous_step (nd : node) src cid cid' pk nxt k1 cnt r2 k2 body early n rnd ns :
  aead_correct enc dec ->
  length (n_prefix nd) = 22%nat -> cid_ok cid ->
  assoc cid (n_relays nd) = Some (mkRR cid' (mkHop pk nxt (Some k1)) FORWARD true cnt) ->
  assoc cid' (n_relays nd) = Some r2 -> h_keys (rr_hop r2) = Some k2 ->
  (early = true -> cnt < n_max_early nd) ->
  on_packet nd src (cell_to_bin (n_prefix nd) (mkCell cid (enc k1 FORWARD n body) false early)) rnd ns
  = Ok (set_relays nd (upd cid (mkRR cid' (mkHop pk nxt (Some k1)) FORWARD true (cnt + 1)) (n_relays nd)),
        [Send nxt (cell_to_bin (n_prefix nd) (mkCell cid' (enc k2 BACKWARD (ns O) body) false false))]).
Proof.
  intros C Hp Hc Ha Ha2 Hk2 He. erewrite on_packet_relay by eassumption.
  unfold M04_onion.relay_cell. cbn [cl_plain cl_cid cl_early]. rewrite Ha.
  cbn [rr_early rr_rdv rr_dir rr_hop rr_cid]. rewrite (early_budget early cnt _ He), Ha2.
  unfold decrypt_cell. cbn [cl_plain cl_msg decrypt_hops h_keys]. rewrite C.
  unfold encrypt_cell. cbn [catch_crypto set_msg cl_plain cl_msg rev app encrypt_hops]. rewrite Hk2. reflexivity.
Qed.

(* a plaintext-flagged cell is never relayed *)
Lemma relay_plain_refused (nd : node) src cid msg early rnd ns :
  length (n_prefix nd) = 22%nat -> cid_ok cid -> has cid (n_relays nd) = true ->
  on_packet nd src (cell_to_bin (n_prefix nd) (mkCell cid msg true early)) rnd ns = Ok (nd, []).
Proof.
  intros Hp Hc Hh. rewrite on_packet_cell by assumption. unfold process_cell_c. cbn [cl_cid]. rewrite Hh. reflexivity.
Qed.

End Node.
