(* C05: the routing-table invariant is preserved by every operation, hence over every history; no operation
   replaces a relay or exit entry. *)
From Coq Require Import ZArith List Bool.
From IPV8V Require Import lib.PyErr lib.Bytes model.M03_recv model.M04_onion model.M05_isolation
  spec.S05_isolation_spec proofs.P04_base proofs.P05_tables proofs.P05_control.
Import ListNotations.
Open Scope Z_scope.

Lemma cores_assoc {A B} (f : A -> B) : forall (l l' : list (Z * A)),
  cores f l = cores f l' ->
  forall x, match assoc x l, assoc x l' with
            | Some v, Some v' => f v = f v'
            | None, None => True
            | _, _ => False
            end.
Proof.
  unfold cores. induction l as [|[k v] tl IH]; intros [|[k' v'] tl'] H x; try discriminate; cbn [assoc]; [exact I|].
  cbn [map fst snd] in H. injection H as Hk Hv Ht. subst k'. destruct (x =? k); [exact Hv | apply IH; exact Ht].
Qed.

Lemma cores_has {A B} (f : A -> B) (l l' : list (Z * A)) x : cores f l = cores f l' -> has x l = has x l'.
Proof.
  intros H. pose proof (cores_assoc f l l' H x) as C. unfold has.
  destruct (assoc x l), (assoc x l'); try reflexivity; contradiction.
Qed.

Lemma cores_back {A B} (f : A -> B) (l l' : list (Z * A)) x v' :
  cores f l = cores f l' -> assoc x l' = Some v' -> exists v, assoc x l = Some v /\ f v = f v'.
Proof.
  intros H Ha. pose proof (cores_assoc f l l' H x) as C. rewrite Ha in C.
  destruct (assoc x l) as [v|]; [eauto | contradiction].
Qed.

Lemma has_upd_existing {A} k (v : A) l x : has k l = true -> has x (upd k v l) = has x l.
Proof.
  intros H. destruct (Z.eq_dec x k) as [->|Hn]; [rewrite has_upd_same; auto | apply has_upd_other; exact Hn].
Qed.

Lemma has_del_le {A} k (l : list (Z * A)) x : has x (del k l) = true -> has x l = true.
Proof.
  unfold has. destruct (assoc x (del k l)) as [v|] eqn:E; [|discriminate].
  apply assoc_del_some in E as [_ E]. rewrite E. reflexivity.
Qed.

Section Inv.
Variables key nonce : Type.
Variable enc : key -> dir -> nonce -> bytes -> bytes.
Variable dec : key -> dir -> bytes -> option bytes.
Notation cnode := (cnode key).
Notation tables_ok := (@tables_ok key).

Lemma in_use_false (t : node key) x : in_use t x = false ->
  has x (n_circuits t) = false /\ has x (n_relays t) = false /\ has x (n_exits t) = false.
Proof. unfold in_use. intros H. apply orb_false_iff in H as [H H3]. apply orb_false_iff in H as [H1 H2]. auto. Qed.

(* the invariant only reads which circuit ids exist, the relay and exit entries up to counters, whether a removal
   is scheduled and which extends are in progress: a state with the same ids and entries, at least the same
   scheduled removals and no further extend in progress is well formed as well *)
Lemma tables_ok_transfer (c c' : cnode) :
  tables_ok c ->
  (forall x, has x (n_circuits (cn_tab c')) = has x (n_circuits (cn_tab c))) ->
  cores relay_core (n_relays (cn_tab c)) = cores relay_core (n_relays (cn_tab c')) ->
  cores exit_core (n_exits (cn_tab c)) = cores exit_core (n_exits (cn_tab c')) ->
  (forall p, In p (cn_pending c) -> In p (cn_pending c')) ->
  (forall n rq, assoc n (cn_create c') = Some rq -> assoc n (cn_create c) = Some rq) ->
  tables_ok c'.
Proof.
  intros [R H E C D] Hc Hr He P S. constructor.
  - intros x Hx. unfold ids_in in *. rewrite Hc in Hx.
    rewrite <- (cores_has relay_core _ _ x Hr), <- (cores_has exit_core _ _ x He). apply R. exact Hx.
  - intros x r' es' Ar Ae.
    destruct (cores_back relay_core _ _ x r' Hr Ar) as (r & Ar0 & Cr).
    destruct (cores_back exit_core _ _ x es' He Ae) as (es & Ae0 & Ce).
    destruct (H x r es Ar0 Ae0) as [Hp Hk]. split; [apply P; exact Hp|].
    unfold relay_core in Cr. unfold exit_core in Ce. injection Cr as _ Hh _ _. injection Ce as _ Hh2. congruence.
  - intros x es' Ae. destruct (cores_back exit_core _ _ x es' He Ae) as (es & Ae0 & Ce).
    unfold exit_core in Ce. injection Ce as Hid _. rewrite <- Hid. apply (E x es Ae0).
  - intros n rq Hn. pose proof (C n rq (S n rq Hn)) as U. unfold in_use in *.
    rewrite Hc, <- (cores_has relay_core _ _ _ Hr), <- (cores_has exit_core _ _ _ He). exact U.
  - intros n1 n2 r1 r2 H1 H2. apply (D n1 n2 r1 r2); apply S; assumption.
Qed.

Lemma more_pending_ok (c : cnode) extra : tables_ok c -> tables_ok (add_pending c extra).
Proof. intros O. apply (tables_ok_transfer c); cbn; auto. intros p Hp. apply in_or_app. auto. Qed.

Lemma remove_circuit_ok (c : cnode) cid reason c' acts :
  tables_ok c -> remove_circuit c cid reason = Ok (c', acts) -> tables_ok c'.
Proof.
  intros O H. destruct (remove_circuit_inv key c cid reason c' acts H) as (R1 & R2 & _ & R4 & [->|(ci & Ea & Hp & Hc)]); [exact O|].
  apply (tables_ok_transfer c); rewrite ?R1, ?R2, ?R4, ?Hp, ?Hc; auto.
  - intros x. apply has_upd_existing, (assoc_has _ _ _ Ea).
  - intros p Hin. apply in_or_app. auto.
Qed.

Lemma on_destroy_ok (c : cnode) pk cid reason c' acts :
  tables_ok c -> on_destroy c pk cid reason = Ok (c', acts) -> tables_ok c'.
Proof.
  intros O. apply on_destroy_rule; auto using more_pending_ok.
  intros ci h0 c1 a1 _ _ _. apply remove_circuit_ok. exact O.
Qed.

Lemma on_create_ok (c : cnode) src cid ident npk k cands :
  tables_ok c -> no_pending_target c cid -> tables_ok (fst (on_create c src cid ident npk k cands)).
Proof.
  intros O F. destruct (on_create_cases key c src cid ident npk k cands) as [-> | (pk & k0 & _ & _ & Eu & _ & ->)]; [exact O|].
  cbn [fst]. destruct (in_use_false _ _ Eu) as (U1 & U2 & U3). destruct O as [R H E C D].
  constructor; cbn.
  - intros x Hx. unfold ids_in in *. destruct (R x Hx) as [R1 R2]. split; [exact R1|].
    destruct (Z.eq_dec x cid) as [->|Hn]; [congruence|]. rewrite has_upd_other by exact Hn. exact R2.
  - intros x r es Ar Ae. destruct (Z.eq_dec x cid) as [->|Hn].
    + apply assoc_has in Ar. congruence.
    + rewrite assoc_upd_other in Ae by exact Hn. apply (H x r es Ar Ae).
  - intros x es Ae. destruct (Z.eq_dec x cid) as [->|Hn].
    + rewrite assoc_upd_same in Ae. injection Ae as <-. reflexivity.
    + rewrite assoc_upd_other in Ae by exact Hn. apply (E x es Ae).
  - intros n rq Hn. pose proof (C n rq Hn) as U. pose proof (F n rq Hn) as Hne. unfold in_use in *. cbn.
    rewrite has_upd_other by exact Hne. exact U.
  - exact D.
Qed.

(* the ids of the pair a created installs: cr_to is in no table, cr_from is an exit id and so none of our circuits *)
Lemma created_pair_fresh (c : cnode) ident rq es :
  tables_ok c -> assoc ident (cn_create c) = Some rq -> assoc (cr_from rq) (n_exits (cn_tab c)) = Some es ->
  in_use (cn_tab c) (cr_to rq) = false /\ cr_to rq <> cr_from rq /\ has (cr_from rq) (n_circuits (cn_tab c)) = false.
Proof.
  intros [R H E C D] Ea Ee. pose proof (C ident rq Ea) as U. destruct (in_use_false _ _ U) as (_ & _ & T3).
  apply assoc_has in Ee. repeat split; [exact U | congruence |].
  destruct (has (cr_from rq) (n_circuits (cn_tab c))) eqn:Hc; [|reflexivity]. destruct (R _ Hc). congruence.
Qed.

Lemma on_created_ok (c : cnode) src cid ident : tables_ok c -> tables_ok (fst (on_created c src cid ident)).
Proof.
  intros O. destruct (on_created_cases key c src cid ident) as [(Et & Ep & S) | (rq & es & fw & bw & Ea & Ee & Efr & Et & Ep & Ec & Hk)].
  { apply (tables_ok_transfer c); auto; rewrite ?Et, ?Ep; auto. }
  destruct (created_pair_fresh c ident rq es O Ea Ee) as (U & Hft & Hfc). destruct (in_use_false _ _ U) as (T1 & T2 & T3).
  destruct O as [R H E C D].
  constructor; rewrite ?Et, ?Ep, ?Ec; cbn [n_circuits n_relays n_exits set_relays].
  - intros x Hx. unfold ids_in in *. destruct (R x Hx) as [R1 R2]. split; [|exact R2].
    assert (x <> cr_from rq) by (intros ->; rewrite Hfc in Hx; discriminate).
    assert (x <> cr_to rq) by (intros ->; rewrite T1 in Hx; discriminate).
    rewrite !has_upd_other by assumption. exact R1.
  - intros x r es0 Ar Ae. destruct (Z.eq_dec x (cr_from rq)) as [->|Hn1].
    + rewrite assoc_upd_same in Ar. injection Ar as <-. rewrite Ee in Ae. injection Ae as <-.
      split; [apply in_or_app; right; left; reflexivity | exact Hk].
    + rewrite assoc_upd_other in Ar by exact Hn1. destruct (Z.eq_dec x (cr_to rq)) as [->|Hn2].
      * apply assoc_has in Ae. rewrite T3 in Ae. discriminate.
      * rewrite assoc_upd_other in Ar by exact Hn2. destruct (H x r es0 Ar Ae) as [Hp Hk0].
        split; [apply in_or_app; left; exact Hp | exact Hk0].
  - exact E.
  - intros n r Hn. apply assoc_del_some in Hn as [Hne Hn0]. pose proof (C n r Hn0) as V.
    destruct (in_use_false _ _ V) as (V1 & V2 & V3). unfold in_use. cbn [n_circuits n_relays n_exits set_relays].
    assert (cr_to r <> cr_to rq) by (apply (D n ident r rq Hn0 Ea Hne)).
    assert (cr_to r <> cr_from rq) by (intros Heq; rewrite Heq, (assoc_has _ _ _ Ee) in V3; discriminate).
    rewrite !has_upd_other by assumption. rewrite V1, V2, V3. reflexivity.
  - intros n1 n2 r1 r2 H1 H2. apply assoc_del_some in H1 as [_ H1]. apply assoc_del_some in H2 as [_ H2].
    apply (D n1 n2 r1 r2 H1 H2).
Qed.

Lemma on_extend_ok (c : cnode) src cid ident npk naddr known number tocid :
  tables_ok c -> in_use (cn_tab c) tocid = false -> no_pending_target c tocid -> assoc number (cn_create c) = None ->
  tables_ok (fst (on_extend c src cid ident npk naddr known number tocid)).
Proof.
  intros O F1 F2 F3.
  destruct (on_extend_cases key c src cid ident npk naddr known number tocid) as [-> | (rq & -> & Hto)]; [exact O|].
  destruct O as [R H E C D]. constructor; cbn; auto.
  - intros n r Hn. destruct (Z.eq_dec n number) as [->|Hne].
    + rewrite assoc_upd_same in Hn. injection Hn as <-. rewrite Hto. exact F1.
    + rewrite assoc_upd_other in Hn by exact Hne. apply (C n r Hn).
  - (* the new extend's target differs from every target drawn before *)
    assert (NEW : forall n r, n <> number -> assoc n (upd number rq (cn_create c)) = Some r -> cr_to r <> cr_to rq).
    { intros n r Hne Hn. rewrite assoc_upd_other in Hn by exact Hne. rewrite Hto. apply (F2 n r Hn). }
    intros n1 n2 r1 r2 H1 H2 Hne.
    destruct (Z.eq_dec n1 number) as [->|N1]; destruct (Z.eq_dec n2 number) as [->|N2]; [congruence | | |].
    + rewrite assoc_upd_same in H1. injection H1 as <-. apply not_eq_sym, (NEW n2 r2 N2 H2).
    + rewrite assoc_upd_same in H2. injection H2 as <-. apply (NEW n1 r1 N1 H1).
    + rewrite assoc_upd_other in H1 by exact N1. rewrite assoc_upd_other in H2 by exact N2. apply (D n1 n2 r1 r2 H1 H2 Hne).
Qed.

Lemma timer_ok (c : cnode) :
  tables_ok c -> tables_ok (mkCN (fold_left pop_pending (cn_pending c) (cn_tab c)) (cn_created c) (cn_create c) [] (cn_max_joined c)).
Proof.
  intros [R H E C D]. destruct (fold_pop_sub key (cn_pending c) (cn_tab c)) as (F1 & F2 & F3).
  constructor; cbn.
  - intros x Hx. unfold ids_in in *. apply has_true in Hx as [v Hv]. apply F3 in Hv. apply assoc_has in Hv.
    destruct (R x Hv) as [R1 R2]. split; [apply (has_sub _ _ x F1 R1) | apply (has_sub _ _ x F2 R2)].
  - intros x r es Ar Ae. exfalso. destruct (H x r es (F1 _ _ Ar) (F2 _ _ Ae)) as [Hp _].
    rewrite (fold_pop_exit_gone key (cn_pending c) (cn_tab c) x Hp) in Ae. discriminate.
  - intros x es Ae. apply (E x es (F2 _ _ Ae)).
  - intros n rq Hn. destruct (in_use_false _ _ (C n rq Hn)) as (U1 & U2 & U3). unfold in_use.
    rewrite (has_sub _ _ _ F3 U1), (has_sub _ _ _ F1 U2), (has_sub _ _ _ F2 U3). reflexivity.
  - exact D.
Qed.

Lemma new_circuit_ok (c : cnode) cid ci :
  tables_ok c -> in_use (cn_tab c) cid = false -> no_pending_target c cid ->
  tables_ok (set_tab c (set_circuits (cn_tab c) (upd cid ci (n_circuits (cn_tab c))))).
Proof.
  intros [R H E C D] Fu Fp. destruct (in_use_false _ _ Fu) as (U1 & U2 & U3). constructor; cbn.
  - intros x Hx. unfold ids_in in *. destruct (Z.eq_dec x cid) as [->|Hn]; [auto|].
    rewrite has_upd_other in Hx by exact Hn. apply R. exact Hx.
  - exact H.
  - exact E.
  - intros n rq Hn. pose proof (C n rq Hn) as U. unfold in_use in *. cbn. rewrite has_upd_other by (apply (Fp n rq Hn)). exact U.
  - exact D.
Qed.

Lemma cstep_ok (c : cnode) o c' acts :
  tables_ok c -> op_fresh c o -> cstep enc dec c o = Ok (c', acts) -> tables_ok c'.
Proof.
  intros O F. destruct o; cbn [cstep].
  - destruct (on_packet enc dec (cn_tab c) src pkt (fun _ => rnd) ns) as [[t' a]|] eqn:Ep; cbn [bind]; [|discriminate].
    intros H. injection H as <- <-. pose proof (on_packet_same key nonce enc dec _ _ _ _ _ _ _ Ep) as S.
    apply (tables_ok_transfer c); cbn; auto using same_relays, same_exits.
    intros x. symmetry. apply (cores_has circuit_core), same_circuits, S.
  - intros ->%Ok_pair_fst. apply on_create_ok; assumption.
  - intros ->%Ok_pair_fst. apply on_created_ok; assumption.
  - intros ->%Ok_pair_fst. destruct F as (F1 & F2 & F3). apply on_extend_ok; assumption.
  - destruct sig_ok; [|intros H; injection H as <- <-; exact O].
    destruct (on_destroy c pk cid reason) as [[c1 a1]|] eqn:Ed; cbn [try_catch]; intros H; injection H as <- <-; [|exact O].
    apply (on_destroy_ok c pk cid reason c1 a1 O Ed).
  - intros H. injection H as <- <-. apply more_pending_ok. exact O.
  - intros H. injection H as <- <-. apply more_pending_ok. exact O.
  - apply remove_circuit_ok. exact O.
  - intros H. injection H as <- <-. apply timer_ok. exact O.
  - intros H. injection H as <- <-. apply (tables_ok_transfer c); cbn; auto.
  - destruct (has cid (n_circuits (cn_tab c))); intros H; injection H as <- <-; [exact O|].
    destruct F as [F1 F2]. apply new_circuit_ok; assumption.
  - destruct (has cid (n_circuits (cn_tab c))) eqn:Eh; intros H; injection H as <- <-; [|exact O].
    apply (tables_ok_transfer c); cbn; auto. intros x. apply has_upd_existing. exact Eh.
Qed.

(* a created never changes an existing relay entry: it only adds the two routes of the new pair, under ids
   that had no relay route before *)
Lemma created_never_overwrites_relay_l (c : cnode) src cid ident :
  tables_ok c ->
  forall x r, assoc x (n_relays (cn_tab c)) = Some r ->
              assoc x (n_relays (cn_tab (fst (on_created c src cid ident)))) = Some r.
Proof.
  intros O. change (entries_sub (n_relays (cn_tab c)) (n_relays (cn_tab (fst (on_created c src cid ident))))).
  destruct (on_created_cases key c src cid ident) as [(-> & _) | (rq & es & fw & bw & Ea & Ee & Efr & -> & _)]; [apply entries_sub_refl|].
  destruct (created_pair_fresh c ident rq es O Ea Ee) as (U & Hft & _). destruct (in_use_false _ _ U) as (_ & T2 & _).
  intros x r Hx. apply entries_sub_upd_fresh; [rewrite has_upd_other by congruence; exact Efr|]. apply entries_sub_upd_fresh; assumption.
Qed.

Lemma kept_grow {A B} (f : A -> B) (l l' : list (Z * A)) : entries_sub l l' -> entries_kept f l l'.
Proof. intros S x v H. right. exists v. auto. Qed.

Lemma kept_shrink {A B} (f : A -> B) (l l' : list (Z * A)) : entries_sub l' l -> entries_kept f l l'.
Proof.
  intros S x v H. destruct (assoc x l') as [v'|] eqn:E; [|left; reflexivity].
  right. exists v'. split; [reflexivity|]. apply S in E. congruence.
Qed.

Lemma kept_cores {A B} (f : A -> B) (l l' : list (Z * A)) : cores f l = cores f l' -> entries_kept f l l'.
Proof.
  intros Hc x v H. pose proof (cores_assoc f l l' Hc x) as C. rewrite H in C.
  destruct (assoc x l') as [v'|]; [right; exists v'; auto | contradiction].
Qed.

Lemma no_replacement_eq (a b : node key) : n_relays b = n_relays a -> n_exits b = n_exits a -> no_replacement a b.
Proof. intros Hr He. split; apply kept_grow; rewrite ?Hr, ?He; apply entries_sub_refl. Qed.

(* no entry is ever replaced: a step leaves each relay / exit entry in place or removes it *)
Lemma cstep_no_replacement (c : cnode) o c' acts :
  tables_ok c -> cstep enc dec c o = Ok (c', acts) -> no_replacement (cn_tab c) (cn_tab c').
Proof.
  intros O. destruct o; cbn [cstep].
  - destruct (on_packet enc dec (cn_tab c) src pkt (fun _ => rnd) ns) as [[t' a]|] eqn:Ep; cbn [bind]; [|discriminate].
    intros H. injection H as <- <-.
    pose proof (on_packet_same key nonce enc dec _ _ _ _ _ _ _ Ep) as S.
    split; apply kept_cores; [apply same_relays | apply same_exits]; exact S.
  - (* create: a new exit socket under an id that had none *)
    intros ->%Ok_pair_fst.
    destruct (on_create_cases key c src cid ident npk k cands) as [-> | (pk & k0 & _ & _ & Eu & _ & ->)];
      [apply no_replacement_eq; reflexivity|].
    destruct (in_use_false _ _ Eu) as (_ & _ & U3).
    split; apply kept_grow; [apply entries_sub_refl | apply entries_sub_upd_fresh; exact U3].
  - (* created: new relay routes only, the exit sockets as they were *)
    intros ->%Ok_pair_fst. split; apply kept_grow.
    + exact (created_never_overwrites_relay_l c src cid ident O).
    + destruct (on_created_cases key c src cid ident) as [(-> & _) | (rq & es & fw & bw & _ & _ & _ & -> & _)]; apply entries_sub_refl.
  - intros ->%Ok_pair_fst.
    destruct (on_extend_cases key c src cid ident npk naddr known number tocid) as [-> | (rq & -> & _)];
      apply no_replacement_eq; reflexivity.
  - destruct sig_ok; [|intros H; injection H as <- <-; apply no_replacement_eq; reflexivity].
    destruct (on_destroy c pk cid reason) as [[c1 a1]|] eqn:Ed; cbn [try_catch]; intros H; injection H as <- <-;
      [|apply no_replacement_eq; reflexivity].
    destruct (destroy_only_adjacent_l key c pk cid reason c1 a1 Ed) as (D1 & D2 & _). apply no_replacement_eq; assumption.
  - intros H. injection H as <- <-. apply no_replacement_eq; reflexivity.
  - intros H. injection H as <- <-. apply no_replacement_eq; reflexivity.
  - intros H. destruct (remove_circuit_inv key c cid reason c' acts H) as (R1 & R2 & _). apply no_replacement_eq; assumption.
  - intros H. injection H as <- <-. destruct (fold_pop_sub key (cn_pending c) (cn_tab c)) as (F1 & F2 & _).
    split; apply kept_shrink; assumption.
  - intros H. injection H as <- <-. apply no_replacement_eq; reflexivity.
  - destruct (has cid (n_circuits (cn_tab c))); intros H; injection H as <- <-; apply no_replacement_eq; reflexivity.
  - destruct (has cid (n_circuits (cn_tab c))); intros H; injection H as <- <-; apply no_replacement_eq; reflexivity.
Qed.

(* in particular no entry is re-keyed *)
Lemma no_replacement_keys (a b : node key) : no_replacement a b -> keys_kept a b.
Proof.
  intros [Hr He]. split.
  - intros x r r' H1 H2. destruct (Hr x r H1) as [Hn | (v' & Hv & Hc)]; [congruence|].
    rewrite H2 in Hv. injection Hv as <-. unfold relay_core in Hc. injection Hc as _ Hh _ _. rewrite Hh. reflexivity.
  - intros x e e' H1 H2. destruct (He x e H1) as [Hn | (v' & Hv & Hc)]; [congruence|].
    rewrite H2 in Hv. injection Hv as <-. exact Hc.
Qed.

(* tables_inv: over every history of cells, control messages, local removals and timer ticks *)
Lemma crun_ok : forall ops (c : cnode) c' acts,
  tables_ok c -> run_fresh enc dec c ops -> crun enc dec c ops = Ok (c', acts) -> tables_ok c'.
Proof.
  induction ops as [|o tl IH]; intros c c' acts O F; cbn [crun].
  - intros H. injection H as <- <-. exact O.
  - cbn [run_fresh] in F. destruct F as [F1 F2].
    destruct (cstep enc dec c o) as [[c1 a1]|] eqn:Es; cbn [bind]; [|discriminate].
    destruct (crun enc dec c1 tl) as [[c2 a2]|] eqn:Er; cbn [bind]; [|discriminate].
    intros H. injection H as <- <-. apply (IH c1 c2 a2 (cstep_ok c o c1 a1 O F1 Es) F2 Er).
Qed.

End Inv.
