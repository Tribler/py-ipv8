(* The hand model of the receive path (model/M03_recv.v): delivery is total and handlers are entered only through
   the prefix / length gate.  proofs/P03_recv_gen.v proves the same over the code translated from the source. *)
From Coq Require Import ZArith List Bool Lia ZifyBool.
From IPV8V Require Import lib.PyErr lib.Bytes lib.BE model.M03_recv.
Import ListNotations.
Open Scope Z_scope.

Section P.
Variable handler : nat -> Z -> bytes -> res unit.
Variable incoming : Z -> bool -> bytes -> option bytes.
Variable relay_crypto : Z -> bytes -> option bytes.
Hypothesis incoming_bytes : forall cid p m m', incoming cid p m = Some m' -> bytes_ok m'.

Notation community_on_packet := (community_on_packet handler).
Notation process_cell := (process_cell handler incoming relay_crypto).
Notation crypto_on_packet := (crypto_on_packet handler incoming relay_crypto).
Notation on_packet := (on_packet handler incoming relay_crypto).
Notation deliver_later := (deliver_later handler incoming relay_crypto).
Notation deliver_all := (deliver_all handler incoming relay_crypto).
Notation notify := (notify handler incoming relay_crypto).

(* every Entered event of overlay c carries a datagram with c's prefix, at least 23 bytes, and the
   message id is the 23rd byte *)
Definition entered_ok (i : nat) (c : community) (e : ev) : Prop :=
  match e with
  | Entered j mid d => j = i /\ slice d None (Some 22) = c_prefix c /\ 23 <= blen d /\ idx d 22 = Ok mid
                       /\ existsb (Z.eqb mid) (c_ids c) = true
  | _ => True
  end.

(* the outcome is normal, and all its events satisfy P *)
Definition returns (P : ev -> Prop) (r : res (list ev)) : Prop := exists evs, r = Ok evs /\ Forall P evs.
Lemma returns_nil P : returns P (Ok []).
Proof. exists []. split; [reflexivity|constructor]. Qed.

Lemma community_total i c data : bytes_ok data -> returns (entered_ok i c) (community_on_packet i c data).
Proof.
  intros Hd. unfold M03_recv.community_on_packet.
  destruct (bytes_eqb (c_prefix c) (slice data None (Some 22))) eqn:Ep; cbn [negb orb]; [|apply returns_nil].
  destruct (blen data <? 23) eqn:El; [apply returns_nil|].
  apply bytes_eqb_eq in Ep.
  destruct (idx_in_range data 22 ltac:(lia)) as (mid & Hm & Hin). rewrite Hm. cbn [bind].
  pose proof (bytes_ok_in data mid Hd Hin) as Hr.
  replace ((mid <? 0) || (255 <? mid)) with false by lia.
  destruct (existsb (Z.eqb mid) (c_ids c)) eqn:Eh; [|apply returns_nil].
  exists [Entered i mid data]. split; [destruct (handler i mid data) as [[]|e]; reflexivity|].
  constructor; [|constructor]. cbn. split; [reflexivity|]. split; [symmetry; exact Ep|]. split; [lia|]. split; [exact Hm|exact Eh].
Qed.

Definition relays_paired (relays : list (Z * relay)) : Prop :=
  forall cid r, assoc cid relays = Some r -> r_rendezvous r = true -> assoc (r_next r) relays <> None.

Lemma to_bin_ok prefix cid p e m :
  bytes_ok prefix -> bytes_ok m -> bytes_ok (to_bin prefix cid p e m).
Proof.
  intros Hp Hm. unfold to_bin.
  apply Forall_app; split; [exact Hp|].
  apply Forall_app; split; [constructor; [lia|constructor]|].
  apply Forall_app; split; [apply be_encode_bytes_ok|].
  apply Forall_app; split; [constructor; [destruct p; lia|constructor]|].
  apply Forall_app; split; [constructor; [destruct e; lia|constructor]|exact Hm].
Qed.

Lemma process_cell_total i c attached max_early relays data :
  bytes_ok (c_prefix c) -> relays_paired relays ->
  returns (entered_ok i c) (process_cell i c attached max_early relays data).
Proof.
  intros Hp Hpair. unfold M03_recv.process_cell.
  destruct (blen data <? 29) eqn:El; [apply returns_nil|].
  destruct (unpack_u_ok 4 data 23 ltac:(lia) ltac:(simpl; lia)) as [cid ->].
  destruct (unpack_u_ok 1 data 27 ltac:(lia) ltac:(simpl; lia)) as [pt ->].
  destruct (unpack_u_ok 1 data 28 ltac:(lia) ltac:(simpl; lia)) as [re ->]. cbn [bind].
  destruct (assoc cid relays) as [nxt|] eqn:Er.
  - unfold relay_cell. destruct (negb (pt =? 0)); [apply returns_nil|].
    rewrite Er. destruct (negb (re =? 0) && (max_early <=? r_early_count nxt)); [apply returns_nil|].
    (* the second lookup of a rendezvous relay is where relays_paired is needed *)
    assert (Hn : (if r_rendezvous nxt
                  then match assoc (r_next nxt) relays with None => Raise KeyError | Some _ => Ok tt end
                  else Ok tt) = Ok tt).
    { destruct (r_rendezvous nxt) eqn:Erv; [|reflexivity].
      destruct (assoc (r_next nxt) relays) eqn:E2; [reflexivity|]. exfalso. eapply Hpair; eauto. }
    rewrite Hn. cbn [bind]. destruct (relay_crypto cid _); [|apply returns_nil].
    eexists. split; [reflexivity|]. repeat constructor.
  - destruct (incoming cid (negb (pt =? 0)) (slice data (Some 29) None)) as [m|] eqn:Ei; [|apply returns_nil].
    destruct (length m =? 0)%nat eqn:Em; [apply returns_nil|].
    apply Nat.eqb_neq in Em.
    destruct (idx_in_range m 0 ltac:(unfold blen; lia)) as (m0 & Hm0 & _). rewrite Hm0. cbn [bind].
    destruct ((negb (negb (re =? 0)) && (m0 =? 4)) || (max_early <=? 0)); [apply returns_nil|].
    destruct (negb (pt =? 0) && negb ((m0 =? 2) || (m0 =? 3))); [apply returns_nil|].
    destruct (negb attached); [apply returns_nil|].
    apply community_total, to_bin_ok; [exact Hp|]. eapply incoming_bytes; exact Ei.
Qed.

Lemma crypto_total i c attached max_early relays data :
  bytes_ok data -> bytes_ok (c_prefix c) -> relays_paired relays ->
  returns (entered_ok i c) (crypto_on_packet i c attached max_early relays data).
Proof.
  intros Hd Hp Hpair. unfold M03_recv.crypto_on_packet.
  assert (Hc : returns (entered_ok i c) (if attached then community_on_packet i c data else Ok []))
    by (destruct attached; [apply community_total, Hd|apply returns_nil]).
  destruct (starts_with (c_prefix c) data && (22 <? blen data)) eqn:E; [|exact Hc].
  apply andb_true_iff in E as [_ El].
  destruct (idx_in_range data 22 ltac:(lia)) as (b & Hb & _). rewrite Hb. cbn [bind].
  destruct (b =? 0); [|exact Hc]. apply process_cell_total; assumption.
Qed.

Definition listener_comm (l : listener) : community :=
  match l with LComm c => c | LCrypto c _ _ _ => c end.

Definition listener_wf (l : listener) : Prop :=
  bytes_ok (c_prefix (listener_comm l)) /\
  match l with LCrypto _ _ _ relays => relays_paired relays | _ => True end.

Lemma on_packet_total i l data :
  bytes_ok data -> listener_wf l ->
  exists evs, on_packet i l data = Ok evs /\ Forall (entered_ok i (listener_comm l)) evs.
Proof.
  intros Hd [Hp Hw]. destruct l as [c|c a m r]; cbn [M03_recv.on_packet listener_comm] in *.
  - apply community_total, Hd.
  - apply crypto_total; assumption.
Qed.

Definition ep_wf (ep : endpoint) : Prop :=
  Forall (fun il => listener_wf (snd il)) (ep_listeners ep) /\
  Forall (fun kv => Forall (fun il => listener_wf (snd il)) (snd kv)) (ep_pmap ep).

Lemma pmap_get_wf p m ls :
  Forall (fun kv => Forall (fun il => listener_wf (snd il)) (snd kv)) m ->
  pmap_get p m = Some ls -> Forall (fun il => listener_wf (snd il)) ls.
Proof.
  induction m as [|[k v] tl IH]; intros H E; cbn in E; [discriminate|].
  inversion H; subst. destruct (bytes_eqb p k); [inversion E; subst; assumption|]. apply IH; assumption.
Qed.

Lemma selected_wf ep data : ep_wf ep -> Forall (fun il => listener_wf (snd il)) (selected ep data).
Proof.
  intros [H1 H2]. unfold selected. destruct (pmap_get _ _) eqn:E; [|exact H1]. eapply pmap_get_wf; eauto.
Qed.

(* events of listener index i respect listener i's prefix gate *)
Definition gate_ok (ls : list (nat * listener)) (e : ev) : Prop :=
  match e with
  | Entered i _ _ => exists l, In (i, l) ls /\ entered_ok i (listener_comm l) e
  | _ => True
  end.

Lemma deliver_all_total ep data : bytes_ok data -> forall ls,
  Forall (fun il => listener_wf (snd il)) ls -> returns (gate_ok ls) (deliver_all ep ls data).
Proof.
  intros Hd. induction ls as [|[i l] tl IH]; intros Hw; cbn [M03_recv.deliver_all]; [apply returns_nil|].
  inversion Hw as [|? ? Hl Htl]; subst. cbn [snd] in Hl.
  destruct (IH Htl) as (evs2 & E2 & G2). rewrite E2.
  assert (G2' : Forall (gate_ok ((i, l) :: tl)) evs2).
  { eapply Forall_impl; [|exact G2]. intros [j|j mid d|j cid m]; cbn; auto.
    intros (l' & Hin & Hok). exists l'. split; [right; exact Hin|exact Hok]. }
  unfold M03_recv.deliver_later. cbn [fst snd].
  destruct (ep_open ep && _); cbn [bind]; [|exists evs2; split; [reflexivity|exact G2']].
  destruct (on_packet_total i l data Hd Hl) as (evs1 & E1 & G1). rewrite E1. cbn [bind].
  eexists; split; [reflexivity|]. constructor; [exact I|]. apply Forall_app; split; [|exact G2'].
  eapply Forall_impl; [|exact G1]. intros [j|j mid d|j cid m'] He; cbn; auto.
  exists l. destruct He as [-> He]. split; [left; reflexivity|]. split; [reflexivity|exact He].
Qed.

End P.

Section Reach.
Variable handler : nat -> Z -> bytes -> res unit.
Variable incoming : Z -> bool -> bytes -> option bytes.
Variable relay_crypto : Z -> bytes -> option bytes.

Lemma deliver_all_reaches ep data ls evs :
  ep_open ep = true ->
  (forall il, In il ls ->
     (match pmap_get (slice data None (Some 22)) (ep_pmap ep) with Some _ => true | None => false end
      || existsb (fun jl => Nat.eqb (fst jl) (fst il)) (ep_listeners ep)) = true) ->
  deliver_all handler incoming relay_crypto ep ls data = Ok evs ->
  forall il, In il ls -> In (Delivered (fst il)) evs.
Proof.
  intros Ho. revert evs. induction ls as [|x tl IH]; intros evs Hg E il Hin; [destruct Hin|].
  cbn [M03_recv.deliver_all] in E. unfold M03_recv.deliver_later in E. rewrite Ho in E.
  rewrite (Hg x (or_introl eq_refl)) in E. cbn [andb] in E.
  destruct (on_packet handler incoming relay_crypto (fst x) (snd x) data) as [a|] eqn:Ea; cbn [bind] in E; [|discriminate].
  destruct (deliver_all handler incoming relay_crypto ep tl data) as [b|] eqn:Eb; cbn [bind] in E; [|discriminate].
  inversion E; subst. destruct Hin as [<-|Hin].
  - left. reflexivity.
  - right. apply in_or_app. right. apply (IH b); [|reflexivity|exact Hin]. intros il' Hil'. apply Hg. right. exact Hil'.
Qed.

End Reach.

Section Gate.
Variable handler : nat -> Z -> bytes -> res unit.
Variable incoming : Z -> bool -> bytes -> option bytes.
Variable relay_crypto : Z -> bytes -> option bytes.

(* a datagram too short to carry a message id, or whose first 22 bytes are not the overlay's prefix, does nothing *)
Lemma community_gate_closed i c data :
  blen data < 23 \/ slice data None (Some 22) <> c_prefix c -> community_on_packet handler i c data = Ok [].
Proof.
  intros Hg. unfold community_on_packet. destruct Hg as [Hs|Hne].
  - replace (blen data <? 23) with true by lia. rewrite orb_true_r. reflexivity.
  - destruct (bytes_eqb (c_prefix c) (slice data None (Some 22))) eqn:E; [|reflexivity].
    apply bytes_eqb_eq in E. congruence.
Qed.

(* for a crypto endpoint the cell test asks for the prefix as well, given that prefixes have 22 bytes *)
Lemma gate_closed i l data :
  blen data < 23 \/
  (slice data None (Some 22) <> c_prefix (listener_comm l) /\ length (c_prefix (listener_comm l)) = 22%nat) ->
  on_packet handler incoming relay_crypto i l data = Ok [].
Proof.
  intros Hg.
  assert (Hc : community_on_packet handler i (listener_comm l) data = Ok [])
    by (apply community_gate_closed; destruct Hg as [?|[? _]]; auto).
  destruct l as [c|c a m r]; cbn [on_packet listener_comm] in *; [exact Hc|].
  unfold crypto_on_packet. destruct (starts_with (c_prefix c) data && (22 <? blen data)) eqn:E.
  - exfalso. apply andb_true_iff in E as [E El]. destruct Hg as [Hs|[Hne Hlen]]; [lia|].
    unfold starts_with in E. apply bytes_eqb_eq in E.
    apply Hne. rewrite slice_prefix by lia. change (Z.to_nat 22) with 22%nat. rewrite <- Hlen. symmetry. exact E.
  - destruct a; [exact Hc|reflexivity].
Qed.
End Gate.
