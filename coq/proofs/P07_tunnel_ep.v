(* Proofs over model/M07_tunnel_ep.v.  What a step emits and does to the queue rests on two case principles: a step is
   a send or is silent (step_elim), and a send ends in one of five ways (send_elim).  Facts about the other state
   components (settings, circuits) go through the operations one by one. *)
From Coq Require Import ZArith List Bool Lia.
From IPV8V Require Import lib.Lists lib.Bytes gen.G07_consts model.M07_tunnel_ep spec.S07_anon_spec.
Import ListNotations.
Open Scope Z_scope.

Lemma send_queue_maxlen_pos : 0 < SEND_QUEUE_MAXLEN.
Proof. reflexivity. Qed.

Lemma bytes_eqb_sym a b : bytes_eqb a b = bytes_eqb b a.
Proof. exact (Bytes.bytes_eqb_sym a b). Qed.

Lemma dict_get_set d k v k2 :
  dict_get (dict_set d k v) k2 = if bytes_eqb k k2 then Some v else dict_get d k2.
Proof.
  induction d as [|[k' v'] d IH]; cbn [dict_set dict_get]; [reflexivity|].
  destruct (bytes_eqb k' k) eqn:E; cbn [dict_get].
  - apply bytes_eqb_eq in E. subst k'. destruct (bytes_eqb k k2); reflexivity.
  - rewrite IH. destruct (bytes_eqb k' k2) eqn:E2; [|reflexivity].
    apply bytes_eqb_eq in E2. subst k2. rewrite bytes_eqb_sym, E. reflexivity.
Qed.

Lemma zmem_In x l : zmem x l = true -> In x l.
Proof.
  induction l as [|y l IH]; cbn [zmem]; [discriminate|].
  intros H. apply orb_true_iff in H as [H|H].
  - left. apply Z.eqb_eq in H. symmetry. exact H.
  - right. apply IH. exact H.
Qed.

Lemma last_hop_some l h : last_hop l = Some h -> exists hs, l = hs ++ [h].
Proof.
  induction l as [|x l IH]; cbn [last_hop]; [discriminate|].
  destruct l as [|y l'].
  - intros H. inversion H; subst. exists []. reflexivity.
  - intros H. destruct (IH H) as [hs Hs]. exists (x :: hs). rewrite Hs. reflexivity.
Qed.

Lemma matches_ready_usable cfg c :
  matches cfg c = true -> is_ready c = true -> usable cfg c /\ enters_at c (first_hop_addr c).
Proof.
  unfold matches, is_ready, state_of, exit_flags. intros Hm Hr.
  apply andb_true_iff in Hm as [Hm Hg]. apply andb_true_iff in Hm as [Hc Hf].
  destruct (c_closing c) eqn:Ecl; [discriminate|].
  destruct (Z.of_nat (length (c_hops c)) <? c_goal c) eqn:Elen; [discriminate|].
  destruct (last_hop (c_hops c)) as [h|] eqn:El; [|discriminate].
  destruct (last_hop_some _ _ El) as [hs Hs].
  split.
  - split; [exact Ecl|]. split; [apply Z.eqb_eq, Hc|]. split; [symmetry; apply Z.eqb_eq, Hg|].
    split; [apply Z.ltb_ge, Elen|]. exists hs, h. split; [exact Hs|]. apply zmem_In. exact Hf.
  - unfold enters_at, first_hop_addr. destruct (c_hops c) as [|h0 tl].
    + destruct hs; discriminate.
    + exists h0, tl. split; reflexivity.
Qed.

Lemma enqueue_cases q x :
  Z.of_nat (length q) < SEND_QUEUE_MAXLEN /\ enqueue q x = (q ++ [x], [Queued (fst x) (snd x)])
  \/ exists e tl, q = e :: tl /\ SEND_QUEUE_MAXLEN <= Z.of_nat (length q)
                  /\ enqueue q x = (tl ++ [x], [Evicted (fst e) (snd e); Queued (fst x) (snd x)]).
Proof.
  unfold enqueue. destruct (Z.of_nat (length q) <? SEND_QUEUE_MAXLEN) eqn:E; [left; split; [lia|reflexivity]|].
  destruct q as [|[ea ep] tl]; [discriminate|]. right. exists (ea, ep), tl. repeat split. lia.
Qed.

Lemma enqueue_len q x : Z.of_nat (length q) <= SEND_QUEUE_MAXLEN ->
  Z.of_nat (length (fst (enqueue q x))) <= SEND_QUEUE_MAXLEN.
Proof.
  intros H. destruct (enqueue_cases q x) as [[Hl E]|(e & tl & -> & Hl & E)]; rewrite E; cbn [fst];
    rewrite app_length; cbn [length] in *; lia.
Qed.

Lemma enqueue_tail q x : exists q', fst (enqueue q x) = q' ++ [x].
Proof.
  destruct (enqueue_cases q x) as [[_ E]|(e & tl & _ & _ & E)]; rewrite E; eexists; reflexivity.
Qed.

Lemma enqueue_outs q x :
  Forall (fun o => is_raw o = false /\ is_tunnel o = false) (snd (enqueue q x))
  /\ In (Queued (fst x) (snd x)) (snd (enqueue q x)).
Proof.
  destruct (enqueue_cases q x) as [[_ E]|(e & tl & _ & _ & E)]; rewrite E; cbn [snd].
  - split; [repeat constructor|left; reflexivity].
  - split; [repeat constructor|right; left; reflexivity].
Qed.

Lemma enqueue_keeps q x e : In e q ->
  In e (fst (enqueue q x)) \/ In (Evicted (fst e) (snd e)) (snd (enqueue q x)).
Proof.
  intros Hin. destruct (enqueue_cases q x) as [[_ E]|(e0 & tl & -> & _ & E)]; rewrite E; cbn [fst snd].
  - left. apply in_or_app. left. exact Hin.
  - destruct Hin as [->|Hin]; [right; left; reflexivity|]. left. apply in_or_app. left. exact Hin.
Qed.

Lemma enqueue_evicted_full q x a p :
  In (Evicted a p) (snd (enqueue q x)) -> SEND_QUEUE_MAXLEN <= Z.of_nat (length q) /\ exists tl, q = (a, p) :: tl.
Proof.
  destruct (enqueue_cases q x) as [[_ E]|([ea ep] & tl & -> & Hl & E)]; rewrite E; cbn [snd fst].
  - intros [H|[]]. discriminate.
  - intros [H|[H|[]]]; [|discriminate]. inversion H; subst. split; [exact Hl|]. exists tl. reflexivity.
Qed.

Lemma enqueue_in q x e : In e (fst (enqueue q x)) -> In e q \/ e = x.
Proof.
  destruct (enqueue_cases q x) as [[_ E]|(e0 & tl & -> & _ & E)]; rewrite E; cbn [fst]; intros H;
    apply in_app_or in H as [H|[H|[]]].
  - left. exact H.
  - right. symmetry. exact H.
  - left. right. exact H.
  - right. symmetry. exact H.
Qed.

(* The ways send() can end: the prefix is off (raw); it is on and no community is attached (lost); a matching
   circuit is first in dict order and READY (this packet, then the waiting ones, over it); one is first and not
   READY (wait); there is none (a circuit is asked for - the environment may or may not start one - and wait). *)
Lemma send_elim (P : st * list out -> Prop) s a p nh :
  (anon_on s p = false -> P (s, [Raw a p])) ->
  (anon_on s p = true -> attached s = false -> P (s, [Dropped a p])) ->
  (forall c, anon_on s p = true -> attached s = true -> In c (circuits s) -> matches (hops_cfg s) c = true ->
     is_ready c = true -> P (set_queue s [], tunnel_out c (a, p) :: map (tunnel_out c) (queue s))) ->
  (anon_on s p = true -> attached s = true ->
     P (set_queue s (fst (enqueue (queue s) (a, p))), snd (enqueue (queue s) (a, p)))) ->
  (forall s1, anon_on s p = true -> attached s = true ->
     s1 = s \/ (exists h, s1 = add_circuit s (hops_cfg s) CTYPE_DATA h) ->
     P (set_queue s1 (fst (enqueue (queue s) (a, p))),
        CreateCircuit (hops_cfg s) [PEER_FLAG_EXIT_IPV8] :: snd (enqueue (queue s) (a, p)))) ->
  P (send s a p nh).
Proof.
  intros Hplain Hlost Hcar Hwait Hnew. unfold send.
  destruct (anon_on s p); cbn [negb]; [|apply Hplain; reflexivity].
  destruct (attached s); cbn [negb]; [|apply Hlost; reflexivity].
  destruct (filter (matches (hops_cfg s)) (circuits s)) as [|c tl] eqn:Ef.
  - destruct nh as [h|]; cbn [add_circuit queue]; destruct (enqueue (queue s) (a, p)).
    + apply (Hnew _ eq_refl eq_refl). right. exists h. reflexivity.
    + apply (Hnew _ eq_refl eq_refl). left. reflexivity.
  - assert (Hc : In c (circuits s) /\ matches (hops_cfg s) c = true)
      by (apply filter_In; rewrite Ef; left; reflexivity).
    destruct (is_ready c) eqn:Er.
    + apply Hcar; [reflexivity|reflexivity|apply Hc|apply Hc|exact Er].
    + specialize (Hwait eq_refl eq_refl). destruct (enqueue (queue s) (a, p)). exact Hwait.
Qed.

Lemma send_plain s a p nh : anon_on s p = false -> send s a p nh = (s, [Raw a p]).
Proof. intros H. unfold send. rewrite H. reflexivity. Qed.

Lemma send_anon_fate s a p nh : anon_on s p = true ->
  fate s a p (snd (send s a p nh)) (fst (send s a p nh)).
Proof.
  intros Hon. pose proof (enqueue_outs (queue s) (a, p)) as [Ho Hq].
  apply send_elim; [congruence|intros _ Eat|intros c _ Eat Hin Hm Hr|intros _ Eat|intros s1 _ Eat _]; cbn [fst snd].
  - apply Lost; [exact Eat|reflexivity|reflexivity].
  - apply Carried with (c := c); [exact Hin| |exact Eat|reflexivity|reflexivity].
    apply matches_ready_usable; assumption.
  - apply Held; [exact Eat|exact Ho|exact Hq|apply enqueue_tail].
  - apply Held; [exact Eat| |right; exact Hq|apply enqueue_tail].
    constructor; [split; reflexivity|exact Ho].
Qed.

Lemma fate_no_raw s a p outs s' : fate s a p outs s' -> forall b q, ~ In (Raw b q) outs.
Proof.
  intros [c Hin Hu Hat Ho Hq | Hat Hf Hq Hs | Hat Ho Hs] b q Hr.
  - rewrite Ho in Hr. destruct Hr as [Hr|Hr]; [discriminate|].
    apply in_map_iff in Hr as [x [Hx _]]. discriminate.
  - rewrite Forall_forall in Hf. destruct (Hf _ Hr) as [H1 _]. discriminate.
  - rewrite Ho in Hr. destruct Hr as [Hr|[]]. discriminate.
Qed.

Definition is_send (o : op) : bool := match o with Send _ _ _ => true | _ => false end.

Lemma step_elim (P : op -> st * list out -> Prop) s o :
  (forall a p nh, P (Send a p nh) (send s a p nh)) ->
  (forall o s', is_send o = false -> queue s' = queue s -> P o (s', [])) ->
  P o (step s o).
Proof.
  intros Hsend Hsilent. destruct o; cbn [step]; try apply Hsend; try (apply Hsilent; reflexivity).
  destruct anonymize; apply Hsilent; reflexivity.
Qed.

Lemma anon_send_no_raw s a p nh : anon_on s p = true -> forall b q, ~ In (Raw b q) (snd (step s (Send a p nh))).
Proof. intros Hon. exact (fate_no_raw _ _ _ _ _ (send_anon_fate s a p nh Hon)). Qed.

Lemma step_raw s o a p : In (Raw a p) (snd (step s o)) ->
  anon_on s p = false /\ exists nh, o = Send a p nh.
Proof.
  pattern o, (step s o); apply step_elim.
  - intros a0 p0 nh H. destruct (anon_on s p0) eqn:E.
    + destruct (anon_send_no_raw s a0 p0 nh E a p H).
    + rewrite send_plain in H by exact E. destruct H as [H|[]]. inversion H; subst. eauto.
  - intros o' s' _ _ [].
Qed.

Lemma raw_is_plain_send s o a p : In (Raw a p) (snd (step s o)) ->
  (exists nh, o = Send a p nh) /\ anon_on s p = false /\ fst (step s o) = s.
Proof.
  intros Hr. destruct (step_raw s o _ _ Hr) as [Hoff [nh ->]].
  split; [exists nh; reflexivity|]. split; [exact Hoff|]. cbn [step]. rewrite send_plain by exact Hoff. reflexivity.
Qed.

Lemma step_tunnel_ok s o : Forall (tunnel_ok s) (snd (step s o)).
Proof.
  assert (Hq : forall o', is_tunnel o' = false -> tunnel_ok s o') by (intros []; try discriminate; intros; exact I).
  pattern o, (step s o); apply step_elim; [|intros; constructor]. intros a p nh.
  pose proof (enqueue_outs (queue s) (a, p)) as [Ho _].
  assert (Ho' : Forall (tunnel_ok s) (snd (enqueue (queue s) (a, p)))).
  { eapply Forall_impl; [|exact Ho]. intros x [_ Hx]. apply Hq. exact Hx. }
  apply send_elim; [intros _|intros _ _|intros c _ Eat Hin Hm Hr|intros _ _|intros s1 _ _ _]; cbn [snd].
  - repeat constructor.
  - repeat constructor.
  - destruct (matches_ready_usable _ _ Hm Hr) as [Hu He].
    apply (Forall_map (tunnel_out c) (tunnel_ok s) ((a, p) :: queue s)), Forall_forall. intros x _.
    split; [exact Eat|]. split; [reflexivity|]. exists c. split; [exact Hin|]. split; [reflexivity|]. split; [exact Hu|exact He].
  - exact Ho'.
  - constructor; [exact I|exact Ho'].
Qed.

Lemma step_queue_len s o : Z.of_nat (length (queue s)) <= SEND_QUEUE_MAXLEN ->
  Z.of_nat (length (queue (fst (step s o)))) <= SEND_QUEUE_MAXLEN.
Proof.
  intros H. pattern o, (step s o); apply step_elim.
  - intros a p nh. apply send_elim; intros; cbn [fst queue set_queue].
    + exact H.
    + exact H.
    + apply Z.lt_le_incl, send_queue_maxlen_pos.
    + apply enqueue_len, H.
    + apply enqueue_len, H.
  - intros o' s' _ Hq. cbn [fst]. rewrite Hq. exact H.
Qed.

(* whatever is in the queue after a step was there before, or is the packet of this very send, submitted
   while its prefix was switched on *)
Lemma step_queue_origin s o e : In e (queue (fst (step s o))) ->
  In e (queue s) \/ (exists nh, o = Send (fst e) (snd e) nh /\ anon_on s (snd e) = true).
Proof.
  pattern o, (step s o); apply step_elim.
  - intros a p nh.
    assert (Hk : anon_on s p = true -> In e (fst (enqueue (queue s) (a, p))) ->
                 In e (queue s) \/ (exists nh0, Send a p nh = Send (fst e) (snd e) nh0 /\ anon_on s (snd e) = true)).
    { intros Hon H. apply enqueue_in in H as [H| ->]; [left; exact H|right]. exists nh. split; [reflexivity|exact Hon]. }
    apply send_elim; [intros _ H|intros _ _ H|intros c _ _ _ _ _ H|intros Hon _ H|intros s1 Hon _ _ H];
      cbn [fst queue set_queue] in H.
    + left. exact H.
    + left. exact H.
    + destruct H.
    + apply Hk; assumption.
    + apply Hk; assumption.
  - intros o' s' _ Hq. cbn [fst]. rewrite Hq. intros H. left. exact H.
Qed.

Lemma send_settings s a p nh : settings (fst (send s a p nh)) = settings s.
Proof.
  apply send_elim; [reflexivity|reflexivity|reflexivity|reflexivity|]. intros s1 _ _ [->|[h ->]]; reflexivity.
Qed.

(* the switch of a prefix stays on under every operation that does not switch it off *)
Lemma step_keeps_switch s o pfx : switch s pfx = true -> keeps_on pfx o ->
  switch (fst (step s o)) pfx = true.
Proof.
  unfold switch. intros Hon Hk.
  assert (Hset : forall q b, (b = false -> q <> pfx) ->
    match dict_get (dict_set (settings s) q b) pfx with Some x => x | None => false end = true).
  { intros q b Hb. rewrite dict_get_set. destruct (bytes_eqb q pfx) eqn:E; [|exact Hon].
    apply bytes_eqb_eq in E. destruct b; [reflexivity|]. destruct (Hb eq_refl E). }
  destruct o as [a0 p0 nh|q b|q|h| |q an|q|g ct uh|k h|k|k]; cbn [step fst keeps_on settings set_settings set_attach] in *; try exact Hon.
  - rewrite send_settings. exact Hon.
  - apply Hset. intros ->. exact Hk.
  - apply Hset. intros _. exact Hk.
  - destruct an; [|exact Hon]. apply Hset. discriminate.
  - apply Hset. intros _. exact Hk.
Qed.

Lemma launch_switches_on s pfx : switch (fst (step s (Launch pfx true))) pfx = true.
Proof. unfold switch. cbn [step fst settings set_settings]. rewrite dict_get_set, bytes_eqb_refl. reflexivity. Qed.

Lemma trace_forall (P : event -> Prop) :
  (forall s o, P (mkEv s o (snd (step s o)))) -> forall ops s, Forall P (trace s ops).
Proof.
  intros H ops. induction ops as [|o tl IH]; intros s; cbn [trace]; [constructor|].
  pose proof (H s o) as Hso. destruct (step s o) as [s1 outs]. constructor; [exact Hso|apply IH].
Qed.

Definition ev_post (e : event) : st := fst (step (ev_pre e) (ev_op e)).

Lemma invariant_along (I : st -> Prop) : (forall s o, I s -> I (fst (step s o))) ->
  forall ops s, I s -> I (final s ops) /\ Forall (fun e => I (ev_pre e)) (trace s ops).
Proof.
  intros Hstep ops. induction ops as [|o tl IH]; intros s H; cbn [final trace]; [split; [exact H|constructor]|].
  destruct (IH _ (Hstep s o H)) as [Hf Ht]. destruct (step s o) as [s1 outs].
  split; [exact Hf|constructor; [exact H|exact Ht]].
Qed.

Lemma queue_bounded_always ops :
  Z.of_nat (length (queue (final init ops))) <= SEND_QUEUE_MAXLEN
  /\ Forall (fun e => Z.of_nat (length (queue (ev_pre e))) <= SEND_QUEUE_MAXLEN) (trace init ops).
Proof.
  apply (invariant_along (fun s => Z.of_nat (length (queue s)) <= SEND_QUEUE_MAXLEN) step_queue_len).
  apply Z.lt_le_incl, send_queue_maxlen_pos.
Qed.

Lemma switched_on_never_raw s0 pfx ops : switch s0 pfx = true -> Forall (keeps_on pfx) ops ->
  Forall (fun e => forall a p, In (Raw a p) (ev_outs e) -> pfx_of p <> pfx) (trace s0 ops).
Proof.
  revert s0. induction ops as [|o tl IH]; intros s0 Hon Hk; cbn [trace]; [constructor|].
  inversion Hk as [|? ? Hko Hktl]; subst.
  pose proof (step_keeps_switch s0 o pfx Hon Hko) as Hon1.
  pose proof (fun a p => step_raw s0 o a p) as Hraw.
  destruct (step s0 o) as [s1 outs]. cbn [fst snd] in *.
  constructor; [|apply IH; assumption].
  cbn [ev_outs]. intros a p Hin E. destruct (Hraw a p Hin) as [Hoff _].
  unfold anon_on in Hoff. rewrite E, Hon in Hoff. discriminate.
Qed.

(* the key of the switch is the 22-byte overlay prefix (b"\x00" + version + 20-byte community id) *)
Lemma overlay_prefix_is_key pfx body : length pfx = 22%nat -> pfx_of (pfx ++ body) = pfx.
Proof.
  intros H. unfold pfx_of. change (Z.to_nat PREFIX_LEN) with 22%nat. rewrite <- H.
  rewrite firstn_app, Nat.sub_diag, firstn_all. cbn [firstn]. apply app_nil_r.
Qed.

Definition ids_ok (s : st) : Prop :=
  NoDup (map c_id (circuits s)) /\ Forall (fun c => c_id c < next_id s) (circuits s).

Lemma map_upd_nth_id (f : circ -> circ) : (forall c, c_id (f c) = c_id c) ->
  forall k l, map c_id (upd_nth k f l) = map c_id l.
Proof.
  intros Hf k. induction k as [|k IH]; intros [|x l]; cbn [upd_nth map]; try reflexivity.
  - rewrite Hf. reflexivity.
  - rewrite IH. reflexivity.
Qed.

Lemma upd_nth_forall (P : circ -> Prop) (f : circ -> circ) : (forall c, P c -> P (f c)) ->
  forall k l, Forall P l -> Forall P (upd_nth k f l).
Proof.
  intros Hf k. induction k as [|k IH]; intros [|x l] H; cbn [upd_nth]; try constructor;
    inversion H; subst; auto.
Qed.

Lemma upd_nth_ids s k (f : circ -> circ) : (forall c, c_id (f c) = c_id c) ->
  ids_ok s -> ids_ok (set_circuits s (upd_nth k f (circuits s))).
Proof.
  intros Hf [Hn Hl]. split; cbn [circuits set_circuits next_id].
  - rewrite map_upd_nth_id by exact Hf. exact Hn.
  - apply upd_nth_forall; [|exact Hl]. intros c. rewrite Hf. trivial.
Qed.

Lemma del_nth_incl {A} k : forall (l : list A) x, In x (del_nth k l) -> In x l.
Proof.
  induction k as [|k IH]; intros [|y l] x H; cbn [del_nth] in H; try contradiction.
  - right. exact H.
  - destruct H as [H|H]; [left; exact H|right; apply IH; exact H].
Qed.

Lemma del_nth_nodup k : forall l : list circ, NoDup (map c_id l) -> NoDup (map c_id (del_nth k l)).
Proof.
  induction k as [|k IH]; intros [|y l] H; cbn [del_nth map] in *; try constructor.
  - inversion H; assumption.
  - inversion H as [|? ? Hn Hd]; subst. intros Hin. apply Hn.
    apply in_map_iff in Hin as [c [Hc Hin]]. apply in_map_iff. exists c. split; [exact Hc|].
    eapply del_nth_incl. exact Hin.
  - inversion H; subst. apply IH. assumption.
Qed.

Lemma add_circuit_ids s g ct uh : ids_ok s -> ids_ok (add_circuit s g ct uh).
Proof.
  intros [Hn Hf]. unfold ids_ok, add_circuit. cbn [circuits next_id]. rewrite Forall_forall in Hf. split.
  - rewrite map_app. cbn [map c_id]. apply NoDup_snoc; [exact Hn|].
    intros Hin. apply in_map_iff in Hin as [c [Hc Hin]]. specialize (Hf c Hin). cbn beta in Hf. lia.
  - apply Forall_app. split.
    + apply Forall_forall. intros c Hc. specialize (Hf c Hc). cbn beta in Hf. lia.
    + constructor; [cbn [c_id]; lia|constructor].
Qed.

Lemma step_ids s o : ids_ok s -> ids_ok (fst (step s o)).
Proof.
  intros H. destruct o as [a0 p0 nh|q b|q|h| |q an|q|g ct uh|k h|k|k]; cbn [step fst];
    try exact H.
  - apply send_elim; [intros _|intros _ _|intros c _ _ _ _ _|intros _ _|intros s1 _ _ [->|[h ->]]]; try exact H.
    apply (add_circuit_ids _ _ _ _ H).
  - destruct an; exact H.
  - apply add_circuit_ids. exact H.
  - apply upd_nth_ids; [|exact H]. intros c. destruct (_ <? _); reflexivity.
  - apply upd_nth_ids; [|exact H]. reflexivity.
  - destruct H as [Hn Hf]. unfold ids_ok. cbn [circuits set_circuits next_id]. split.
    + apply del_nth_nodup. exact Hn.
    + rewrite Forall_forall in *. intros c Hc. apply Hf. eapply del_nth_incl. exact Hc.
Qed.

(* sample values for the non-vacuity examples *)
Definition pA : bytes := 0 :: 2 :: repeat 65 20.
Definition pP : bytes := 0 :: 2 :: repeat 80 20.
Definition exitH : hop := mkHop 50 [4].
Definition relayH : hop := mkHop 60 [1].
