(* C08: honest exchanges.  After a create exchange, and after an extend exchange through the last node of a
   path of any length, the originator's new hop names the selected peer, both ends hold the same session
   keys, and the earlier hops are where they were; by induction, for paths of every length. *)
From Coq Require Import ZArith List.
From IPV8V Require Import model.M08_handshake proofs.P08_base proofs.P08_origin proofs.P08_relay.
Import ListNotations.
Open Scope Z_scope.

Section Honest.
Variable C : crypto.
Implicit Types (O R B : @node C) (h u : @hop C).

Hypothesis dh_comm : forall a b, dh C a (pub C b) = dh C b (pub C a).
Hypothesis tag_eqb_refl : forall a, tag_eqb C a a = true.

(* the node's public key bin carries the public half of its private key *)
Definition wf_node B : Prop := cpk C (n_pkbin B) = pub C (n_sk B).

(* the originator waits for an answer: unverified hop u with ephemeral secret x, retry cache with identifier pid *)
Definition pending O (cid : Z) u (x : SK C) (pid : Z) : Prop :=
  exists c r, aget cid (n_circ O) = Some c /\ c_unv c = Some u /\ h_dh u = Some x
              /\ aget cid (n_retry O) = Some r /\ r_pid r = pid.

(* a hop of the originator and a node of the path agree *)
Definition agree h (nd : @node C * Z) : Prop :=
  h_keys h = node_keys (fst nd) (snd nd) /\ h_keys h <> None /\ p_key (h_peer h) = n_pkbin (fst nd).

(* B joins on a create carrying the pending ephemeral key, and the originator handles an answer with B's reply
   fields: the hop appended names B and carries the keys B holds *)
Lemma answer_agree O cid u x pid B srcR tcid num npk oB B' a cid' pid' Y au ce m src o :
  wf_node B -> pending O cid u x pid -> p_key (h_peer u) = n_pkbin B ->
  handle B srcR (MCreate tcid num npk (pub C x)) oB = (B', [Send a (MCreated cid' pid' Y au ce)], None) ->
  answer_of C m = Some (cid, pid, Y, au, ce) -> not_relay_case C O m ->
  exists hs h, hops_of O cid = Some hs /\ hops_of (st (handle O src m o)) cid = Some (hs ++ [h]) /\ agree h (B', tcid).
Proof.
  intros WF (c & r & G & U & X & R & <-) PK HB A NR. cbn [handle] in HB.
  destruct (on_create_cases B srcR tcid num npk (pub C x) oB) as [[e E]|(s1 & s2 & D1 & D2 & E)];
    rewrite E in HB; inversion HB; subst.
  exists (c_hops c), (mkHop (h_peer u) (Some (kdf C s1 s2)) (Some x)).
  split; [unfold hops_of; rewrite G; reflexivity|]. split.
  - rewrite (answer_dispatch C O src m o cid _ _ _ _ A NR), R, Z.eqb_refl.
    apply (ours_accepts C O cid _ _ _ o c _ G). exists c, u, x, s1, s2.
    rewrite dh_comm, D1, PK, WF, dh_comm, D2, tag_eqb_refl. auto 10.
  - unfold agree, node_keys. cbn [fst snd h_keys h_peer n_exit n_pkbin set_exit set_dreq]. rewrite aget_aset_same.
    split; [reflexivity|]. split; [discriminate|]. exact PK.
Qed.

(* create: the originator waits for the first hop B; B handles the create; the originator handles B's created *)
Definition create_exchange O (cid : Z) B O' B' : Prop :=
  exists u x pid srcO srcB oB oO Y au ce,
    pending O cid u x pid /\ aget pid (n_creq O) = None /\ p_key (h_peer u) = n_pkbin B
    /\ handle B srcO (MCreate cid pid (n_pkbin O) (pub C x)) oB = (B', [Send srcO (MCreated cid pid Y au ce)], None)
    /\ O' = st (handle O srcB (MCreated cid pid Y au ce) oO).

(* extend: the originator waits for B behind the last node R of the path (which knows the circuit as rc);
   R handles the extend and sends a create; B answers; R turns the created into an extended; the originator
   handles it (under its own circuit id: cells are re-labelled hop by hop) *)
Definition extend_exchange O (cid : Z) R (rc : Z) B O' R' B' (tc : Z) : Prop :=
  exists u x pid addr srcP srcR srcB first oR oB oR2 oO R1 aB num X' Y au ce aP pid' Y' au' ce',
    pending O cid u x pid /\ p_key (h_peer u) = n_pkbin B
    /\ handle R srcP (MExtend rc pid (n_pkbin B) (pub C x) addr) oR
       = (R1, [Send aB (MCreate tc num (n_pkbin R) X')], None)
    /\ handle B srcR (MCreate tc num (n_pkbin R) X') oB = (B', [Send srcR (MCreated tc num Y au ce)], None)
    /\ handle R1 srcB (MCreated tc num Y au ce) oR2
       = (R', [RmExit rc; Send aP (MExtended rc pid' Y' au' ce')], None)
    /\ O' = st (handle O first (MExtended cid pid' Y' au' ce') oO).

Lemma create_agree_l O cid B O' B' :
  wf_node B -> create_exchange O cid B O' B' ->
  exists hs h, hops_of O cid = Some hs /\ hops_of O' cid = Some (hs ++ [h]) /\ agree h (B', cid).
Proof.
  intros WF (u & x & pid & srcO & srcB & oB & oO & Y & au & ce & PE & NQ & PK & HB & ->).
  exact (answer_agree O cid u x pid B srcO cid pid _ oB B' _ _ _ Y au ce (MCreated cid pid Y au ce) srcB oO
           WF PE PK HB eq_refl NQ).
Qed.

Lemma extend_agree_l O cid R rc B O' R' B' tc :
  wf_node B -> extend_exchange O cid R rc B O' R' B' tc ->
  exists hs h, hops_of O cid = Some hs /\ hops_of O' cid = Some (hs ++ [h]) /\ agree h (B', tc)
    /\ node_keys R' rc = node_keys R rc /\ n_pkbin R' = n_pkbin R.
Proof.
  intros WF (u & x & pid & addr & srcP & srcR & srcB & first & oR & oB & oR2 & oO & R1 & aB & num & X' & Y & au & ce
             & aP & pid' & Y' & au' & ce' & PE & PK & HR & HB & HR2 & ->).
  destruct (on_extend_out_l C R srcP rc pid (n_pkbin B) (pub C x) addr oR
              (Send aB (MCreate tc num (n_pkbin R) X'))) as (pv & cd & EA & ER & _).
  { rewrite HR. left. reflexivity. }
  inversion EA; subst. rewrite HR in ER. inversion ER as [ER1]. clear ER.
  assert (Q : aget (o_num oR) (n_creq R1) = Some (mkCreq pid (o_cid oR) rc pv cd)).
  { rewrite ER1. cbn [n_creq set_creq]. apply aget_aset_same. }
  rewrite (on_created_relay_l C R1 srcB (o_cid oR) (o_num oR) _ _ ce oR2 _ Q) in HR2. cbn [q_from q_to q_ident q_peer q_to_peer] in HR2.
  destruct (aget rc (n_exit R1)) as [eh|] eqn:EX; [|inversion HR2].
  destruct (ahas rc (n_relay R1)); [inversion HR2|].
  inversion HR2; subst pid' Y' au' ce' aP. clear HR2.
  destruct (answer_agree O cid u x pid B srcR _ _ _ oB B' _ _ _ Y au ce (MExtended cid pid Y au ce) first oO
              WF PE PK HB eq_refl I) as (hs & h & H & H' & AG).
  exists hs, h. split; [exact H|]. split; [exact H'|]. split; [exact AG|].
  assert (EX0 : aget rc (n_exit R) = Some eh). { rewrite ER1 in EX. exact EX. }
  split.
  - unfold node_keys. cbn [n_exit set_relay set_creq]. rewrite ER1. cbn [n_exit set_creq]. rewrite EX0. reflexivity.
  - rewrite ER1. reflexivity.
Qed.

Inductive built (cid : Z) : @node C -> list (@node C * Z) -> Prop :=
| built_first O B O' B' :
    hops_of O cid = Some [] -> wf_node B -> create_exchange O cid B O' B' -> built cid O' [(B', cid)]
| built_more O pre R rc B O' R' B' tc :
    built cid O (pre ++ [(R, rc)]) -> wf_node B -> extend_exchange O cid R rc B O' R' B' tc ->
    built cid O' (pre ++ [(R', rc); (B', tc)]).

Lemma honest_agree_l cid O path :
  built cid O path -> exists hs, hops_of O cid = Some hs /\ Forall2 agree hs path.
Proof.
  induction 1 as [O B O' B' H0 WF EX|O pre R rc B O' R' B' tc BU IH WF EX].
  - destruct (create_agree_l O cid B O' B' WF EX) as (hs & h & H & H' & AG).
    rewrite H0 in H. inversion H; subst hs. exists [h]. split; [exact H'|]. constructor; [exact AG|constructor].
  - destruct IH as (hs0 & H0 & F).
    destruct (extend_agree_l O cid R rc B O' R' B' tc WF EX) as (hs & h & H & H' & AG & KR & PR).
    rewrite H0 in H. inversion H; subst hs.
    apply Forall2_app_inv_r in F. destruct F as (h1 & h2 & F1 & F2 & ->).
    inversion F2 as [|hR ndR t1 t2 AR F3]; subst. inversion F3; subst.
    exists (h1 ++ [hR; h]). split.
    { rewrite H'. rewrite <- app_assoc. reflexivity. }
    apply Forall2_app; [exact F1|].
    constructor; [|constructor; [exact AG|constructor]].
    destruct AR as (A1 & A2 & A3). unfold agree. cbn [fst snd] in *. rewrite KR, PR. auto.
Qed.

(* the removal of the relay's former exit socket does not change the keys it relays with *)
Lemma exit_gone_keeps_keys_l R1 srcB tc num Y au ce o q eh :
  aget num (n_creq R1) = Some q -> aget (q_from q) (n_exit R1) = Some eh ->
  ahas (q_from q) (n_relay R1) = false ->
  let R' := st (handle R1 srcB (MCreated tc num Y au ce) o) in
  node_keys (st (step R' (EvExitGone (q_from q)))) (q_from q) = h_keys eh
  /\ node_keys R' (q_from q) = h_keys eh.
Proof.
  intros Q EX NR. cbn zeta. rewrite (on_created_relay_l C R1 srcB tc num Y au ce o q Q), EX, NR.
  unfold node_keys. cbn [st fst step done n_exit n_relay set_relay set_creq set_exit].
  rewrite aget_adel_same, aget_aset_same, EX. cbn. auto.
Qed.

End Honest.
