(* C09 - the number of relay_early cells a relay forwards on one route during its whole life. *)
From Coq Require Import ZArith List Bool Lia.
From IPV8V Require Import model.M09_reclaim.
Import ListNotations.
Open Scope Z_scope.

Section Count.
Variable st : settings.

(* 1 if the event is a relay_early cell arriving on route cid that the node forwards *)
Definition fw_flag (cid : Z) (e : ev) (o : list out) : Z :=
  match e with
  | ERecvCell _ c _ true _ _ _ => if (c =? cid) && negb (match o with [] => true | _ => false end) then 1 else 0
  | _ => 0
  end.

Fixpoint fw_count (cid : Z) (s : node) (tr : list (Z * ev)) : Z :=
  match tr with
  | [] => 0
  | te :: tl => let '(s1, o) := step st s te in fw_flag cid (snd te) o + fw_count cid s1 tl
  end.

(* the route at cid, created at c0, is in the table after every event of the run (all later than c0) *)
Fixpoint route_lives (cid c0 : Z) (s : node) (tr : list (Z * ev)) : Prop :=
  match tr with
  | [] => True
  | te :: tl =>
      c0 < fst te
      /\ (exists r, aget cid (relays (fst (step st s te))) = Some r /\ creation (r_ro r) = c0)
      /\ route_lives cid c0 (fst (step st s te)) tl
  end.

Lemma fw_count_nonneg cid tr : forall s, 0 <= fw_count cid s tr.
Proof.
  induction tr as [|te tl IH]; intros s; simpl; [lia|].
  destruct (step st s te) as [s1 o]. specialize (IH s1).
  assert (0 <= fw_flag cid (snd te) o).
  { unfold fw_flag. destruct (snd te); try lia. destruct early; try lia.
    destruct ((cid0 =? cid) && negb match o with [] => true | _ => false end); lia. }
  lia.
Qed.

Lemma fw_flag_cases cid e o :
  fw_flag cid e o = 0
  \/ (fw_flag cid e o = 1 /\ exists src plain len cr ls, e = ERecvCell src cid plain true len cr ls /\ o <> []).
Proof.
  unfold fw_flag. destruct e as [src c plain early len cr ls| | | | | | | | | | | |]; auto.
  destruct early; auto. destruct (c =? cid) eqn:Ec; [|left; reflexivity].
  apply Z.eqb_eq in Ec; subst c. destruct o as [|o1 ol]; [left; reflexivity|].
  right. split; [reflexivity|]. exists src, plain, len, cr, ls. split; [reflexivity | discriminate].
Qed.

End Count.
