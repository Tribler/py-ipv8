(* C08, originator side: a hop is appended only by an answer that matches the outstanding retry cache and
   verifies; every other answer changes nothing (or schedules the removal of the circuit); established
   hops are never modified by any event; every hop is keyed with the peer selected for it. *)
From Coq Require Import ZArith List Lia.
From IPV8V Require Import model.M08_handshake proofs.P08_base.
Import ListNotations.
Open Scope Z_scope.

Section Origin.
Variable C : crypto.
Implicit Types (n : @node C) (c : @circuit C) (m : @msg C) (h : @hop C).

(* the answer fields of created / extended *)
Definition answer_of m : option (Z * Z * PK C * TAG C * CENC C) :=
  match m with
  | MCreated cid i y a e | MExtended cid i y a e => Some (cid, i, y, a, e)
  | _ => None
  end.

(* the relay branch of on_created is not taken (extended has no such branch) *)
Definition not_relay_case n m : Prop :=
  match m with MCreated _ i _ _ _ => aget i (n_creq n) = None | _ => True end.

(* the hop that an answer (Y, au) yields for circuit cid in state n *)
Definition accepts n (cid : Z) (Y : PK C) (au : TAG C) h : Prop :=
  exists c u x s1 s2,
    aget cid (n_circ n) = Some c /\ c_unv c = Some u /\ h_dh u = Some x
    /\ dh C x Y = Some s1 /\ dh C x (cpk C (p_key (h_peer u))) = Some s2
    /\ tag_eqb C au (mac C s1 Y) = true
    /\ h = mkHop (h_peer u) (Some (kdf C s1 s2)) (Some x).

Definition only_circ n n' (cid : Z) : Prop := forall k, k <> cid -> aget k (n_circ n') = aget k (n_circ n).

Lemma sic_only n cid cands tries o : only_circ n (st (send_initial_create n cid cands tries o)) cid.
Proof. intros k K. exact (touches_other cid _ _ k (sic_touches n cid cands tries o) K). Qed.

Lemma accepts_fun n cid Y au h h' : accepts n cid Y au h -> accepts n cid Y au h' -> h = h'.
Proof.
  intros (c & u & x & s1 & s2 & G & U & X & D1 & D2 & _ & ->) (c' & u' & x' & t1 & t2 & G' & U' & X' & E1 & E2 & _ & ->).
  congruence.
Qed.

(* What can follow the acceptance of a hop.  n1 is the state with the hop appended, c1 the circuit's new record:
   nothing more (the circuit is closing, or - KeyError - its retry cache is gone); the retry cache popped; popped and
   the removal scheduled (unreadable candidate list); popped and the next extend sent. *)
Inductive after_accept n1 (c1 : @circuit C) (cid : Z) (o : oracle) : out C -> Prop :=
| after_accept_stay e : cstate c1 = Closing \/ aget cid (n_retry n1) = None -> after_accept n1 c1 cid o (n1, [], e)
| after_accept_pop : cstate c1 <> Closing -> after_accept n1 c1 cid o (done (set_retry n1 (adel cid (n_retry n1))) [])
| after_accept_rm : cstate c1 <> Closing ->
    after_accept n1 c1 cid o (done (schedule_rm (set_retry n1 (adel cid (n_retry n1))) cid) [])
| after_accept_ext cs tries : cstate c1 <> Closing ->
    after_accept n1 c1 cid o (send_extend (set_retry n1 (adel cid (n_retry n1))) cid cs tries o).

Lemma ours_spec n cid Y au ce o :
  ((exists e, ours n cid Y au ce o = (n, [], e)) /\ forall h, ~ accepts n cid Y au h)
  \/ exists c h,
       aget cid (n_circ n) = Some c /\ accepts n cid Y au h
       /\ after_accept (set_circ n (aset cid (with_hops_unv c (c_hops c ++ [h]) None) (n_circ n)))
               (with_hops_unv c (c_hops c ++ [h]) None) cid o (ours n cid Y au ce o).
Proof.
  (* nothing changes and no hop is accepted when the six tests cannot all pass *)
  assert (NO : forall r : out C, (exists e, r = (n, [], e)) ->
               (forall c u x s1 s2, aget cid (n_circ n) = Some c -> c_unv c = Some u -> h_dh u = Some x ->
                  dh C x Y = Some s1 -> dh C x (cpk C (p_key (h_peer u))) = Some s2 ->
                  tag_eqb C au (mac C s1 Y) = true -> False) ->
               (exists e, r = (n, [], e)) /\ forall h, ~ accepts n cid Y au h).
  { intros r E F. split; [exact E|].
    intros h (c & u & x & s1 & s2 & G & U & X & D1 & D2 & T & _). exact (F c u x s1 s2 G U X D1 D2 T). }
  unfold ours.
  destruct (aget cid (n_circ n)) as [c|] eqn:G; [|left; apply NO; [eexists; reflexivity|congruence]].
  destruct (c_unv c) as [u|] eqn:U; [|left; apply NO; [eexists; reflexivity|congruence]].
  destruct (h_dh u) as [x|] eqn:X; [|left; apply NO; [eexists; reflexivity|congruence]].
  destruct (dh C x Y) as [s1|] eqn:D1; [|left; apply NO; [eexists; reflexivity|congruence]].
  destruct (dh C x (cpk C (p_key (h_peer u)))) as [s2|] eqn:D2; [|left; apply NO; [eexists; reflexivity|congruence]].
  destruct (tag_eqb C au (mac C s1 Y)) eqn:T; cbn [negb]; [|left; apply NO; [eexists; reflexivity|congruence]].
  right. exists c, (mkHop (h_peer u) (Some (kdf C s1 s2)) (Some x)).
  split; [reflexivity|]. split; [exists c, u, x, s1, s2; repeat split; assumption|].
  match goal with |- context [cstate ?c1] => destruct (cstate c1) eqn:CS end.
  - apply after_accept_stay. left. exact CS.
  - match goal with |- context [aget cid (n_retry ?n1)] => destruct (aget cid (n_retry n1)) eqn:R end;
      [|apply after_accept_stay; right; exact R].
    match goal with |- context [cdec C ?k ?e] => destruct (cdec C k e) as [l|e0] end;
      [destruct (split_cands l) as [rel ex]; apply after_accept_ext|apply after_accept_rm]; congruence.
  - match goal with |- context [aget cid (n_retry ?n1)] => destruct (aget cid (n_retry n1)) eqn:R end;
      [apply after_accept_pop; congruence|apply after_accept_stay; right; exact R].
Qed.

Lemma after_accept_touches n1 c1 cid o r : after_accept n1 c1 cid o r -> touches_unv cid n1 (st r).
Proof.
  intros [e _| _ | _ |cs tries _]; [split; [|left]; reflexivity ..|].
  exact (sext_touches (set_retry n1 (adel cid (n_retry n1))) cid cs tries o).
Qed.

(* an acceptable answer appends its hop *)
Lemma ours_accepts n cid Y au ce o c h :
  aget cid (n_circ n) = Some c -> accepts n cid Y au h ->
  hops_of (st (ours n cid Y au ce o)) cid = Some (c_hops c ++ [h]).
Proof.
  intros G A0. destruct (ours_spec n cid Y au ce o) as [[_ N]|(c' & h' & G' & AC & T)]; [destruct (N _ A0)|].
  rewrite G in G'. injection G' as <-.
  rewrite (accepts_fun n cid Y au _ _ A0 AC), (touches_same cid _ _ (after_accept_touches _ _ _ _ _ T)).
  unfold hops_of. cbn [n_circ set_circ]. rewrite aget_aset_same. reflexivity.
Qed.

Lemma ours_only n cid Y au ce o : only_circ n (st (ours n cid Y au ce o)) cid.
Proof.
  intros k K. destruct (ours_spec n cid Y au ce o) as [[[e E] _]|(c & h & G & AC & T)]; [rewrite E; reflexivity|].
  rewrite (touches_other cid _ _ k (after_accept_touches _ _ _ _ _ T) K). apply aget_aset_other. exact K.
Qed.

Lemma answer_dispatch n src m o cid i Y au ce :
  answer_of m = Some (cid, i, Y, au, ce) ->
  not_relay_case n m ->
  handle n src m o =
    match aget cid (n_retry n) with
    | Some r => if r_pid r =? i then ours n cid Y au ce o else done n []
    | None => done n []
    end.
Proof.
  destruct m; cbn; intros E NR; inversion E; subst; auto.
  unfold on_created. rewrite NR. auto.
Qed.

(* a created / extended is handled by the relay branch of on_created (which leaves circuits and retry caches alone),
   or ignored, or handed to [ours] under a retry cache with its identifier *)
Lemma answer_cases n src m o cid i Y au ce :
  answer_of m = Some (cid, i, Y, au, ce) ->
  (exists q, m = MCreated cid i Y au ce /\ aget i (n_creq n) = Some q
     /\ n_circ (st (handle n src m o)) = n_circ n /\ n_retry (st (handle n src m o)) = n_retry n)
  \/ (not_relay_case n m
      /\ (handle n src m o = done n []
          \/ exists r, aget cid (n_retry n) = Some r /\ r_pid r = i /\ handle n src m o = ours n cid Y au ce o)).
Proof.
  intros A.
  assert (B : not_relay_case n m ->
              handle n src m o = done n []
              \/ exists r, aget cid (n_retry n) = Some r /\ r_pid r = i /\ handle n src m o = ours n cid Y au ce o).
  { intros NR. rewrite (answer_dispatch n src m o cid i Y au ce A NR).
    destruct (aget cid (n_retry n)) as [r|]; [|left; reflexivity].
    destruct (r_pid r =? i) eqn:P; [|left; reflexivity]. right. exists r. apply Z.eqb_eq in P. auto. }
  destruct m; cbn in A; inversion A; subst; [|right; split; [exact I|exact (B I)]].
  destruct (aget i (n_creq n)) as [q|] eqn:Q; [left|right; split; [exact Q|exact (B Q)]].
  exists q. split; [reflexivity|]. split; [reflexivity|]. cbn [handle]. unfold on_created. rewrite Q.
  destruct (aget (q_from q) (n_exit (set_creq n (adel i (n_creq n))))); [|split; reflexivity].
  match goal with |- context [if ?b then _ else _] => destruct b end; split; reflexivity.
Qed.

Definition hop_step n m (k : Z) n' : Prop :=
  hops_of n' k = hops_of n k \/
  exists hs i Y au ce r h,
    hops_of n k = Some hs /\ answer_of m = Some (k, i, Y, au, ce) /\ not_relay_case n m
    /\ aget k (n_retry n) = Some r /\ r_pid r = i
    /\ accepts n k Y au h /\ hops_of n' k = Some (hs ++ [h]).

Lemma ours_hop_step n m k k0 i Y au ce r o :
  aget k0 (n_retry n) = Some r -> r_pid r = i -> not_relay_case n m ->
  answer_of m = Some (k0, i, Y, au, ce) ->
  hop_step n m k (st (ours n k0 Y au ce o)).
Proof.
  intros R P NR A. unfold hop_step.
  destruct (Z.eq_dec k0 k) as [->|N].
  - destruct (ours_spec n k Y au ce o) as [[[e E] _]|(c & h & G & AC & _)]; [left; rewrite E; reflexivity|].
    right. exists (c_hops c), i, Y, au, ce, r, h.
    repeat split; try assumption; [unfold hops_of; rewrite G; reflexivity|].
    exact (ours_accepts n k Y au ce o c h G AC).
  - left. unfold hops_of. rewrite ours_only by auto. reflexivity.
Qed.

Lemma handle_hops n src m o k : hop_step n m k (st (handle n src m o)).
Proof.
  destruct m as [k0 i npk X|k0 i Y au ce|k0 i npk X ad|k0 i Y au ce].
  - left. cbn [handle].
    destruct (on_create_cases n src k0 i npk X o) as [[e ->]|(s1 & s2 & _ & _ & ->)]; reflexivity.
  - destruct (answer_cases n src (MCreated k0 i Y au ce) o k0 i Y au ce eq_refl) as [(q & _ & _ & E & _)|[NR [E|(r & R & P & E)]]].
    + left. unfold hops_of. rewrite E. reflexivity.
    + left. rewrite E. reflexivity.
    + rewrite E. eapply ours_hop_step; eauto.
  - left. cbn [handle].
    destruct (on_extend_cases n src k0 i npk X ad o) as [[e ->]|(pv & cd & _ & ->)]; reflexivity.
  - destruct (answer_cases n src (MExtended k0 i Y au ce) o k0 i Y au ce eq_refl) as [(q & _ & _ & E & _)|[NR [E|(r & R & P & E)]]].
    + left. unfold hops_of. rewrite E. reflexivity.
    + left. rewrite E. reflexivity.
    + rewrite E. eapply ours_hop_step; eauto.
Qed.

Lemma accept_implies_l n src m o cid hs hs' :
  hops_of n cid = Some hs ->
  hops_of (st (handle n src m o)) cid = Some hs' ->
  hs' <> hs ->
  exists i Y au ce r h,
    answer_of m = Some (cid, i, Y, au, ce) /\ not_relay_case n m
    /\ aget cid (n_retry n) = Some r /\ r_pid r = i
    /\ accepts n cid Y au h /\ hs' = hs ++ [h].
Proof.
  intros H H' NE. destruct (handle_hops n src m o cid) as [E|(hs0 & i & Y & au & ce & r & h & A1 & A2 & A3 & A4 & A5 & A6 & A7)].
  - exfalso. congruence.
  - exists i, Y, au, ce, r, h. rewrite H in A1. inversion A1; subst hs0. rewrite H' in A7. inversion A7; subst.
    auto 10.
Qed.

Definition grows n n' : Prop :=
  forall k hs, hops_of n k = Some hs -> exists hs', hops_of n' k = Some hs' /\ prefix hs hs'.

Lemma grows_refl n : grows n n.
Proof. intros k hs H. exists hs. split; auto. apply prefix_refl. Qed.

Lemma same_grows n n' : same_hops n n' -> grows n n'.
Proof. intros S k hs H. exists hs. rewrite S. split; auto. apply prefix_refl. Qed.

Definition purges (e : @event C) (k : Z) : Prop := match e with EvPurge k' => k' = k | _ => False end.

(* every way in which one event can change the hop list of circuit k *)
Definition step_cases n (e : @event C) (k : Z) n' : Prop :=
  hops_of n' k = hops_of n k
  \/ (exists src m o, e = EvMsg src m o /\ hop_step n m k n' /\ hops_of n' k <> hops_of n k)
  \/ (hops_of n k = None /\ hops_of n' k = Some [])
  \/ (purges e k /\ hops_of n' k = None).

Lemma run_remove_same n cid : same_hops n (run_remove n cid).
Proof.
  unfold run_remove.
  match goal with |- context [aget cid (n_circ ?n1)] => destruct (aget cid (n_circ n1)) as [c|] eqn:G end;
    [|intro; reflexivity].
  intro k. unfold hops_of. cbn [n_circ set_circ]. rewrite aget_aset.
  destruct (k =? cid) eqn:K; auto. apply Z.eqb_eq in K. subst. cbn in G. rewrite G. reflexivity.
Qed.

Lemma step_hops n e k : step_cases n e k (st (step n e)).
Proof.
  destruct e as [cid goal re firsts tries o|src m o|cid o|cid|cid|cid]; cbn [step].
  - destruct (ahas cid (n_circ n)) eqn:HAS; [left; reflexivity|].
    apply ahas_false in HAS.
    match goal with |- context [send_initial_create ?n0 cid firsts tries o] =>
      pose proof (touches_same cid _ _ (sic_touches n0 cid firsts tries o)) as S end.
    destruct (Z.eq_dec k cid) as [->|N].
    + right. right. left. split; [unfold hops_of; rewrite HAS; reflexivity|].
      rewrite S. unfold hops_of. cbn [n_circ set_circ]. rewrite aget_aset_same. reflexivity.
    + left. rewrite S. unfold hops_of. cbn [n_circ set_circ]. rewrite aget_aset_other by auto. reflexivity.
  - pose proof (handle_hops n src m o k) as HS.
    destruct HS as [E|HS]; [left; exact E|].
    right. left. exists src, m, o. split; [reflexivity|]. split; [right; exact HS|].
    destruct HS as (hs & i & Y & au & ce & r & h & A1 & _ & _ & _ & _ & _ & A7).
    rewrite A1, A7. intro K. inversion K as [K']. apply (f_equal (@length _)) in K'.
    rewrite app_length in K'. cbn in K'. lia.
  - left. exact (touches_same cid _ _ (retry_timeout_touches n cid o) k).
  - left. cbn. apply run_remove_same.
  - destruct (Z.eq_dec k cid) as [->|N].
    + right. right. right. split; [reflexivity|]. unfold hops_of. cbn. rewrite aget_adel_same. reflexivity.
    + left. unfold hops_of. cbn. rewrite aget_adel_other by auto. reflexivity.
  - left. reflexivity.
Qed.

Lemma step_grows n e k hs :
  ~ purges e k -> hops_of n k = Some hs ->
  exists hs', hops_of (st (step n e)) k = Some hs' /\ prefix hs hs'.
Proof.
  intros NP H. destruct (step_hops n e k) as [E|[(src & m & o & _ & [E|HS] & _)|[[E _]|[P _]]]].
  - exists hs. rewrite E. split; auto. apply prefix_refl.
  - exists hs. rewrite E. split; auto. apply prefix_refl.
  - destruct HS as (hs0 & i & Y & au & ce & r & h & A1 & _ & _ & _ & _ & _ & A7).
    rewrite H in A1. inversion A1; subst hs0. exists (hs ++ [h]). split; auto. apply prefix_app.
  - congruence.
  - contradiction.
Qed.

Lemma handle_grows n src m o : grows n (st (handle n src m o)).
Proof. intros k hs. exact (step_grows n (EvMsg src m o) k hs (fun P => P)). Qed.

Lemma run_grows_l evs : forall n k hs,
  (forall e, In e evs -> ~ purges e k) -> hops_of n k = Some hs ->
  exists hs', hops_of (run n evs) k = Some hs' /\ prefix hs hs'.
Proof.
  induction evs as [|e tl IH]; intros n k hs NP H; cbn [run].
  - exists hs. split; auto. apply prefix_refl.
  - destruct (step_grows n e k hs) as (h1 & H1 & P1); auto. { apply NP. left; auto. }
    destruct (IH (st (step n e)) k h1) as (h2 & H2 & P2); auto. { intros e' I. apply NP. right; auto. }
    exists h2. split; auto. eapply prefix_trans; eauto.
Qed.

Definition hop_keyed h : Prop :=
  exists x Y s1 s2, h_dh h = Some x /\ dh C x Y = Some s1
    /\ dh C x (cpk C (p_key (h_peer h))) = Some s2 /\ h_keys h = Some (kdf C s1 s2).

Definition keyed n : Prop := forall k hs, hops_of n k = Some hs -> Forall hop_keyed hs.

Lemma accepts_keyed n cid Y au h : accepts n cid Y au h -> hop_keyed h.
Proof.
  intros (c & u & x & s1 & s2 & _ & _ & _ & D1 & D2 & _ & ->). exists x, Y, s1, s2. cbn. auto.
Qed.

Lemma step_keyed n e : keyed n -> keyed (st (step n e)).
Proof.
  intros K k hs H.
  destruct (step_hops n e k) as [E|[(src & m & o & _ & [E|HS] & _)|[[_ E]|[_ E]]]].
  - apply (K k). congruence.
  - apply (K k). congruence.
  - destruct HS as (hs0 & i & Y & au & ce & r & h & A1 & _ & _ & _ & _ & A6 & A7).
    rewrite H in A7. inversion A7; subst hs. apply Forall_app. split; [apply (K k); auto|].
    constructor; [|constructor]. eapply accepts_keyed; eauto.
  - rewrite H in E. inversion E. constructor.
  - congruence.
Qed.

Lemma run_keyed_l evs : forall n, keyed n -> keyed (run n evs).
Proof.
  induction evs as [|e tl IH]; intros n K; cbn [run]; auto. apply IH. apply step_keyed. auto.
Qed.

Lemma after_accept_unv n1 c1 cid o r c' :
  aget cid (n_circ n1) = Some c1 -> c_unv c1 = None -> after_accept n1 c1 cid o r ->
  aget cid (n_circ (st r)) = Some c' ->
  c_unv c' = None \/ exists t, c_unv c' = Some (mkHop (mkPeer t 0) None (Some (sk_of C (o_x o)))).
Proof.
  intros G1 U1 T K.
  assert (B : aget cid (n_circ n1) = Some c' -> c_unv c' = None) by (intros K'; congruence).
  destruct T as [e _| _ | _ |cs tries _]; [left; exact (B K) ..|].
  destruct (sext_cases (set_retry n1 (adel cid (n_retry n1))) cid cs tries o)
    as [[e E]|[E|(c & t & alt & fa & ad & _ & E)]]; rewrite E in K; [left; exact (B K) ..|].
  cbn [st done fst n_circ armed set_circ set_retry] in K. rewrite aget_aset_same in K. injection K as <-.
  right. exists t. reflexivity.
Qed.

Lemma ours_unv_after n cid Y au ce o c' :
  (exists h, accepts n cid Y au h) ->
  aget cid (n_circ (st (ours n cid Y au ce o))) = Some c' ->
  c_unv c' = None \/ exists t, c_unv c' = Some (mkHop (mkPeer t 0) None (Some (sk_of C (o_x o)))).
Proof.
  intros [h0 A0] K. destruct (ours_spec n cid Y au ce o) as [[_ N]|(c & h & G & AC & T)]; [destruct (N h0 A0)|].
  refine (after_accept_unv _ _ cid o _ c' _ _ T K); [apply aget_aset_same|reflexivity].
Qed.

Section Ideal.
Hypothesis tag_eqb_true : forall a b, tag_eqb C a b = true -> a = b.
Hypothesis mac_inj : forall s p s' p', mac C s p = mac C s' p' -> s = s' /\ p = p'.
Hypothesis dh_inj : forall a a' P s, dh C a P = Some s -> dh C a' P = Some s -> a = a'.

(* a duplicate of an accepted answer is not accepted again: the unverified hop it would have to match is gone, or
   carries the next, fresh secret *)
Lemma duplicate_rejected_l n src src' m o o' cid hs hs' :
  hops_of n cid = Some hs ->
  hops_of (st (handle n src m o)) cid = Some hs' -> hs' <> hs ->
  (forall c u x, aget cid (n_circ n) = Some c -> c_unv c = Some u -> h_dh u = Some x -> sk_of C (o_x o) <> x) ->
  same_hops (st (handle n src m o)) (st (handle (st (handle n src m o)) src' m o')).
Proof.
  intros H H' NE FR.
  destruct (accept_implies_l n src m o cid hs hs' H H' NE) as (i & Y & au & ce & r & h & A & NR & R & P & AC & _).
  assert (E : handle n src m o = ours n cid Y au ce o).
  { rewrite (answer_dispatch n src m o cid i Y au ce A NR), R. apply Z.eqb_eq in P. rewrite P. reflexivity. }
  set (n1 := st (handle n src m o)) in *.
  destruct (aget cid (n_circ n1)) as [c1|] eqn:G1.
  2:{ unfold hops_of in H'. rewrite G1 in H'. discriminate. }
  pose proof AC as (c & u & x & s1 & s2 & G & U & X & D1 & _ & T & _).
  assert (UA : c_unv c1 = None \/ exists t, c_unv c1 = Some (mkHop (mkPeer t 0) None (Some (sk_of C (o_x o))))).
  { eapply (ours_unv_after n cid Y au ce o c1); eauto. subst n1. rewrite E in G1. exact G1. }
  intro k.
  destruct (handle_hops n1 src' m o' k) as [E2|(hs0 & i' & Y' & au' & ce' & r' & h' & _ & A2 & _ & _ & _ & AC2 & _)]; auto.
  exfalso. rewrite A in A2. inversion A2; subst.
  destruct AC2 as (c2 & u2 & x2 & t1 & t2 & G2 & U2 & X2 & E1 & _ & T2 & _).
  rewrite G1 in G2. inversion G2; subst c2.
  destruct UA as [UA|[t UA]]; rewrite UA in U2; [discriminate|]. inversion U2; subst u2. cbn in X2.
  inversion X2; subst x2.
  apply tag_eqb_true in T. apply tag_eqb_true in T2. rewrite T in T2. apply mac_inj in T2. destruct T2 as [T2 _].
  subst t1. apply (FR c u x G U X). eapply dh_inj; eauto.
Qed.
End Ideal.

End Origin.
