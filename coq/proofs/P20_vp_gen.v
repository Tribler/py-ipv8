(* Refinement: the definitions translated from lazy_payload.py / payload_dataclass.py (gen/G20_vp.v) compute what the hand
   model M20_vp computes (Sections Refine, Gen, Compile, and the first half of Dataclass).  A translated loop is first shown
   equal to a loop over a hand-written step function - rewriting with for_nat_each / for_nat_iter / for_*_ext finds its body
   by unification, never by generated binder names - and that loop then equal to the model's recursion.
   Section Calls and the end of Dataclass are about the model's own call_*, compiled_class, converted_class, own_defaults:
   what calling a generated slot does, and that compiling or converting twice changes nothing. *)
From Coq Require Import ZArith List Bool Lia String.
From IPV8V Require Import lib.Lists lib.PyErr model.M20_vp model.M20_vp_gen gen.G20_vp proofs.P20_vp.
Import ListNotations.
Open Scope Z_scope.

Lemma len_nat {A} (l : list A) : len l = Z.of_nat (List.length l).
Proof. reflexivity. Qed.

Lemma py_idx_nat {A} (l : list A) (k : nat) :
  py_idx l (Z.of_nat k) = match nth_error l k with Some x => Ok x | None => Raise IndexError end.
Proof.
  unfold py_idx. destruct (Z.of_nat k <? 0) eqn:E; [apply Z.ltb_lt in E; lia|].
  rewrite E. rewrite Nat2Z.id. reflexivity.
Qed.

Lemma for_range_nat {St} (k : nat) (body : Z -> St -> res St) s :
  for_range (Z.of_nat k) body s = for_nat k 0 body s.
Proof. unfold for_range. rewrite Nat2Z.id. reflexivity. Qed.

Lemma for_nat_ext {St} (body body' : Z -> St -> res St) : forall k i s,
  (forall j s', i <= j < i + Z.of_nat k -> body j s' = body' j s') ->
  for_nat k i body s = for_nat k i body' s.
Proof.
  induction k as [|k IH]; intros i s H; [reflexivity|]. cbn [for_nat].
  rewrite H by lia. destruct (body' i s); cbn [bind]; [|reflexivity]. apply IH. intros j s' Hj. apply H. lia.
Qed.

(* a loop whose body ignores its counter *)
Fixpoint iter_res {St} (k : nat) (f : St -> res St) (s : St) : res St :=
  match k with O => Ok s | S k' => do s' <- f s; iter_res k' f s' end.
Lemma for_nat_iter {St} (f : St -> res St) (body : Z -> St -> res St) : forall k i s,
  (forall j s', body j s' = f s') -> for_nat k i body s = iter_res k f s.
Proof.
  induction k as [|k IH]; intros i s H; [reflexivity|]. cbn [for_nat iter_res]. rewrite H.
  destruct (f s); cbn [bind]; [|reflexivity]. apply IH. exact H.
Qed.

Lemma for_nat_each {A St} (l : list A) (f : A -> St -> res St) (body : Z -> St -> res St) : forall i0 s,
  (forall j x s', nth_error l j = Some x -> body (Z.of_nat (i0 + j)) s' = f x s') ->
  for_nat (List.length l) (Z.of_nat i0) body s = for_each l f s.
Proof.
  induction l as [|x tl IH]; intros i0 s H; [reflexivity|]. cbn [List.length for_nat for_each].
  rewrite <- (Nat.add_0_r i0) at 1. rewrite (H 0%nat x s eq_refl).
  destruct (f x s) as [s1|e]; cbn [bind]; [|reflexivity].
  replace (Z.of_nat i0 + 1) with (Z.of_nat (S i0)) by lia. apply IH.
  intros j y s' Hj. replace (S i0 + j)%nat with (i0 + S j)%nat by lia. apply H. exact Hj.
Qed.

Lemma for_each_ext {A St} (f g : A -> St -> res St) : forall l s,
  (forall x s', In x l -> f x s' = g x s') -> for_each l f s = for_each l g s.
Proof.
  induction l as [|x tl IH]; intros s H; [reflexivity|]. cbn [for_each]. rewrite H by (left; reflexivity).
  destruct (g x s); cbn [bind]; [|reflexivity]. apply IH. intros y s' Hy. apply H. right. exact Hy.
Qed.

Lemma nth_error_skipn {A} : forall (i : nat) (l : list A),
  match nth_error l i with Some x => skipn i l = x :: skipn (S i) l | None => skipn i l = [] end.
Proof.
  induction i as [|i IH]; intros [|x l]; try reflexivity. cbn [nth_error]. specialize (IH l).
  destruct (nth_error l i); cbn [skipn] in *; exact IH.
Qed.

Lemma ltb_len_nth {A} (l : list A) k :
  (Z.of_nat k <? len l) = match nth_error l k with Some _ => true | None => false end.
Proof.
  unfold len. destruct (nth_error l k) eqn:E.
  - apply Z.ltb_lt, inj_lt, nth_error_Some. congruence.
  - apply Z.ltb_ge, inj_le, nth_error_None. exact E.
Qed.


Section Refine.
Variable V : Type.
Variable P : rtp V.

Lemma to_packlist_fmt_refines f : VariablePayload__to_packlist_fmt V P f = Ok (GP (packname f)).
Proof. unfold VariablePayload__to_packlist_fmt. destruct f as [t [|]| |]; reflexivity. Qed.

Lemma fix_pack_refines K o n :
  VariablePayload__fix_pack V P K o n = fix_pack V (c_hook_pack V K) (defn_of V K) o n.
Proof.
  unfold VariablePayload__fix_pack, fix_pack, py_getattr, has_fix_pack, defn_of. cbn [d_fixpack].
  destruct (getattr V o n); cbn [bind]; [|reflexivity]. destruct (mem n (c_fixpack V K)); reflexivity.
Qed.

Definition pack_step (names : list nat) (fp : nat -> res V) (s : Z * list V) : res (Z * list V) :=
  do n <- py_idx names (fst s); do v <- fp n; Ok (fst s + 1, snd s ++ [v]).

Lemma iter_pack_step names fp : forall a idx args,
  (idx + a <= List.length names)%nat ->
  iter_res a (pack_step names fp) (Z.of_nat idx, args) =
  do vs <- mapM fp (firstn a (skipn idx names)); Ok (Z.of_nat (idx + a), args ++ vs).
Proof.
  induction a as [|a IH]; intros idx args H.
  - cbn. rewrite app_nil_r, Nat.add_0_r. reflexivity.
  - cbn [iter_res]. unfold pack_step at 1. cbn [fst snd]. rewrite py_idx_nat.
    pose proof (nth_error_skipn idx names) as Hs.
    destruct (nth_error names idx) as [n|] eqn:En; [|apply nth_error_None in En; lia].
    rewrite Hs. cbn [bind firstn mapM]. destruct (fp n) as [v|e]; cbn [bind]; [|reflexivity].
    replace (Z.of_nat idx + 1) with (Z.of_nat (S idx)) by lia. rewrite IH by lia.
    destruct (mapM fp (firstn a (skipn (S idx) names))); cbn [bind]; [|reflexivity].
    rewrite <- app_assoc. cbn [app]. replace (S idx + a)%nat with (idx + S a)%nat by lia. reflexivity.
Qed.

Definition lift_pl (r : list (pname * list V)) : list (gpname * list V) := map (fun e => (GP (fst e), snd e)) r.

Definition outer_pack_step (names : list nat) (fp : nat -> res V) (k : fkind) (s : Z * list (gpname * list V)) :=
  do r <- iter_res (arity k) (pack_step names fp) (fst s, []);
  Ok (fst r, snd s ++ [(GP (packname k), snd r)]).

Lemma for_each_outer_pack hp d o : forall fmts idx out,
  (idx + total_arity fmts <= List.length (d_names d))%nat ->
  for_each fmts (outer_pack_step (d_names d) (fix_pack V hp d o)) (Z.of_nat idx, out) =
  do rest <- interp_pack_from V hp d o fmts (skipn idx (d_names d));
  Ok (Z.of_nat (idx + total_arity fmts), out ++ lift_pl rest).
Proof.
  induction fmts as [|k tl IH]; intros idx out H.
  - cbn. rewrite app_nil_r, Nat.add_0_r. reflexivity.
  - cbn [total_arity fold_right] in H. fold (total_arity tl) in H.
    cbn [for_each interp_pack_from]. unfold outer_pack_step at 1. cbn [fst snd].
    rewrite iter_pack_step by lia. rewrite take_names_firstn by (rewrite skipn_length; lia). cbn [bind app].
    destruct (mapM (fix_pack V hp d o) (firstn (arity k) (skipn idx (d_names d)))) as [vs|e]; cbn [bind fst snd]; [|reflexivity].
    rewrite IH by lia. rewrite skipn_add.
    destruct (interp_pack_from V hp d o tl (skipn (idx + arity k) (d_names d))); cbn [bind]; [|reflexivity].
    cbn [total_arity fold_right]. fold (total_arity tl). rewrite <- app_assoc. cbn [app lift_pl map fst snd].
    rewrite Nat.add_assoc. reflexivity.
Qed.

Lemma arity_bits k : (if fk_is_bits k then 8 else 1) = Z.of_nat (arity k).
Proof. destruct k as [t [|]| |]; reflexivity. Qed.

Theorem to_pack_list_refines K o :
  wf_defn (defn_of V K) = true ->
  VariablePayload_to_pack_list V P K o =
  do r <- interp_to_pack V (c_hook_pack V K) (defn_of V K) o; Ok (lift_pl r).
Proof.
  intros Hwf. destruct (wf_defn_spec _ Hwf) as [Hl _]. cbn [defn_of d_names d_fmts] in Hl.
  unfold VariablePayload_to_pack_list, interp_to_pack. cbn zeta.
  rewrite len_nat, for_range_nat.
  change 0 with (Z.of_nat 0).
  rewrite (for_nat_each (c_fmts V K) (outer_pack_step (c_names V K) (fix_pack V (c_hook_pack V K) (defn_of V K) o))).
  - pose proof (for_each_outer_pack (c_hook_pack V K) (defn_of V K) o (c_fmts V K) 0 []) as HH. cbn [defn_of d_names d_fmts skipn app Nat.add] in HH.
    rewrite HH by lia. cbn [d_names d_fmts defn_of].
    destruct (interp_pack_from V (c_hook_pack V K) (defn_of V K) o (c_fmts V K) (c_names V K)); reflexivity.
  - intros j k [idx out] Hj. cbn beta iota zeta. cbn [Nat.add].
    rewrite py_idx_nat, Hj. cbn [bind]. rewrite arity_bits, for_range_nat.
    unfold outer_pack_step. cbn [fst snd].
    rewrite (for_nat_iter (pack_step (c_names V K) (fix_pack V (c_hook_pack V K) (defn_of V K) o))).
    + destruct (iter_res (arity k) _ (idx, [])) as [[i2 a2]|e]; cbn [bind fst snd]; [|reflexivity].
      rewrite to_packlist_fmt_refines. reflexivity.
    + intros j' [i2 a2]. cbn beta iota. unfold pack_step. cbn [fst snd].
      destruct (py_idx (c_names V K) i2); cbn [bind]; [|reflexivity].
      rewrite fix_pack_refines. destruct (fix_pack V (c_hook_pack V K) (defn_of V K) o a); reflexivity.
Qed.

Lemma set_nth_app {A} (d : list A) a tl x : set_nth (d ++ a :: tl) (List.length d) x = Some (d ++ x :: tl).
Proof. induction d as [|y d IH]; [reflexivity|]. cbn [app List.length set_nth]. rewrite IH. reflexivity. Qed.

Lemma py_setitem_app {A} (d : list A) a tl x :
  py_setitem (d ++ a :: tl) (Z.of_nat (List.length d)) x = Ok (d ++ x :: tl).
Proof.
  unfold py_setitem. destruct (Z.of_nat (List.length d) <? 0) eqn:E; [apply Z.ltb_lt in E; lia|]. rewrite E.
  rewrite Nat2Z.id, set_nth_app. reflexivity.
Qed.

Definition unpack_step (names : list nat) (args : list V) (fu : list nat) (hu : nat -> V -> V) (i : Z) (ua : list V) : res (list V) :=
  do n <- py_idx names i;
  if mem n fu then (do a <- py_idx args i; py_setitem ua i (hu n a)) else Ok ua.

Lemma unpack_loop d hu names args : forall rest done done',
  List.length done' = List.length done -> args = done ++ rest ->
  for_nat (List.length rest) (Z.of_nat (List.length done)) (unpack_step names args (d_fixunpack d) hu) (done' ++ rest) =
  do r <- interp_fix_unpack V hu d (skipn (List.length done) names) rest; Ok (done' ++ r).
Proof.
  induction rest as [|a tl IH]; intros done done' Hl Ha.
  - cbn [List.length for_nat]. destruct (skipn (List.length done) names); reflexivity.
  - cbn [List.length for_nat interp_fix_unpack]. unfold unpack_step at 1. rewrite py_idx_nat.
    pose proof (nth_error_skipn (List.length done) names) as Hn.
    destruct (nth_error names (List.length done)) as [n|]; rewrite Hn; [|reflexivity]. cbn [bind interp_fix_unpack].
    assert (Ea : nth_error args (List.length done) = Some a).
    { subst args. rewrite nth_error_app2 by lia. rewrite Nat.sub_diag. reflexivity. }
    replace (Z.of_nat (List.length done) + 1) with (Z.of_nat (List.length (done ++ [a]))) by (rewrite app_length; cbn; lia).
    assert (Hstep : forall x, for_nat (List.length tl) (Z.of_nat (List.length (done ++ [a])))
                      (unpack_step names args (d_fixunpack d) hu) (done' ++ x :: tl) =
                    do r <- interp_fix_unpack V hu d (skipn (S (List.length done)) names) tl; Ok (done' ++ x :: r)).
    { intros x. replace (done' ++ x :: tl) with ((done' ++ [x]) ++ tl) by (rewrite <- app_assoc; reflexivity).
      rewrite (IH (done ++ [a]) (done' ++ [x])).
      - rewrite app_length. cbn [List.length]. rewrite Nat.add_1_r.
        destruct (interp_fix_unpack V hu d (skipn (S (List.length done)) names) tl); cbn [bind]; [|reflexivity].
        rewrite <- app_assoc. reflexivity.
      - rewrite !app_length. cbn. lia.
      - subst args. rewrite <- app_assoc. reflexivity. }
    destruct (mem n (d_fixunpack d)).
    + rewrite py_idx_nat, Ea. cbn [bind]. rewrite <- Hl, py_setitem_app. cbn [bind]. rewrite Hl. rewrite Hstep.
      destruct (interp_fix_unpack V hu d (skipn (S (List.length done)) names) tl); reflexivity.
    + cbn [bind]. rewrite Hstep. destruct (interp_fix_unpack V hu d (skipn (S (List.length done)) names) tl); reflexivity.
Qed.

Theorem from_unpack_list_refines NEW K args :
  VariablePayload_from_unpack_list V P NEW K args =
  do a' <- interp_fix_unpack V (c_hook_unpack V K) (defn_of V K) (c_names V K) args; NEW K a' [].
Proof.
  unfold VariablePayload_from_unpack_list. cbn zeta. rewrite len_nat, for_range_nat.
  rewrite (for_nat_ext _ (unpack_step (c_names V K) args (c_fixunpack V K) (c_hook_unpack V K))).
  - pose proof (unpack_loop (defn_of V K) (c_hook_unpack V K) (c_names V K) args args [] [] eq_refl eq_refl) as H.
    cbn [List.length app skipn defn_of d_fixunpack] in H. change (Z.of_nat 0) with 0 in H. rewrite H.
    destruct (interp_fix_unpack V (c_hook_unpack V K) (defn_of V K) (c_names V K) args); reflexivity.
  - intros j ua _. cbn beta. unfold unpack_step, has_fix_unpack.
    destruct (py_idx (c_names V K) j) as [n|]; cbn [bind]; [|reflexivity].
    destruct (mem n (c_fixunpack V K)); [|reflexivity].
    destruct (py_idx args j); cbn [bind]; [|reflexivity]. destruct (py_setitem ua j _); reflexivity.
Qed.

Lemma iter_res_add {St} (f : St -> res St) : forall a b s,
  iter_res (a + b) f s = do s' <- iter_res a f s; iter_res b f s'.
Proof.
  induction a as [|a IH]; intros b s; [reflexivity|]. cbn [Nat.add iter_res].
  destruct (f s); cbn [bind]; [apply IH|reflexivity].
Qed.

Lemma for_each_iter {St} (f : St -> res St) : forall (fmts : list fkind) s,
  for_each fmts (fun k s' => iter_res (arity k) f s') s = iter_res (total_arity fmts) f s.
Proof.
  induction fmts as [|k tl IH]; intros s; [reflexivity|]. cbn [for_each total_arity fold_right]. fold (total_arity tl).
  rewrite iter_res_add. destruct (iter_res (arity k) f s); cbn [bind]; [apply IH|reflexivity].
Qed.

Lemma kw_set_fresh {X} n (v : X) : forall d, assoc_nat n d = None -> kw_set d n v = d ++ [(n, v)].
Proof.
  induction d as [|[k x] tl IH]; intros H; [reflexivity|]. cbn [assoc_nat] in H. cbn [kw_set app].
  destruct (Nat.eqb n k); [discriminate H|]. rewrite IH by exact H. reflexivity.
Qed.

Lemma assoc_nat_app {X} n (a b : list (nat * X)) :
  assoc_nat n (a ++ b) = match assoc_nat n a with Some v => Some v | None => assoc_nat n b end.
Proof. induction a as [|[k x] tl IH]; [reflexivity|]. cbn [app assoc_nat]. destruct (Nat.eqb n k); [reflexivity|exact IH]. Qed.

Definition init_step (names : list nat) (args : list V) (s : Z * fields V * list (nat * V)) : res (Z * fields V * list (nat * V)) :=
  let '(idx, self, kw) := s in
  do vk <- (if idx <? len args then (do v <- py_idx args idx; Ok (v, kw))
            else (do n <- py_idx names idx; kw_pop kw n));
  do n <- py_idx names idx;
  Ok (idx + 1, py_setattr V self n (fst vk), snd vk).

Lemma init_loop names args : forall count idx self kw,
  nodup_b (skipn idx names) = true ->
  (forall n, In n (skipn idx names) -> assoc_nat n self = None) ->
  iter_res count (init_step names args) (Z.of_nat idx, self, kw) =
  match interp_assign V count (skipn idx names) (skipn idx args) kw with
  | Ok (fs, ra, rk) => Ok (Z.of_nat (idx + count), self ++ fs, rk)
  | Raise e => Raise e
  end.
Proof.
  induction count as [|c IH]; intros idx self kw Hnd Hfresh.
  - cbn. rewrite app_nil_r, Nat.add_0_r. reflexivity.
  - cbn [iter_res interp_assign]. unfold init_step at 1. rewrite !py_idx_nat, ltb_len_nth.
    pose proof (nth_error_skipn idx names) as Hn. pose proof (nth_error_skipn idx args) as Ha.
    assert (Hnext : forall n v kw', skipn idx names = n :: skipn (S idx) names ->
              iter_res c (init_step names args) (Z.of_nat idx + 1, py_setattr V self n v, kw') =
              match interp_assign V c (skipn (S idx) names) (skipn (S idx) args) kw' with
              | Ok (fs, ra, rk) => Ok (Z.of_nat (idx + S c), self ++ (n, v) :: fs, rk)
              | Raise e => Raise e
              end).
    { intros n v kw' En. rewrite En in Hnd, Hfresh. cbn [nodup_b] in Hnd. apply andb_true_iff in Hnd as [Hn1 Hn2].
      replace (Z.of_nat idx + 1) with (Z.of_nat (S idx)) by lia.
      unfold py_setattr. rewrite kw_set_fresh by (apply Hfresh; left; reflexivity).
      rewrite IH.
      - destruct (interp_assign V c (skipn (S idx) names) (skipn (S idx) args) kw') as [[[fs ra] rk]|e]; [|reflexivity].
        rewrite <- app_assoc. cbn [app]. replace (S idx + c)%nat with (idx + S c)%nat by lia. reflexivity.
      - exact Hn2.
      - intros m Hm. rewrite assoc_nat_app. rewrite (Hfresh m (or_intror Hm)). cbn [assoc_nat].
        destruct (Nat.eqb m n) eqn:E; [|reflexivity]. apply Nat.eqb_eq in E. subst m.
        apply negb_true_iff in Hn1. assert (mem n (skipn (S idx) names) = true) by (apply mem_In; exact Hm). congruence. }
    destruct (nth_error args idx) as [a|] eqn:Ea; rewrite Ha.
    + cbn [bind fst snd]. destruct (nth_error names idx) as [n|]; rewrite Hn; [|reflexivity]. cbn [bind].
      rewrite (Hnext n a kw Hn).
      destruct (interp_assign V c (skipn (S idx) names) (skipn (S idx) args) kw) as [[[fs ra] rk]|e]; reflexivity.
    + destruct (nth_error names idx) as [n|]; rewrite Hn; [|reflexivity]. cbn [bind].
      unfold kw_pop. destruct (assoc_nat n kw) as [v|]; [|reflexivity]. cbn [bind fst snd].
      rewrite (Hnext n v _ Hn). change (kw_del n kw) with (remove_key V n kw).
      assert (Hs : skipn (S idx) args = []).
      { apply skipn_all2. apply nth_error_None in Ea. lia. }
      rewrite Hs.
      destruct (interp_assign V c (skipn (S idx) names) [] (remove_key V n kw)) as [[[fs ra] rk]|e]; reflexivity.
Qed.

Lemma interp_assign_ra : forall count names args kw fs ra rk,
  interp_assign V count names args kw = Ok (fs, ra, rk) -> ra = skipn count args.
Proof.
  induction count as [|c IH]; intros names args kw fs ra rk H.
  - cbn in H. injection H as _ <- _. reflexivity.
  - cbn [interp_assign] in H. destruct names as [|n ntl]; [discriminate H|]. destruct args as [|a atl].
    + destruct (assoc_nat n kw); [|discriminate H].
      destruct (interp_assign V c ntl [] (remove_key V n kw)) as [[[fs' ra'] rk']|] eqn:E; cbn [bind] in H; [|discriminate H].
      injection H as _ <- _. apply IH in E. rewrite E. destruct c; reflexivity.
    + destruct (interp_assign V c ntl atl kw) as [[[fs' ra'] rk']|] eqn:E; cbn [bind] in H; [|discriminate H].
      injection H as _ <- _. apply IH in E. exact E.
Qed.

Theorem init_refines K args kwargs :
  wf_defn (defn_of V K) = true ->
  VariablePayload___init__ V P false K (object_new V) args kwargs =
  do fs <- interp_init V (defn_of V K) args kwargs; Ok (cls_set_match_args V K (c_names V K), fs).
Proof.
  intros Hwf. destruct (wf_defn_spec _ Hwf) as [_ Hnd]. cbn [defn_of d_names] in Hnd.
  unfold VariablePayload___init__, interp_init. cbn zeta. cbn [defn_of d_names d_fmts].
  rewrite Z.sub_0_r, len_nat, for_range_nat.
  change 0 with (Z.of_nat 0) at 1.
  rewrite (for_nat_each (c_fmts V K) (fun k s' => iter_res (arity k) (init_step (c_names V K) args) s')).
  - rewrite for_each_iter. change 0 with (Z.of_nat 0). rewrite init_loop; [|exact Hnd|intros; reflexivity].
    cbn [skipn Nat.add object_new app]. change (Z.of_nat 0) with 0.
    destruct (interp_assign V (total_arity (c_fmts V K)) (c_names V K) args kwargs) as [[[fs ra] rk]|e] eqn:E; cbn [bind]; [|reflexivity].
    apply interp_assign_ra in E. subst ra. rewrite len_nat.
    (* arguments are left over iff there are more of them than names were assigned *)
    pose proof (skipn_length (total_arity (c_fmts V K)) args) as Hl.
    destruct (Z.gtb_spec (Z.of_nat (List.length args) - Z.of_nat (total_arity (c_fmts V K))) 0);
      destruct (skipn (total_arity (c_fmts V K)) args); cbn [List.length] in Hl; try lia; [reflexivity|].
    destruct rk; reflexivity.
  - intros j k [[idx self] kw] Hj. cbn beta iota zeta. cbn [Nat.add]. rewrite ?Z.add_0_r.
    rewrite py_idx_nat, Hj. cbn [bind]. rewrite arity_bits, for_range_nat.
    rewrite (for_nat_iter (init_step (c_names V K) args)).
    + destruct (iter_res (arity k) _ (idx, self, kw)) as [[[i2 s2] k2]|e]; reflexivity.
    + intros j' [[i2 s2] k2]. cbn beta iota. unfold init_step.
      destruct (i2 <? len args).
      * destruct (py_idx args i2); cbn [bind fst snd]; [|reflexivity]. destruct (py_idx (c_names V K) i2); reflexivity.
      * destruct (py_idx (c_names V K) i2) as [n|]; cbn [bind]; [|reflexivity].
        destruct (kw_pop k2 n) as [[v k3]|]; cbn [bind fst snd]; reflexivity.
Qed.

End Refine.

Lemma list_comp_if_true {A B} (l : list A) (f : A -> res B) : list_comp l f = mapM f l.
Proof. unfold list_comp. induction l as [|x tl IH]; [reflexivity|]. cbn [list_comp_if mapM bind]. rewrite IH. reflexivity. Qed.

Lemma mapM_pure {A B} (f : A -> B) : forall l, mapM (fun x => Ok (f x)) l = Ok (map f l).
Proof. induction l as [|x tl IH]; [reflexivity|]. cbn [mapM map bind]. rewrite IH. reflexivity. Qed.

Lemma mapM_app_raise {A B} (f : A -> res B) : forall pre x post ys e,
  mapM f pre = Ok ys -> f x = Raise e -> mapM f (pre ++ x :: post) = Raise e.
Proof.
  induction pre as [|a pre IH]; intros x post ys e Hp Hx; cbn [app mapM]; [rewrite Hx; reflexivity|].
  cbn [mapM] in Hp. destruct (f a); [|discriminate Hp]. cbn [bind] in *.
  destruct (mapM f pre) as [zs|]; [|discriminate Hp]. rewrite (IH x post zs e eq_refl Hx). reflexivity.
Qed.

Lemma list_comp_pure {A B} (f : A -> B) l : list_comp l (fun x => Ok (f x)) = Ok (map f l).
Proof. rewrite list_comp_if_true. apply mapM_pure. Qed.

Lemma nodup_nat_b l : nodup_nat l = nodup_b l.
Proof. reflexivity. Qed.

Lemma assoc_absent {X} n : forall l : list (nat * X), mem n (map fst l) = false -> assoc_nat n l = None.
Proof.
  unfold mem. induction l as [|[k x] tl IH]; [reflexivity|]. cbn [map fst existsb assoc_nat]. intros H.
  apply orb_false_iff in H as [H1 H2]. rewrite H1. exact (IH H2).
Qed.

Lemma assoc_nodup_In {X} : forall (l : list (nat * X)) n v,
  nodup_b (map fst l) = true -> In (n, v) l -> assoc_nat n l = Some v.
Proof.
  induction l as [|[k x] tl IH]; intros n v H Hin; [destruct Hin|].
  cbn [map fst nodup_b] in H. apply andb_true_iff in H as [H1 H2]. cbn [assoc_nat].
  destruct Hin as [Hin|Hin]; [injection Hin as -> ->; rewrite Nat.eqb_refl; reflexivity|].
  specialize (IH n v H2 Hin). destruct (Nat.eqb n k) eqn:E; [|exact IH]. apply Nat.eqb_eq in E. subst k.
  apply negb_true_iff in H1. rewrite (assoc_absent n tl H1) in IH. discriminate IH.
Qed.

(* looking a key up after filtering: the entry the key had, if it passes *)
Lemma assoc_filter {X} (c : nat * X -> bool) n : forall l, nodup_b (map fst l) = true ->
  assoc_nat n (filter c l) = match assoc_nat n l with Some v => if c (n, v) then Some v else None | None => None end.
Proof.
  induction l as [|[k x] tl IH]; [reflexivity|]. cbn [map fst nodup_b]. intros H. apply andb_true_iff in H as [H1 H2].
  specialize (IH H2). apply negb_true_iff in H1. cbn [filter assoc_nat]. destruct (Nat.eqb n k) eqn:E.
  - apply Nat.eqb_eq in E. subst k. destruct (c (n, x)); cbn [assoc_nat].
    + rewrite Nat.eqb_refl. reflexivity.
    + rewrite IH, (assoc_absent n tl H1). reflexivity.
  - destruct (c (k, x)); cbn [assoc_nat]; rewrite ?E; exact IH.
Qed.

Lemma assoc_tabulate {X} (g : nat -> X) n : forall names,
  assoc_nat n (map (fun m => (m, g m)) names) = if mem n names then Some (g n) else None.
Proof.
  induction names as [|m tl IH]; [reflexivity|]. cbn [map assoc_nat]. unfold mem. cbn [existsb].
  destruct (Nat.eqb n m) eqn:E; [apply Nat.eqb_eq in E; subst m; reflexivity|exact IH].
Qed.

Section Gen.
Variable V : Type.
Variable P : rtp V.

Definition key_self (d : list (nat * V)) : list (nat * nat) := map (fun kv => (fst kv, fst kv)) d.

Lemma assoc_key_self n (d : list (nat * V)) :
  assoc_nat n (key_self d) = if kw_mem n d then Some n else None.
Proof.
  unfold kw_mem. induction d as [|[k v] tl IH]; [reflexivity|]. cbn [key_self map fst assoc_nat].
  destruct (Nat.eqb n k) eqn:E; [apply Nat.eqb_eq in E; subst; reflexivity|exact IH].
Qed.

Theorem compile_init_refines names (defaults : list (nat * V)) :
  nodup_b names = true ->
  g_compile_init V P names defaults =
  Ok (CInit "__init__" (gen_init names (key_self defaults)) (map (fun n => (n, n)) names)).
Proof.
  intros Hnd. unfold g_compile_init. rewrite !list_comp_pure. cbn [bind]. cbn zeta.
  unfold py_compile. rewrite map_map.
  match goal with |- context [nodup_nat (map ?f names)] =>
    replace (map f names) with names
      by (rewrite <- (map_id names) at 1; apply map_ext; intros a; cbv beta; destruct (kw_mem a defaults); reflexivity) end.
  rewrite nodup_nat_b, Hnd.
  do 2 f_equal. unfold gen_init. apply map_ext. intros n. rewrite assoc_key_self.
  destruct (kw_mem n defaults); reflexivity.
Qed.

Theorem compile_from_unpack_list_refines K :
  nodup_b (c_names V K) = true ->
  g_compile_from_unpack_list V P K (c_names V K) =
  Ok (CUnpack "from_unpack_list" (c_names V K) (gen_unpack (defn_of V K))).
Proof.
  intros Hnd. unfold g_compile_from_unpack_list. cbn zeta. rewrite list_comp_pure. cbn [bind].
  unfold py_compile. rewrite nodup_nat_b, Hnd. do 2 f_equal. unfold gen_unpack. cbn [defn_of d_names d_fixunpack].
  apply map_ext. intros n. unfold has_fix_unpack. destruct (mem n (c_fixunpack V K)); reflexivity.
Qed.

(* the generator runs the loop of to_pack_list, collecting (name, has a hook) where that collects values *)
Definition gen_item (fixp : list nat) (n : nat) : res (nat * bool) := Ok (n, mem n fixp).

Lemma for_each_outer_gen names fixp : forall fmts idx out,
  (idx + total_arity fmts <= List.length names)%nat ->
  for_each fmts (outer_pack_step (nat * bool) names (gen_item fixp)) (Z.of_nat idx, out) =
  Ok (Z.of_nat (idx + total_arity fmts), out ++ lift_gp (gen_pack_from fixp fmts (skipn idx names))).
Proof.
  induction fmts as [|k tl IH]; intros idx out H.
  - cbn. rewrite app_nil_r, Nat.add_0_r. reflexivity.
  - cbn [total_arity fold_right] in H. fold (total_arity tl) in H.
    cbn [for_each gen_pack_from]. unfold outer_pack_step at 1. cbn [fst snd].
    rewrite iter_pack_step by lia. unfold gen_item at 1. rewrite mapM_pure. cbn [bind fst snd app].
    rewrite IH by lia. rewrite skipn_add.
    cbn [total_arity fold_right]. fold (total_arity tl). rewrite <- app_assoc. cbn [app lift_gp map fst snd].
    rewrite Nat.add_assoc. reflexivity.
Qed.

Lemma derived_fmt_spec k :
  (if fk_is_str k then gp_of_fk k else if fk_is_list k then GP PPayloadList else GP PPayload) = GP (packname k).
Proof. destruct k as [t b| |]; reflexivity. Qed.

Theorem compile_to_pack_list_refines K :
  wf_defn (defn_of V K) = true ->
  g_compile_to_pack_list V P K (c_fmts V K) (c_names V K) =
  Ok (CPack "to_pack_list" (lift_gp (gen_pack (defn_of V K)))).
Proof.
  intros Hwf. destruct (wf_defn_spec _ Hwf) as [Hl _]. cbn [defn_of d_names d_fmts] in Hl.
  unfold g_compile_to_pack_list. cbn zeta.
  rewrite (for_each_ext _ (outer_pack_step (nat * bool) (c_names V K) (gen_item (c_fixpack V K)))).
  - change 0 with (Z.of_nat 0). rewrite for_each_outer_gen by lia. cbn [bind skipn app]. reflexivity.
  - intros k [idx out] _. cbn beta iota zeta. rewrite arity_bits, for_range_nat.
    unfold outer_pack_step. cbn [fst snd].
    rewrite (for_nat_iter (pack_step (nat * bool) (c_names V K) (gen_item (c_fixpack V K)))).
    + destruct (iter_res (arity k) _ (idx, [])) as [[i2 a2]|e]; cbn [bind fst snd]; [|reflexivity].
      rewrite derived_fmt_spec. reflexivity.
    + intros j' [i2 a2]. cbn beta iota. unfold pack_step. cbn [fst snd].
      destruct (py_idx (c_names V K) i2) as [n|]; cbn [bind]; [|reflexivity].
      unfold has_fix_pack, gen_item. destruct (mem n (c_fixpack V K)); reflexivity.
Qed.

End Gen.

Section Compile.
Variable V : Type.
Variable P : rtp V.

Lemma list_comp_if_pure {A B} (c : A -> bool) (f : A -> B) : forall l,
  list_comp_if l (fun x => Ok (c x)) (fun x => Ok (f x)) = Ok (map f (filter c l)).
Proof.
  induction l as [|x tl IH]; [reflexivity|]. cbn [list_comp_if bind filter]. rewrite IH.
  destruct (c x); reflexivity.
Qed.

(* a dict built from a filtered item list with distinct keys is that list *)
Lemma kw_of_list_filter {X} (c : nat * X -> bool) : forall l acc,
  nodup_b (map fst l) = true -> (forall k, mem k (map fst l) = true -> assoc_nat k acc = None) ->
  fold_left (fun d kv => kw_set d (fst kv) (snd kv)) (filter c l) acc = acc ++ filter c l.
Proof.
  induction l as [|[k v] tl IH]; intros acc Hnd Hacc; [symmetry; apply app_nil_r|].
  cbn [map fst nodup_b] in Hnd. apply andb_true_iff in Hnd as [H1 H2]. apply negb_true_iff in H1.
  unfold mem in *. cbn [map fst existsb] in Hacc. cbn [filter]. destruct (c (k, v)).
  - cbn [fold_left fst snd]. rewrite kw_set_fresh by (apply Hacc; rewrite Nat.eqb_refl; reflexivity).
    rewrite IH; [rewrite <- app_assoc; reflexivity|exact H2|]. intros k' Hk'.
    rewrite assoc_nat_app, Hacc by (rewrite Hk'; apply orb_true_r). cbn [assoc_nat].
    destruct (Nat.eqb k' k) eqn:E; [|reflexivity]. apply Nat.eqb_eq in E. subst k'. congruence.
  - apply IH; [exact H2|]. intros k' Hk'. apply Hacc. rewrite Hk'. apply orb_true_r.
Qed.

Lemma sassoc_sset_same {A} k (v : A) : forall l, sassoc k (sset l k v) = Some v.
Proof.
  induction l as [|[k' v'] tl IH]; cbn [sset sassoc]; [rewrite String.eqb_refl; reflexivity|].
  destruct (String.eqb k k') eqn:E; cbn [sassoc]; rewrite ?String.eqb_refl, ?E; [reflexivity|exact IH].
Qed.

Lemma exec_defaults (defaults : list (nat * V)) g : forall names,
  sassoc "_defaults"%string g = Some (GDefaults V defaults) ->
  mapM' (fun p : nat * option nat => match snd p with
                  | None => Ok (fst p, None)
                  | Some k => do v <- eval_default V g k; Ok (fst p, Some v)
                  end) (gen_init names (key_self V defaults)) = Ok (gen_init names defaults).
Proof.
  intros names Hg. induction names as [|n tl IH]; [reflexivity|].
  cbn [gen_init map mapM']. fold (gen_init tl (key_self V defaults)). fold (gen_init tl defaults).
  rewrite IH. cbn [fst snd]. rewrite assoc_key_self. unfold kw_mem.
  destruct (assoc_nat n defaults) as [v|] eqn:E; [|reflexivity].
  unfold eval_default. rewrite Hg. unfold kw_get. rewrite E. reflexivity.
Qed.

Lemma wf_cls_spec K :
  wf_cls V P K = true ->
  wf_defn (defn_of V K) = true /\ nodup_b (c_names V K) = true /\
  exists sig, sig_items V P (c_init V K) = Ok sig /\ nodup_nat (map fst sig) = true.
Proof.
  unfold wf_cls. intros H. apply andb_true_iff in H as [Hd Hs]. split; [exact Hd|]. split; [exact (proj2 (wf_defn_spec _ Hd))|].
  destruct (sig_items V P (c_init V K)) as [sig|]; [|discriminate Hs]. exists sig. split; [reflexivity|exact Hs].
Qed.

Theorem vp_compile_refines K :
  wf_cls V P K = true -> g_vp_compile V P K = Ok (compiled_class V P K).
Proof.
  intros Hwf. destruct (wf_cls_spec K Hwf) as (Hd & Hnd & sig & Es & Hs).
  unfold g_vp_compile. cbn zeta. rewrite Es. cbn [bind].
  unfold is_param_empty, param_default.
  rewrite (list_comp_if_pure (fun kv : nat * V => negb (is_empty V P (snd kv))) (fun kv => (fst kv, snd kv))). cbn [bind].
  assert (Hod : kw_of_list (map (fun kv : nat * V => (fst kv, snd kv)) (filter (fun kv => negb (is_empty V P (snd kv))) sig))
                = own_defaults V P K).
  { unfold own_defaults. rewrite Es.
    replace (map (fun kv : nat * V => (fst kv, snd kv)) (filter (fun kv => negb (is_empty V P (snd kv))) sig))
      with (filter (fun kv : nat * V => negb (is_empty V P (snd kv))) sig)
      by (symmetry; rewrite <- map_id; apply map_ext; intros [a b]; reflexivity).
    exact (kw_of_list_filter _ sig [] Hs (fun _ _ => eq_refl)). }
  rewrite Hod.
  rewrite compile_init_refines by exact Hnd. cbn [bind]. unfold py_exec at 1.
  rewrite exec_defaults by (unfold genv_with; apply sassoc_sset_same). cbn [bind].
  rewrite compile_from_unpack_list_refines by exact Hnd. cbn [bind py_exec].
  rewrite compile_to_pack_list_refines by exact Hd. cbn [bind py_exec].
  reflexivity.
Qed.

End Compile.

Section Calls.
Variable V : Type.
Variable P : rtp V.

Lemma leqb_refl {A} (eqb : A -> A -> bool) : (forall a, eqb a a = true) -> forall l, leqb eqb l l = true.
Proof. intros H. induction l as [|x tl IH]; [reflexivity|]. cbn. rewrite H, IH. reflexivity. Qed.

Lemma ident_setters_ok names : ident_setters names (map (fun n => (n, n)) names) = true.
Proof. unfold ident_setters. apply leqb_refl. intros [a b]. cbn. rewrite !Nat.eqb_refl. reflexivity. Qed.

Lemma strip_lift p : strip_gp (lift_gp p) = Some p.
Proof. induction p as [|[n l] tl IH]; [reflexivity|]. cbn [lift_gp map fst snd strip_gp]. fold (lift_gp tl). rewrite IH. reflexivity. Qed.

Lemma map_fst_gen_init {L} names (d : list (nat * L)) : map fst (gen_init names d) = names.
Proof. unfold gen_init. rewrite map_map. cbn [fst]. apply map_id. Qed.

Lemma map_fst_gen_unpack d : map fst (gen_unpack d) = d_names d.
Proof. unfold gen_unpack. rewrite map_map. cbn [fst]. apply map_id. Qed.

(* What a call does when the slot holds a generated function.  The class X is a variable and is instantiated last:
   conversion compares two towers of cls_set_* in time exponential in their height (c_x X against c_x Y is tried as X against
   Y first, sixteen fields a level). *)
Lemma call_init_generated X names (dflts : list (nat * V)) args kwargs :
  c_init V X = FInit V (gen_init names dflts) (map (fun n => (n, n)) names) true ->
  call_init V P X args kwargs = eval_init V V (fun v => Ok v) (gen_init names dflts) args kwargs.
Proof. intros H. unfold call_init. rewrite H, map_fst_gen_init, ident_setters_ok. reflexivity. Qed.

Lemma call_to_pack_generated X p o :
  c_to_pack V X = FPack V (lift_gp p) -> call_to_pack V X o = eval_to_pack V (c_hook_pack V X) p o.
Proof. intros H. unfold call_to_pack. rewrite H, strip_lift. reflexivity. Qed.

Lemma call_from_unpack_generated X d L (lit : L -> res V) ps args :
  c_from_unpack V X = MBound V (FUnpack V (d_names d) (gen_unpack d)) (c_id V X) ->
  (forall a, call_init V P X a [] = eval_init V L lit ps a []) ->
  call_from_unpack V P X args = eval_from_unpack V (is_none V P) (c_hook_unpack V X) L lit ps (gen_unpack d) args.
Proof.
  intros H Hi. unfold call_from_unpack, eval_from_unpack.
  rewrite H, Nat.eqb_refl, map_fst_gen_unpack, (leqb_refl Nat.eqb Nat.eqb_refl). cbn [andb].
  destruct (eval_unpack_args V (is_none V P) (c_hook_unpack V X) (gen_unpack d) args); [apply Hi|reflexivity].
Qed.

(* the constructor @dataclass wrote binds like a generated one over the field defaults, an omitted parameter getting
   run_default of its field's default (a fresh default_factory result where the field has one) *)
Lemma call_init_dataclass X self flds args kwargs :
  c_init V X = FUser V (self :: flds) -> nodup_b (map fst flds) = true ->
  call_init V P X args kwargs =
  eval_init V V (run_default V P)
    (gen_init (map fst flds) (filter (fun kv => negb (is_empty V P (snd kv))) flds)) args kwargs.
Proof.
  intros H Hnd. unfold call_init. rewrite H. f_equal. unfold gen_init. rewrite map_map. apply map_ext_in. intros [n v] Hin.
  cbn [fst snd]. rewrite (assoc_filter _ n flds Hnd), (assoc_nodup_In flds n v Hnd Hin). cbn [snd].
  destruct (is_empty V P v); reflexivity.
Qed.

(* the defaults the compiled constructor uses are the definition's own, each under its own name *)
Theorem assoc_own_defaults K sig n v :
  sig_items V P (c_init V K) = Ok sig -> nodup_nat (map fst sig) = true ->
  (assoc_nat n (own_defaults V P K) = Some v <-> (assoc_nat n sig = Some v /\ is_empty V P v = false)).
Proof.
  intros Es Hnd. unfold own_defaults. rewrite Es, (assoc_filter _ n sig Hnd).
  destruct (assoc_nat n sig) as [w|]; cbn [snd]; [destruct (is_empty V P w) eqn:E; cbn [negb]|]; intuition congruence.
Qed.

(* the result depends on the definition only: names, formats, which hooks exist, identity, and the own defaults *)
Theorem compiled_depends_on_definition_only K1 K2 :
  c_names V K1 = c_names V K2 -> c_fmts V K1 = c_fmts V K2 -> c_fixpack V K1 = c_fixpack V K2 ->
  c_fixunpack V K1 = c_fixunpack V K2 -> c_id V K1 = c_id V K2 -> own_defaults V P K1 = own_defaults V P K2 ->
  c_init V (compiled_class V P K1) = c_init V (compiled_class V P K2) /\
  c_from_unpack V (compiled_class V P K1) = c_from_unpack V (compiled_class V P K2) /\
  c_to_pack V (compiled_class V P K1) = c_to_pack V (compiled_class V P K2) /\
  c_match_args V (compiled_class V P K1) = c_match_args V (compiled_class V P K2).
Proof.
  intros Hn Hf Hp Hu Hi Ho. unfold compiled_class, defn_of.
  cbn [c_init c_from_unpack c_to_pack c_match_args cls_set_to_pack cls_set_from_unpack cls_set_match_args cls_set_init].
  rewrite Hn, Hf, Hp, Hu, Hi, Ho. repeat split.
Qed.

Definition rtp_ok : Prop := is_empty V P (empty_v V P) = true.

(* the constructor vp_compile generated shows, as its own defaults, the defaults it was generated with *)
Lemma compiled_own_defaults K :
  rtp_ok -> wf_cls V P K = true ->
  gen_init (c_names V K) (own_defaults V P (compiled_class V P K)) = gen_init (c_names V K) (own_defaults V P K).
Proof.
  intros Hr Hwf. destruct (wf_cls_spec V P K Hwf) as (_ & Hnd & sig & Es & Hs). unfold gen_init. apply map_ext_in. intros n Hn. f_equal.
  unfold own_defaults at 1. change (c_init V (compiled_class V P K)) with (FInit V (gen_init (c_names V K) (own_defaults V P K)) (map (fun n => (n, n)) (c_names V K)) true).
  cbn [sig_items filter snd]. rewrite Hr. cbn [negb]. unfold gen_init. rewrite map_map. cbn [fst snd].
  rewrite assoc_filter by (rewrite map_map, map_id; exact Hnd).
  rewrite assoc_tabulate. apply mem_In in Hn. rewrite Hn. cbn [snd].
  destruct (assoc_nat n (own_defaults V P K)) as [v|] eqn:E; [|rewrite Hr; reflexivity].
  apply (assoc_own_defaults K sig n v Es Hs) in E. destruct E as [_ E]. rewrite E. reflexivity.
Qed.

(* two towers of cls_set_* meet here: both sides are normalised by cbv before reflexivity (see call_init_generated), and the
   hypothesis alike, so that it still rewrites the goal *)
Lemma compiled_class_idem K :
  rtp_ok -> wf_cls V P K = true -> compiled_class V P (compiled_class V P K) = compiled_class V P K.
Proof.
  intros Hr Hwf. pose proof (compiled_own_defaults K Hr Hwf) as H.
  cbv -[gen_init gen_unpack gen_pack lift_gp own_defaults] in H |- *. rewrite H. reflexivity.
Qed.

End Calls.

Section Dataclass.
Variable V : Type.
Variable P : rtp V.

Theorem type_map_refines : forall fuel t, (ty_depth t < fuel)%nat -> g_type_map V P fuel t = M20_vp.type_map t.
Proof.
  induction fuel as [|fuel IH]; intros t H; [lia|].
  destruct t; try reflexivity. cbn [ty_depth] in H.
  cbn [g_type_map ty_is ty_is_typevar ty_origin_is_seq ty_args]. change (py_idx [t] 0) with (Ok t). cbn [bind].
  destruct t; cbn [ty_issubclass_serializable bind tf_list_of M20_vp.type_map]; try reflexivity;
    rewrite IH by (cbn [ty_depth]; lia); reflexivity.
Qed.

Theorem type_from_format_spec f : g_type_from_format V P f = Ok (TVar f).
Proof. reflexivity. Qed.

Definition field_fmt (FUEL : nat) (K : cls V) (fld : nat * V) : res tfmt :=
  do t <- hints_get (c_hints V K) (fst fld); g_type_map V P FUEL t.

Lemma cls_hints_msg K m : c_hints V (cls_set_msg_id V K m) = c_hints V K.
Proof. reflexivity. Qed.

Theorem convert_to_payload_refines FUEL W K mid :
  g_convert_to_payload V P FUEL W K mid =
  do tfs <- mapM (field_fmt FUEL K) (c_dc_fields V K);
  do K' <- g_vp_compile V P (dc_definition V K mid tfs);
  let C := cls_set_init V K' (c_init V K) in
  Ok (world_set V W (c_module V C) (c_name V C) C, C).
Proof.
  (* robust to the order in which the class attributes are stored: the class handed to vp_compile is compared with
     dc_definition after destructing the record *)
  unfold g_convert_to_payload, field_fmt.
  destruct mid as [z|]; cbn [negb bind]; cbn zeta;
    rewrite ?list_comp_pure, ?list_comp_if_true; cbn [bind c_hints c_dc_fields cls_set_msg_id cls_set_names cls_set_fmts];
    (destruct (mapM _ (c_dc_fields V K)) as [tfs|]; cbn [bind]; [|reflexivity]);
    rewrite ?list_comp_pure; cbn [bind c_hints c_dc_fields c_init cls_set_msg_id cls_set_names cls_set_fmts];
    match goal with |- context [g_vp_compile V P ?c] =>
      match goal with |- _ = bind (g_vp_compile V P ?d) _ =>
        replace c with d by (destruct K; reflexivity); destruct (g_vp_compile V P d); reflexivity end end.
Qed.

Definition supported (FUEL : nat) (K : cls V) (fld : nat * V) (f : tfmt) : Prop :=
  exists t, assoc_nat (fst fld) (c_hints V K) = Some t /\ M20_vp.type_map t = Ok f /\ (ty_depth t < FUEL)%nat.

Lemma field_fmt_spec FUEL K fld t :
  assoc_nat (fst fld) (c_hints V K) = Some t -> (ty_depth t < FUEL)%nat -> field_fmt FUEL K fld = M20_vp.type_map t.
Proof. intros Ht Hd. unfold field_fmt, hints_get. rewrite Ht. apply type_map_refines. exact Hd. Qed.

Lemma field_fmts_ok FUEL K : forall flds tfs,
  Forall2 (supported FUEL K) flds tfs -> mapM (field_fmt FUEL K) flds = Ok tfs.
Proof.
  induction 1 as [|fld f flds tfs (t & Ht & Hm & Hd) _ IH]; [reflexivity|].
  cbn [mapM]. rewrite (field_fmt_spec FUEL K fld t Ht Hd), Hm, IH. reflexivity.
Qed.

(* a class that already carries the names, formats and msg_id its dataclass fields stand for is its own definition *)
Lemma dc_definition_id X mid tfs :
  c_names V X = map fst (c_dc_fields V X) -> c_fmts V X = fmts_of_tfmts tfs -> (mid = None \/ mid = c_msg_id V X) ->
  dc_definition V X mid tfs = X.
Proof. destruct X. cbn. intros -> -> [->| ->]; [reflexivity|]. destruct c_msg_id; reflexivity. Qed.

(* compiling reads nothing of the three slots it writes; of the constructor, only what is put back afterwards
   (normalised by cbv first, as in compiled_class_idem) *)
Lemma compiled_class_idem_init D i :
  cls_set_init V (compiled_class V P (cls_set_init V (compiled_class V P D) i)) i = cls_set_init V (compiled_class V P D) i.
Proof. cbv -[gen_init gen_unpack gen_pack lift_gp own_defaults]. reflexivity. Qed.

Lemma converted_class_idem K mid tfs :
  converted_class V P (converted_class V P K mid tfs) mid tfs = converted_class V P K mid tfs.
Proof.
  unfold converted_class at 1. rewrite dc_definition_id; [apply compiled_class_idem_init|..]; destruct mid; auto.
Qed.

End Dataclass.
