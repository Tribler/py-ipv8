(* C04: the way back over an honest path of any length; cells that do not open under the key of the layer to peel. *)
From Coq Require Import ZArith List Bool.
From IPV8V Require Import lib.PyErr lib.Bytes model.M02_wire model.M03_recv model.M04_onion spec.S04_onion_spec
  proofs.P04_base proofs.P04_node proofs.P04_endpoint proofs.P04_chain.
Import ListNotations.
Open Scope Z_scope.

Section Props.
Variables key nonce : Type.
Variable enc : key -> dir -> nonce -> bytes -> bytes.
Variable dec : key -> dir -> bytes -> option bytes.
Notation path := (path key).
Notation enc_layers := (enc_layers enc).

Lemma backward_transport_l (p : path) m0 rest nsx rnd nss nso :
  aead_correct enc dec -> backward_ready p -> c_hs (p_circ p) = None -> m0 <> 4 ->
  let msg := m0 :: rest in
  let a1 := first_addr (p_relays p) (p_xaddr p) in
  let prev := last_sender (p_relays p) (p_oaddr p) in
  exists (links : list bytes) nl,
    ep_send_cell enc (p_exit p) prev (mkCell (p_xcid p) msg false false) nsx = Ok (p_exit p, [Send prev (hd [] links)])
    /\ through enc dec (rev (p_relays p)) (p_xaddr p) prev (hd [] links) rnd nss
       = Some (a1, p_oaddr p, nth (length (p_relays p)) links [], List.tl links)
    /\ length links = path_len p /\ length nl = path_len p
    /\ (forall i, (i < path_len p)%nat ->
          cell_body (nth i (rev links) []) = enc_layers BACKWARD (skipn i (path_keys p)) (skipn i nl) msg)
    /\ on_packet enc dec (p_origin p) a1 (nth (length (p_relays p)) links []) rnd nso
       = community_on_cell_packet enc (p_origin p) a1
           (cell_to_bin (p_pfx p) (mkCell (p_cid p) msg false false)) rnd nso.
Proof.
  intros C (Ho & Hx & Hch) Hhs H4 msg a1 prev.
  destruct Ho as (Hp & Hop & Hcid & Hoa & Hok & _ & Hor & Hoe & Hom).
  destruct Hx as (Hxp & Hxcid & Hxr & Hxc & Hxe & Hxi & Hxk & Hxa & Hxm).
  destruct (bwd_leg key nonce enc dec (p_pfx p) false (p_oaddr p) (p_cid p) (p_xkey p) (nsx O) msg rnd
              (p_relays p) (p_xcid p) (p_xaddr p) nss Hp Hch) as (links & nl & Hhd & Hthr & Hlast & Hlen & Hnl & Hbody).
  exists links, nl. repeat split; try assumption.
  - rewrite Hhd, <- Hxp. apply (exit_send key nonce enc (p_exit p) prev _ _ _ msg false nsx Hxc Hxe Hxk).
  - rewrite Hlast, <- Hop.
    apply (origin_opens key nonce enc dec (p_origin p) a1 _ (p_circ p) (path_keys p) _ m0 rest false rnd nso C);
      try assumption; try (rewrite Hop; assumption).
    + rewrite path_keys_length. exact Hnl.
    + intros _. exact H4.
Qed.

(* returned data reaches the originator's consumer unchanged, attributed to the outside source the exit saw,
   under this circuit's id *)
Lemma backward_intact_l (p : path) source data nsx rnd nss nso :
  aead_correct enc dec -> backward_ready p -> c_hs (p_circ p) = None ->
  addr_ok false source = true -> bytes_okb data = true ->
  existsb (Z.eqb 1) (n_handlers (p_origin p)) = true ->
  let a1 := first_addr (p_relays p) (p_xaddr p) in
  let prev := last_sender (p_relays p) (p_oaddr p) in
  exists (links : list bytes),
    tunnel_data enc (p_exit p) (p_xsock p) source data nsx = Ok (p_exit p, [Send prev (hd [] links)])
    /\ through enc dec (rev (p_relays p)) (p_xaddr p) prev (hd [] links) rnd nss
       = Some (a1, p_oaddr p, nth (length (p_relays p)) links [], List.tl links)
    /\ length links = path_len p
    /\ on_packet enc dec (p_origin p) a1 (nth (length (p_relays p)) links []) rnd nso
       = Ok (p_origin p,
             if could_be_ipv8 data && negb (is_e2e (c_ctype (p_circ p))) then
               if bytes_eqb (p_pfx p) (slice data None (Some 22)) then
                 match idx data 22 with
                 | Ok m => if existsb (Z.eqb m) (n_data_ids (p_origin p)) then [Reinject source data (p_cid p)] else []
                 | Raise _ => []
                 end
               else if n_tunnel_ep (p_origin p) then [NotifyOther source data] else []
             else [RawData (p_cid p) source data]).
Proof.
  intros C Hr Hhs Hs Hb Hh a1 prev.
  assert (Hnull : addr_ok false null_addr = true) by reflexivity.
  destruct (data_packable null_addr source data Hnull Hs Hb) as [rest Hpk].
  destruct (backward_transport_l p 1 rest nsx rnd nss nso C Hr Hhs ltac:(discriminate)) as (links & nl & Hsd & Ht & Hl & _ & _ & Hx).
  exists links. split; [|split; [|split]]; try assumption.
  - destruct Hr as (_ & (_ & Hxcid & _ & _ & _ & Hxi & _ & Hxa & _) & _).
    unfold tunnel_data, send_data. rewrite fmt_data_eq, Hxi, Hxa. fold prev.
    rewrite (send_cell_packed key nonce enc (p_exit p) prev (p_xcid p) 1 tail_data _ rest nsx Hxcid Hpk eq_refl).
    exact Hsd.
  - fold a1 in Hx. rewrite Hx. clear Hx Hsd Ht.
    destruct Hr as ((Hp & Hop & Hcid & Hoa & Hok & (h0 & Hh0 & Ha0) & Hor & Hoe & Hom) & _ & _).
    rewrite <- Hop in Hp |- *. rewrite cell_dispatch, Hh by (assumption || discriminate).
    cbn [negb Z.eqb Pos.eqb].
    rewrite (on_data_origin key (p_origin p) a1 (p_cid p) null_addr source data rest (p_circ p) h0); try assumption.
    reflexivity.
Qed.

(* a node that registered no message as acceptable from a data message (the plain TunnelCommunity) executes nothing
   of what the outside world returns in the shape of its own overlay's messages: dropped, state unchanged *)
Lemma outside_control_message_dropped_l (p : path) source data nsx rnd nss nso :
  aead_correct enc dec -> backward_ready p -> c_hs (p_circ p) = None ->
  addr_ok false source = true -> bytes_okb data = true ->
  existsb (Z.eqb 1) (n_handlers (p_origin p)) = true ->
  could_be_ipv8 data = true -> is_e2e (c_ctype (p_circ p)) = false ->
  bytes_eqb (p_pfx p) (slice data None (Some 22)) = true -> n_data_ids (p_origin p) = [] ->
  let a1 := first_addr (p_relays p) (p_xaddr p) in
  let prev := last_sender (p_relays p) (p_oaddr p) in
  exists (links : list bytes),
    tunnel_data enc (p_exit p) (p_xsock p) source data nsx = Ok (p_exit p, [Send prev (hd [] links)])
    /\ through enc dec (rev (p_relays p)) (p_xaddr p) prev (hd [] links) rnd nss
       = Some (a1, p_oaddr p, nth (length (p_relays p)) links [], List.tl links)
    /\ on_packet enc dec (p_origin p) a1 (nth (length (p_relays p)) links []) rnd nso = Ok (p_origin p, []).
Proof.
  intros C Hr Hhs Hs Hb Hh Hcb He Hpf Hw a1 prev.
  destruct (backward_intact_l p source data nsx rnd nss nso C Hr Hhs Hs Hb Hh) as (links & H1 & H2 & _ & H4).
  exists links. split; [exact H1|]. split; [exact H2|]. fold a1 in H4. rewrite H4, Hcb, He, Hpf, Hw. cbn [negb andb].
  destruct (idx data 22); reflexivity.
Qed.

(* a forward relay neither forwards nor changes state for a body not made with its layer key *)
Lemma tamper_relay_dropped_l (nd : node key) src cid r k body early rnd ns :
  aead_authentic enc dec -> length (n_prefix nd) = 22%nat -> cid_ok cid ->
  assoc cid (n_relays nd) = Some r -> rr_rdv r = false -> rr_dir r = FORWARD -> h_keys (rr_hop r) = Some k ->
  (forall n m, body <> enc k FORWARD n m) ->
  on_packet enc dec nd src (cell_to_bin (n_prefix nd) (mkCell cid body false early)) rnd ns = Ok (nd, []).
Proof.
  intros A Hp Hc Ha Hr Hd Hk Hne.
  apply (relay_forward_drop key nonce enc dec nd src cid r k body early rnd ns Hp Hc Ha Hr Hd Hk).
  apply (not_enc_no_dec key nonce enc dec); assumption.
Qed.

Lemma tamper_exit_dropped_l (nd : node key) src cid es k body early rnd ns :
  aead_authentic enc dec -> length (n_prefix nd) = 22%nat -> cid_ok cid ->
  assoc cid (n_relays nd) = None -> assoc cid (n_exits nd) = Some es -> h_keys (es_hop es) = Some k ->
  (forall n m, body <> enc k FORWARD n m) ->
  on_packet enc dec nd src (cell_to_bin (n_prefix nd) (mkCell cid body false early)) rnd ns = Ok (nd, []).
Proof.
  intros A Hp Hc Hr He Hk Hne.
  apply (exit_drops key nonce enc dec nd src cid es k body early rnd ns Hp Hc Hr He Hk).
  apply (not_enc_no_dec key nonce enc dec); assumption.
Qed.

End Props.
