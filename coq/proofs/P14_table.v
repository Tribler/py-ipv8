(* C14 - the structural invariant of the routing table (a full binary tree whose leaves hold valid
   buckets and whose inner nodes lie on the path of our own identifier) and its preservation by
   RoutingTable.add (with the fuel bound), remove_bad_nodes and status changes. *)
From Coq Require Import ZArith List Bool Arith Lia.
From IPV8V Require Import lib.PyErr model.M14_routing spec.S14_kademlia proofs.P14_bits proofs.P14_trie proofs.P14_bucket.
Import ListNotations.

Definition leaf (b : bucket) : trie bucket := TNode (Some b) Empty Empty.

Lemma tfind_leaf_below b s : tfind (leaf b) s = match s with [] => leaf b | _ => Empty end.
Proof. destruct s as [|x s]; [reflexivity|]. cbn. destruct x; apply tfind_Empty. Qed.

Section TableFacts.
Variable W : nat.
Variable cap : nat.
Variable me : bits.                      (* RoutingTable.my_node_id *)

Notation bucket_ok := (bucket_ok W cap).

(* t is the sub-tree found at path p *)
Fixpoint wf (p : bits) (t : trie bucket) : Prop :=
  match t with
  | Empty => False
  | TNode (Some b) c0 c1 => c0 = Empty /\ c1 = Empty /\ bucket_ok p b
  | TNode None c0 c1 => starts_with p me = true /\ wf (p ++ [false]) c0 /\ wf (p ++ [true]) c1
  end.

Lemma wf_leaf p b : wf p (leaf b) <-> bucket_ok p b.
Proof. cbn. tauto. Qed.

Lemma wf_inv p t : wf p t ->
  (exists b, t = leaf b /\ bucket_ok p b) \/
  (exists c0 c1, t = TNode None c0 c1 /\ starts_with p me = true /\ forall x, wf (p ++ [x]) (child x t)).
Proof.
  destruct t as [|[b|] c0 c1]; cbn [wf]; [intros [] | intros (-> & -> & OK); left; exists b; split; [reflexivity | exact OK] | intros (Hm & H0 & H1); right].
  exists c0, c1. split; [reflexivity|]. split; [exact Hm|]. intros []; assumption.
Qed.

Lemma wf_len t : forall p, wf p t -> (length p <= W)%nat.
Proof.
  induction t as [|w c0 IH0 c1 IH1]; intros p H; [destruct H|].
  destruct w as [b|]; cbn in H.
  - destruct H as (_ & _ & OK). exact (bucket_ok_len W cap p b OK).
  - destruct H as (_ & H0 & _). apply IH0 in H0. rewrite app_length in H0. cbn in H0. lia.
Qed.

Lemma wf_inner_len p c0 c1 : wf p (TNode None c0 c1) -> (length p < W)%nat.
Proof. intros (_ & H0 & _). apply wf_len in H0. rewrite app_length in H0. cbn in H0. lia. Qed.

(* ---- get_bucket *)
Lemma lpi_from_leaf b r : lpi_from (leaf b) r = Some ([], b).
Proof. destruct r as [|[] r]; reflexivity. Qed.

Lemma lpi_leaf b i : lpi (leaf b) i = None.
Proof. destruct i as [|[] i]; reflexivity. Qed.

Lemma lpi_from_ok r : forall p t,
  wf p t -> (length p + length r = W)%nat ->
  exists k b, lpi_from t r = Some (k, b) /\ starts_with k r = true /\ tfind t k = leaf b /\ bucket_ok (p ++ k) b.
Proof.
  induction r as [|x r IH]; intros p t H L; destruct (wf_inv p t H) as [(b & -> & OK)|(c0 & c1 & -> & _ & Hc)].
  - exists [], b. rewrite lpi_from_leaf, app_nil_r. auto.
  - pose proof (wf_inner_len _ _ _ H). cbn in L. lia.
  - exists [], b. rewrite lpi_from_leaf, app_nil_r. auto.
  - destruct (IH (p ++ [x]) _ (Hc x)) as (k & b & E & S & F & OK); [rewrite app_length; cbn in *; lia|].
    exists (x :: k), b. cbn [lpi_from child] in E |- *. rewrite E. rewrite snoc_app in OK.
    cbn [starts_with tfind child]. rewrite eqb_reflx, S. auto.
Qed.

(* below an inner root the loop of longest_prefix_item is the one that starts at the root *)
Lemma lpi_inner (c0 c1 : trie bucket) x r : lpi (TNode None c0 c1) (x :: r) = lpi_from (TNode None c0 c1) (x :: r).
Proof. cbn. destruct (lpi_from _ r) as [[]|]; reflexivity. Qed.

Lemma find_bucket_ok t i :
  wf [] t -> length i = W ->
  exists k b, find_bucket t i = Ok (k, b) /\ starts_with k i = true /\ tfind t k = leaf b /\ bucket_ok k b.
Proof.
  intros H L. destruct (wf_inv [] t H) as [(b & -> & OK)|(c0 & c1 & -> & _)].
  - exists [], b. unfold find_bucket.
    rewrite lpi_leaf. cbn. auto.
  - pose proof (wf_inner_len _ _ _ H) as Lp. destruct i as [|x i]; [cbn in *; lia|].
    destruct (lpi_from_ok (x :: i) [] _ H L) as (k & b & E & Hk). unfold find_bucket. rewrite lpi_inner, E. eauto.
Qed.

(* the prefix closest_nodes starts from is the key get_bucket finds *)
Lemma find_bucket_prefix t i k b :
  find_bucket t i = Ok (k, b) -> match lpi t i with Some (p, _) => p | None => [] end = k.
Proof.
  unfold find_bucket. destruct (lpi t i) as [[p a]|]; [intros E; injection E as -> _; reflexivity|].
  destruct (tget t []); cbn; [|discriminate]. intros E. injection E as <- _. reflexivity.
Qed.

(* ---- replacing the bucket object of a leaf *)
Lemma wf_tset_leaf k : forall p t b b',
  wf p t -> tfind t k = leaf b -> bucket_ok (p ++ k) b' ->
  wf p (tset t k b') /\ tfind (tset t k b') k = leaf b'.
Proof.
  induction k as [|x k IH]; intros p t b b' H F OK.
  - cbn in F. subst t. rewrite app_nil_r in OK. cbn. auto.
  - destruct (wf_inv p t H) as [(a & -> & _)|(c0 & c1 & -> & Hm & Hc)]; [rewrite tfind_leaf_below in F; discriminate|].
    rewrite <- snoc_app in OK. destruct (IH _ _ _ _ (Hc x) F OK) as [A B]. pose proof (Hc (negb x)) as Ho.
    destruct x; cbn in A, B, Ho |- *; auto.
Qed.

(* ---- the split: two new leaves are stored below a leaf, then the leaf's own value is deleted *)
Lemma wf_split k : forall p t b b0 b1,
  wf p t -> tfind t k = leaf b -> starts_with (p ++ k) me = true ->
  bucket_ok (p ++ k ++ [false]) b0 -> bucket_ok (p ++ k ++ [true]) b1 ->
  exists t', tdel_aux (tset (tset t (k ++ [false]) b0) (k ++ [true]) b1) k = Some t' /\
             wf p t' /\ tfind t' k = TNode None (leaf b0) (leaf b1).
Proof.
  induction k as [|x k IH]; intros p t b b0 b1 H F Hm OK0 OK1.
  - cbn in F. subst t. rewrite app_nil_r in Hm. cbn [app] in *.
    exists (TNode None (leaf b0) (leaf b1)). cbn. auto 10.
  - destruct (wf_inv p t H) as [(a & -> & _)|(c0 & c1 & -> & Hp & Hc)]; [rewrite tfind_leaf_below in F; discriminate|].
    cbn [app] in OK0, OK1. rewrite <- (snoc_app p x) in Hm, OK0, OK1.
    destruct (IH _ _ _ _ _ (Hc x) F Hm OK0 OK1) as (c' & D & Wc & Fc). pose proof (Hc (negb x)) as Ho.
    (* the node above is kept by the pruning: its child c' is not empty *)
    assert (Nc : c' <> Empty) by (destruct c'; [destruct Wc | discriminate]).
    exists (TNode None (if x then c0 else c') (if x then c' else c1)).
    destruct x; cbn [app tset child negb] in *; rewrite tdel_aux_cons, D, prune_keep by auto;
      cbn [wf tfind child]; auto 10.
Qed.

(* a leaf key that is a prefix of i lies strictly below every inner node on the path of i *)
Lemma leaf_below_inner t k k' b c0 c1 i :
  tfind t k = TNode None c0 c1 -> tfind t k' = leaf b ->
  starts_with k i = true -> starts_with k' i = true -> (length k < length k')%nat.
Proof.
  intros Fk Fk' Sk Sk'.
  destruct (Nat.lt_ge_cases (length k) (length k')) as [|Ge]; [assumption|exfalso].
  pose proof (starts_with_comparable _ _ _ Sk' Sk Ge) as C. apply starts_with_iff in C as [s ->].
  rewrite tfind_app, Fk', tfind_leaf_below in Fk. destruct s; discriminate.
Qed.

(* ---- RoutingTable.add, one level: the bucket b found under key k takes the node; if it refuses and lies on our
   own path it is split, the halves are stored, its own entry is deleted, and the table is well formed again *)
Lemma add_level (cap_pos : (0 < cap)%nat) t n k b b' ok :
  wf [] t -> length (nid n) = W -> tfind t k = leaf b -> bucket_ok k b -> starts_with k (nid n) = true ->
  badd cap b n = (b', ok) ->
  bucket_ok k b' /\ wf [] (tset t k b') /\
  (ok = false -> owns b' me = true ->
   (length k < W)%nat /\
   exists b0 b1 t4, bsplit cap b' = Some (b0, b1) /\
     tdel (tset (tset (tset t k b') (k ++ [false]) b0) (k ++ [true]) b1) k = Ok t4 /\
     wf [] t4 /\ tfind t4 k = TNode None (leaf b0) (leaf b1)).
Proof.
  intros H Ln Fk OK Sk B.
  assert (OK' : bucket_ok k b') by (pose proof (badd_ok W cap k b n OK Ln) as Q; rewrite B in Q; exact Q).
  destruct (wf_tset_leaf k [] t b b' H Fk OK') as [W1 F1].
  split; [exact OK'|]. split; [exact W1|]. intros -> Om.
  assert (O : owns b (nid n) = true) by (unfold owns; rewrite (bucket_ok_prefix W cap k b OK); exact Sk).
  destruct (bsplit_some cap b' (badd_refused cap b n b' B O)) as (b0 & b1 & Sp).
  assert (Lk : (length k < W)%nat).
  { pose proof (bucket_ok_len W cap k b OK) as Lk. destruct (Nat.eq_dec (length k) W) as [Eq|]; [|lia].
    pose proof (badd_full_depth W cap k b n OK Eq Ln O cap_pos) as Q. rewrite B in Q. discriminate. }
  destruct (bsplit_ok W cap k b' b0 b1 OK' Lk Sp) as [OK0 OK1].
  unfold owns in Om. rewrite (bucket_ok_prefix W cap k b' OK') in Om.
  destruct (wf_split k [] _ b' b0 b1 W1 F1 Om OK0 OK1) as (t4 & D & W4 & F4).
  split; [exact Lk|]. exists b0, b1, t4. unfold tdel. rewrite D.
  destruct t4; [destruct W4 | auto].
Qed.

Lemma rt_add_fuel_ok (cap_pos : (0 < cap)%nat) fuel : forall t n,
  wf [] t -> length (nid n) = W ->
  (forall k b, find_bucket t (nid n) = Ok (k, b) -> (W - length k < fuel)%nat) ->
  exists t' r, rt_add_fuel cap fuel (mkRT me t) n = Ok (mkRT me t', r) /\ wf [] t'.
Proof.
  induction fuel as [|f IH]; intros t n H Ln Hf; destruct (find_bucket_ok _ _ H Ln) as (k & b & E & Sk & Fk & OK);
    pose proof (Hf _ _ E) as Hfuel.
  { lia. }
  cbn [rt_add_fuel tr own]. rewrite E. cbn [bind].
  destruct (badd cap b n) as [b' ok] eqn:B.
  destruct (add_level cap_pos t n k b b' ok H Ln Fk OK Sk B) as (OK' & W1 & Hs).
  destruct ok; [eauto|]. destruct (owns b' me); [|eauto].
  destruct (Hs eq_refl eq_refl) as (Lk & b0 & b1 & t4 & Sp & D & W4 & F4). rewrite Sp, (bucket_ok_prefix W cap k b' OK'), D. cbn [bind].
  apply IH; auto.
  (* the bucket that owns the node now lies below the split position *)
  intros k2 b2 E2. destruct (find_bucket_ok _ _ W4 Ln) as (k3 & b3 & E3 & S3 & F3 & _).
  rewrite E2 in E3. injection E3 as <- <-.
  pose proof (leaf_below_inner _ _ _ _ _ _ _ F4 F3 Sk S3). lia.
Qed.

Lemma rt_add_ok (cap_pos : (0 < cap)%nat) t n :
  wf [] t -> length (nid n) = W ->
  exists t' r, rt_add W cap (mkRT me t) n = Ok (mkRT me t', r) /\ wf [] t'.
Proof. intros H L. apply (rt_add_fuel_ok cap_pos); auto. intros. lia. Qed.

(* ---- remove_bad_nodes *)
Lemma wf_remove_bad t : forall p, wf p t -> wf p (tmap drop_bad t).
Proof.
  induction t as [|w c0 IH0 c1 IH1]; intros p H; [destruct H|]. destruct w as [b|]; cbn in H |- *.
  - destruct H as (-> & -> & OK). split; [reflexivity|]. split; [reflexivity|]. apply drop_bad_ok. exact OK.
  - destruct H as (Hm & H0 & H1). auto.
Qed.

(* ---- status change of a node of the table *)
Lemma rt_touch_ok t i rtt failed :
  wf [] t -> length i = W ->
  exists t', rt_touch (mkRT me t) i rtt failed = Ok (mkRT me t') /\ wf [] t'.
Proof.
  intros H L. destruct (find_bucket_ok _ _ H L) as (k & b & E & Sk & Fk & OK).
  unfold rt_touch. cbn [tr own]. rewrite E. cbn [bind].
  eexists. split; [reflexivity|].
  eapply wf_tset_leaf; eauto. cbn [app]. apply bucket_ok_same_ids; [exact OK | apply set_status_ids].
Qed.

(* ---- histories *)
Notation op_ok := (op_ok W).

Definition inv (rt : rtable) : Prop := own rt = me /\ wf [] (tr rt).

Lemma inv_mkRT rt : inv rt -> exists t, rt = mkRT me t /\ wf [] t.
Proof. destruct rt as [o t]. intros [Eo H]. cbn in Eo, H. subst o. eauto. Qed.

Lemma inv_init : inv (rt_init me).
Proof.
  split; [reflexivity|]. cbn. split; [reflexivity|]. split; [reflexivity|]. apply bucket_ok_empty. cbn. lia.
Qed.

Lemma step_ok (cap_pos : (0 < cap)%nat) rt o : inv rt -> op_ok o -> exists rt', step W cap rt o = Ok rt' /\ inv rt'.
Proof.
  intros I Ho. destruct (inv_mkRT rt I) as (t & -> & H). destruct o as [n| |i rtt failed]; cbn [step].
  - destruct (rt_add_ok cap_pos t n H Ho) as (t' & r & E & H'). rewrite E. cbn. eexists. split; [reflexivity|]. split; auto.
  - eexists. split; [reflexivity|]. split; [reflexivity|]. cbn. apply wf_remove_bad. exact H.
  - destruct (rt_touch_ok t i rtt failed H Ho) as (t' & E & H'). rewrite E. eexists. split; [reflexivity|]. split; auto.
Qed.

Lemma run_ok (cap_pos : (0 < cap)%nat) ops : forall rt, inv rt -> Forall op_ok ops -> exists rt', run W cap rt ops = Ok rt' /\ inv rt'.
Proof.
  induction ops as [|o ops IH]; intros rt I F; cbn [run]; [eauto|].
  pose proof (Forall_inv F) as Ho. pose proof (Forall_inv_tail F) as F'.
  destruct (step_ok cap_pos rt o I Ho) as (rt1 & E & I1). rewrite E. cbn [bind]. apply IH; auto.
Qed.

Lemma wf_tfind q : forall p t, wf p t -> tfind t q <> Empty -> wf (p ++ q) (tfind t q).
Proof.
  induction q as [|x q IH]; intros p t H NE; [rewrite app_nil_r; exact H|].
  destruct (wf_inv p t H) as [(b & -> & _)|(c0 & c1 & -> & _ & Hc)]; [rewrite tfind_leaf_below in NE; contradiction|].
  rewrite <- snoc_app. apply (IH _ _ (Hc x) NE).
Qed.

Lemma wf_bucket_at k : forall p t b,
  wf p t -> tget t k = Ok b ->
  tfind t k = leaf b /\ bucket_ok (p ++ k) b /\
  (k = [] \/ exists q x, k = q ++ [x] /\ starts_with (p ++ q) me = true).
Proof.
  induction k as [|x k IH]; intros p t b H G;
    destruct (wf_inv p t H) as [(a & -> & OK)|(c0 & c1 & -> & Hm & Hc)]; try discriminate.
  - injection G as <-. rewrite app_nil_r. auto.
  - unfold tget in G. rewrite tfind_leaf_below in G. discriminate.
  - destruct (IH _ _ _ (Hc x) G) as (F & OK & Path). rewrite snoc_app in OK.
    split; [exact F|]. split; [exact OK|]. right.
    destruct Path as [->|(q & y & -> & Hq)].
    + exists [], x. rewrite app_nil_r. auto.
    + exists (x :: q), y. rewrite snoc_app in Hq. auto.
Qed.

Lemma wf_prefix_free t k1 k2 b1 b2 :
  wf [] t -> tget t k1 = Ok b1 -> tget t k2 = Ok b2 -> starts_with k1 k2 = true -> k1 = k2.
Proof.
  intros H G1 G2 S. apply starts_with_iff in S as [s ->].
  destruct (wf_bucket_at _ _ _ _ H G1) as (F1 & _).
  unfold tget in G2. rewrite tfind_app, F1, tfind_leaf_below in G2.
  destruct s; [symmetry; apply app_nil_r | discriminate].
Qed.

(* exactly one bucket owns a W-bit identifier, and get_bucket returns it *)
Lemma wf_owner t i :
  wf [] t -> length i = W ->
  exists k b, find_bucket t i = Ok (k, b) /\ tget t k = Ok b /\ starts_with k i = true /\
              (forall k' b', tget t k' = Ok b' -> starts_with k' i = true -> k' = k).
Proof.
  intros H L. destruct (find_bucket_ok _ _ H L) as (k & b & E & S & F & OK).
  assert (G : tget t k = Ok b) by (unfold tget; rewrite F; reflexivity).
  exists k, b. split; [exact E|]. split; [exact G|]. split; [exact S|].
  intros k' b' G' S'.
  destruct (Nat.le_ge_cases (length k') (length k)) as [Le|Ge].
  - apply (wf_prefix_free t k' k b' b H G' G), (starts_with_comparable _ _ i S' S Le).
  - symmetry. apply (wf_prefix_free t k k' b b' H G G'), (starts_with_comparable _ _ i S S' Ge).
Qed.

Lemma all_nodes_node w c0 c1 :
  all_nodes (TNode w c0 c1) = (match w with Some b => bnodes b | None => [] end) ++ all_nodes c0 ++ all_nodes c1.
Proof.
  unfold all_nodes. cbn [tvalues]. rewrite !flat_map_app. destruct w; cbn; rewrite ?app_nil_r; reflexivity.
Qed.

Lemma wf_all_nodes t : forall p n,
  wf p t -> In n (all_nodes t) -> length (nid n) = W /\ starts_with p (nid n) = true.
Proof.
  induction t as [|w c0 IH0 c1 IH1]; intros p n H Hn; [destruct H|].
  rewrite all_nodes_node in Hn. destruct w as [b|].
  - destruct H as (-> & -> & OK). cbn in Hn. rewrite app_nil_r in Hn. apply (bucket_ok_id W cap p b OK), in_map, Hn.
  - destruct H as (_ & H0 & H1). cbn [app] in Hn. apply in_app_iff in Hn as [Hn|Hn].
    + destruct (IH0 _ _ H0 Hn) as [L S]. split; [exact L|]. eapply starts_with_app_l; eauto.
    + destruct (IH1 _ _ H1 Hn) as [L S]. split; [exact L|]. eapply starts_with_app_l; eauto.
Qed.

Lemma wf_NoDup t : forall p, wf p t -> NoDup (map nid (all_nodes t)).
Proof.
  induction t as [|w c0 IH0 c1 IH1]; intros p H; [destruct H|].
  rewrite all_nodes_node. destruct w as [b|].
  - destruct H as (-> & -> & OK). cbn. rewrite app_nil_r. exact (bucket_ok_NoDup W cap p b OK).
  - destruct H as (_ & H0 & H1). cbn [app]. rewrite map_app. apply NoDup_app_disj; eauto.
    intros i Hi0 Hi1. apply in_map_iff in Hi0 as (n0 & <- & Hn0). apply in_map_iff in Hi1 as (n1 & E & Hn1).
    destruct (wf_all_nodes _ _ _ H0 Hn0) as [_ S0]. destruct (wf_all_nodes _ _ _ H1 Hn1) as [_ S1].
    rewrite E in S1. apply (starts_with_snoc_neg p false) in S0. cbn [negb] in S0. congruence.
Qed.

Lemma all_nodes_tfind t : forall q n, In n (all_nodes (tfind t q)) -> In n (all_nodes t).
Proof.
  intros q; revert t; induction q as [|x q IH]; intros t n H; [exact H|].
  destruct t as [|w c0 c1]; [cbn in H; rewrite tfind_Empty in H; exact H|].
  cbn [tfind child] in H. apply IH in H. rewrite all_nodes_node, !in_app_iff. destruct x; auto.
Qed.

(* the nodes stored below path q are exactly the nodes of the table whose identifier starts with q *)
Lemma all_nodes_tfind_iff q : forall p t n,
  wf p t -> tfind t q <> Empty -> In n (all_nodes t) ->
  (In n (all_nodes (tfind t q)) <-> starts_with (p ++ q) (nid n) = true).
Proof.
  intros p t n H NE Hn. split; [apply (wf_all_nodes _ _ _ (wf_tfind q p t H NE))|].
  revert p t H NE Hn. induction q as [|x q IH]; intros p t H NE Hn S; [exact Hn|].
  destruct (wf_inv p t H) as [(b & -> & _)|(c0 & c1 & -> & _ & Hc)]; [rewrite tfind_leaf_below in NE; contradiction|].
  rewrite <- snoc_app in S. apply (IH _ _ (Hc x) NE); [|exact S].
  (* n sits in the child x: every identifier in the other child starts with p ++ [negb x] *)
  assert (Hx : In n (all_nodes (child x (TNode None c0 c1))) \/ In n (all_nodes (child (negb x) (TNode None c0 c1)))).
  { rewrite all_nodes_node in Hn. cbn [app] in Hn. apply in_app_iff in Hn. destruct x; cbn; tauto. }
  destruct Hx as [Hx|Hx]; [exact Hx|exfalso].
  destruct (wf_all_nodes _ _ _ (Hc (negb x)) Hx) as [_ So].
  apply starts_with_app_l, starts_with_snoc_neg in S. congruence.
Qed.

End TableFacts.
