(* C08: dictionary lemmas, and for each building block of the handshake (sending a create / extend, joining,
   forwarding an extend, the retry timeout) a lemma listing everything it can do.  A lemma named foo_l is restated
   as theorem foo in props/C08.v or props/C08x.v. *)
From Coq Require Import ZArith List.
From IPV8V Require Import lib.PyErr model.M08_handshake.
Import ListNotations.
Open Scope Z_scope.

Section AL.
Context {V : Type}.
Implicit Types (l : list (Z * V)).

Lemma aget_adel_same k l : aget k (adel k l) = None.
Proof.
  induction l as [|[k' v] l IH]; simpl; auto.
  destruct (k =? k') eqn:E; simpl; auto. rewrite E. auto.
Qed.

Lemma aget_adel_other k k' l : k <> k' -> aget k (adel k' l) = aget k l.
Proof.
  intros N. induction l as [|[k2 v] l IH]; simpl; auto.
  destruct (k' =? k2) eqn:E.
  - apply Z.eqb_eq in E. subst. destruct (k =? k2) eqn:E2; auto. apply Z.eqb_eq in E2. congruence.
  - simpl. rewrite IH. auto.
Qed.

Lemma aget_aset_same k v l : aget k (aset k v l) = Some v.
Proof. unfold aset. simpl. rewrite Z.eqb_refl. auto. Qed.

Lemma aget_aset_other k k' v l : k <> k' -> aget k (aset k' v l) = aget k l.
Proof.
  intros N. unfold aset. simpl. destruct (k =? k') eqn:E.
  - apply Z.eqb_eq in E. congruence.
  - apply aget_adel_other. auto.
Qed.

Lemma aget_aset k k' v l : aget k (aset k' v l) = if k =? k' then Some v else aget k l.
Proof.
  destruct (k =? k') eqn:E.
  - apply Z.eqb_eq in E. subst. apply aget_aset_same.
  - apply Z.eqb_neq in E. apply aget_aset_other. auto.
Qed.

Lemma aget_adel k k' l : aget k (adel k' l) = if k =? k' then None else aget k l.
Proof.
  destruct (k =? k') eqn:E.
  - apply Z.eqb_eq in E. subst. apply aget_adel_same.
  - apply Z.eqb_neq in E. apply aget_adel_other. auto.
Qed.

Lemma ahas_true k l : ahas k l = true <-> exists v, aget k l = Some v.
Proof.
  unfold ahas. destruct (aget k l) as [v|]; split; [exists v; reflexivity|reflexivity|discriminate|intros [v H]; discriminate].
Qed.

Lemma ahas_false k l : ahas k l = false <-> aget k l = None.
Proof. unfold ahas. destruct (aget k l); split; intros H; auto; discriminate. Qed.
End AL.

Definition prefix {A} (a b : list A) : Prop := exists t, b = a ++ t.
Lemma prefix_refl {A} (a : list A) : prefix a a.
Proof. exists []. rewrite app_nil_r. auto. Qed.
Lemma prefix_trans {A} (a b c : list A) : prefix a b -> prefix b c -> prefix a c.
Proof. intros [t ->] [u ->]. exists (t ++ u). rewrite app_assoc. auto. Qed.
Lemma prefix_app {A} (a t : list A) : prefix a (a ++ t).
Proof. exists t; auto. Qed.

Section Base.
Context {C : crypto}.
Implicit Types (n : @node C) (c : @circuit C).

(* the hop list of circuit k, if the originator has such a circuit *)
Definition hops_of n (k : Z) : option (list (@hop C)) :=
  match aget k (n_circ n) with Some c => Some (c_hops c) | None => None end.

(* every circuit has the same hop list *)
Definition same_hops n n' : Prop := forall k, hops_of n' k = hops_of n k.

Lemma same_hops_refl n : same_hops n n.
Proof. intro; auto. Qed.
Lemma same_hops_trans n1 n2 n3 : same_hops n1 n2 -> same_hops n2 n3 -> same_hops n1 n3.
Proof. intros A B k. rewrite B. apply A. Qed.

(* the state in which a create / extend has just been sent for circuit cid (record c): retry cache replaced
   by r, unverified hop u *)
Definition armed n (cid : Z) c (u : @hop C) (r : retry) : @node C :=
  let n1 := set_retry n (adel cid (n_retry n)) in
  set_retry (set_circ n1 (aset cid (with_hops_unv c (c_hops c) (Some u)) (n_circ n1))) (aset cid r (n_retry n1)).

Lemma sic_cases n cid cands tries o :
  let r := send_initial_create n cid cands tries o in
  r = done n [] \/ r = fail IndexError (set_retry n (adel cid (n_retry n))) []
  \/ exists c first alt,
       aget cid (n_circ n) = Some c /\ hd_error cands = Some first
       /\ r = done (armed n cid c (mkHop first None (Some (sk_of C (o_x o)))) (mkRetry (o_pid o) (tries - 1) true alt []))
                   [Send (p_addr first) (MCreate cid (o_pid o) (n_pkbin n) (pub C (sk_of C (o_x o))))].
Proof.
  unfold send_initial_create. destruct (aget cid (n_circ n)) as [c|]; [|left; reflexivity].
  destruct cands as [|f tl]; [right; left; reflexivity|]. right. right. do 3 eexists. repeat split.
Qed.

Lemma sext_cases n cid cands tries o :
  let r := send_extend n cid cands tries o in
  (exists e, r = (n, [], e)) \/ r = done (schedule_rm n cid) []
  \/ exists c t alt fa addr,
       aget cid (n_circ n) = Some c
       /\ r = done (armed n cid c (mkHop (mkPeer t 0) None (Some (sk_of C (o_x o)))) (mkRetry (o_pid o) (tries - 1) false [] alt))
                   [Send fa (MExtend cid (o_pid o) t (pub C (sk_of C (o_x o))) addr)].
Proof.
  unfold send_extend. destruct (aget cid (n_circ n)) as [c|]; [|left; eexists; reflexivity].
  match goal with |- context [match ?s with Raise e => _ | Ok p => _ end] => destruct s as [[[[t a]|] f]|e] end.
  - right. right. do 5 eexists. repeat split.
  - right. left. reflexivity.
  - left. eexists. reflexivity.
Qed.

(* n' differs from n, as far as circuits and relay requests go, at most in the unverified hop of circuit cid *)
Definition touches_unv (cid : Z) n n' : Prop :=
  n_creq n' = n_creq n
  /\ (n_circ n' = n_circ n
      \/ exists c u, aget cid (n_circ n) = Some c /\ n_circ n' = aset cid (with_hops_unv c (c_hops c) u) (n_circ n)).

Lemma touches_same cid n n' : touches_unv cid n n' -> same_hops n n'.
Proof.
  intros [_ [E|(c & u & G & E)]] k; unfold hops_of; rewrite E; [reflexivity|].
  rewrite aget_aset. destruct (k =? cid) eqn:K; [|reflexivity]. apply Z.eqb_eq in K. subst. rewrite G. reflexivity.
Qed.

Lemma touches_other cid n n' k : touches_unv cid n n' -> k <> cid -> aget k (n_circ n') = aget k (n_circ n).
Proof. intros [_ [E|(c & u & _ & E)]] K; rewrite E; [reflexivity|]. apply aget_aset_other. exact K. Qed.

Lemma sic_touches n cid cands tries o : touches_unv cid n (st (send_initial_create n cid cands tries o)).
Proof.
  destruct (sic_cases n cid cands tries o) as [E|[E|(c & f & alt & G & _ & E)]]; rewrite E; split; try reflexivity;
    [left; reflexivity|left; reflexivity|]. right. exists c. eexists. split; [exact G|reflexivity].
Qed.

Lemma sext_touches n cid cands tries o : touches_unv cid n (st (send_extend n cid cands tries o)).
Proof.
  destruct (sext_cases n cid cands tries o) as [[e E]|[E|(c & t & alt & fa & ad & G & E)]]; rewrite E; split;
    try reflexivity; [left; reflexivity|left; reflexivity|]. right. exists c. eexists. split; [exact G|reflexivity].
Qed.

Lemma schedule_rm_same n cid : same_hops n (schedule_rm n cid).
Proof. intro; auto. Qed.

Lemma st_swallow (r : out C) : st (swallow r) = st r.
Proof. reflexivity. Qed.
Lemma acts_swallow (r : out C) : acts (swallow r) = acts r.
Proof. reflexivity. Qed.

Lemma retry_timeout_cases n cid o :
  let r := retry_timeout n cid o in
  r = done n []
  \/ exists rt, aget cid (n_retry n) = Some rt /\
      let n1 := set_retry n (adel cid (n_retry n)) in
      r = done n1 [] \/ r = done (schedule_rm n1 cid) []
      \/ exists c, aget cid (n_circ n) = Some c /\ c_closing c = false
          /\ ((r_initial rt = true /\ r = swallow (send_initial_create n1 cid (r_peers rt) (r_tries rt) o))
              \/ (r_initial rt = false /\ r = swallow (send_extend n1 cid (r_keys rt) (r_tries rt) o))).
Proof.
  unfold retry_timeout. destruct (aget cid (n_retry n)) as [rt|]; [|left; reflexivity]. right. exists rt. split; [reflexivity|].
  cbn [n_circ set_retry]. destruct (aget cid (n_circ n)) as [c|]; [|left; reflexivity].
  destruct (c_closing c) eqn:CL; [left; reflexivity|].
  destruct (r_initial rt) eqn:RI.
  - destruct (r_peers rt); [right; left; reflexivity|]. destruct (r_tries rt <? 1); [right; left; reflexivity|].
    right. right. exists c. auto.
  - destruct (r_keys rt); [right; left; reflexivity|]. destruct (r_tries rt <? 1); [right; left; reflexivity|].
    right. right. exists c. auto.
Qed.

Lemma retry_timeout_touches n cid o : touches_unv cid n (st (retry_timeout n cid o)).
Proof.
  destruct (retry_timeout_cases n cid o) as [E|(rt & _ & [E|[E|(c & _ & _ & [[_ E]|[_ E]])]])]; rewrite E;
    [split; [|left]; reflexivity ..| |].
  - exact (sic_touches (set_retry n (adel cid (n_retry n))) cid (r_peers rt) (r_tries rt) o).
  - exact (sext_touches (set_retry n (adel cid (n_retry n))) cid (r_keys rt) (r_tries rt) o).
Qed.

Lemma on_create_cases n src cid ident npk X o :
  let r := on_create n src cid ident npk X o in
  (exists e, r = (n, [], e))
  \/ exists s1 s2,
       dh C (sk_of C (o_x o)) X = Some s1 /\ dh C (n_sk n) X = Some s2
       /\ r = done (set_exit (set_dreq n (aset cid (mkDreq (mkPeer npk src) (dedup_peers [] (o_offer o))) (n_dreq n)))
                             (aset cid (mkHop (mkPeer npk src) (Some (kdf C s1 s2)) None) (n_exit n)))
                   [Send src (MCreated cid ident (pub C (sk_of C (o_x o))) (mac C s1 (pub C (sk_of C (o_x o))))
                                       (cenc_of C (kdf C s1 s2) (map p_key (o_offer o))))].
Proof.
  unfold on_create.
  destruct (negb (n_any_flag n)); [left; eexists; reflexivity|].
  destruct (ahas cid (n_dreq n)); [left; eexists; reflexivity|].
  destruct (orb (orb (ahas cid (n_circ n)) (ahas cid (n_relay n))) (ahas cid (n_exit n))); [left; eexists; reflexivity|].
  destruct (n_max_joined n <=? zlen (n_relay n) + zlen (n_exit n)); [left; eexists; reflexivity|].
  destruct (dh C (sk_of C (o_x o)) X) as [s1|]; [|left; eexists; reflexivity].
  destruct (dh C (n_sk n) X) as [s2|]; [|left; eexists; reflexivity].
  destruct (negb (valid_key C npk)); [left; eexists; reflexivity|].
  right. exists s1, s2. repeat split.
Qed.

Lemma on_extend_cases n src cid ident npk X addr o :
  let r := on_extend n src cid ident npk X addr o in
  (exists e, r = (n, [], e))
  \/ exists pv cd,
       (o_known o = None -> p_key cd = npk)
       /\ r = (set_creq n (aset (o_num o) (mkCreq ident (o_cid o) cid pv cd) (n_creq n)),
               [Send (p_addr cd) (MCreate (o_cid o) (o_num o) (n_pkbin n) X)], None).
Proof.
  unfold on_extend.
  destruct (negb (n_relay_flag n)); [left; eexists; reflexivity|].
  destruct (aget cid (n_dreq n)) as [rq|]; [|left; eexists; reflexivity].
  match goal with |- context [if ?b then _ else _] => destruct b end; [left; eexists; reflexivity|].
  match goal with |- context [match ?s with Raise e => _ | Ok p => _ end] => destruct s as [cd|e] eqn:CD end;
    [|left; eexists; reflexivity].
  match goal with |- context [match ?s with Raise e => _ | Ok p => _ end] => destruct s as [[pv|]|e] end;
    try (left; eexists; reflexivity).
  right. exists pv, cd. split; [|reflexivity].
  intros KN. unfold find_peer in CD. destruct (find (fun p => p_key p =? npk) (d_cands rq)) as [p|] eqn:F.
  - inversion CD; subst. apply find_some in F. destruct F as [_ F]. apply Z.eqb_eq in F. exact F.
  - rewrite KN in CD. destruct (valid_key C npk); inversion CD. reflexivity.
Qed.

Lemma sext_one_peer n cid cands tries o fa k i t X addr :
  In (Send fa (MExtend k i t X addr)) (acts (send_extend n cid cands tries o)) ->
  addr = 0 \/
  exists p, t = p_key p /\ addr = p_addr p
    /\ (o_fallback o = Some p \/ exists c, aget cid (n_circ n) = Some c /\ c_reqexit c = Some p).
Proof.
  unfold send_extend. destruct (aget cid (n_circ n)) as [c|] eqn:G; [|intros H; cbn in H; contradiction].
  destruct (if c_goal c - 1 =? zlen (c_hops c) then c_reqexit c else None) as [re|] eqn:RE.
  - intros [K|[]]. inversion K; subst. right. exists re. split; [reflexivity|]. split; [reflexivity|].
    right. exists c. split; [reflexivity|]. destruct (c_goal c - 1 =? zlen (c_hops c)); [exact RE|discriminate].
  - match goal with |- context [filter_cands ?ex cands] => destruct (filter_cands ex cands) as [f|e] end;
      [|intros H; cbn in H; contradiction].
    cbn [bind]. destruct f as [|t0 tl].
    + destruct (o_fallback o) as [p|] eqn:F; [|intros H; cbn in H; contradiction].
      intros [K|[]]. inversion K; subst. right. exists p. auto.
    + intros [K|[]]. inversion K; subst. left. reflexivity.
Qed.

End Base.

