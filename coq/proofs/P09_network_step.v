(* C09, path level - the frame property of a received cell and of every event of the node model. *)
From Coq Require Import ZArith List Bool Lia.
From IPV8V Require Import gen.G09_rules model.M09_reclaim spec.S09_reclaim proofs.P09_alist proofs.P09_special proofs.P09_main proofs.P09_more
  proofs.P09_network_frame proofs.P09_network_node.
Import ListNotations.
Open Scope Z_scope.

(* an own circuit that is still alive *)
Definition alive_at (s : node) (x : Z) : Prop :=
  exists c, aget x (circuits s) = Some c /\ c_closing c = false.

Section StepFrames.
Variable st : settings.
Variable I : Z -> bool.

Notation frame := (frame st I).
Notation harmless := (harmless I).
Notation closedI := (closedI I).
Notation no_I_cells := (no_I_cells I).

(* deferred bodies run before the node's clock moves *)
Lemma on_time_starts s t d : on_time st s t = true -> In d (starts s) -> now s = t.
Proof. intros Ht H. destruct (on_time_facts st s t Ht) as (_ & [E|E] & _); [exact E | rewrite E in H; destruct H]. Qed.

(* the keys whose activity stamp a cell with id `cid` may advance: its own (exit socket: ping, data) and
   the partner route of the relay entry it is forwarded along *)
Definition cell_touch (s : node) (cid x : Z) : Prop :=
  x = cid \/ exists nxt, aget cid (relays s) = Some nxt /\ x = r_next nxt.

Definition cell_ok (s : node) (cid : Z) (cr : crypt) : Prop :=
  aget cid (relays s) = None -> forall m, cr = COk m -> handshake_free I cid m.

Definition cell_outs (s : node) (src cid : Z) (cr : crypt) (o : list out) : Prop :=
  forall d c e mm, In (OCell d c e mm) o -> I c = true ->
    (exists nxt, aget cid (relays s) = Some nxt /\ d = r_peer nxt /\ c = r_next nxt /\ mm = 0)
    \/ (aget cid (relays s) = None /\ d = src /\ c = cid /\ mm = MSG_PONG /\ cr = COk MPing
        /\ holds_id s cid = true).

Lemma cell_outs_nil s src cid cr : cell_outs s src cid cr [].
Proof. intros d c e mm []. Qed.

Definition cell_ok_l (s : node) (cid : Z) (cr : crypt) : Prop :=
  aget cid (relays s) = None -> forall m, cr = COk m -> handshake_free I cid m /\ handle_local I s cid m.

(* process_cell when the cell finds no relay entry: dropped, or dispatched and then the circuit stamped *)
Definition dispatch (s : node) (src cid : Z) (m : cellmsg) (ls : list Z) : node * list out :=
  match m with
  | MData a b c l => handle_data s src cid a b c l
  | _ => let '(s', o', _) := handle st s src cid m ls in (s', o')
  end.

Definition refresh (x len tnow : Z) (so : node * list out) : node * list out :=
  match aget x (circuits (fst so)) with
  | Some c => (set_circuits (aset x (c_with_ro (fun r => ro_down len (ro_beat tnow r)) c) (circuits (fst so))) (fst so),
               snd so)
  | None => so
  end.

Lemma recv_cell_unrelayed s src x plain early len cr ls :
  aget x (relays s) = None ->
  recv_cell st s src x plain early len cr ls = (s, [])
  \/ exists m, cr = COk m
       /\ recv_cell st s src x plain early len cr ls = refresh x len (now s) (dispatch s src x m ls).
Proof.
  intro Hr. unfold recv_cell. rewrite Hr.
  destruct (negb (ahas x (circuits s)) && negb (ahas x (exits s)) && negb plain); [left; reflexivity|].
  destruct cr as [| |m]; try (left; reflexivity).
  destruct (recv_drops_early early (msg_id m) (s_max_early st)); [left; reflexivity|].
  destruct (plain && negb (existsb (Z.eqb (msg_id m)) NO_CRYPTO_PACKETS)); [left; reflexivity|].
  right. exists m. split; [reflexivity|]. unfold refresh. fold (dispatch s src x m ls).
  destruct (dispatch s src x m ls) as [s1 o]. reflexivity.
Qed.

Lemma dispatch_now s src cid m ls : now (fst (dispatch s src cid m ls)) = now s.
Proof.
  unfold dispatch.
  destruct m as [ident|ident v p|ident|ident v p|a b c dl| | |mid];
    try (match goal with |- context [handle st s src cid ?M ls] =>
           pose proof (handle_now st s src cid M ls) as H; destruct (handle st s src cid M ls) as [[s' o'] l']; exact H end).
  exact (f_now _ _ _ _ _ (proj1 (handle_data_frame st (fun _ => false) (fun _ => True) s src cid a b c dl (fun _ => Logic.I)))).
Qed.

Lemma refresh_cell_frame s src cid cr len so :
  frame (cell_touch s cid) s (fst so) /\ cell_outs s src cid cr (snd so) ->
  frame (cell_touch s cid) s (fst (refresh cid len (now s) so))
  /\ cell_outs s src cid cr (snd (refresh cid len (now s) so)).
Proof.
  intros [F1 O1]. unfold refresh. destruct (aget cid (circuits (fst so))) as [c|] eqn:Ec; [|split; assumption].
  split; [|exact O1]. simpl. eapply frame_trans; [exact F1|]. apply frame_set_circuit. intros _. exists c.
  split; [exact Ec|]. simpl. repeat split; auto. right. split; [left; reflexivity|]. symmetry. apply (f_now _ _ _ _ _ F1).
Qed.

Lemma recv_cell_frame_l s src cid plain early len cr ls :
  cell_ok_l s cid cr ->
  frame (cell_touch s cid) s (fst (recv_cell st s src cid plain early len cr ls))
  /\ cell_outs s src cid cr (snd (recv_cell st s src cid plain early len cr ls)).
Proof.
  intros Hok. destruct (aget cid (relays s)) as [nxt|] eqn:En.
  - split.
    + unfold recv_cell. rewrite En.
      set (s1 := match aget (r_next nxt) (relays s) with
                 | Some this => set_relays (aset (r_next nxt) (r_with_ro (fun r => ro_down len (ro_beat (now s) r)) this) (relays s)) s
                 | None => s end).
      assert (F1 : frame (cell_touch s cid) s s1).
      { unfold s1. destruct (aget (r_next nxt) (relays s)) as [this|] eqn:Et; [|apply frame_refl].
        apply frame_set_relay; intros _.
        - exists this. split; [exact Et|]. split; [reflexivity|]. split; [reflexivity|].
          right. split; [right; exists nxt; auto | reflexivity].
        - left. exists this. auto. }
      destruct plain; [exact F1|].
      destruct (aget cid (relays s1)) as [nxt1|] eqn:En1; [|exact F1].
      destruct (relay_drops_early early (r_early nxt1) (s_max_early st)); [exact F1|].
      destruct cr as [| |m]; try exact F1.
      destruct (take ls) as [n ls']. simpl fst.
      eapply frame_trans; [exact F1|].
      apply frame_set_relay; intros _.
      * exists nxt1. split; [exact En1|]. simpl. auto.
      * left. exists nxt1. split; [exact En1 | reflexivity].
    + pose proof (relay_forward_l st s src cid plain early len cr ls nxt En) as R.
      destruct (recv_cell st s src cid plain early len cr ls) as [s' o]. simpl.
      destruct R as [R|(R & _)]; subst o; [apply cell_outs_nil|].
      intros d c e mm [H|[]] Hi. inversion H; subst. left. exists nxt. auto.
  - destruct (recv_cell_unrelayed s src cid plain early len cr ls En) as [E|(m & Ecr & E)]; rewrite E;
      [split; [apply frame_refl | apply cell_outs_nil]|]. subst cr.
    apply refresh_cell_frame. unfold dispatch.
    assert (Tc : I cid = true -> cell_touch s cid cid) by (intros _; left; reflexivity).
    assert (P : forall o, only_pong I s src cid m o -> cell_outs s src cid (COk m) o).
    { intros o H d c e mm Hin Hi. destruct (H _ _ _ _ Hin Hi) as (A & B & C & D & E').
      right. subst. repeat split; auto. }
    destruct m as [ident|ident v p|ident|ident v p|a b c dl| | |mid];
      try (match goal with |- context [handle st s src cid ?M ls] =>
             destruct (handle_frame_l st I (cell_touch s cid) s src cid M ls (proj2 (Hok En _ eq_refl)) (proj1 (Hok En _ eq_refl)) Tc) as [F O];
             destruct (handle st s src cid M ls) as [[s' o'] l']; split; [exact F | apply P; exact O] end).
    destruct (handle_data_frame st I (cell_touch s cid) s src cid a b c dl Tc) as [F N].
    split; [exact F|]. intros d c0 e mm Hin _. exfalso. eapply N; eauto.
Qed.

Lemma recv_cell_frame s src cid plain early len cr ls :
  closedI s -> cell_ok s cid cr ->
  frame (cell_touch s cid) s (fst (recv_cell st s src cid plain early len cr ls))
  /\ cell_outs s src cid cr (snd (recv_cell st s src cid plain early len cr ls)).
Proof.
  intros K Hok. apply recv_cell_frame_l. intros En m Hm. split; [exact (Hok En m Hm)|].
  apply closed_handle_local. exact K.
Qed.

Lemma recv_destroy_frame (touch : Z -> Prop) s src cid reason : frame touch s (recv_destroy s src cid reason).
Proof.
  assert (D : forall k c dd rn s0, frame touch s0 (defer (DRemove k c dd rn) s0)).
  { intros. apply frame_defer; [exact Logic.I | intros x H; discriminate]. }
  unfold recv_destroy.
  match goal with |- context [match ?X with Some nxt => defer _ (defer _ s) | None => ?Y end] =>
    destruct X as [nxt|]; [eapply frame_trans; apply D|] end.
  destruct (aget cid (exits s)) as [e|].
  - destruct (src =? e_peer e); [apply D|].
    destruct (aget cid (circuits s)) as [c|]; [|apply frame_refl].
    destruct (src =? c_first c); [apply D | apply frame_refl].
  - destruct (aget cid (circuits s)) as [c|]; [|apply frame_refl].
    destruct (src =? c_first c); [apply D | apply frame_refl].
Qed.

Lemma sweep_starts_removes s d : In d (sweep_starts st s) -> exists k c dd rn, d = DRemove k c dd rn.
Proof.
  unfold sweep_starts, rule_to_start. intro H.
  repeat (apply in_app_or in H; destruct H as [H|H]);
    apply in_flat_map in H; destruct H as ([c x] & _ & H); simpl in H;
    match type of H with In _ (match ?r with _ => _ end) => destruct r end; simpl in H;
    try contradiction; destruct H as [H|[]]; subst d; eauto.
Qed.

Lemma sweep_frame (touch : Z -> Prop) s : frame touch s (sweep st s).
Proof.
  unfold sweep. eapply frame_trans; [|apply frame_set_last_sweep].
  apply frame_more_starts. intros d H. destruct (sweep_starts_removes _ _ H) as (k & c & dd & rn & E). subst d.
  split; [exact Logic.I | intros x Hx; discriminate].
Qed.

(* pings go out only for own circuits that are not closing, to their first hop *)
Definition ping_outs (s : node) (o : list out) : Prop :=
  forall d c e m, In (OCell d c e m) o -> I c = true ->
    exists circ, aget c (circuits s) = Some circ /\ c_closing circ = false /\ d = c_first circ /\ m = MSG_PING.

Lemma ping_all_frame (touch : Z -> Prop) cs : forall s ls,
  frame touch s (fst (ping_all st s cs ls)) /\ ping_outs s (snd (ping_all st s cs ls)).
Proof.
  induction cs as [|[cid c0] tl IH]; intros s ls; simpl; [split; [apply frame_refl | intros d c e m []]|].
  destruct (aget cid (circuits s)) as [c|] eqn:Ec; [|apply IH].
  destruct (negb (c_closing c) && (0 <? c_hops c)) eqn:Eb; [|apply IH].
  pose proof (send_cell_frame st I touch s (c_first c) cid MSG_PING ls) as F1.
  destruct (send_cell_out st s (c_first c) cid MSG_PING ls) as (early & O1).
  destruct (send_cell st s (c_first c) cid MSG_PING ls) as [[s1 o1] ls1]. simpl in F1, O1. subst o1.
  destruct (IH s1 ls1) as [F2 O2].
  destruct (ping_all st s1 tl ls1) as [s2 o2]. simpl in *.
  split; [eapply frame_trans; eauto|].
  intros d c1 e m [H|H] Hi.
  - inversion H; subst. exists c. split; [exact Ec|]. split; [|auto].
    destruct (c_closing c); [discriminate | reflexivity].
  - destruct (O2 _ _ _ _ H Hi) as (circ & Hc & K & Hd & Hm).
    destruct (f_circ _ _ _ _ _ F1 _ _ Hi Hc) as (circ0 & Hc0 & A & _ & _ & _ & _ & _ & K1 & _).
    exists circ0. split; [exact Hc0|]. split; [|split; [congruence | exact Hm]].
    destruct (c_closing circ0) eqn:E0; [|reflexivity]. rewrite (K1 eq_refl) in K. discriminate.
Qed.

Lemma finish_remove_frame (touch : Z -> Prop) s k cid :
  frame touch s (fst (finish_remove s k cid)) /\ no_cells (snd (finish_remove s k cid)).
Proof.
  assert (N0 : no_cells []) by (intros d c e m []).
  destruct k; simpl.
  - split; [apply frame_del_circuit | exact N0].
  - split; [apply frame_del_relay | exact N0].
  - destruct (aget cid (exits s)) as [e|]; simpl; [|split; [apply frame_refl | exact N0]]. split.
    + eapply frame_trans; [apply frame_del_exit|]. apply frame_sub_starts.
      intros d H. apply filter_In in H. destruct H as [H _]. exact H.
    + destruct (e_enabled e && e_open e); [|exact N0]. intros d c e0 m [H|[]]. discriminate.
Qed.

(* the wake-up of a removal task: the sleeping entry is consumed, the table entry goes *)
Lemma wake_frame (touch : Z -> Prop) s i due k cid :
  nth_error (sleeping s) i = Some (due, k, cid) ->
  frame touch s (fst (finish_remove (set_sleeping (remove_nth i (sleeping s)) s) k cid)).
Proof.
  intro Hn. set (s0 := set_sleeping (remove_nth i (sleeping s)) s).
  destruct (finish_remove_frame touch s0 k cid) as [F _].
  destruct F as [n c r o e cd kk t d l]. constructor; auto.
  intros due' x Hi Hc Hin. apply l; auto. simpl.
  eapply in_remove_nth_other; [exact Hin | exact Hn|].
  intro E. inversion E; subst due' k cid. apply Hc. simpl. rewrite aget_adel, Z.eqb_refl. reflexivity.
Qed.

Lemma start_remove_frame (touch : Z -> Prop) s k cid dd rn :
  frame touch s (fst (start_remove st s k cid dd rn)) /\ no_cells (snd (start_remove st s k cid dd rn)).
Proof.
  assert (N0 : no_cells []) by (intros d c e m []).
  assert (ND : forall a b c0, no_cells (if dd =? 0 then [] else [ODestroy a b c0])).
  { intros. destruct (dd =? 0); [exact N0|]. intros d c e m [H|[]]. discriminate. }
  assert (Tail : forall s1 (o : list out), frame touch s s1 -> no_cells o ->
            frame touch s (fst (if negb rn || (0 <? s_remove_delay st)
                                then (set_sleeping (sleeping s1 ++ [(now s1 + s_remove_delay st, k, cid)]) s1, o)
                                else let '(s2, o2) := finish_remove s1 k cid in (s2, o ++ o2)))
            /\ no_cells (snd (if negb rn || (0 <? s_remove_delay st)
                                then (set_sleeping (sleeping s1 ++ [(now s1 + s_remove_delay st, k, cid)]) s1, o)
                                else let '(s2, o2) := finish_remove s1 k cid in (s2, o ++ o2)))).
  { intros s1 o F N. destruct (negb rn || (0 <? s_remove_delay st)); simpl.
    - split; [eapply frame_trans; [exact F | apply frame_add_sleep] | exact N].
    - destruct (finish_remove_frame touch s1 k cid) as [F2 N2].
      destruct (finish_remove s1 k cid) as [s2 o2]. simpl in *. split; [eapply frame_trans; eauto|].
      intros d c e m H. apply in_app_or in H. destruct H; [eapply N | eapply N2]; eauto. }
  unfold start_remove. destruct k.
  - set (s0 := set_retries (adel cid (retries s)) s).
    assert (F0 : frame touch s s0) by apply frame_del_retry.
    destruct (aget cid (circuits s0)) as [c|] eqn:Ec; [|split; [exact F0 | exact N0]].
    set (c1 := mkCirc (c_ro c) (c_goal c) (c_hops c) true (c_unver c) (c_first c) (c_early c)).
    set (s1 := set_circuits (aset cid c1 (circuits s0)) s0).
    destruct (negb rn || (0 <? s_remove_delay st)).
    + split; [|apply ND]. simpl fst.
      (* the circuit is marked closing and its removal task goes to sleep *)
      constructor; simpl;
        try (intros; solve [eauto]);
        try (intros y r' Hi H; solve [exists r'; auto | left; exists r'; auto]);
        try (intros y rt Hi H; rewrite aget_adel in H; destruct (y =? cid); [discriminate | solve [eauto]]);
        try (intros due y Hi Hc Hin; apply in_or_app; left; exact Hin).
      intros y c' Hi H. rewrite aget_aset in H. destruct (y =? cid) eqn:E.
      * apply Z.eqb_eq in E. subst y. inversion H; subst c'. exists c. split; [exact Ec|].
        simpl. repeat split; auto. intros _ _. apply in_or_app. right. left. reflexivity.
      * exists c'. split; [exact H|]. repeat split; auto. congruence.
    + (* marked and deleted at once *)
      simpl. split.
      * eapply frame_trans; [exact F0|].
        constructor; simpl;
          try (intros; solve [eauto]);
          try (intros y r' Hi H; solve [exists r'; auto | left; exists r'; auto]).
        intros y c' Hi H. rewrite aget_adel in H. destruct (y =? cid) eqn:E; [discriminate|].
        rewrite aget_aset, E in H. exists c'. split; [exact H|]. repeat split; auto. congruence.
      * rewrite app_nil_r. apply ND.
  - apply Tail; [apply frame_refl|]. destruct (aget cid (relays s)); [apply ND | exact N0].
  - apply Tail; [apply frame_refl|]. destruct (aget cid (exits s)); [apply ND | exact N0].
Qed.

Lemma let3_fst {A B C : Type} (x : A * B * C) : (let '(a, b, _) := x in (a, b)) = fst x.
Proof. destruct x as [[a b] c]. reflexivity. Qed.

Lemma run_deferred_frame (touch : Z -> Prop) s d eo tg tc nb p ls :
  harmless d -> (forall src cid ident, d = DExtend src cid ident -> I tc = false) ->
  (forall x, d = DOpen x -> I x = true -> touch x) ->
  frame touch s (fst (run_deferred st s d eo tg tc nb p ls))
  /\ no_I_cells (snd (run_deferred st s d eo tg tc nb p ls)).
Proof.
  intros Hd Htc Ht.
  assert (R0 : frame touch s s /\ no_I_cells []) by (split; [apply frame_refl | apply no_I_nil]).
  destruct d as [k c dd rn|src cid ident|src cid ident|cid t ini|cid]; simpl in Hd.
  - simpl. destruct (start_remove_frame touch s k c dd rn) as [F N]. split; [exact F | apply no_cells_no_I; exact N].
  - (* on_create *)
    simpl. destruct (negb (s_any_flag st)); [exact R0|].
    destruct (ahas cid (createds s)); [exact R0|].
    destruct (ahas cid (circuits s) || ahas cid (relays s) || ahas cid (exits s)); [exact R0|].
    destruct (negb (should_join (s_max_joined st) (zlen (relays s)) (zlen (exits s)))); [exact R0|].
    rewrite let3_fst. split; [|apply send_cell_no_I; exact Hd].
    eapply frame_trans; [|apply send_cell_frame].
    set (s1 := set_createds (aset cid (now s + s_unstable_timeout st) (createds s)) s).
    apply frame_trans with (b := s1).
    { apply frame_set_createds. intros x due Hi H. rewrite aget_aset in H. destruct (x =? cid) eqn:E; [|exact H].
      apply Z.eqb_eq in E. subst x. congruence. }
    apply (frame_set_exit st I touch s1 cid). intro H; congruence.
  - (* on_extend *)
    simpl. destruct (negb (s_relay_flag st)); [exact R0|].
    destruct (negb (ahas cid (createds s))); [exact R0|].
    destruct (negb eo); [exact R0|].
    match goal with |- context [match ?x with Some _ => _ | None => _ end] => destruct x as [prev|] end; [|exact R0].
    rewrite let3_fst. pose proof (Htc _ _ _ eq_refl) as Htc'. split; [|apply send_cell_no_I; exact Htc'].
    eapply frame_trans; [|apply send_cell_frame]. apply frame_add_create; simpl; assumption.
  - (* retry *)
    simpl. destruct (aget cid (circuits s)) as [c|]; [|exact R0].
    rewrite let3_fst. apply start_hop_frame. exact Hd.
  - (* create_transports *)
    simpl. destruct (aget cid (exits s)) as [e|] eqn:Ee; [|exact R0].
    destruct (e_enabled e && negb (e_open e)); [|exact R0].
    pose proof (drain_facts I cid (e_queue e) (mkExit (e_ro e) (e_peer e) true true []) (now s)) as H.
    destruct (drain cid (mkExit (e_ro e) (e_peer e) true true []) (e_queue e) (now s)) as [e2 o]. simpl in H.
    destruct H as [Pe [L N]]. simpl. split.
    + apply frame_set_exit. intro Hi. exists e. split; [exact Ee|]. split; [exact Pe|].
      destruct L as [L|L]; [left; exact L | right; split; [apply Ht; auto | exact L]].
    + intros d c e0 m [H|H]; [discriminate | exfalso; eapply N; eauto].
Qed.

Definition ev_ok (s : node) (e : ev) : Prop :=
  match e with
  | ERecvCell _ cid _ _ _ cr _ => cell_ok s cid cr
  | ESendData _ cid _ => I cid = false
  | EOutside cid _ _ _ => I cid = false
  | ECreateCircuit cid _ _ _ => I cid = false
  | ERun _ _ _ tc _ _ _ => I tc = false
  | _ => True
  end.

Definition ev_touch (s : node) (e : ev) : Z -> Prop :=
  match e with
  | ERecvCell _ cid _ _ _ _ _ => cell_touch s cid
  | ERun i _ _ _ _ _ _ => fun x => nth_error (starts s) i = Some (DOpen x)
  | _ => fun _ => False
  end.

Definition ev_outs (s : node) (e : ev) (o : list out) : Prop :=
  match e with
  | ERecvCell src cid _ _ _ cr _ => cell_outs s src cid cr o
  | EPing _ => ping_outs s o
  | _ => no_I_cells o
  end.

(* such an event advances no stamp of I except through a deferred create_transports and sends no cell for I
   except pings *)
Definition other_event (e : ev) : Prop :=
  match e with ERecvCell _ cid _ _ _ _ _ => I cid = false | _ => True end.

Lemma other_event_touch s e x :
  other_event e -> (forall y r, I y = false -> aget y (relays s) = Some r -> I (r_next r) = false) ->
  I x = true -> ev_touch s e x -> In (DOpen x) (starts s).
Proof.
  intros Hother Hrel Hi Hx. destruct e; simpl in Hx; try contradiction.
  - exfalso. simpl in Hother. destruct Hx as [Hx|(nxt & Hr & Hx)]; [congruence|].
    subst x. rewrite (Hrel _ _ Hother Hr) in Hi. discriminate.
  - eapply nth_error_In; eauto.
Qed.

Lemma other_event_outs s e o :
  other_event e -> (forall y r, I y = false -> aget y (relays s) = Some r -> I (r_next r) = false) ->
  ev_outs s e o -> ping_outs s o.
Proof.
  intros Hother Hrel O d c e0 m Hin Hi. destruct e; simpl in O; try (rewrite (O _ _ _ _ Hin) in Hi; discriminate).
  - exfalso. simpl in Hother. destruct (O _ _ _ _ Hin Hi) as [(nxt & Hr & _ & Hc & _)|(_ & _ & Hc & _)]; [|congruence].
    subst c. rewrite (Hrel _ _ Hother Hr) in Hi. discriminate.
  - exact (O _ _ _ _ Hin Hi).
Qed.

Definition ev_ok_l (s : node) (e : ev) : Prop :=
  match e with
  | ERecvCell _ cid _ _ _ cr _ => cell_ok_l s cid cr
  | ESendData _ cid _ => I cid = false
  | EOutside cid _ _ _ => I cid = false
  | ECreateCircuit cid _ _ _ => I cid = false
  | ERun i _ _ tc _ _ _ => forall d, nth_error (starts s) i = Some d ->
      harmless d /\ (forall src cid ident, d = DExtend src cid ident -> I tc = false)
  | ERetryTimeout cid => forall rt, aget cid (retries s) = Some rt -> I cid = false
  | _ => True
  end.

Lemma step_at_frame_l s e :
  ev_ok_l s e ->
  frame (ev_touch s e) s (fst (step_at st s e)) /\ ev_outs s e (snd (step_at st s e)).
Proof.
  intros Hok.
  destruct e as [src cid plain early len cr ls|src cid reason| |ls|i eo tg tc nb p ls|i|cid|cid|number
                 |cid goal p ls|k cid dd rn|dst cid ls|cid len allowed ls]; simpl in Hok; cbn [step_at ev_touch ev_outs].
  - apply recv_cell_frame_l; assumption.
  - split; [apply recv_destroy_frame | apply no_I_nil].
  - split; [apply sweep_frame | apply no_I_nil].
  - apply ping_all_frame.
  - destruct (nth_error (starts s) i) as [d|] eqn:En; [|split; [apply frame_refl | apply no_I_nil]].
    set (s0 := set_starts (remove_nth i (starts s)) s).
    assert (F0 : frame (fun x => Some d = Some (DOpen x)) s s0).
    { apply frame_sub_starts. intros d0 H. eapply in_remove_nth; eauto. }
    destruct (Hok _ eq_refl) as [Hd Hok'].
    destruct (run_deferred_frame (fun x => Some d = Some (DOpen x)) s0 d eo tg tc nb p ls Hd Hok') as [F O].
    { intros x E _. rewrite E. reflexivity. }
    split; [eapply frame_trans; eauto | exact O].
  - destruct (nth_error (sleeping s) i) as [[[due k] cid]|] eqn:En; [|split; [apply frame_refl | apply no_I_nil]].
    split; [eapply wake_frame; eauto|].
    apply no_cells_no_I. apply (finish_remove_frame (fun _ => False)).
  - (* retry time-out *)
    destruct (aget cid (retries s)) as [rt|] eqn:Er; [|split; [apply frame_refl | apply no_I_nil]].
    pose proof (Hok _ eq_refl) as Hc.
    set (s1 := set_retries (adel cid (retries s)) s).
    assert (F1 : frame (fun _ : Z => False) s s1) by apply frame_del_retry.
    destruct (aget cid (circuits s1)) as [c|]; [|split; [exact F1 | apply no_I_nil]].
    destruct (c_closing c); [split; [exact F1 | apply no_I_nil]|].
    destruct (retry_gives_up (rt_cands rt) (rt_tries rt)); (split; [|apply no_I_nil]);
      (eapply frame_trans; [exact F1|]); apply frame_defer; simpl; auto; intros x H; discriminate.
  - split; [|apply no_I_nil]. apply frame_set_createds. intros x due Hi H. rewrite aget_adel in H.
    destruct (x =? cid); [discriminate | exact H].
  - split; [apply frame_del_create | apply no_I_nil].
  - (* create_circuit *)
    destruct (p_next p) as [nx|] eqn:Ep; [|split; [apply frame_refl | apply no_I_nil]].
    rewrite let3_fst.
    match goal with |- context [start_hop st ?S1 cid ?C ?T true p ls] =>
      destruct (start_hop_frame st I (fun _ : Z => False) S1 cid C T true p ls Hok) as [F O]; set (s1 := S1) in * end.
    split; [|exact O]. apply frame_trans with (b := s1); [|exact F].
    apply frame_set_circuit. intro H; congruence.
  - split; [|apply no_I_nil]. apply frame_defer; [exact Logic.I | intros x H; discriminate].
  - rewrite let3_fst. split; [apply send_cell_frame | apply send_cell_no_I; exact Hok].
  - (* datagram from outside at an exit socket *)
    destruct (aget cid (exits s)) as [e|] eqn:Ee; [|split; [apply frame_refl | apply no_I_nil]].
    set (s1 := set_exits (aset cid (e_with_ro (ro_down len) e) (exits s)) s).
    assert (F1 : frame (fun _ : Z => False) s s1) by (apply frame_set_exit; intro H; congruence).
    destruct allowed; [|split; [exact F1 | apply no_I_nil]].
    rewrite let3_fst. split; [|apply send_cell_no_I; exact Hok].
    eapply frame_trans; [exact F1 | apply send_cell_frame].
Qed.

Lemma closed_ev_ok_l s e : closedI s -> ev_ok s e -> ev_ok_l s e.
Proof.
  intros K Hok. destruct e; simpl in *; auto.
  - intros En m Hm. split; [exact (Hok En m Hm) | apply closed_handle_local; exact K].
  - intros d H. split; [apply (k_starts _ _ K); eapply nth_error_In; eauto | intros; exact Hok].
  - intros rt H. exact (k_retries _ _ K _ _ H).
Qed.

Lemma step_at_frame s e :
  closedI s -> ev_ok s e ->
  frame (ev_touch s e) s (fst (step_at st s e)) /\ ev_outs s e (snd (step_at st s e)).
Proof. intros K Hok. apply step_at_frame_l. apply closed_ev_ok_l; assumption. Qed.

End StepFrames.
