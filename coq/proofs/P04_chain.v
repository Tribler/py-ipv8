(* C04: a cell travelling through a list of relays, in both directions; what is on every link. *)
From Coq Require Import List Lia Arith.
From IPV8V Require Import lib.Bytes lib.BE model.M03_recv model.M04_onion spec.S04_onion_spec proofs.P02_prims
  proofs.P04_base proofs.P04_node.
Import ListNotations.
Open Scope Z_scope.

Section Chain.
Variables key nonce : Type.
Variable enc : key -> dir -> nonce -> bytes -> bytes.
Variable dec : key -> dir -> bytes -> option bytes.
Notation relay_spec := (relay_spec key).
Notation through := (through enc dec).
Notation enc_layers := (enc_layers enc).

Lemma path_keys_length (p : path key) : length (path_keys p) = path_len p.
Proof. unfold path_keys, path_len. rewrite app_length, map_length. apply Nat.add_1_r. Qed.

Lemma last_sender_cons (r : relay_spec) tl src : last_sender (r :: tl) src = last_sender tl (rs_addr r).
Proof.
  unfold last_sender. cbn [rev]. destruct (rev tl) as [|x l] eqn:E; reflexivity.
Qed.

Lemma last_sender_rev (rs : list relay_spec) x : last_sender (rev rs) x = first_addr rs x.
Proof. unfold last_sender, first_addr. rewrite rev_involutive. reflexivity. Qed.

(* bx under the layers of the relays rs: the datagrams on the links (into the first relay, then out of each),
   by one induction over the relays *)
Lemma fwd_relays pfx early last_addr last_cid bx rnd : forall (rs : list relay_spec) cid src nl nss,
  aead_correct enc dec -> length pfx = 22%nat ->
  fwd_chain pfx early rs cid last_addr last_cid -> length nl = length rs ->
  exists links : list bytes,
    hd [] links = cell_to_bin pfx (mkCell cid (enc_layers FORWARD (map rs_key rs) nl bx) false early)
    /\ through rs src (first_addr rs last_addr) (hd [] links) rnd nss
       = Some (last_sender rs src, last_addr, nth (length rs) links [], List.tl links)
    /\ nth (length rs) links [] = cell_to_bin pfx (mkCell last_cid bx false early)
    /\ length links = S (length rs)
    /\ (forall i, (i <= length rs)%nat ->
          cell_body (nth i links []) = enc_layers FORWARD (skipn i (map rs_key rs)) (skipn i nl) bx).
Proof.
  induction rs as [|r rtl IH]; intros cid src nl nss C Hp Hch Hl.
  - destruct nl; [|discriminate]. cbn in Hch. subst cid. exists [cell_to_bin pfx (mkCell last_cid bx false early)].
    repeat split. intros i Hi. destruct i; [|simpl in Hi; lia]. apply cell_body_to_bin. exact Hp.
  - destruct nl as [|n nl]; [discriminate|]. cbn [fwd_chain] in Hch. destruct Hch as (Hin & Hr & Hch).
    destruct Hr as (Hpf & Hci & Hco & pk & cnt & Ha & He). subst cid. injection Hl as Hl.
    destruct (IH (rs_out r) (rs_addr r) nl (fun i => nss (S i)) C Hp Hch Hl) as (links & Hhd & Hthr & Hlast & Hlen & Hbody).
    destruct links as [|l0 links]; [discriminate Hlen|]. cbn [hd List.tl] in Hhd, Hthr.
    exists (cell_to_bin pfx (mkCell (rs_in r) (enc_layers FORWARD (map rs_key (r :: rtl)) (n :: nl) bx) false early) :: l0 :: links).
    repeat split.
    + cbn [S04_onion_spec.through first_addr hd List.tl map enc_layers]. rewrite addr_eqb_refl, <- Hpf.
      rewrite (relay_forward_step key nonce enc dec (rs_node r) src (rs_in r) (rs_out r) pk
                 (first_addr rtl last_addr) (rs_key r) cnt _ early n rnd (nss O) C)
        by (try rewrite Hpf; assumption).
      rewrite Hpf, <- Hhd, Hthr, last_sender_cons. reflexivity.
    + exact Hlast.
    + exact (f_equal S Hlen).
    + intros [|i] Hi; [apply cell_body_to_bin; exact Hp|]. apply Hbody, le_S_n, Hi.
Qed.

(* A message m under the key k of the node behind the relays, on its way there, all layers put on by one
   encrypt_cell call drawing from ns: what the sender emits, what the relays make of it, what arrives, and the
   bodies on the links. *)
Lemma fwd_leg pfx early last_addr last_cid k m rnd (rs : list relay_spec) cid src ns nss :
  aead_correct enc dec -> length pfx = 22%nat ->
  fwd_chain pfx early rs cid last_addr last_cid ->
  let ks := map rs_key rs ++ [k] in
  let nl := drawn ns (length ks) in
  exists links : list bytes,
  hd [] links = cell_to_bin pfx (mkCell cid (enc_layers FORWARD ks nl m) false early)
  /\ through rs src (first_addr rs last_addr) (hd [] links) rnd nss
     = Some (last_sender rs src, last_addr, nth (length rs) links [], List.tl links)
  /\ nth (length rs) links [] = cell_to_bin pfx (mkCell last_cid (enc k FORWARD (ns O) m) false early)
  /\ length links = S (length rs)
  /\ (forall i, (i < S (length rs))%nat ->
        cell_body (nth i links []) = enc_layers FORWARD (skipn i ks) (skipn i nl) m).
Proof.
  intros C Hp Hch ks nl.
  set (nlr := drawn (shift ns) (length rs)).
  assert (Hl : length nlr = length rs) by apply drawn_length.
  assert (Lk : length (map rs_key rs) = length nlr) by (rewrite map_length; auto).
  assert (Enl : nl = nlr ++ [ns O]) by (unfold nl, ks; rewrite app_length, map_length, Nat.add_1_r; apply drawn_S).
  destruct (fwd_relays pfx early last_addr last_cid (enc k FORWARD (ns O) m) rnd rs cid src nlr nss C Hp Hch Hl)
    as (links & Hhd & Hthr & Hlast & Hlen & Hbody).
  exists links. rewrite Enl. repeat split; try assumption.
  - unfold ks. rewrite (enc_layers_snoc key nonce enc) by exact Lk. exact Hhd.
  - intros i Hi. unfold ks. rewrite (enc_layers_skipn_snoc key nonce enc) by lia. apply Hbody. lia.
Qed.

(* b passing the relays rs (in travel order), each adding its layer with the first nonce of its stream: link j
   carries the layers of the first j of them, so counted from the far end link i carries those from i on *)
Lemma bwd_relays pfx early last_addr last_cid rnd : forall (rs : list relay_spec) cid src nss b,
  length pfx = 22%nat -> bwd_chain pfx early rs cid last_addr last_cid ->
  let ks := rev (map rs_key rs) in
  exists (links : list bytes) nl,
    hd [] links = cell_to_bin pfx (mkCell cid b false early)
    /\ through rs src (first_addr rs last_addr) (hd [] links) rnd nss
       = Some (last_sender rs src, last_addr, nth (length rs) links [], List.tl links)
    /\ nth (length rs) links [] = cell_to_bin pfx (mkCell last_cid (enc_layers BACKWARD ks nl b) false early)
    /\ length links = S (length rs) /\ length nl = length rs
    /\ (forall i, (i <= length rs)%nat ->
          cell_body (nth i (rev links) []) = enc_layers BACKWARD (skipn i ks) (skipn i nl) b).
Proof.
  induction rs as [|r rtl IH]; intros cid src nss b Hp Hch ks.
  - cbn in Hch. subst cid. exists [cell_to_bin pfx (mkCell last_cid b false early)], [].
    repeat split. intros i Hi. destruct i; [|simpl in Hi; lia]. apply cell_body_to_bin. exact Hp.
  - cbn [bwd_chain] in Hch. destruct Hch as (Hin & Hr & Hch).
    destruct Hr as (Hpf & Hci & Hco & pk & cnt & Ha & He). subst cid.
    destruct (IH (rs_in r) (rs_addr r) (fun i => nss (S i)) (enc (rs_key r) BACKWARD (nss O O) b) Hp Hch)
      as (links & nl & Hhd & Hthr & Hlast & Hlen & Hnl & Hbody).
    destruct links as [|l0 links]; [discriminate Hlen|]. cbn [hd List.tl] in Hhd, Hthr.
    assert (Lk : length (rev (map rs_key rtl)) = length nl) by (rewrite rev_length, map_length; auto).
    exists (cell_to_bin pfx (mkCell (rs_out r) b false early) :: l0 :: links), (nl ++ [nss O O]).
    unfold ks. cbn [map rev]. repeat split.
    + cbn [S04_onion_spec.through first_addr hd List.tl]. rewrite addr_eqb_refl, <- Hpf.
      rewrite (relay_backward_step key nonce enc dec (rs_node r) src (rs_out r) (rs_in r) pk
                 (first_addr rtl last_addr) (rs_key r) cnt b early rnd (nss O))
        by (try rewrite Hpf; assumption).
      rewrite Hpf, <- Hhd, Hthr, last_sender_cons. reflexivity.
    + cbn [length nth]. rewrite (enc_layers_snoc key nonce enc) by exact Lk. exact Hlast.
    + exact (f_equal S Hlen).
    + rewrite app_length, Hnl. apply Nat.add_1_r.
    + intros i Hi. cbn [length] in Hi. change (rev links ++ [l0]) with (rev (l0 :: links)).
      assert (Lr : length (rev (l0 :: links)) = S (length rtl)) by (rewrite rev_length; exact Hlen).
      rewrite rev_length, map_length in Lk. clear - Hp Hbody Lk Lr Hi.
      destruct (Nat.eq_dec i (S (length rtl))) as [->|Hne].
      * rewrite app_nth2, Lr, Nat.sub_diag by (rewrite Lr; apply le_n).
        rewrite !skipn_all2 by (rewrite app_length, ?rev_length, ?map_length; cbn [length]; lia).
        apply cell_body_to_bin. exact Hp.
      * rewrite app_nth1 by lia.
        rewrite (enc_layers_skipn_snoc key nonce enc) by (rewrite ?rev_length, ?map_length; lia). apply Hbody. lia.
Qed.

(* The same for a message on its way back from the node behind the relays (rs listed from the originator's side,
   so the cell meets them in the order rev rs and link i is the i-th from the end). *)
Lemma bwd_leg pfx early last_addr last_cid k nx m rnd (rs : list relay_spec) cid src nss :
  length pfx = 22%nat -> bwd_chain pfx early (rev rs) cid last_addr last_cid ->
  let ks := map rs_key rs ++ [k] in
  exists (links : list bytes) nl,
  hd [] links = cell_to_bin pfx (mkCell cid (enc k BACKWARD nx m) false early)
  /\ through (rev rs) src (last_sender rs last_addr) (hd [] links) rnd nss
     = Some (first_addr rs src, last_addr, nth (length rs) links [], List.tl links)
  /\ nth (length rs) links []
     = cell_to_bin pfx (mkCell last_cid (enc_layers BACKWARD ks nl m) false early)
  /\ length links = S (length rs) /\ length nl = S (length rs)
  /\ (forall i, (i < S (length rs))%nat ->
        cell_body (nth i (rev links) []) = enc_layers BACKWARD (skipn i ks) (skipn i nl) m).
Proof.
  intros Hp Hch ks.
  destruct (bwd_relays pfx early last_addr last_cid rnd (rev rs) cid src nss (enc k BACKWARD nx m) Hp Hch)
    as (links & nl & Hhd & Hthr & Hlast & Hlen & Hnl & Hbody).
  rewrite map_rev, rev_involutive in Hlast, Hbody. rewrite rev_length in *. rewrite last_sender_rev in Hthr.
  assert (Lk : length (map rs_key rs) = length nl) by (rewrite map_length; auto).
  exists links, (nl ++ [nx]). unfold ks. repeat split; try assumption.
  - rewrite (enc_layers_snoc key nonce enc) by exact Lk. exact Hlast.
  - rewrite app_length, Hnl. apply Nat.add_1_r.
  - intros i Hi. rewrite (enc_layers_skipn_snoc key nonce enc) by lia. apply Hbody. lia.
Qed.

End Chain.
