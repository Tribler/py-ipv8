(* C05: routing by the header's circuit id, and what an exit-socket send / a delivery to the originator's
   consumer implies about the cell that caused it (binding of traffic to the circuit whose keys opened it). *)
From Coq Require Import ZArith List Bool Lia.
From IPV8V Require Import lib.PyErr lib.Bytes lib.BE model.M02_wire model.M03_recv model.M04_onion
  spec.S04_onion_spec spec.S05_isolation_spec proofs.P02_prims proofs.P02_roundtrip proofs.P04_base proofs.P04_endpoint
  proofs.P04_e2e proofs.P05_tables proofs.P05_control.
Import ListNotations.
Open Scope Z_scope.

Lemma decoded_cid_is_header_cid_l m (pre rest : bytes) cid vs o :
  length pre = 23%nat -> cid_ok cid ->
  unpack_msg no_keys (MCons (FStruct [PU 4]) m) (pre ++ be_encode 4 cid ++ rest) 23 = Ok (vs, o) ->
  exists tl, vs = VInt cid :: tl.
Proof.
  intros Hl Hc. rewrite unpack_msg_cons. cbn [unpack struct_size psize fold_right].
  replace 23%nat with (length pre) at 1 by exact Hl.
  change (4 + 0)%nat with 4%nat.
  rewrite (take_here 4 pre (be_encode 4 cid) rest) by apply be_encode_length. cbn [bind struct_dec psize pdec].
  rewrite firstn_all2 by (rewrite be_encode_length; lia). rewrite (cid_be cid Hc).
  match goal with |- (do x <- ?X; _) = _ -> _ => destruct X as [[vs' o']|] end; cbn [bind]; [|discriminate].
  intros H. injection H as <- _. eauto.
Qed.

Lemma from_bin_cid_ok (data : bytes) c : bytes_ok data -> from_bin data = Ok c -> cid_ok (cl_cid c).
Proof.
  intros Hb. unfold from_bin.
  destruct (unpack_u 4 data 23) as [cid|] eqn:E; cbn [bind]; [|discriminate].
  destruct (unpack_u 1 data 27); cbn [bind]; [|discriminate].
  destruct (unpack_u 1 data 28); cbn [bind]; [|discriminate].
  intros H. injection H as <-. cbn [cl_cid]. apply (unpack_u_range 4 data 23 cid Hb E).
Qed.

Lemma consumer_delivers a : is_consumer a = true -> delivers a = true.
Proof. destruct a; auto. Qed.

Section Binding.
Variables key nonce : Type.
Variable enc : key -> dir -> nonce -> bytes -> bytes.
Variable dec : key -> dir -> bytes -> option bytes.
Notation node := (node key).

(* whatever the dispatcher delivers was delivered by the data handler, called for message id 1 *)
Lemma pfc_delivery (nd : node) src data cid rnd ns nd' acts a :
  on_packet_from_circuit enc nd src data cid rnd ns = Ok (nd', acts) -> In a acts -> delivers a = true ->
  idx data 22 = Ok 1 /\ on_data nd src data = Ok (nd', acts).
Proof.
  intros H Hin Hd. destruct (pfc_cases key nonce enc nd src data cid rnd ns) as [Q | [Hi Eq]].
  - rewrite (quiet_silent _ _ _ _ _ a Q H Hin) in Hd. discriminate.
  - rewrite Eq in H. auto.
Qed.

Lemma catch_crypto_some {A} (m : res A) x : catch_crypto m = Ok (Some x) -> m = Ok x.
Proof. destruct m as [y|e]; cbn; [intros H; injection H as ->; reflexivity | destruct e; discriminate]. Qed.

Lemma decrypt_cell_hdr c d (hops : list (hop key)) c2 :
  decrypt_cell dec c d hops = Ok c2 -> cl_cid c2 = cl_cid c /\ cl_plain c2 = cl_plain c.
Proof.
  unfold decrypt_cell. destruct (cl_plain c) eqn:E0; [intros H; injection H as <-; auto|].
  destruct (decrypt_hops dec d hops (cl_msg c)); cbn [bind]; [|discriminate]. intros H; injection H as <-; auto.
Qed.

Lemma incoming_crypto_hdr (nd : node) c c1 :
  incoming_crypto dec nd c = Ok (Some c1) -> cl_cid c1 = cl_cid c /\ cl_plain c1 = cl_plain c.
Proof.
  unfold incoming_crypto. destruct (assoc (cl_cid c) (n_exits nd)) as [es|].
  - destruct (assoc (cl_cid c) (n_circuits nd)); intros H%catch_crypto_some; apply (decrypt_cell_hdr _ _ _ _ H).
  - destruct (assoc (cl_cid c) (n_circuits nd)) as [ci|].
    + intros H%catch_crypto_some.
      destruct (decrypt_cell dec c BACKWARD (c_hops ci)) as [c2|] eqn:E2; cbn [bind] in H; [|discriminate].
      destruct (decrypt_cell_hdr _ _ _ _ E2) as [Da Db]. destruct (c_hs ci); [|injection H as <-; auto].
      destruct (circuit_hop ci); cbn [bind] in H; [|discriminate].
      destruct (decrypt_cell_hdr _ _ _ _ H) as [Dc Dd]. split; congruence.
    + destruct (cl_plain c) eqn:Ecp; [|discriminate]. intros H; injection H as <-; auto.
Qed.

(* at an exit socket a cell is opened with that socket's key, in the forward direction *)
Lemma incoming_crypto_exit (nd : node) c es c1 :
  assoc (cl_cid c) (n_exits nd) = Some es -> cl_plain c = false -> incoming_crypto dec nd c = Ok (Some c1) ->
  exists k, h_keys (es_hop es) = Some k /\ dec k FORWARD (cl_msg c) = Some (cl_msg c1).
Proof.
  intros He Hp. unfold incoming_crypto, decrypt_cell. rewrite He, Hp. cbn [decrypt_hops].
  destruct (h_keys (es_hop es)) as [k|]; [|destruct (assoc (cl_cid c) (n_circuits nd)); discriminate].
  destruct (dec k FORWARD (cl_msg c)) as [m|] eqn:Ed; [|destruct (assoc (cl_cid c) (n_circuits nd)); discriminate].
  destruct (assoc (cl_cid c) (n_circuits nd)); intros H; injection H as <-; eauto.
Qed.

(* the hand-over of an opened cell to the dispatcher: the header's id is re-injected behind the message id *)
Lemma community_opened_cell (nd : node) src c1 m0 rest rnd ns :
  length (n_prefix nd) = 22%nat -> cid_ok (cl_cid c1) -> cl_msg c1 = m0 :: rest ->
  cl_plain c1 && negb (NO_CRYPTO m0) = false ->
  community_on_cell_packet enc nd src (cell_to_bin (n_prefix nd) c1) rnd ns
  = try_catch (on_packet_from_circuit enc nd src (n_prefix nd ++ [m0] ++ be_encode 4 (cl_cid c1) ++ rest) (cl_cid c1) rnd ns)
              (fun _ => Ok (nd, [])).
Proof.
  intros Hp Hc Hm Hpl. destruct c1 as [cid1 msg1 pl1 ea1]. cbn [cl_cid cl_msg cl_plain] in *. subst msg1.
  destruct pl1; [|apply community_cell; assumption].
  apply community_cell_plain; [assumption .. |]. apply negb_false_iff. exact Hpl.
Qed.

(* exit_binding and origin_binding in one: an action that on_packet delivers was caused by a non-plaintext cell that
   is not relayed and was opened with the keys held for its id; it is a data message, delivered under the id of
   the cell header either through that id's exit socket or to the consumer of our circuit of that id *)
Lemma cell_delivery (nd : node) src pkt rnd ns nd' acts a :
  length (n_prefix nd) = 22%nat -> bytes_ok pkt ->
  on_packet enc dec nd src pkt rnd ns = Ok (nd', acts) -> In a acts -> delivers a = true ->
  exists c c1 dest origin payload,
    from_bin pkt = Ok c /\ cl_plain c = false /\ assoc (cl_cid c) (n_relays nd) = None /\
    incoming_crypto dec nd c = Ok (Some c1) /\
    data_delivery nd src (cl_cid c) dest origin payload a.
Proof.
  intros Hp Hb H Hin Hd.
  destruct (on_packet_cases key nonce enc dec nd src pkt rnd ns) as [Q | (c & c1 & m0 & rest & Ef & Hr & Ei & Em & Epl & Eq)].
  { rewrite (quiet_silent _ _ _ _ _ a Q H Hin) in Hd. discriminate. }
  pose proof (from_bin_cid_ok pkt c Hb Ef) as Hcid. destruct (incoming_crypto_hdr nd c c1 Ei) as [I1 I2].
  rewrite Eq, (community_opened_cell nd src c1 m0 rest rnd ns Hp) in H by (rewrite ?I1; assumption). rewrite I1 in H.
  match type of H with try_catch ?X _ = _ => destruct X as [[n1 a1]|] eqn:E end; cbn [try_catch] in H;
    injection H as <- <-; [|destruct Hin].
  destruct (pfc_delivery nd src _ _ _ _ _ _ a E Hin Hd) as [Hi Hdata].
  (* the message id is 1, so the cell did not carry the plaintext flag *)
  replace 22 with (Z.of_nat (length (n_prefix nd))) in Hi by (rewrite Hp; reflexivity).
  cbn [app] in Hi. rewrite idx_at in Hi. injection Hi as ->. rewrite andb_true_r, I2 in Epl.
  destruct (on_data_acts key nd src _ _ _ Hdata) as (_ & cid' & dest & origin & payload & o & Hu & Hall).
  rewrite Forall_forall in Hall.
  rewrite app_assoc, fmt_data_eq in Hu.
  assert (L23 : length (n_prefix nd ++ [1]) = 23%nat) by (rewrite app_length, Hp; reflexivity).
  destruct (decoded_cid_is_header_cid_l tail_data _ _ (cl_cid c) _ o L23 Hcid Hu) as [tl [= -> _]].
  exists c, c1, dest, origin, payload. repeat split; auto. apply has_false. exact Hr.
Qed.

Lemma exit_binding_l (nd : node) src pkt rnd ns nd' acts cid data dest :
  aead_authentic enc dec -> length (n_prefix nd) = 22%nat -> bytes_ok pkt ->
  on_packet enc dec nd src pkt rnd ns = Ok (nd', acts) -> In (ExitSendto cid data dest) acts ->
  exists c es k n m,
    from_bin pkt = Ok c /\ cl_cid c = cid /\ cl_plain c = false /\
    assoc cid (n_relays nd) = None /\ assoc cid (n_exits nd) = Some es /\ h_keys (es_hop es) = Some k /\
    cl_msg c = enc k FORWARD n m /\
    (es_enabled es = true \/ ip_eqb src (h_addr (es_hop es)) = true).
Proof.
  intros A Hp Hb H Hin.
  destruct (cell_delivery nd src pkt rnd ns nd' acts _ Hp Hb H Hin eq_refl)
    as (c & c1 & dest' & origin & payload & Ef & Hpl & Hr & Ei & D).
  apply data_delivery_exit in D as (-> & es & He & Hen).
  destruct (incoming_crypto_exit nd c es c1 He Hpl Ei) as (k & Hk & Hd).
  destruct (A k FORWARD (cl_msg c) (cl_msg c1) Hd) as [n Hn].
  exists c, es, k, n, (cl_msg c1). auto 9.
Qed.

End Binding.
