(* C13 - lemmas about the NAT network model (any well-formed network, any cone type); sends, and so scripted histories,
   keep a network well formed. *)
From Coq Require Import ZArith List Bool Lia ZifyBool.
From IPV8V Require Import lib.Lists model.M13_nat proofs.P13_proto.
Import ListNotations.
Open Scope Z_scope.

Lemma find_map_in {A} (P : A -> bool) (f : A -> A) l :
  (forall x, In x l -> P (f x) = P x) -> find P (map f l) = option_map f (find P l).
Proof.
  induction l as [|x tl IH]; intros H; cbn [map find option_map]; [reflexivity|].
  rewrite (H x (or_introl eq_refl)). destruct (P x); [reflexivity|]. apply IH. intros y Hy. apply H. right. exact Hy.
Qed.
Lemma find_map_inv {A} (P : A -> bool) (f : A -> A) l :
  (forall x, P (f x) = P x) -> find P (map f l) = option_map f (find P l).
Proof. intros H. apply find_map_in. intros x _. apply H. Qed.
Lemma existsb_impl {A} (P Q : A -> bool) l : (forall x, P x = true -> Q x = true) -> existsb P l = true -> existsb Q l = true.
Proof.
  intros H. rewrite !existsb_exists. intros (x & Hin & Hp). exists x. split; [exact Hin | apply H; exact Hp].
Qed.

Record site_wf (s : site) : Prop := {
  sw_lookup : forall a p, In (a, p) (s_maps s) -> map_lookup a (s_maps s) = Some p;
  sw_rev : forall a p, In (a, p) (s_maps s) -> map_rev p (s_maps s) = Some a;
  sw_next : forall a p, In (a, p) (s_maps s) -> p < s_next s
}.

Definition by_pub (pub : Z) (s : site) : bool := negb (is_open (s_type s)) && (s_pub s =? pub).
Definition by_lan (sid : Z) (lan : addr) (h : host) : bool := (h_site h =? sid) && addr_eqb (h_lan h) lan.

Record net_wf (n : net) : Prop := {
  wf_site_id : forall s, In s (sites n) -> find_site n (s_id s) = Some s;                 (* site ids are unique *)
  wf_site_pub : forall s, In s (sites n) -> is_open (s_type s) = false ->
                find (by_pub (s_pub s)) (sites n) = Some s;                                (* NAT boxes have distinct public IPs *)
  wf_host_id : forall h, In h (hosts n) -> find_host n (h_id h) = Some h;                 (* host ids are unique *)
  wf_host_lan : forall h, In h (hosts n) -> find (by_lan (h_site h) (h_lan h)) (hosts n) = Some h;
                                                                                           (* LAN addresses are unique per site *)
  wf_open_apart : forall h s, In h (hosts n) -> In s (sites n) -> is_open (s_type s) = false ->
                  is_open (site_type n (h_site h)) = true -> fst (h_lan h) <> s_pub s;     (* no public host on a NAT's IP *)
  wf_sites : forall s, In s (sites n) -> site_wf s
}.

(* a site after one more outbound packet: same identity, mappings extended at the end, more filter entries *)
Record extends (s s' : site) : Prop := {
  ex_id : s_id s' = s_id s;
  ex_type : s_type s' = s_type s;
  ex_pub : s_pub s' = s_pub s;
  ex_maps : exists more, s_maps s' = s_maps s ++ more;
  ex_filt : forall e, In e (s_filt s) -> In e (s_filt s')
}.

Lemma extends_refl s : extends s s.
Proof. constructor; auto. exists []. rewrite app_nil_r. reflexivity. Qed.

Definition upd (s' : site) (x : site) : site := if s_id x =? s_id s' then s' else x.
Lemma set_site_sites n s' : sites (set_site n s') = map (upd s') (sites n).
Proof. reflexivity. Qed.
Lemma set_site_hosts n s' : hosts (set_site n s') = hosts n.
Proof. reflexivity. Qed.

Record same_ident (s s' : site) : Prop := {
  si_id : s_id s' = s_id s;
  si_type : s_type s' = s_type s;
  si_pub : s_pub s' = s_pub s
}.
Lemma extends_ident s s' : extends s s' -> same_ident s s'.
Proof. intros E. constructor; [apply (ex_id _ _ E) | apply (ex_type _ _ E) | apply (ex_pub _ _ E)]. Qed.

Lemma upd_hit n s s' x : net_wf n -> In s (sites n) -> s_id s' = s_id s -> In x (sites n) ->
  (s_id x =? s_id s') = true -> x = s.
Proof.
  intros W Hs E Hx Eid. pose proof (wf_site_id n W x Hx) as F1. pose proof (wf_site_id n W s Hs) as F2.
  replace (s_id x) with (s_id s) in F1 by lia. congruence.
Qed.
Lemma upd_ident n s s' x : net_wf n -> In s (sites n) -> same_ident s s' -> In x (sites n) ->
  s_id (upd s' x) = s_id x /\ s_type (upd s' x) = s_type x /\ s_pub (upd s' x) = s_pub x.
Proof.
  intros W Hs E Hx. unfold upd. destruct (s_id x =? s_id s') eqn:Eid; [|repeat split; reflexivity].
  rewrite (upd_hit n s s' x W Hs (si_id _ _ E) Hx Eid). destruct E. auto.
Qed.
Lemma upd_keeps n s s' x : net_wf n -> In s (sites n) -> extends s s' -> In x (sites n) ->
  s_id (upd s' x) = s_id x /\ s_type (upd s' x) = s_type x /\ s_pub (upd s' x) = s_pub x /\ extends x (upd s' x).
Proof.
  intros W Hs E Hx. destruct (upd_ident n s s' x W Hs (extends_ident _ _ E) Hx) as (A & B & C).
  repeat (split; [assumption|]). unfold upd. destruct (s_id x =? s_id s') eqn:Eid; [|apply extends_refl].
  rewrite (upd_hit n s s' x W Hs (ex_id _ _ E) Hx Eid). exact E.
Qed.

Lemma find_site_set n s s' k : net_wf n -> In s (sites n) -> same_ident s s' ->
  find_site (set_site n s') k = option_map (upd s') (find_site n k).
Proof.
  intros W Hs E. apply (find_map_in _ (upd s')). intros x Hx.
  destruct (upd_ident n s s' x W Hs E Hx) as (-> & _ & _). reflexivity.
Qed.

Lemma find_pub_set n s s' pub : net_wf n -> In s (sites n) -> same_ident s s' ->
  find (by_pub pub) (sites (set_site n s')) = option_map (upd s') (find (by_pub pub) (sites n)).
Proof.
  intros W Hs E. apply (find_map_in _ (upd s')). intros x Hx. destruct (upd_ident n s s' x W Hs E Hx) as (_ & Et & Ep).
  unfold by_pub. rewrite Et, Ep. reflexivity.
Qed.

Lemma site_type_set n s s' k : net_wf n -> In s (sites n) -> same_ident s s' ->
  site_type (set_site n s') k = site_type n k.
Proof.
  intros W Hs E. unfold site_type. rewrite (find_site_set n s s' k W Hs E).
  destruct (find_site n k) as [x|] eqn:F; cbn [option_map]; [|reflexivity].
  pose proof (find_some _ _ F) as [Hx _].
  destruct (upd_ident n s s' x W Hs E Hx) as (_ & Et & _). exact Et.
Qed.

Lemma in_set_site n s' t : In t (sites (set_site n s')) -> exists x, In x (sites n) /\ t = upd s' x.
Proof.
  intros Ht. rewrite set_site_sites in Ht. apply in_map_iff in Ht. destruct Ht as (x & Hx & Hin).
  exists x. split; [exact Hin | symmetry; exact Hx].
Qed.

Lemma set_site_wf n s s' : net_wf n -> In s (sites n) -> same_ident s s' -> site_wf s' -> net_wf (set_site n s').
Proof.
  intros W Hs E Ws'. constructor.
  - intros t Ht. destruct (in_set_site n s' t Ht) as (x & Hx & ->).
    destruct (upd_ident n s s' x W Hs E Hx) as (Ei & _ & _). rewrite Ei.
    rewrite (find_site_set n s s' _ W Hs E), (wf_site_id n W x Hx). reflexivity.
  - intros t Ht Ho. destruct (in_set_site n s' t Ht) as (x & Hx & ->).
    destruct (upd_ident n s s' x W Hs E Hx) as (_ & Et & Ep). rewrite Ep.
    rewrite (find_pub_set n s s' _ W Hs E). rewrite Et in Ho. rewrite (wf_site_pub n W x Hx Ho). reflexivity.
  - intros h Hh. rewrite set_site_hosts in Hh. unfold find_host. rewrite set_site_hosts. exact (wf_host_id n W h Hh).
  - intros h Hh. rewrite set_site_hosts in *. exact (wf_host_lan n W h Hh).
  - intros h t Hh Ht Ho Hop. rewrite set_site_hosts in Hh.
    destruct (in_set_site n s' t Ht) as (x & Hx & ->).
    destruct (upd_ident n s s' x W Hs E Hx) as (_ & Et & Ep). rewrite Ep. rewrite Et in Ho.
    rewrite (site_type_set n s s' _ W Hs E) in Hop. exact (wf_open_apart n W h x Hh Hx Ho Hop).
  - intros t Ht. destruct (in_set_site n s' t Ht) as (x & Hx & ->).
    unfold upd. destruct (s_id x =? s_id s'); [exact Ws' | exact (wf_sites n W x Hx)].
Qed.

Lemma filt_add_has e f : existsb (fun x => (fst x =? fst e) && addr_eqb (snd x) (snd e)) (filt_add e f) = true.
Proof.
  unfold filt_add. destruct (existsb (fun x => (fst x =? fst e) && addr_eqb (snd x) (snd e)) f) eqn:E; [exact E|].
  rewrite existsb_app. cbn [existsb]. rewrite Z.eqb_refl, addr_eqb_refl. cbn. apply orb_true_r.
Qed.
Lemma filt_add_keeps e f x : In x f -> In x (filt_add e f).
Proof. unfold filt_add. destruct (existsb _ f); [auto|]. intros H. apply in_or_app. left. exact H. Qed.

(* the site record after host (lan) sent a packet through it to dst *)
Definition site_after (s : site) (lan dst : addr) : site :=
  let '(ext, maps', next') :=
    match map_lookup lan (s_maps s) with
    | Some p => (p, s_maps s, s_next s)
    | None => (s_next s, s_maps s ++ [(lan, s_next s)], s_next s + 1)
    end in
  mkSite (s_id s) (s_type s) (s_pub s) maps' next' (filt_add (ext, dst) (s_filt s)).
Definition ext_after (s : site) (lan : addr) : Z :=
  match map_lookup lan (s_maps s) with Some p => p | None => s_next s end.

Lemma map_lookup_in a m p : map_lookup a m = Some p -> In (a, p) m.
Proof.
  unfold map_lookup. destruct (find (fun e => addr_eqb (fst e) a) m) as [e|] eqn:F; [|discriminate].
  intros H. inversion H. pose proof (find_some _ _ F) as [Hin He]. apply addr_eqb_eq in He.
  destruct e as [a' p']. cbn in *. subst. exact Hin.
Qed.

Lemma site_after_extends s lan dst : extends s (site_after s lan dst).
Proof.
  unfold site_after. destruct (map_lookup lan (s_maps s)); constructor; cbn; auto.
  - exists []. rewrite app_nil_r. reflexivity.
  - intros e. apply filt_add_keeps.
  - eauto.
  - intros e. apply filt_add_keeps.
Qed.

Lemma site_after_maps s lan dst : In (lan, ext_after s lan) (s_maps (site_after s lan dst)).
Proof.
  unfold site_after, ext_after. destruct (map_lookup lan (s_maps s)) eqn:L; cbn.
  - apply map_lookup_in. exact L.
  - apply in_or_app. right. left. reflexivity.
Qed.

Lemma site_after_filt s lan dst :
  existsb (fun x => (fst x =? ext_after s lan) && addr_eqb (snd x) dst) (s_filt (site_after s lan dst)) = true.
Proof.
  unfold site_after, ext_after. destruct (map_lookup lan (s_maps s)); cbn; apply (filt_add_has (_, dst)).
Qed.

Lemma site_after_wf s lan dst : site_wf s -> site_wf (site_after s lan dst).
Proof.
  intros [Wl Wr Wn]. unfold site_after. destruct (map_lookup lan (s_maps s)) eqn:L.
  - constructor; cbn; assumption.
  - assert (Hnone : forall x, In x (s_maps s) -> addr_eqb (fst x) lan = false).
    { unfold map_lookup in L. destruct (find (fun e => addr_eqb (fst e) lan) (s_maps s)) eqn:F; [discriminate|].
      intros x Hx. exact (find_none _ _ F x Hx). }
    constructor; cbn [s_maps s_next]; intros a p Hin; apply in_app_or in Hin.
    + unfold map_lookup. rewrite find_app. destruct Hin as [Hin|[Hin|[]]].
      * pose proof (Wl a p Hin) as Hl. unfold map_lookup in Hl.
        destruct (find (fun e => addr_eqb (fst e) a) (s_maps s)); [exact Hl | discriminate].
      * inversion Hin; subst a p.
        rewrite (find_none_intro _ _ Hnone). cbn [find fst]. rewrite addr_eqb_refl. reflexivity.
    + unfold map_rev. rewrite find_app. destruct Hin as [Hin|[Hin|[]]].
      * pose proof (Wr a p Hin) as Hr. unfold map_rev in Hr.
        destruct (find (fun e => snd e =? p) (s_maps s)); [exact Hr | discriminate].
      * inversion Hin; subst a p.
        rewrite find_none_intro; [cbn [find snd]; rewrite Z.eqb_refl; reflexivity|].
        intros [a' p'] Hx. cbn. pose proof (Wn a' p' Hx). lia.
    + destruct Hin as [Hin|[Hin|[]]]; [pose proof (Wn a p Hin); lia | inversion Hin; lia].
Qed.

(* route, unfolded for a NATted sender whose packet leaves the site *)
Lemma route_outbound n hid h s dst :
  find_host n hid = Some h -> find_site n (h_site h) = Some s -> is_open (s_type s) = false ->
  find (by_lan (s_id s) dst) (hosts n) = None -> in_lan_subnets (fst dst) = false ->
  route n hid dst =
  (set_site n (site_after s (h_lan h) dst),
   internet (set_site n (site_after s (h_lan h) dst)) (s_pub s, ext_after s (h_lan h)) dst).
Proof.
  intros Hh Hs Ho Hl Hp. unfold route. rewrite Hh, Hs, Ho.
  change (fun h2 : host => (h_site h2 =? s_id s) && addr_eqb (h_lan h2) dst) with (by_lan (s_id s) dst).
  rewrite Hl, Hp. unfold site_after, ext_after. destruct (map_lookup (h_lan h) (s_maps s)); reflexivity.
Qed.

(* every send keeps the network well formed and only extends sites *)
Definition net_extends (n n' : net) : Prop :=
  hosts n' = hosts n /\
  (n' = n \/ exists s s', In s (sites n) /\ extends s s' /\ site_wf s' /\ n' = set_site n s').

(* a send either leaves the network as it is (LAN delivery, unroutable private destination, public sender,
   unknown sender) or updates exactly the sender's site record to `site_after` *)
Lemma route_cases n hid dst n' oc : route n hid dst = (n', oc) ->
  n' = n \/
  exists h s, find_host n hid = Some h /\ find_site n (h_site h) = Some s /\ is_open (s_type s) = false /\
              n' = set_site n (site_after s (h_lan h) dst).
Proof.
  intros H. unfold route in H.
  destruct (find_host n hid) as [h|] eqn:Fh; [|inversion H; auto].
  destruct (find_site n (h_site h)) as [s|] eqn:Fs; [|inversion H; auto].
  destruct (is_open (s_type s)) eqn:Ho; [inversion H; auto|].
  destruct (find _ (hosts n)); [inversion H; auto|].
  destruct (in_lan_subnets (fst dst)); [inversion H; auto|].
  right. exists h, s. repeat (split; [reflexivity || assumption|]).
  unfold site_after. destruct (map_lookup (h_lan h) (s_maps s)); inversion H; reflexivity.
Qed.

Lemma route_extends n hid dst n' oc : net_wf n -> route n hid dst = (n', oc) -> net_extends n n'.
Proof.
  intros W H. destruct (route_cases n hid dst n' oc H) as [->|(h & s & _ & Fs & _ & ->)]; [split; auto|].
  pose proof (find_some _ _ Fs) as [Hin _]. split; [reflexivity|]. right. exists s, (site_after s (h_lan h) dst).
  split; [exact Hin|]. split; [apply site_after_extends|]. split; [|reflexivity].
  apply site_after_wf. exact (wf_sites n W s Hin).
Qed.

Lemma net_extends_wf n n' : net_wf n -> net_extends n n' -> net_wf n'.
Proof.
  intros W [_ [->|(s & s' & Hs & E & Ws & ->)]]; [exact W|]. apply set_site_wf with (s := s); [assumption | assumption | apply extends_ident; assumption | assumption].
Qed.

Lemma route_wf n hid dst n' oc : net_wf n -> route n hid dst = (n', oc) -> net_wf n'.
Proof. intros W H. eapply net_extends_wf; [exact W | eapply route_extends; eassumption]. Qed.

Lemma external_after_outbound n hid h s dst :
  net_wf n -> find_host n hid = Some h -> find_site n (h_site h) = Some s -> is_open (s_type s) = false ->
  external (set_site n (site_after s (h_lan h) dst)) hid = Some (s_pub s, ext_after s (h_lan h)).
Proof.
  intros W Hh Hs Ho. set (s' := site_after s (h_lan h) dst).
  pose proof (find_some _ _ Hs) as [Hsin _].
  pose proof (site_after_extends s (h_lan h) dst) as E. fold s' in E.
  assert (Ws' : site_wf s') by (apply site_after_wf; exact (wf_sites n W s Hsin)).
  assert (Hu : upd s' s = s') by (unfold upd; rewrite (ex_id _ _ E), Z.eqb_refl; reflexivity).
  unfold external. unfold find_host. rewrite set_site_hosts. fold (find_host n hid). rewrite Hh.
  rewrite (find_site_set n s s' _ W Hsin (extends_ident _ _ E)), Hs. cbn [option_map]. rewrite Hu.
  rewrite (ex_type _ _ E), Ho.
  rewrite (sw_lookup s' Ws' _ _ (site_after_maps s (h_lan h) dst)). rewrite (ex_pub _ _ E). reflexivity.
Qed.

(* what `internet` does for a packet addressed to a mapped port of a NAT box *)
Lemma internet_inbound n s h src ext :
  net_wf n -> In s (sites n) -> is_open (s_type s) = false -> In h (hosts n) -> h_site h = s_id s ->
  In (h_lan h, ext) (s_maps s) -> fst src <> s_pub s ->
  internet n src (s_pub s, ext) =
  if filter_ok (s_type s) (s_filt s) ext src then Deliver (h_id h) src else Drop Filtered.
Proof.
  intros W Hs Ho Hh Hsite Hmap Hsrc. unfold internet. cbn [fst snd].
  rewrite find_none_intro.
  2:{ intros h0 Hh0. destruct (is_open (site_type n (h_site h0))) eqn:Eo; [|reflexivity]. cbn [andb].
      apply addr_eqb_neq. intros Eq. apply (wf_open_apart n W h0 s Hh0 Hs Ho Eo). rewrite Eq. reflexivity. }
  change (fun s0 : site => negb (is_open (s_type s0)) && (s_pub s0 =? s_pub s)) with (by_pub (s_pub s)).
  rewrite (wf_site_pub n W s Hs Ho).
  replace (fst src =? s_pub s) with false by lia.
  rewrite (sw_rev s (wf_sites n W s Hs) _ _ Hmap).
  destruct (filter_ok (s_type s) (s_filt s) ext src); [|reflexivity].
  change (fun h0 : host => (h_site h0 =? s_id s) && addr_eqb (h_lan h0) (h_lan h)) with (by_lan (s_id s) (h_lan h)).
  rewrite <- Hsite. rewrite (wf_host_lan n W h Hh). reflexivity.
Qed.

Lemma filter_ok_mono t f f' port src :
  (forall e, In e f -> In e f') -> filter_ok t f port src = true -> filter_ok t f' port src = true.
Proof.
  intros Hsub. destruct t; cbn [filter_ok]; auto; rewrite !existsb_exists;
    intros (e & Hin & He); exists e; (split; [apply Hsub; exact Hin | exact He]).
Qed.

(* a pinhole stays open: later traffic of anybody never closes it, and the external address of a host
   never changes (endpoint-independent mapping) *)
Definition pinhole (n : net) (hid : Z) (pub ext : Z) (src : addr) : Prop :=
  exists s h, In s (sites n) /\ is_open (s_type s) = false /\ s_pub s = pub /\
              In h (hosts n) /\ h_id h = hid /\ h_site h = s_id s /\ In (h_lan h, ext) (s_maps s) /\
              fst src <> pub /\ filter_ok (s_type s) (s_filt s) ext src = true.

Lemma pinhole_delivers n hid pub ext src : net_wf n -> pinhole n hid pub ext src ->
  internet n src (pub, ext) = Deliver hid src.
Proof.
  intros W (s & h & Hs & Ho & Hp & Hh & Hid & Hsite & Hmap & Hsrc & Hf). subst pub hid.
  rewrite (internet_inbound n s h src ext W Hs Ho Hh Hsite Hmap Hsrc), Hf. reflexivity.
Qed.

Lemma pinhole_extends n n' hid pub ext src : net_wf n -> net_extends n n' ->
  pinhole n hid pub ext src -> pinhole n' hid pub ext src.
Proof.
  intros W [Hhosts [->|(s0 & s0' & Hs0 & E & Ws0 & ->)]] P; [exact P|].
  destruct P as (s & h & Hs & Ho & Hp & Hh & Hid & Hsite & Hmap & Hsrc & Hf).
  destruct (upd_keeps n s0 s0' s W Hs0 E Hs) as (Ei & Et & Epub & Ex).
  exists (upd s0' s), h. rewrite set_site_sites, set_site_hosts, Ei, Et, Epub.
  split; [apply in_map; exact Hs|]. repeat (split; [assumption|]).
  split.
  - destruct (ex_maps _ _ Ex) as (more & ->). apply in_or_app. left. exact Hmap.
  - split; [assumption|]. eapply filter_ok_mono; [exact (ex_filt _ _ Ex) | exact Hf].
Qed.

(* sends, iterated *)
Fixpoint routes (n : net) (l : list (Z * addr)) : net :=
  match l with [] => n | (h, d) :: tl => routes (fst (route n h d)) tl end.

Lemma routes_wf l : forall n, net_wf n -> net_wf (routes n l).
Proof.
  induction l as [|[h d] tl IH]; intros n W; cbn [routes]; [exact W|].
  apply IH. destruct (route n h d) as [n' oc] eqn:R. cbn [fst]. eapply route_wf; eassumption.
Qed.
Lemma pinhole_stable l : forall n hid pub ext src, net_wf n -> pinhole n hid pub ext src ->
  pinhole (routes n l) hid pub ext src.
Proof.
  induction l as [|[h d] tl IH]; intros n hid pub ext src W P; cbn [routes]; [exact P|].
  destruct (route n h d) as [n' oc] eqn:R. cbn [fst].
  apply IH; [eapply route_wf; eassumption|].
  eapply pinhole_extends; [exact W | eapply route_extends; eassumption | exact P].
Qed.

Lemma find_filter {A} (P Q : A -> bool) l x : find P l = Some x -> Q x = true -> find P (filter Q l) = Some x.
Proof.
  induction l as [|y tl IH]; cbn [find filter]; [discriminate|].
  destruct (P y) eqn:Py.
  - intros E Hq. inversion E; subst y. rewrite Hq. cbn [find]. rewrite Py. reflexivity.
  - intros E Hq. destruct (Q y); [cbn [find]; rewrite Py|]; apply IH; assumption.
Qed.

Lemma filter_maps_wf (m : list (addr * Z)) (next : Z) (Q : addr * Z -> bool) :
  (forall a p, In (a, p) m -> map_lookup a m = Some p) ->
  (forall a p, In (a, p) m -> map_rev p m = Some a) ->
  (forall a p, In (a, p) m -> p < next) ->
  (forall a p, In (a, p) (filter Q m) -> map_lookup a (filter Q m) = Some p)
  /\ (forall a p, In (a, p) (filter Q m) -> map_rev p (filter Q m) = Some a)
  /\ (forall a p, In (a, p) (filter Q m) -> p < next).
Proof.
  intros Wl Wr Wn. split; [|split]; intros a p Hin; apply filter_In in Hin; destruct Hin as [Hin Hq].
  - specialize (Wl a p Hin). unfold map_lookup in *.
    destruct (find (fun e => addr_eqb (fst e) a) m) as [e|] eqn:F; [|discriminate]. inversion Wl.
    pose proof (find_some _ _ F) as [_ He]. apply addr_eqb_eq in He.
    assert (e = (a, p)) by (destruct e; cbn in *; subst; reflexivity). subst e.
    rewrite (find_filter _ Q _ _ F Hq). reflexivity.
  - specialize (Wr a p Hin). unfold map_rev in *.
    destruct (find (fun e => snd e =? p) m) as [e|] eqn:F; [|discriminate]. inversion Wr.
    pose proof (find_some _ _ F) as [_ He]. apply Z.eqb_eq in He.
    assert (e = (a, p)) by (destruct e; cbn in *; subst; reflexivity). subst e.
    rewrite (find_filter _ Q _ _ F Hq). reflexivity.
  - exact (Wn a p Hin).
Qed.

Lemma rebind_wf n hid : net_wf n -> net_wf (rebind n hid).
Proof.
  intros W. unfold rebind. destruct (find_host n hid) as [h|]; [|exact W].
  destruct (find_site n (h_site h)) as [s|] eqn:Fs; [|exact W].
  destruct (map_lookup (h_lan h) (s_maps s)) as [p|]; [|exact W].
  pose proof (find_some _ _ Fs) as [Hin _].
  apply set_site_wf with (s := s); [exact W | exact Hin | constructor; reflexivity |].
  destruct (wf_sites n W s Hin) as [Wl Wr Wn].
  destruct (filter_maps_wf (s_maps s) (s_next s) (fun e => negb (addr_eqb (fst e) (h_lan h))) Wl Wr Wn) as (A & B & C).
  constructor; cbn [s_maps s_next]; assumption.
Qed.

(* a decidable sufficient condition for net_wf on networks whose NAT tables are still empty; used to show
   that every scenario network is well formed (and so stays well formed, by route_wf) *)
Fixpoint distinct {A} (same : A -> A -> bool) (l : list A) : bool :=
  match l with
  | [] => true
  | x :: tl => forallb (fun y => negb (same x y)) tl && distinct same tl
  end.

Lemma distinct_find {A} (same : A -> A -> bool) (l : list A) :
  (forall a b, same a b = same b a) -> distinct same l = true ->
  forall x, In x l -> same x x = true -> find (same x) l = Some x.
Proof.
  intros Sym. induction l as [|x0 tl IH]; intros D x Hin Hr; [destruct Hin|].
  cbn [distinct] in D. apply andb_true_iff in D. destruct D as [D0 D1]. cbn [find].
  destruct Hin as [->|Hin]; [rewrite Hr; reflexivity|].
  rewrite forallb_forall in D0. specialize (D0 x Hin). rewrite Sym in D0.
  destruct (same x x0); [discriminate D0|]. apply IH; assumption.
Qed.


Definition same_site_id (a b : site) : bool := s_id b =? s_id a.
Definition same_pub (a b : site) : bool :=
  negb (is_open (s_type a)) && negb (is_open (s_type b)) && (s_pub b =? s_pub a).
Definition same_host_id (a b : host) : bool := h_id b =? h_id a.
Definition same_lan (a b : host) : bool := by_lan (h_site a) (h_lan a) b.

Definition net_wfb (n : net) : bool :=
  distinct same_site_id (sites n) && distinct same_pub (sites n)
  && distinct same_host_id (hosts n) && distinct same_lan (hosts n)
  && forallb (fun h => forallb (fun s => is_open (s_type s) || negb (is_open (site_type n (h_site h)))
                                         || negb (fst (h_lan h) =? s_pub s)) (sites n)) (hosts n)
  && forallb (fun s => match s_maps s with [] => true | _ => false end) (sites n).

Lemma net_wfb_sound n : net_wfb n = true -> net_wf n.
Proof.
  unfold net_wfb. rewrite !andb_true_iff. intros [[[[[D1 D2] D3] D4] A] M]. constructor.
  - intros s Hs. unfold find_site.
    rewrite (find_ext _ (same_site_id s)) by reflexivity.
    apply distinct_find; auto.
    + intros a b. unfold same_site_id. rewrite Z.eqb_sym. reflexivity.
    + unfold same_site_id. apply Z.eqb_refl.
  - intros s Hs Ho.
    rewrite (find_ext _ (same_pub s)).
    + apply distinct_find; auto.
      * intros a b. unfold same_pub. rewrite (Z.eqb_sym (s_pub b)).
        destruct (is_open (s_type a)), (is_open (s_type b)); reflexivity.
      * unfold same_pub. rewrite Ho, Z.eqb_refl. reflexivity.
    + intros x. unfold by_pub, same_pub. rewrite Ho. reflexivity.
  - intros h Hh. unfold find_host.
    rewrite (find_ext _ (same_host_id h)) by reflexivity.
    apply distinct_find; auto.
    + intros a b. unfold same_host_id. rewrite Z.eqb_sym. reflexivity.
    + unfold same_host_id. apply Z.eqb_refl.
  - intros h Hh. change (by_lan (h_site h) (h_lan h)) with (same_lan h).
    apply distinct_find; auto.
    + intros a b. unfold same_lan, by_lan. rewrite (Z.eqb_sym (h_site b)).
      destruct (addr_eqb (h_lan b) (h_lan a)) eqn:E1, (addr_eqb (h_lan a) (h_lan b)) eqn:E2; try reflexivity.
      * apply addr_eqb_eq in E1. rewrite E1, addr_eqb_refl in E2. discriminate.
      * apply addr_eqb_eq in E2. rewrite E2, addr_eqb_refl in E1. discriminate.
    + unfold same_lan, by_lan. rewrite Z.eqb_refl, addr_eqb_refl. reflexivity.
  - intros h s Hh Hs Ho Hop. rewrite forallb_forall in A. specialize (A h Hh).
    rewrite forallb_forall in A. specialize (A s Hs). rewrite Ho, Hop in A. cbn in A.
    apply negb_true_iff in A. lia.
  - intros s Hs. rewrite forallb_forall in M. specialize (M s Hs).
    destruct (s_maps s) eqn:E; [|discriminate]. constructor; rewrite E; intros a p [].
Qed.

(* a scripted history keeps the network well formed *)
Lemma send1_wf w hid out : net_wf (w_net w) -> net_wf (w_net (send1 w hid out)).
Proof.
  intros W. unfold send1. destruct out as [dst m]. destruct (route (w_net w) hid dst) as [n' oc] eqn:R.
  cbn [w_net]. eapply route_wf; eassumption.
Qed.
Lemma send_all_wf outs : forall w hid, net_wf (w_net w) -> net_wf (w_net (send_all w hid outs)).
Proof.
  unfold send_all. induction outs as [|o tl IH]; intros w hid W; cbn [fold_left]; [exact W|].
  apply IH. apply send1_wf. exact W.
Qed.
Lemma deliver_one_wf w : net_wf (w_net w) -> net_wf (w_net (deliver_one w)).
Proof.
  intros W. unfold deliver_one. destruct (w_queue w) as [|[[hid src] m] tl]; [exact W|].
  match goal with |- context [find_node ?w1 hid] => destruct (find_node w1 hid) as [n|] end; [|exact W].
  destruct (handle n src m) as [n' outs]. apply send_all_wf. exact W.
Qed.
Lemma pump_wf fuel : forall w, net_wf (w_net w) -> net_wf (w_net (pump fuel w)).
Proof.
  induction fuel as [|f IH]; intros w W; cbn [pump]; [exact W|].
  destruct (w_queue w) eqn:Q; [exact W|]. apply IH. apply deliver_one_wf. exact W.
Qed.
Lemma walk1_wf w h dst st : net_wf (w_net w) -> net_wf (w_net (walk1 w h dst st)).
Proof.
  intros W. unfold walk1. destruct (find_node w h) as [n|]; [|exact W].
  destruct (make_request n dst _) as [n' m]. apply send1_wf. exact W.
Qed.
Lemma step_op_wf w o : net_wf (w_net w) -> net_wf (w_net (step_op w o)).
Proof.
  intros W. destruct o; cbn [step_op].
  - apply walk1_wf. exact W.
  - destruct (find_node w h) as [n|]; [|exact W]. destruct (find_peer key (n_peers n)); [|exact W].
    apply walk1_wf. exact W.
  - destruct (find_node w h) as [n|]; [|exact W].
    generalize (walkable n). intros l. revert w W. induction l as [|a tl IH]; intros w W; cbn [fold_left]; [exact W|].
    apply IH. apply walk1_wf. exact W.
  - cbn [w_net]. apply rebind_wf. exact W.
  - apply pump_wf. exact W.
Qed.
Lemma run_ops_wf ops : forall w, net_wf (w_net w) -> net_wf (w_net (run_ops w ops)).
Proof.
  unfold run_ops. induction ops as [|o tl IH]; intros w W; cbn [fold_left]; [exact W|].
  apply IH. apply step_op_wf. exact W.
Qed.
