(* C16 - lemmas about gather_token and its chain reaction (model M16_tokentree). *)
From Coq Require Import ZArith List Bool Lia.
From IPV8V Require Import lib.Lists lib.PyErr lib.Bytes model.M16_tokentree.
Import ListNotations.


Lemma tok_eqb_eq a b : tok_eqb a b = true <-> signed a = signed b.
Proof. unfold tok_eqb. apply bytes_eqb_eq. Qed.

Lemma tok_eqb_refl a : tok_eqb a a = true.
Proof. apply tok_eqb_eq. reflexivity. Qed.

Lemma tok_eqb_false a b : tok_eqb a b = false <-> signed a <> signed b.
Proof.
  split.
  - intros H E. apply tok_eqb_eq in E. congruence.
  - intros H. destruct (tok_eqb a b) eqn:E; [|reflexivity]. apply tok_eqb_eq in E. contradiction.
Qed.

Lemma remove_first_In p l x : In x (remove_first p l) -> In x l.
Proof.
  induction l as [|y l IH]; simpl; [auto|].
  destruct (p y); simpl; intros H; auto. destruct H; auto.
Qed.

Lemma remove_first_keep p l x : In x l -> p x = false -> In x (remove_first p l).
Proof.
  induction l as [|y l IH]; simpl; [auto|]. intros [H|H] Hp.
  - subst. rewrite Hp. left. reflexivity.
  - destruct (p y); [assumption|]. right. auto.
Qed.

Lemma remove_first_length p l :
  existsb p l = true -> S (length (remove_first p l)) = length l.
Proof.
  induction l as [|y l IH]; simpl; [discriminate|].
  destruct (p y); simpl; intros H; [reflexivity|]. rewrite IH by assumption. reflexivity.
Qed.

Lemma remove_first_length_le p l : (length (remove_first p l) <= length l)%nat.
Proof. induction l as [|y l IH]; simpl; [lia|]. destruct (p y); simpl; lia. Qed.

Lemma remove_first_nodup r l :
  NoDup (map signed l) -> NoDup (map signed (remove_first (tok_eqb r) l)).
Proof.
  induction l as [|y l IH]; simpl; intros N; [constructor|].
  inversion N as [|? ? Hn N']; subst.
  destruct (tok_eqb r y); simpl; auto.
  constructor; auto. intros H. apply Hn.
  apply in_map_iff in H as [z [E Hz]]. apply remove_first_In in Hz.
  rewrite <- E. apply in_map. assumption.
Qed.

Lemma remove_first_gone r l x :
  NoDup (map signed l) -> In x (remove_first (tok_eqb r) l) -> tok_eqb r x = false.
Proof.
  induction l as [|y l IH]; simpl; intros N Hx; [contradiction|].
  inversion N as [|? ? Hn N']; subst.
  destruct (tok_eqb r y) eqn:E.
  - apply tok_eqb_false. intros Es. apply Hn. apply tok_eqb_eq in E. rewrite <- E, Es.
    apply in_map. assumption.
  - destruct Hx as [Hx|Hx]; [subst; assumption|]. apply IH; auto.
Qed.

Lemma existsb_tok_eqb_In r l : In r l -> existsb (tok_eqb r) l = true.
Proof. intros H. apply existsb_exists. exists r. split; [assumption|apply tok_eqb_refl]. Qed.

(* the waiting area after `self.unchained[token] = None`, before the overflow pop *)
Definition u_add (u : list token) (t : token) : list token :=
  if existsb (tok_eqb t) u then u else u ++ [t].

Lemma u_insert_eq u t c :
  u_insert u t c = if (c <? length (u_add u t))%nat then tl (u_add u t) else u_add u t.
Proof. reflexivity. Qed.

Lemma u_add_In u t x : In x (u_add u t) -> In x u \/ x = t.
Proof.
  unfold u_add. destruct (existsb (tok_eqb t) u); [auto|].
  intros H. apply in_app_or in H as [H|[H|[]]]; auto.
Qed.

Lemma u_add_incl u t : incl u (u_add u t).
Proof. unfold u_add. destruct (existsb (tok_eqb t) u); [apply incl_refl|apply incl_appl, incl_refl]. Qed.

Lemma u_add_has u t : exists x, In x (u_add u t) /\ signed x = signed t.
Proof.
  unfold u_add. destruct (existsb (tok_eqb t) u) eqn:E.
  - apply existsb_exists in E as [x [A B]]. apply tok_eqb_eq in B. eauto.
  - exists t. split; [apply in_or_app; right; left|]; reflexivity.
Qed.

Lemma u_add_nodup u t : NoDup (map signed u) -> NoDup (map signed (u_add u t)).
Proof.
  intros N. unfold u_add. destruct (existsb (tok_eqb t) u) eqn:E; [assumption|].
  rewrite map_app. apply NoDup_snoc; [assumption|].
  intros H. apply in_map_iff in H as [y [Ey Hy]].
  assert (existsb (tok_eqb t) u = true); [|congruence].
  apply existsb_exists. exists y. split; [assumption|]. apply tok_eqb_eq. auto.
Qed.

Lemma u_add_length u t : (length (u_add u t) <= S (length u))%nat.
Proof. unfold u_add. destruct (existsb (tok_eqb t) u); [|rewrite app_length, Nat.add_1_r]; auto. Qed.

Lemma u_insert_length u t c : (length (u_insert u t c) <= S (length u))%nat.
Proof.
  rewrite u_insert_eq. pose proof (u_add_length u t) as L.
  destruct (c <? _)%nat; [|assumption]. destruct (u_add u t); simpl in *; lia.
Qed.

Lemma u_insert_In u t c x : In x (u_insert u t c) -> In x u \/ x = t.
Proof.
  rewrite u_insert_eq. intros H. apply u_add_In.
  destruct (c <? _)%nat; [|assumption]. destruct (u_add u t); [assumption|right; assumption].
Qed.

Lemma NoDup_tl {A} (l : list A) : NoDup l -> NoDup (tl l).
Proof. destruct l; simpl; intros N; [constructor|]. inversion N; assumption. Qed.

Lemma u_insert_nodup u t c : NoDup (map signed u) -> NoDup (map signed (u_insert u t c)).
Proof.
  intros N. apply (u_add_nodup u t) in N. rewrite u_insert_eq.
  destruct (c <? _)%nat; [|assumption]. destruct (u_add u t); [assumption|]. apply (NoDup_tl _ N).
Qed.

Lemma u_insert_bound u t c : (length u <= c)%nat -> (length (u_insert u t c) <= c)%nat.
Proof.
  intros L. rewrite u_insert_eq. pose proof (u_add_length u t) as L1.
  destruct (c <? _)%nat eqn:E; [|apply Nat.ltb_ge, E].
  destruct (u_add u t); simpl in *; lia.
Qed.

(* no overflow pop when the added token fits *)
Lemma u_insert_fits u t c : (length (u_add u t) <= c)%nat -> u_insert u t c = u_add u t.
Proof. intros L. rewrite u_insert_eq. apply Nat.ltb_ge in L. rewrite L. reflexivity. Qed.

Lemma update_first_same (p : token -> bool) e x :
  find p e = Some x -> update_first p (fun _ => x) e = e.
Proof.
  induction e as [|y e IH]; simpl; [discriminate|]. destruct (p y) eqn:E; intros H.
  - inversion H; subst. reflexivity.
  - rewrite IH by assumption. reflexivity.
Qed.

Lemma update_first_fun (p : token -> bool) f e x :
  find p e = Some x -> update_first p f e = update_first p (fun _ => f x) e.
Proof.
  induction e as [|y e IH]; simpl; [discriminate|]. destruct (p y) eqn:E; intros H.
  - inversion H; subst. reflexivity.
  - rewrite IH by assumption. reflexivity.
Qed.

Lemma find_update_first (p : token -> bool) e x y :
  find p e = Some x -> p y = true -> find p (update_first p (fun _ => y) e) = Some y.
Proof.
  induction e as [|z e IH]; simpl; [discriminate|]. destruct (p z) eqn:E; intros H Hy.
  - simpl. rewrite Hy. reflexivity.
  - simpl. rewrite E. apply IH; assumption.
Qed.

Section Gather.
Variable hash : bytes -> bytes.
Variable sigverify : bytes -> bytes -> bytes -> bool.
Variable pk : bytes.

Notation genesis := (genesis hash pk).
Notation thash := (thash hash).
Notation tverify := (tverify sigverify pk).
Notation keys := (keys hash).
Notation has_key := (has_key hash).
Notation find_key := (find_key hash).
Notation readyb := (readyb hash pk).
Notation merge_content := (merge_content hash).
Notation receive_content := (receive_content hash).
Notation gather := (gather hash sigverify pk).
Notation gather_top := (gather_top hash sigverify pk).
Notation gather_all := (gather_all hash sigverify pk).

Lemma thash_strip t : thash (strip t) = thash t.
Proof. reflexivity. Qed.
Lemma tverify_strip t : tverify (strip t) = tverify t.
Proof. reflexivity. Qed.
Lemma signed_strip t : signed (strip t) = signed t.
Proof. reflexivity. Qed.

Lemma strip_eq_thash a b : strip a = strip b -> thash a = thash b.
Proof. intros H. rewrite <- (thash_strip a), <- (thash_strip b), H. reflexivity. Qed.
Lemma strip_eq_tverify a b : strip a = strip b -> tverify a = tverify b.
Proof. intros H. rewrite <- (tverify_strip a), <- (tverify_strip b), H. reflexivity. Qed.
Lemma strip_eq_prev a b : strip a = strip b -> t_prev a = t_prev b.
Proof. unfold strip. intros H. inversion H. reflexivity. Qed.
Lemma strip_eq_signed a b : strip a = strip b -> signed a = signed b.
Proof. intros H. rewrite <- (signed_strip a), <- (signed_strip b), H. reflexivity. Qed.

Lemma receive_content_strip t c : strip (fst (receive_content t c)) = strip t.
Proof. unfold M16_tokentree.receive_content. destruct (bytes_eqb (hash c) (t_chash t)); reflexivity. Qed.

Lemma merge_content_strip sh t : strip (merge_content sh t) = strip sh.
Proof.
  unfold M16_tokentree.merge_content. destruct (t_content sh); [reflexivity|].
  destruct (t_content t); [apply receive_content_strip|reflexivity].
Qed.

Lemma keys_strip e : keys (map strip e) = keys e.
Proof. unfold M16_tokentree.keys. rewrite map_map. reflexivity. Qed.

Lemma keys_of_strip_eq e e' : map strip e = map strip e' -> keys e = keys e'.
Proof. intros H. rewrite <- (keys_strip e), <- (keys_strip e'), H. reflexivity. Qed.

Lemma keys_app a b : keys (a ++ b) = keys a ++ keys b.
Proof. unfold M16_tokentree.keys. apply map_app. Qed.

Lemma has_key_In h e : has_key h e = true <-> In h (keys e).
Proof.
  unfold M16_tokentree.has_key, M16_tokentree.keys. rewrite existsb_exists. split.
  - intros [x [Hx E]]. apply bytes_eqb_eq in E. subst. apply in_map. assumption.
  - intros H. apply in_map_iff in H as [x [E Hx]]. exists x. split; [assumption|].
    apply bytes_eqb_eq. assumption.
Qed.

Lemma has_key_find h e : has_key h e = is_some (find_key h e).
Proof.
  unfold M16_tokentree.has_key, M16_tokentree.find_key.
  induction e as [|x e IH]; simpl; [reflexivity|].
  destruct (bytes_eqb (thash x) h); [reflexivity|exact IH].
Qed.

Lemma find_key_Some h e x : find_key h e = Some x -> In x e /\ thash x = h.
Proof.
  unfold M16_tokentree.find_key. intros H. apply find_some in H as [H1 H2].
  apply bytes_eqb_eq in H2. auto.
Qed.

Lemma find_key_None h e : find_key h e = None -> ~ In h (keys e).
Proof.
  unfold M16_tokentree.find_key. intros H Hin. apply in_map_iff in Hin as [x [E Hx]].
  pose proof (find_none _ _ H x Hx) as Hf. simpl in Hf. rewrite E, bytes_eqb_refl in Hf. discriminate.
Qed.

Lemma find_key_In h e : In h (keys e) -> exists x, find_key h e = Some x.
Proof.
  intros H. destruct (find_key h e) eqn:E; [eauto|]. apply find_key_None in E. contradiction.
Qed.

Definition chained (e : list token) (u : token) : Prop := In (t_prev u) (keys e).
Definition ready (e : list token) (t : token) : Prop := t_prev t = genesis \/ chained e t.

Lemma readyb_iff e t : readyb e t = true <-> ready e t.
Proof.
  unfold M16_tokentree.readyb, ready, chained. rewrite orb_true_iff, bytes_eqb_eq, has_key_In. tauto.
Qed.

Lemma readyb_false e t : readyb e t = false -> ~ ready e t.
Proof. intros H R. apply readyb_iff in R. congruence. Qed.

(* shadow update: only the content of one element changes *)
Lemma update_first_strip (p : token -> bool) sh e x :
  find p e = Some x -> strip sh = strip x ->
  map strip (update_first p (fun _ => sh) e) = map strip e.
Proof.
  induction e as [|y e IH]; simpl; [discriminate|].
  destruct (p y); intros F S.
  - inversion F; subst. simpl. rewrite S. reflexivity.
  - simpl. rewrite IH by assumption. reflexivity.
Qed.

Lemma update_first_Forall (Q : token -> Prop) p sh e :
  Forall Q e -> Q sh -> Forall Q (update_first p (fun _ => sh) e).
Proof.
  induction 1 as [|y e Hy He IH]; simpl; intros Hs; [constructor|].
  destruct (p y); constructor; auto.
Qed.

Inductive chain_ok : list token -> Prop :=
| co_nil : chain_ok []
| co_snoc : forall e t, chain_ok e -> ready e t -> chain_ok (e ++ [t]).

Lemma chain_ok_strip_eq e : chain_ok e -> forall e', map strip e' = map strip e -> chain_ok e'.
Proof.
  induction 1 as [|e t He IH Hr]; intros e' E.
  - destruct e'; [constructor|discriminate].
  - rewrite map_app in E. apply map_eq_app in E as [a [b [Ee [Ea Eb]]]]. subst e'.
    destruct b as [|t' [|? ?]]; try discriminate. simpl in Eb.
    assert (Et : strip t' = strip t) by congruence.
    constructor; [apply IH; assumption|].
    unfold ready, chained in *. rewrite (strip_eq_prev _ _ Et), (keys_of_strip_eq _ _ Ea). assumption.
Qed.

Lemma chain_ok_prefix_ready e : chain_ok e -> forall e1 x e2, e = e1 ++ x :: e2 -> ready e1 x.
Proof.
  induction 1 as [|e t He IH Hr]; intros e1 x e2 E.
  - destruct e1; discriminate.
  - destruct (exists_last (l := x :: e2) ltac:(discriminate)) as [l' [z Ez]].
    rewrite Ez, app_assoc in E. apply app_inj_tail in E as [E1 E2]. subst z.
    destruct l' as [|x' l''].
    + simpl in Ez. inversion Ez; subst. rewrite app_nil_r in Hr. assumption.
    + simpl in Ez. inversion Ez; subst x'. eapply IH. exact E1.
Qed.

(* The invariant kept by every step,
   including the intermediate states of a chain reaction.  P: everything offered (so far or ever). *)
Record Sound (P : list token) (tr : tree) : Prop := {
  s_elems : Forall (fun e => tverify e = true /\ In (strip e) (map strip P)) (elements tr);
  s_chain : chain_ok (elements tr);
  s_keys : NoDup (keys (elements tr));
  s_wait : Forall (fun u => tverify u = true /\ In (strip u) (map strip P) /\ t_prev u <> genesis)
                  (unchained tr);
  s_wait_nodup : NoDup (map signed (unchained tr))
}.

Lemma Sound_empty P c : Sound P (empty_tree c).
Proof. constructor; simpl; constructor. Qed.

Lemma Sound_mono P P' tr : incl P P' -> Sound P tr -> Sound P' tr.
Proof.
  intros I [A B C D E]. constructor; auto.
  - eapply Forall_impl; [|exact A]. simpl. intros a [H1 H2]. split; auto.
    apply in_map_iff in H2 as [p [E1 E2]]. rewrite <- E1. apply in_map. auto.
  - eapply Forall_impl; [|exact D]. simpl. intros a [H1 [H2 H3]]. split; [|split]; auto.
    apply in_map_iff in H2 as [p [E1 E2]]. rewrite <- E1. apply in_map. auto.
Qed.

Lemma Sound_wait_insert P tr t :
  Sound P tr -> tverify t = true -> In (strip t) (map strip P) -> ~ ready (elements tr) t ->
  Sound P (mkTree (elements tr) (u_insert (unchained tr) t (cap tr)) (cap tr)).
Proof.
  intros [S1 S2 S3 S4 S5] Vt Pt Nr. constructor; cbn [elements unchained]; auto.
  - apply Forall_forall. intros x Hx. apply u_insert_In in Hx as [Hx|Hx].
    + rewrite Forall_forall in S4. auto.
    + subst x. split; [assumption|]. split; [assumption|]. intros Hg. apply Nr. left. assumption.
  - apply u_insert_nodup. assumption.
Qed.

Lemma Sound_append P tr t :
  Sound P tr -> tverify t = true -> In (strip t) (map strip P) -> ready (elements tr) t ->
  ~ In (thash t) (keys (elements tr)) ->
  Sound P (mkTree (elements tr ++ [t]) (unchained tr) (cap tr)).
Proof.
  intros [S1 S2 S3 S4 S5] Vt Pt R Nk. constructor; cbn [elements unchained]; auto.
  - apply Forall_app. split; [assumption|]. constructor; [|constructor]. auto.
  - constructor; assumption.
  - rewrite keys_app. simpl. apply NoDup_snoc; assumption.
Qed.

(* what one call of gather_token guarantees, whatever the state of a surrounding chain reaction *)
Definition gather_step (P : list token) (tr : tree) (t : token) (tr' : tree) : Prop :=
  Sound P tr' /\ cap tr' = cap tr /\
  incl (keys (elements tr)) (keys (elements tr')) /\
  (forall u, In u (unchained tr') -> chained (elements tr') u ->
             In u (unchained tr) /\ chained (elements tr) u) /\
  (ready (elements tr) t ->
     (length (unchained tr') <= length (unchained tr))%nat /\
     (forall u, In u (unchained tr) -> chained (elements tr) u -> In u (unchained tr')) /\
     (forall u, In u (unchained tr) ->
                In u (unchained tr') \/ In (thash u) (keys (elements tr'))) /\
     (tverify t = true -> In (thash t) (keys (elements tr')))) /\
  (~ ready (elements tr) t ->
     elements tr' = elements tr /\
     unchained tr' = if tverify t then u_insert (unchained tr) t (cap tr) else unchained tr).

Definition gather_post (P : list token) (tr : tree) (t : token) (o : res (tree * option token)) : Prop :=
  exists tr' r, o = Ok (tr', r) /\ gather_step P tr t tr'.

Definition gather_pre (P : list token) (t : token) : Prop :=
  tverify t = true -> In (strip t) (map strip P).

(* What waking the tokens ws, and whatever they wake in turn, does to a tree: keys only grow, the
   waiting area only shrinks, the chained waiting tokens afterwards are exactly those of before that
   are not in ws, and a waiting token stays or has become an element. *)
Definition woke (ws : list token) (tr tr' : tree) : Prop :=
  cap tr' = cap tr /\
  incl (keys (elements tr)) (keys (elements tr')) /\
  (length (unchained tr') <= length (unchained tr))%nat /\
  (forall u, In u (unchained tr') /\ chained (elements tr') u <->
             (In u (unchained tr) /\ chained (elements tr) u) /\ ~ In u ws) /\
  (forall u, In u (unchained tr) -> In u (unchained tr') \/ In (thash u) (keys (elements tr'))).

Lemma woke_refl tr : woke [] tr tr.
Proof.
  split; [reflexivity|]. split; [apply incl_refl|]. split; [apply le_n|].
  split; [|auto]. intros u. split; [intros H; split; [exact H|intros []]|intros [H _]; exact H].
Qed.

Lemma woke_trans ws1 ws2 a b c : woke ws1 a b -> woke ws2 b c -> woke (ws1 ++ ws2) a c.
Proof.
  intros [C1 [K1 [L1 [E1 G1]]]] [C2 [K2 [L2 [E2 G2]]]].
  split; [congruence|]. split; [eapply incl_tran; eauto|]. split; [lia|]. split.
  - intros u. split.
    + intros H. apply E2 in H as [H N2]. apply E1 in H as [H N1]. split; [assumption|].
      intros Hi. apply in_app_or in Hi as [Hi|Hi]; auto.
    + intros [H N]. apply E2. split; [apply E1; split; [assumption|]|]; intros Hi; apply N, in_or_app; auto.
  - intros u Hu. destruct (G1 u Hu) as [A|A]; [|right; auto]. destruct (G2 u A); auto.
Qed.

Lemma Sound_pop P tr r :
  Sound P tr -> Sound P (mkTree (elements tr) (remove_first (tok_eqb r) (unchained tr)) (cap tr)).
Proof.
  intros [S1 S2 S3 S4 S5]. constructor; simpl; auto.
  - apply Forall_forall. intros x Hx. apply remove_first_In in Hx. rewrite Forall_forall in S4. auto.
  - apply remove_first_nodup. assumption.
Qed.

(* one turn of the loop: r is taken out of the waiting area and gathered *)
Lemma woke_pop P tr r tr2 :
  NoDup (map signed (unchained tr)) -> In r (unchained tr) -> chained (elements tr) r ->
  tverify r = true ->
  gather_step P (mkTree (elements tr) (remove_first (tok_eqb r) (unchained tr)) (cap tr)) r tr2 ->
  woke [r] tr tr2.
Proof.
  intros N Hr Hrc Vr [_ [C [K [E [R _]]]]]. destruct (R (or_intror Hrc)) as [L [D [G H]]]. simpl in *.
  pose proof (existsb_tok_eqb_In _ _ Hr) as Ex.
  split; [exact C|]. split; [exact K|].
  split; [rewrite <- (remove_first_length _ _ Ex); lia|].
  split; [intros u; split|].
  - intros [Hu Hc]. destruct (E u Hu Hc) as [A B].
    split; [split; [eapply remove_first_In; eauto|assumption]|].
    intros [Hn|[]]. subst u. pose proof (remove_first_gone r (unchained tr) r N A) as F.
    rewrite tok_eqb_refl in F. discriminate.
  - intros [[Hu Hc] Hn]. split; [|unfold chained in *; auto]. apply D; [|assumption].
    apply remove_first_keep; [assumption|].
    apply tok_eqb_false. intros Es. apply Hn. left.
    exact (NoDup_map_inj signed (unchained tr) r u N Hr Hu Es).
  - intros u Hu. destruct (tok_eqb r u) eqn:Eru.
    + apply tok_eqb_eq in Eru. rewrite <- (NoDup_map_inj signed (unchained tr) r u N Hr Hu Eru).
      right. apply H. exact Vr.
    + apply G, remove_first_keep; assumption.
Qed.

(* the loop over the collected waiters *)
Lemma wake_spec P f (g : tree -> token -> res (tree * option token)) :
  (forall tr t, (length (unchained tr) < f)%nat -> Sound P tr -> gather_pre P t -> gather_post P tr t (g tr t)) ->
  forall ws tr,
    Sound P tr -> (length (unchained tr) <= f)%nat -> NoDup (map signed ws) ->
    (forall r, In r ws -> In r (unchained tr) /\ chained (elements tr) r) ->
    exists tr', wake_with g ws tr = Ok tr' /\ Sound P tr' /\ woke ws tr tr'.
Proof.
  intros Hg. induction ws as [|r ws IH]; intros tr S L N Hws.
  - exists tr. split; [reflexivity|]. split; [assumption|apply woke_refl].
  - destruct (Hws r (or_introl eq_refl)) as [Hr Hrc].
    pose proof (existsb_tok_eqb_In _ _ Hr) as Ex.
    simpl. unfold u_pop. rewrite Ex.
    assert (Pr : tverify r = true /\ In (strip r) (map strip P)).
    { destruct S as [_ _ _ S4 _]. rewrite Forall_forall in S4. destruct (S4 r Hr) as [A [B _]]. auto. }
    pose proof (remove_first_length _ _ Ex) as Lr.
    destruct (Hg (mkTree (elements tr) (remove_first (tok_eqb r) (unchained tr)) (cap tr)) r
                 ltac:(simpl; lia) (Sound_pop P tr r S) (fun _ => proj2 Pr)) as [tr2 [res [Eg G2]]].
    rewrite Eg.
    pose proof (woke_pop P tr r tr2 ltac:(destruct S; assumption) Hr Hrc (proj1 Pr) G2) as W1.
    destruct G2 as [S' _]. inversion N as [|? ? Nr N']; subst.
    (* the remaining waiters are still waiting and still chained *)
    destruct (IH tr2 S') as [tr3 [Ew [S3 W2]]]; [destruct W1 as [_ [_ [L1 _]]]; lia|assumption| |].
    { intros r' Hr'. destruct (Hws r' (or_intror Hr')) as [A B]. destruct W1 as [_ [_ [_ [E1 _]]]].
      apply E1. split; [split; assumption|].
      intros [Hn|[]]. subst r'. apply Nr, in_map, Hr'. }
    exists tr3. split; [exact Ew|]. split; [assumption|]. exact (woke_trans [r] ws tr tr2 tr3 W1 W2).
Qed.

Lemma gather_spec P : forall f tr t,
  (length (unchained tr) < f)%nat -> Sound P tr -> gather_pre P t -> gather_post P tr t (gather f tr t).
Proof.
  induction f as [|f IH]; intros tr t L S Pt; [lia|].
  cbn [M16_tokentree.gather]. unfold gather_post, gather_step.
  destruct (tverify t) eqn:Ev; cbn [negb].
  2:{ (* signature does not verify: nothing happens *)
      exists tr, None. split; [reflexivity|]. split; [assumption|]. split; [reflexivity|].
      split; [apply incl_refl|]. split; [auto|].
      split.
      { intros _. split; [lia|]. split; [auto|]. split; [auto|discriminate]. }
      auto. }
  destruct (readyb (elements tr) t) eqn:Er; cbn [negb].
  2:{ (* predecessor unknown: into the waiting area *)
      pose proof (readyb_false _ _ Er) as Nr.
      eexists; exists None. split; [reflexivity|].
      split; [exact (Sound_wait_insert P tr t S Ev (Pt Ev) Nr)|]. cbn [elements unchained cap].
      split; [reflexivity|]. split; [apply incl_refl|].
      split.
      { intros u Hu Hc. apply u_insert_In in Hu as [Hu|Hu]; [auto|].
        subst u. exfalso. apply Nr. right. assumption. }
      split; [intros R; contradiction|auto]. }
  pose proof (proj1 (readyb_iff _ _) Er) as R.
  destruct (find_key (thash t) (elements tr)) as [shadow|] eqn:Ef.
  - (* already an element: at most its content is completed *)
    destruct (find_key_Some _ _ _ Ef) as [Hsh Eh].
    set (sh := merge_content shadow t).
    assert (Es : map strip (update_first (fun x => bytes_eqb (thash x) (thash t)) (fun _ => sh) (elements tr))
                 = map strip (elements tr)).
    { eapply update_first_strip; [exact Ef|]. apply merge_content_strip. }
    pose proof (keys_of_strip_eq _ _ Es) as Ek.
    destruct S as [S1 S2 S3 S4 S5].
    eexists; exists (Some sh). split; [reflexivity|]. cbn [elements unchained cap].
    split.
    { constructor; cbn [elements unchained]; auto.
      - apply update_first_Forall; [assumption|].
        rewrite Forall_forall in S1. destruct (S1 _ Hsh) as [A B].
        unfold sh. rewrite (strip_eq_tverify _ _ (merge_content_strip shadow t)).
        rewrite (merge_content_strip shadow t). auto.
      - eapply chain_ok_strip_eq; eauto.
      - rewrite Ek. assumption. }
    split; [reflexivity|]. rewrite Ek. split; [apply incl_refl|].
    split; [unfold chained; rewrite Ek; auto|].
    split.
    { intros _. split; [lia|]. split; [auto|]. split; [auto|].
      intros _. rewrite <- Eh. unfold M16_tokentree.keys. apply in_map. assumption. }
    intros Nr; contradiction.
  - (* appended; every waiter pointing to it is woken *)
    pose proof (find_key_None _ _ Ef) as Nk.
    set (tr1 := mkTree (elements tr ++ [t]) (unchained tr) (cap tr)).
    set (ws := filter (fun l => bytes_eqb (t_prev l) (thash t)) (unchained tr)).
    pose proof (Sound_append P tr t S Ev (Pt Ev) R Nk) as S1'. fold tr1 in S1'.
    destruct S as [_ _ _ _ S5].
    assert (Hws : forall r, In r ws -> In r (unchained tr1) /\ chained (elements tr1) r).
    { intros r Hr. apply filter_In in Hr as [A B]. apply bytes_eqb_eq in B. split; [exact A|].
      unfold chained. cbn [elements tr1]. rewrite keys_app, B. apply in_or_app. right. left. reflexivity. }
    destruct (wake_spec P f (gather f) (fun tr0 t0 L0 S0 P0 => IH tr0 t0 L0 S0 P0) ws tr1 S1'
                ltac:(cbn [unchained tr1]; lia) (NoDup_map_filter _ _ _ S5) Hws)
      as [tr2 [Ew [S2' [C2 [K2 [L2 [E2 G2]]]]]]].
    rewrite Ew. exists tr2, (Some t). split; [reflexivity|]. split; [assumption|].
    split; [exact C2|].
    assert (K1 : incl (keys (elements tr)) (keys (elements tr1))).
    { cbn [elements tr1]. rewrite keys_app. apply incl_appl, incl_refl. }
    split; [eapply incl_tran; eauto|].
    split.
    { intros u Hu Hc. destruct (proj1 (E2 u) (conj Hu Hc)) as [[A B] Cn]. cbn [unchained elements tr1] in *.
      split; [assumption|]. unfold chained in B. rewrite keys_app in B.
      apply in_app_or in B as [B|[B|[]]]; [assumption|].
      exfalso. apply Cn. apply filter_In. split; [assumption|]. apply bytes_eqb_eq. auto. }
    split.
    { intros _. cbn [unchained elements tr1] in *. split; [assumption|].
      split.
      { intros u Hu Hc. apply (E2 u). split; [split; [assumption|unfold chained; auto]|].
        intros Hw. apply filter_In in Hw as [_ B]. apply bytes_eqb_eq in B.
        apply Nk. rewrite <- B. assumption. }
      split; [assumption|].
      intros _. apply K2. cbn [elements tr1]. rewrite keys_app. apply in_or_app. right. left. reflexivity. }
    intros Nr; contradiction.
Qed.

(* at top level no waiting token points to an element (being Sound, it does not point to genesis either) *)
Definition NoneChained (tr : tree) : Prop :=
  forall u, In u (unchained tr) -> ~ chained (elements tr) u.

Lemma gather_top_spec P tr t : Sound P tr -> gather_pre P t -> gather_post P tr t (gather_top tr t).
Proof. intros S Pt. unfold M16_tokentree.gather_top. apply gather_spec; auto. Qed.

Lemma gather_top_inv P tr t tr' r :
  Sound P tr -> gather_pre P t -> gather_top tr t = Ok (tr', r) -> gather_step P tr t tr'.
Proof.
  intros S Pt E. destruct (gather_top_spec P tr t S Pt) as [tr2 [r2 [E2 G]]].
  rewrite E in E2. inversion E2; subst. exact G.
Qed.

Lemma gather_top_NoneChained P tr t tr' r :
  Sound P tr -> gather_pre P t -> NoneChained tr -> gather_top tr t = Ok (tr', r) -> NoneChained tr'.
Proof.
  intros S Pt NR E. destruct (gather_top_inv P tr t tr' r S Pt E) as [_ [_ [_ [He _]]]].
  intros u Hu Hc. destruct (He u Hu Hc) as [A B]. exact (NR u A B).
Qed.

Lemma gpre_of_In P t : In t P -> gather_pre P t.
Proof. intros H _. apply in_map. assumption. Qed.

(* A whole sequence of arrivals never fails and keeps Sound and NoneChained, and with them any further
   invariant I (of the arrivals consumed so far and the tree) that single arrivals keep. *)
Lemma gather_all_ind P (I : list token -> tree -> Prop) :
  (forall Q tr t tr' r, In t P -> Sound P tr -> NoneChained tr -> I Q tr ->
                        gather_top tr t = Ok (tr', r) -> I (Q ++ [t]) tr') ->
  forall arr Q tr, incl arr P -> Sound P tr -> NoneChained tr -> I Q tr ->
  exists tr', gather_all tr arr = Ok tr' /\ Sound P tr' /\ NoneChained tr' /\ I (Q ++ arr) tr'.
Proof.
  intros Step. induction arr as [|t arr IH]; intros Q tr Hi S NR HI.
  - exists tr. rewrite app_nil_r. simpl. auto.
  - assert (Ht : In t P) by (apply Hi; left; reflexivity).
    pose proof (gpre_of_In P t Ht) as Pt.
    destruct (gather_top_spec P tr t S Pt) as [tr1 [r [E [S1 _]]]].
    simpl. rewrite E.
    destruct (IH (Q ++ [t]) tr1 (fun x Hx => Hi x (or_intror Hx)) S1
                 (gather_top_NoneChained P tr t tr1 r S Pt NR E) (Step Q tr t tr1 r Ht S NR HI E))
      as [tr2 R].
    exists tr2. rewrite <- app_assoc in R. exact R.
Qed.

End Gather.
