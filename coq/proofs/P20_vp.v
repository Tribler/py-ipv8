(* The evaluators of the generated functions (eval_init, eval_to_pack, eval_from_unpack over gen_init, gen_pack, gen_unpack)
   against the interpreted methods, by induction over the names;
   the theorems are stated in props/C20.v. *)
From Coq Require Import List Bool Lia Arith.
From IPV8V Require Import lib.PyErr model.M20_vp.
Import ListNotations.

Lemma wf_defn_spec d :
  wf_defn d = true -> length (d_names d) = total_arity (d_fmts d) /\ nodup_b (d_names d) = true.
Proof. unfold wf_defn. intros H. apply andb_true_iff in H as [Hl Hnd]. apply Nat.eqb_eq in Hl. split; assumption. Qed.

Lemma mem_In n l : mem n l = true <-> In n l.
Proof.
  unfold mem. rewrite existsb_exists. split.
  - intros [x [Hx He]]. apply Nat.eqb_eq in He. subst x. exact Hx.
  - intros Hi. exists n. split; [exact Hi|apply Nat.eqb_refl].
Qed.

Section P.
Variable V : Type.
Variable is_none : V -> bool.
Variable hook_pack : nat -> V -> V.
Variable hook_unpack : nat -> V -> V.

Notation eval_to_pack := (eval_to_pack V hook_pack).
Notation fix_pack := (fix_pack V hook_pack).
Notation eval_pack_item := (eval_pack_item V hook_pack).

Lemma take_names_firstn k : forall names, k <= length names -> take_names k names = Ok (firstn k names).
Proof.
  induction k as [|k IH]; intros names H; [reflexivity|].
  destruct names as [|n tl]; [simpl in H; lia|]. cbn [take_names firstn].
  rewrite IH by (simpl in H; lia). reflexivity.
Qed.

Lemma pack_items_equal d fs ns :
  mapM (eval_pack_item fs) (map (fun n => (n, mem n (d_fixpack d))) ns) = mapM (fix_pack d fs) ns.
Proof.
  induction ns as [|n tl IH]; [reflexivity|]. cbn [map mapM]. rewrite IH.
  unfold M20_vp.eval_pack_item, M20_vp.fix_pack. cbn [fst snd]. reflexivity.
Qed.

Lemma pack_from_equal d fs : forall fmts names,
  total_arity fmts <= length names ->
  eval_to_pack (gen_pack_from (d_fixpack d) fmts names) fs = interp_pack_from V hook_pack d fs fmts names.
Proof.
  induction fmts as [|k tl IH]; intros names H; [reflexivity|].
  cbn [total_arity fold_right] in H. fold (total_arity tl) in H.
  cbn [gen_pack_from interp_pack_from]. unfold M20_vp.eval_to_pack. cbn [mapM fst snd].
  rewrite take_names_firstn by lia. cbn [bind]. rewrite pack_items_equal.
  destruct (mapM (fix_pack d fs) (firstn (arity k) names)) as [vs|e]; cbn [bind]; [|reflexivity].
  fold (eval_to_pack (gen_pack_from (d_fixpack d) tl (skipn (arity k) names)) fs).
  rewrite IH by (rewrite skipn_length; lia). reflexivity.
Qed.

Lemma unpack_args_equal d : forall names args,
  length args = length names ->
  (forall n a, In (n, a) (combine names args) -> mem n (d_fixunpack d) = true -> is_none a = false) ->
  eval_unpack_args V is_none hook_unpack (map (fun n => (n, mem n (d_fixunpack d))) names) args
  = interp_fix_unpack V hook_unpack d names args.
Proof.
  induction names as [|n ntl IH]; intros [|a atl] Hl Hn; try discriminate Hl; [reflexivity|].
  cbn [map eval_unpack_args interp_fix_unpack].
  rewrite IH.
  - destruct (interp_fix_unpack V hook_unpack d ntl atl); cbn [bind]; [|reflexivity].
    destruct (mem n (d_fixunpack d)) eqn:E; [|reflexivity].
    rewrite (Hn n a (or_introl eq_refl) E). reflexivity.
  - simpl in Hl. lia.
  - intros n' a' Hin. apply Hn. right. exact Hin.
Qed.

Lemma interp_fix_unpack_length d : forall names args a',
  interp_fix_unpack V hook_unpack d names args = Ok a' -> length a' = length args.
Proof.
  induction names as [|n ntl IH]; intros [|a atl] a' E; cbn [interp_fix_unpack] in E; try discriminate E;
    try (injection E as <-; reflexivity).
  destruct (interp_fix_unpack V hook_unpack d ntl atl) eqn:E2; cbn [bind] in E; [|discriminate E].
  injection E as <-. cbn [length]. f_equal. exact (IH atl _ E2).
Qed.

Section D.
Variable L : Type.
Variable lit_val : L -> res V.
Notation bind_params := (bind_params V L lit_val).

Lemma interp_assign_positional : forall names args,
  length args = length names ->
  interp_assign V (length names) names args [] = Ok (combine names args, [], []).
Proof.
  induction names as [|n ntl IH]; intros [|a atl] Hl; try discriminate Hl; [reflexivity|].
  cbn [length interp_assign combine]. rewrite IH by (simpl in Hl; lia). reflexivity.
Qed.

Lemma bind_params_positional (defaults : list (nat * L)) : forall names args,
  length args = length names ->
  bind_params (gen_init names defaults) args [] = Ok (combine names args, []).
Proof.
  induction names as [|n ntl IH]; intros [|a atl] Hl; try discriminate Hl; [reflexivity|].
  cbn [gen_init map bind_params assoc_nat combine]. fold (gen_init ntl defaults).
  rewrite IH by (simpl in Hl; lia). reflexivity.
Qed.

Lemma bind_params_defaults (defaults : list (nat * L)) (dv : nat -> V) : forall names,
  (forall n, In n names -> exists l, assoc_nat n defaults = Some l /\ lit_val l = Ok (dv n)) ->
  bind_params (gen_init names defaults) [] [] = Ok (map (fun n => (n, dv n)) names, []).
Proof.
  induction names as [|n ntl IH]; intros H; [reflexivity|].
  cbn [gen_init map bind_params assoc_nat]. fold (gen_init ntl defaults).
  destruct (H n (or_introl eq_refl)) as (l & El & Ev). rewrite El, Ev. cbn [bind].
  rewrite IH by (intros n' Hn'; apply H; right; exact Hn'). reflexivity.
Qed.

Lemma bind_params_prefix (defaults : list (nat * L)) (dv : nat -> V) : forall names args,
  length args <= length names ->
  (forall n, In n (skipn (length args) names) -> exists l, assoc_nat n defaults = Some l /\ lit_val l = Ok (dv n)) ->
  bind_params (gen_init names defaults) args [] =
  Ok (combine (firstn (length args) names) args ++ map (fun n => (n, dv n)) (skipn (length args) names), []).
Proof.
  induction names as [|n ntl IH]; intros args Hl H.
  - destruct args; [reflexivity|simpl in Hl; lia].
  - destruct args as [|a atl].
    + cbn [length firstn skipn combine app]. apply bind_params_defaults. exact H.
    + cbn [gen_init map bind_params assoc_nat length firstn skipn combine app]. fold (gen_init ntl defaults).
      rewrite IH; [reflexivity|simpl in Hl; lia|exact H].
Qed.

Lemma assoc_remove_other (k n : nat) : forall (kw : list (nat * V)), k <> n ->
  assoc_nat k (remove_key V n kw) = assoc_nat k kw.
Proof.
  induction kw as [|[k' v'] tl IH]; intros Hne; [reflexivity|].
  cbn [remove_key assoc_nat]. destruct (Nat.eqb n k') eqn:E1.
  - apply Nat.eqb_eq in E1. subst k'. destruct (Nat.eqb k n) eqn:E2; [apply Nat.eqb_eq in E2; contradiction|reflexivity].
  - cbn [assoc_nat]. destruct (Nat.eqb k k'); [reflexivity|apply IH; exact Hne].
Qed.

Lemma kw_survives : forall names c args kwargs fs ra rk,
  interp_assign V c names args kwargs = Ok (fs, ra, rk) ->
  forall k v, assoc_nat k kwargs = Some v -> ~ In k names -> assoc_nat k rk = Some v.
Proof.
  induction names as [|n ntl IH]; intros c args kwargs fs ra rk H k v Hk Hnin.
  - destruct c; cbn in H; [|discriminate H]. injection H as _ _ <-. exact Hk.
  - destruct c; cbn [interp_assign] in H; [injection H as _ _ <-; exact Hk|].
    assert (Hkn : k <> n) by (intros ->; apply Hnin; left; reflexivity).
    assert (Hnin' : ~ In k ntl) by (intros Hi; apply Hnin; right; exact Hi).
    destruct args as [|a atl].
    + destruct (assoc_nat n kwargs) as [w|]; [|discriminate H].
      destruct (interp_assign V c ntl [] (remove_key V n kwargs)) as [[[fs' ra'] rk']|e] eqn:E; cbn [bind] in H; [|discriminate H].
      injection H as _ _ <-. eapply IH; [exact E| |exact Hnin']. rewrite assoc_remove_other by exact Hkn. exact Hk.
    + destruct (interp_assign V c ntl atl kwargs) as [[[fs' ra'] rk']|e] eqn:E; cbn [bind] in H; [|discriminate H].
      injection H as _ _ <-. eapply IH; [exact E|exact Hk|exact Hnin'].
Qed.

Lemma interp_assign_bind_params : forall names args kwargs fs,
  nodup_b names = true ->
  interp_assign V (length names) names args kwargs = Ok (fs, [], []) ->
  bind_params (gen_init names []) args kwargs = Ok (fs, []).
Proof.
  induction names as [|n ntl IH]; intros args kwargs fs Hnd H.
  - cbn in H. injection H as <- -> ->. reflexivity.
  - cbn [nodup_b] in Hnd. apply andb_true_iff in Hnd as [Hn Hnd]. apply negb_true_iff in Hn.
    assert (Hnin : ~ In n ntl) by (intros Hi; apply mem_In in Hi; congruence).
    cbn [length interp_assign] in H. cbn [gen_init map bind_params]. fold (gen_init ntl (@nil (nat * L))).
    destruct args as [|a atl].
    + destruct (assoc_nat n kwargs) as [w|]; [|discriminate H].
      destruct (interp_assign V (length ntl) ntl [] (remove_key V n kwargs)) as [[[fs' ra'] rk']|e] eqn:E; cbn [bind] in H; [|discriminate H].
      injection H as <- -> ->. rewrite (IH _ _ _ Hnd E). reflexivity.
    + destruct (interp_assign V (length ntl) ntl atl kwargs) as [[[fs' ra'] rk']|e] eqn:E; cbn [bind] in H; [|discriminate H].
      injection H as <- -> ->.
      destruct (assoc_nat n kwargs) as [w|] eqn:Ek.
      * pose proof (kw_survives _ _ _ _ _ _ _ E n w Ek Hnin) as Hc. discriminate Hc.
      * rewrite (IH _ _ _ Hnd E). reflexivity.
Qed.

Lemma interp_init_eval_init d args kwargs fs :
  wf_defn d = true ->
  interp_init V d args kwargs = Ok fs -> eval_init V L lit_val (gen_init (d_names d) []) args kwargs = Ok fs.
Proof.
  intros Hwf H. destruct (wf_defn_spec d Hwf) as [Hn Hnd].
  unfold interp_init in H. rewrite <- Hn in H.
  destruct (interp_assign V (length (d_names d)) (d_names d) args kwargs) as [[[fs' ra] rk]|e] eqn:E; cbn [bind] in H; [|discriminate H].
  destruct ra; [|discriminate H]. destruct rk; [|discriminate H]. injection H as ->.
  unfold eval_init. rewrite (interp_assign_bind_params _ _ _ _ Hnd E). reflexivity.
Qed.

Lemma bind_params_interp_assign : forall names args kwargs fs rk,
  bind_params (gen_init names []) args kwargs = Ok (fs, rk) ->
  interp_assign V (length names) names args kwargs = Ok (fs, [], rk).
Proof.
  induction names as [|n ntl IH]; intros args kwargs fs rk H.
  - cbn in H. destruct args; [|discriminate H]. injection H as <- <-. reflexivity.
  - cbn [gen_init map bind_params] in H. fold (gen_init ntl (@nil (nat * L))) in H. cbn [length interp_assign].
    destruct args as [|a atl].
    + destruct (assoc_nat n kwargs) as [w|]; [|discriminate H].
      destruct (bind_params (gen_init ntl []) [] (remove_key V n kwargs)) as [[fs' rk']|e] eqn:E; cbn [bind] in H; [|discriminate H].
      injection H as <- <-. rewrite (IH _ _ _ _ E). reflexivity.
    + destruct (assoc_nat n kwargs) as [w|]; [discriminate H|].
      destruct (bind_params (gen_init ntl []) atl kwargs) as [[fs' rk']|e] eqn:E; cbn [bind] in H; [|discriminate H].
      injection H as <- <-. rewrite (IH _ _ _ _ E). reflexivity.
Qed.

End D.
End P.
