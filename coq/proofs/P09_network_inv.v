(* C09, path level - the cross-node invariant after the quiet point and its preservation by every
   network step.

   Per node (`ngood`): the bookkeeping is closed with respect to the ids of the path; every entry that
   names such an id sits at the position of the path that the id belongs to, with the routing fields the
   path prescribes, and its activity stamp is at most Tmax = tq + 2 * hops * D; an own circuit under such
   an id sits at the originator and is either closing, its removal task waking by tq + remove_tunnel_delay,
   or (only when the path is broken at a position j > 0) still alive, ready, and last active by
   Lq = tq - B_entry - so that the node bound of C09 closes it by tq; no exit socket at or above the
   break, no upward route at the break.
   Per message in flight (`mgood`): a cell for an id of the path travels on the link of that id, downwards
   (towards the far end; sent by tq + (k-1) * D on link k) or upwards (sent by tq + (2 * hops - k) * D; on a
   link at or above the break early enough to reach the originator by Lq); upward cells are not pings.
   The send-time bounds are the well-founded measure: a cell delivered on link k produces at most one cell,
   on the next link in the same direction or - a ping answered by the node where the path now ends - the
   pong back on the same link, and each of these has a later bound; nothing produces a cell from an upward
   cell at the originator; the originator's own pings stop by tq because its stamp cannot advance. *)
From Coq Require Import ZArith List Bool Lia ZifyBool.
From IPV8V Require Import model.M09_reclaim model.M09_network spec.S09_reclaim proofs.P09_alist
  proofs.P09_network_frame proofs.P09_network_node proofs.P09_network_step proofs.P09_network_path.
Import ListNotations.
Open Scope Z_scope.

Section Inv.
Variable st : settings.
Variable D : Z.
Variable p : path.
Variable tq : Z.
Variable j : nat.
Variable dead : list Z.
Hypothesis HD : 0 <= D.
Hypothesis Hp : path_ok_b p = true.
Hypothesis Hst : settings_ok st.
Hypothesis Hjh : (j <= p_len p)%nat.

Let h := p_len p.
Let I := inI (p_ids p).
Definition Tmax : Z := tq + 2 * Z.of_nat (p_len p) * D.
Definition Lq : Z := tq - B_entry st.
Definition cut : Prop := cutj p j dead = true.

Lemma Tmax_ge : tq <= Tmax.
Proof. unfold Tmax. assert (0 <= 2 * Z.of_nat (p_len p) * D) by (apply Z.mul_nonneg_nonneg; lia). lia. Qed.

Lemma Lq_le : Lq <= tq.
Proof. unfold Lq, B_entry. destruct Hst as (? & ? & ? & _). lia. Qed.

Lemma Lq_is_L_of : L_of st tq = Lq.
Proof. reflexivity. Qed.

Definition route_ok (n x : Z) (r : relay) : Prop :=
  exists k, (1 <= k < h)%nat /\ n = nd p k /\
    ((x = idk p k /\ r_next r = idk p (S k) /\ r_peer r = nd p (S k))
     \/ (x = idk p (S k) /\ r_next r = idk p k /\ r_peer r = nd p (pred k) /\ (k <> j \/ cut))).

Record ngood (n : Z) (s : node) : Prop := mkNGood {
  g_closed : closedI I s;
  g_circ : forall x c, I x = true -> aget x (circuits s) = Some c ->
      n = nd p 0 /\ x = idk p 1
      /\ ((c_closing c = true /\ exists due, In (due, KCirc, x) (sleeping s) /\ due <= tq + s_remove_delay st)
          \/ (c_closing c = false /\ (1 <= j)%nat /\ c_goal c <= c_hops c /\ c_first c = nd p 1
              /\ la (c_ro c) <= Lq));
  g_rel : forall x r, I x = true -> aget x (relays s) = Some r -> route_ok n x r /\ la (r_ro r) <= Tmax;
  g_exit : forall x e, I x = true -> aget x (exits s) = Some e ->
      (exists k, ((j < k)%nat \/ (cut /\ k = j)) /\ (1 <= k <= h)%nat /\ n = nd p k /\ x = idk p k) /\ la (e_ro e) <= Tmax;
  g_open : forall x, I x = true -> In (DOpen x) (starts s) -> now s <= Tmax /\ n <> nd p 0
}.

(* node a holds under link id b its forward route (b = a) or its backward route (b = S a) *)
Lemma route_at n x r a b :
  route_ok n x r -> n = nd p a -> (a <= h)%nat -> x = idk p b -> (1 <= b <= h)%nat ->
  (1 <= a < h)%nat
  /\ ((b = a /\ r_next r = idk p (S a) /\ r_peer r = nd p (S a))
      \/ (b = S a /\ r_next r = idk p a /\ r_peer r = nd p (pred a) /\ (a <> j \/ cut))).
Proof using Hp Hjh.
  intros (k & Hk & Hn & Hr) Ha Hale Hx Hb.
  assert (k = a) by (apply (nd_inj p Hp); [fold h; lia | exact Hale | congruence]). subst k.
  split; [exact Hk|].
  destruct Hr as [(Ex & R)|(Ex & R)]; [left | right]; (split; [|exact R]);
    (apply (idk_inj p Hp); [exact Hb | fold h; lia | congruence]).
Qed.

Lemma ngood_frame n s s' (touch : Z -> Prop) :
  ngood n s -> frame st I touch s s' ->
  (forall x, I x = true -> touch x -> now s <= Tmax) ->
  (forall x, I x = true -> alive_at s x -> now s <= tq) ->
  (forall x, I x = true -> touch x -> alive_at s x -> now s <= Lq) ->
  ngood n s'.
Proof.
  intros [K C R E O] F Ht Ha Hl. constructor.
  - eapply closed_frame; eauto.
  - intros x c' Hi H. destruct (f_circ _ _ _ _ _ F _ _ Hi H) as (c & Hc & A1 & A2 & A3 & _ & _ & L & K1 & W).
    destruct (C _ _ Hi Hc) as (A & B & [(Kc & due & Hin & Hle)|(Kc & Hj & Hg & Hf & Hla)]).
    + split; [exact A|]. split; [exact B|]. left. split; [auto|].
      exists due. split; [|exact Hle]. apply (f_sleep _ _ _ _ _ F); auto. congruence.
    + split; [exact A|]. split; [exact B|].
      assert (Al : alive_at s x) by (exists c; auto).
      destruct (c_closing c') eqn:Kc'.
      * left. split; [reflexivity|]. exists (now s + s_remove_delay st). split; [apply W; auto|].
        apply Z.add_le_mono_r. exact (Ha _ Hi Al).
      * right. split; [reflexivity|]. split; [exact Hj|]. split; [rewrite A2, A3; exact Hg|]. split; [congruence|].
        destruct L as [L|[T L]]; [rewrite L; exact Hla | rewrite L; eauto].
  - intros x r' Hi H. destruct (f_rel _ _ _ _ _ F _ _ Hi H) as (r & Hr & N & P & L).
    destruct (R _ _ Hi Hr) as [(k & Hk & Hn & Hc) Hla]. split.
    + exists k. split; [exact Hk|]. split; [exact Hn|]. rewrite N, P. exact Hc.
    + destruct L as [L|[T L]]; [lia | rewrite L; eauto].
  - intros x e' Hi H. destruct (f_exit _ _ _ _ _ F _ _ Hi H) as (e & He & _ & L).
    destruct (E _ _ Hi He) as [Hk Hla]. split; [exact Hk|].
    destruct L as [L|[T L]]; [lia | rewrite L; eauto].
  - intros x Hi H. rewrite (f_now _ _ _ _ _ F). destruct (f_starts _ _ _ _ _ F _ H) as [H0|[_ H0]]; [eauto|].
    destruct (H0 x eq_refl Hi) as [T Ex]. split; [eauto|].
    destruct (aget x (exits s)) as [e|] eqn:Ee; [|congruence].
    destruct (E _ _ Hi Ee) as [(k & _ & Hk & Hn & _) _]. exact (below_origin p Hp n k Hk Hn).
Qed.

Lemma ngood_set_now n s t : on_time st s t = true -> ngood n s -> ngood n (set_now t s).
Proof.
  intros Ht [K C R E O]. constructor; auto.
  - destruct K as [a b c d]. constructor; auto.
  - simpl. intros x Hi H. pose proof (on_time_starts st s t _ Ht H). subst t. exact (O x Hi H).
Qed.

Definition mgood (m : msg) : Prop :=
  match m with
  | FCell src dst cid _ mid sent => I cid = true ->
      exists k, (1 <= k <= h)%nat /\ cid = idk p k /\
        ((src = nd p (pred k) /\ dst = nd p k /\ kind_down_b mid = true
          /\ sent <= tq + (Z.of_nat k - 1) * D)
         \/ (src = nd p k /\ dst = nd p (pred k) /\ kind_up_b mid = true
             /\ sent <= tq + (2 * Z.of_nat h - Z.of_nat k) * D
             /\ ((j < k)%nat \/ sent + Z.of_nat k * D <= Lq \/ (cut /\ k = j))))
  | FDestroy _ _ _ _ _ => True
  end.

Definition wgood (w : net) : Prop :=
  (forall n s, aget n (nodes w) = Some s -> ngood n s) /\ (forall m, In m (flight w) -> mgood m).

Lemma mgood_deadline src dst cid early mid sent t :
  mgood (FCell src dst cid early mid sent) -> I cid = true -> t <= sent + D -> t <= Tmax.
Proof.
  intros M Hi Ht. destruct (M Hi) as (k & Hk & _ & [(_ & _ & _ & Hs)|(_ & _ & _ & Hs & _)]); unfold Tmax; fold h; nia.
Qed.

Lemma circ_shape_sound n s x c :
  circ_shape_b st p tq j n s (x, c) = true -> I x = true ->
  n = nd p 0 /\ x = idk p 1
  /\ ((c_closing c = true /\ exists due, In (due, KCirc, x) (sleeping s) /\ due <= tq + s_remove_delay st)
      \/ (c_closing c = false /\ (1 <= j)%nat /\ c_goal c <= c_hops c /\ c_first c = nd p 1
          /\ la (c_ro c) <= Lq)).
Proof.
  unfold circ_shape_b. fold I. intros X Hi. rewrite Hi in X. cbn [negb orb] in X.
  apply andb_true_iff in X. destruct X as [X Y]. apply andb_true_iff in X. destruct X as [X1 X2].
  split; [apply Z.eqb_eq; exact X1|]. split; [apply Z.eqb_eq; exact X2|].
  apply orb_true_iff in Y. destruct Y as [Y|Y].
  - left. apply andb_true_iff in Y. destruct Y as [Y1 Y2]. split; [exact Y1|].
    apply existsb_exists in Y2. destruct Y2 as ([[due k] y] & Hin & Hw).
    destruct k; try discriminate. assert (y = x) by lia. subst y. exists due. split; [exact Hin | lia].
  - right. repeat (apply andb_true_iff in Y; destruct Y as [Y ?]). rewrite Lq_is_L_of in *.
    split; [apply negb_true_iff; exact Y|]. split; [apply Nat.leb_le; assumption|].
    split; [apply Z.leb_le; assumption|]. split; [apply Z.eqb_eq; assumption | apply Z.leb_le; assumption].
Qed.

Lemma relay_shape_sound n x r :
  relay_shape_b p tq j dead n (x, r) = true -> I x = true -> route_ok n x r /\ la (r_ro r) <= Tmax.
Proof.
  pose proof Tmax_ge. unfold relay_shape_b. fold I. intros X Hi. rewrite Hi in X.
  apply andb_true_iff in X. destruct X as [X Hla]. split; [|lia].
  apply existsb_exists in X. destruct X as (k & Hk & X). apply in_seq in Hk. fold h in Hk.
  unfold route_b in X. exists k. split; [lia|].
  apply andb_true_iff in X. destruct X as [Xn X]. split; [lia|]. apply orb_true_iff in X.
  destruct X as [X|X]; [left | right]; repeat (apply andb_true_iff in X; destruct X as [X ?]).
  - repeat split; apply Z.eqb_eq; assumption.
  - split; [apply Z.eqb_eq; exact X|]. split; [apply Z.eqb_eq; assumption|]. split; [apply Z.eqb_eq; assumption|].
    apply orb_true_iff in H0. destruct H0 as [H0|H0]; [|right; exact H0].
    left. apply negb_true_iff in H0. apply Nat.eqb_neq in H0. exact H0.
Qed.

Lemma exit_shape_sound n x e :
  exit_shape_b p tq j dead n (x, e) = true -> I x = true ->
  (exists k, ((j < k)%nat \/ (cut /\ k = j)) /\ (1 <= k <= h)%nat /\ n = nd p k /\ x = idk p k)
  /\ la (e_ro e) <= Tmax.
Proof.
  pose proof Tmax_ge. unfold exit_shape_b. fold I. intros X Hi. rewrite Hi in X. cbn [negb orb] in X.
  apply andb_true_iff in X. destruct X as [X Hla]. split; [|lia].
  apply orb_true_iff in X. destruct X as [X|X].
  - apply existsb_exists in X. destruct X as (k & Hk & X). apply in_seq in Hk. fold h in Hk.
    exists k. split; [left; lia|]. split; [lia|]. apply andb_true_iff in X. lia.
  - apply andb_true_iff in X. destruct X as [X X3]. apply andb_true_iff in X. destruct X as [X1 X2].
    assert (J1 : (1 <= j)%nat).
    { unfold cutj in X1. apply andb_true_iff in X1. destruct X1 as [X1 _]. apply Nat.leb_le. exact X1. }
    exists j. split; [right; split; [exact X1 | reflexivity]|]. split; [unfold h; lia|]. lia.
Qed.

Lemma node_shape_sound n s : node_shape_b st p tq j dead (n, s) = true -> ngood n s.
Proof.
  unfold node_shape_b. intro H. repeat (apply andb_true_iff in H; destruct H as [H ?]).
  rename H into Hc, H0 into Hs, H1 into Hrt, H2 into Hcr, H3 into He, H4 into Hr.
  rewrite forallb_forall in Hs.
  constructor.
  - constructor.
    + intros x r Hi Hg. pose proof (forallb_aget Hr Hg) as X. unfold relay_shape_b in X.
      fold I in X. rewrite Hi in X. apply negb_true_iff in X. exact X.
    + intros k cc Hg. pose proof (forallb_aget Hcr Hg) as X. unfold create_shape_b in X.
      apply andb_true_iff in X. destruct X as [X1 X2]. apply negb_true_iff in X1, X2. auto.
    + intros x rt Hg. pose proof (forallb_aget Hrt Hg) as X. apply negb_true_iff in X. exact X.
    + intros d Hin. specialize (Hs _ Hin).
      destruct d; simpl in *; try exact Logic.I; apply negb_true_iff in Hs; exact Hs.
  - intros x c Hi Hg. exact (circ_shape_sound n s x c (forallb_aget Hc Hg) Hi).
  - intros x r Hi Hg. exact (relay_shape_sound n x r (forallb_aget Hr Hg) Hi).
  - intros x e Hi Hg. exact (exit_shape_sound n x e (forallb_aget He Hg) Hi).
  - intros x Hi Hin. pose proof (Hs _ Hin) as Hs1. simpl in Hs1. fold I in Hs1.
    rewrite Hi in Hs1. apply andb_true_iff in Hs1. destruct Hs1 as [Hn Hx]. apply Z.leb_le in Hn.
    apply ahas_aget in Hx. destruct Hx as (e & Hg).
    destruct (exit_shape_sound n x e (forallb_aget He Hg) Hi) as [(k & _ & Hk & Hn' & _) _].
    split; [exact (Z.le_trans _ _ _ Hn Tmax_ge) | exact (below_origin p Hp n k Hk Hn')].
Qed.

Lemma msg_shape_sound m : msg_shape_b st D p tq j dead m = true -> mgood m.
Proof.
  destruct m as [src dst cid early mid sent|]; [|intros _; exact Logic.I]. unfold msg_shape_b, mgood. fold I. intros H Hi.
  rewrite Hi in H. cbn [negb orb] in H.
  apply andb_true_iff in H. destruct H as [Hs H]. apply existsb_exists in H. destruct H as (k & Hk & X).
  apply in_seq in Hk. fold h in Hk. exists k. split; [lia|].
  assert (N1 : 0 <= (Z.of_nat k - 1) * D) by (apply Z.mul_nonneg_nonneg; lia).
  assert (N2 : 0 <= (2 * Z.of_nat h - Z.of_nat k) * D) by (apply Z.mul_nonneg_nonneg; lia).
  apply Z.leb_le in Hs. unfold link_b in X. apply andb_true_iff in X. destruct X as [Hc X].
  split; [apply Z.eqb_eq; exact Hc|]. apply orb_true_iff in X.
  destruct X as [X|X]; [left | right]; repeat (apply andb_true_iff in X; destruct X as [X ?]).
  - split; [apply Z.eqb_eq; exact X|]. split; [apply Z.eqb_eq; assumption|]. split; [assumption|]. lia.
  - split; [apply Z.eqb_eq; exact X|]. split; [apply Z.eqb_eq; assumption|]. split; [assumption|]. split; [lia|].
    rewrite Lq_is_L_of in *. apply orb_true_iff in H. destruct H as [H|H].
    + apply orb_true_iff in H. destruct H as [H|H]; [left; apply Nat.ltb_lt; exact H | right; left; lia].
    + right. right. apply andb_true_iff in H. destruct H as [Hc1 Hc2]. split; [exact Hc1 | apply Nat.eqb_eq; exact Hc2].
Qed.

Lemma quiet_shape_sound w : quiet_shape_b st D p tq j dead w = true -> wgood w.
Proof.
  unfold quiet_shape_b. intro H. repeat (apply andb_true_iff in H; destruct H as [H ?]). split.
  - intros n s Hg. apply node_shape_sound. apply (forallb_aget H1 Hg).
  - intros m Hin. apply msg_shape_sound. rewrite forallb_forall in H0. auto.
Qed.

End Inv.

Arguments g_closed {st D p tq j dead n s}.
Arguments g_circ {st D p tq j dead n s}.
Arguments g_rel {st D p tq j dead n s}.
Arguments g_exit {st D p tq j dead n s}.
Arguments g_open {st D p tq j dead n s}.

Lemma quiet_shape_params st D p tq j dead w :
  quiet_shape_b st D p tq j dead w = true -> path_ok_b p = true /\ (j <= p_len p)%nat.
Proof.
  unfold quiet_shape_b. intro H. apply andb_true_iff in H. destruct H as [H _].
  apply andb_true_iff in H. destruct H as [H _]. apply andb_true_iff in H. destruct H as [H1 H2].
  split; [exact H1 | apply Nat.leb_le; exact H2].
Qed.
