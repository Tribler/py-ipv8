(* After IPv8.unload_overlay(x) no strategy of x is left for the ticker. *)
From Coq Require Import ZArith List Bool.
From IPV8V Require Import model.M11_service.
Import ListNotations.
Open Scope Z_scope.

(* a property that every step keeps holds after a list of steps if it held before, or if one of the steps
   establishes it *)
Lemma fold_establishes {S U} (f : S -> U -> S) (P : S -> Prop) (est : U -> bool) :
  (forall s u, P s -> P (f s u)) -> (forall s u, est u = true -> P (f s u)) ->
  forall steps s, P s \/ existsb est steps = true -> P (fold_left f steps s).
Proof.
  intros Keep Est. induction steps as [|u r IH]; intros s H; simpl.
  - destruct H as [H|H]; [exact H|discriminate].
  - apply IH. destruct H as [H|H]; [left; apply Keep, H|].
    simpl in H. apply orb_true_iff in H. destruct H as [H|H]; [left; apply Est, H|right; exact H].
Qed.

Lemma fold_keeps {S U} (f : S -> U -> S) (P : S -> Prop) :
  (forall s u, P s -> P (f s u)) -> forall steps s, P s -> P (fold_left f steps s).
Proof. intros Keep steps s H. apply (fold_establishes f P (fun _ => false) Keep); [discriminate|left; exact H]. Qed.

Definition clean (x : oid) (s : svc) : Prop := forall e, In e (v_strategies s) -> snd e <> x.

Lemma sstep_clean_keeps x y s u : clean x s -> clean x (sstep_apply y s u).
Proof.
  intros C. destruct u; unfold clean in *; simpl; auto.
  intros e H. apply filter_In in H. destruct H as [H _]. auto.
Qed.

Lemma steps_keep_clean steps x y s : clean x s -> clean x (fold_left (sstep_apply y) steps s).
Proof.
  apply (fold_keeps _ (clean x)). intros s0 u. apply sstep_clean_keeps.
Qed.

Lemma unload_clean steps s x :
  complete_service_unload steps = true -> clean x (fst (sop_apply steps s (SUnloadOverlay x))).
Proof.
  unfold complete_service_unload. rewrite !andb_true_iff. intros [[H _] _].
  refine (fold_establishes _ (clean x) _ (fun s0 u => sstep_clean_keeps x x s0 u) _ steps s (or_intror H)).
  intros s0 [] E; try discriminate. intros e Hin. apply filter_In in Hin. destruct Hin as [_ Hin].
  apply negb_true_iff, Z.eqb_neq in Hin. exact Hin.
Qed.

Lemma unload_unlisted steps s x :
  complete_service_unload steps = true -> ~ In x (v_overlays (fst (sop_apply steps s (SUnloadOverlay x)))).
Proof.
  unfold complete_service_unload. rewrite !andb_true_iff. intros [[_ H] _].
  refine (fold_establishes _ (fun s0 => ~ In x (v_overlays s0)) _ _ _ steps s (or_intror H)).
  - intros s0 [] K; simpl; auto. intros Hin. apply filter_In in Hin. tauto.
  - intros s0 [] E; try discriminate. simpl. intros Hin. apply filter_In in Hin. destruct Hin as [_ Hin].
    rewrite Z.eqb_refl in Hin. discriminate.
Qed.

Definition adds (x : oid) (o : sop) : bool := match o with SAdd ov _ => ov =? x | _ => false end.

Lemma sop_clean steps x s o : adds x o = false -> clean x s ->
  clean x (fst (sop_apply steps s o)) /\ Forall (fun e => snd e <> x) (snd (sop_apply steps s o)).
Proof.
  intros Ha C. destruct o as [ov st|y|due|]; simpl in *.
  - split; [|constructor]. unfold clean. simpl. intros e H. apply in_app_iff in H. destruct H as [H|[H|[]]]; [auto|].
    subst e. simpl. apply Z.eqb_neq. exact Ha.
  - split; [apply steps_keep_clean; exact C|constructor].
  - destruct (v_running s); simpl; [|split; [exact C|constructor]]. split; [exact C|].
    apply Forall_forall. intros e H. apply filter_In in H. destruct H as [H _]. auto.
  - split; [|constructor].
    apply (fold_keeps _ (clean x)); [|exact C]. intros s0 y. apply steps_keep_clean.
Qed.

(* in every later history that does not add a strategy for x again, the ticker never calls take_step on a
   strategy of x, and none is in the list *)
Lemma srun_clean steps x ops : forall s, Forall (fun o => adds x o = false) ops -> clean x s ->
  clean x (fst (srun steps s ops)) /\ Forall (fun e => snd e <> x) (snd (srun steps s ops)).
Proof.
  induction ops as [|o r IH]; intros s Ha C; simpl; [split; [exact C|constructor]|].
  inversion Ha; subst. destruct (sop_clean steps x s o H1 C) as [C1 O1].
  destruct (sop_apply steps s o) as [s1 o1]. destruct (IH s1 H2 C1) as [C2 O2].
  destruct (srun steps s1 r) as [s2 o2]. simpl in *. split; [exact C2|apply Forall_app; auto].
Qed.

(* the strategies of the other overlays stay scheduled *)
Lemma sstep_keeps_other x s u e : snd e <> x -> In e (v_strategies s) -> In e (v_strategies (sstep_apply x s u)).
Proof.
  intros Hn Hi. destruct u; simpl; auto. apply filter_In. split; [exact Hi|].
  apply negb_true_iff, Z.eqb_neq. exact Hn.
Qed.
