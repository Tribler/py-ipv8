(* C15 extension - the generated handlers and the node assembled from them against the hand model: the handlers,
   one step, the invariant kept along runs. *)
From Coq Require Import ZArith List Bool Lia.
From IPV8V Require Import lib.PyErr lib.Bytes gen.G15_consts model.M15_dht_store model.M15_py gen.G15_handlers
  model.M15_store_gen proofs.P15_storage proofs.P15_codec proofs.P15_token proofs.P15_gen2.
Import ListNotations.
Open Scope Z_scope.

Lemma maxlen_pos : 1 <= g_last_queries_maxlen.
Proof. cbv [g_last_queries_maxlen NODE_LIMIT_QUERIES]. lia. Qed.
Lemma secrets_maxlen_pos : 1 <= TOKEN_SECRETS_MAXLEN.
Proof. cbv [TOKEN_SECRETS_MAXLEN]. lia. Qed.
Lemma find_limit_nonneg : 0 <= MAX_VALUES_IN_FIND.
Proof. cbv [MAX_VALUES_IN_FIND]. lia. Qed.

Lemma gx_get_requesting_node_ok now known lq :
  gx_get_requesting_node now known lq =
  Ok (if known && blocked now lq then [EReturnNode false] else [ERtAdd; EStampQuery; EReturnNode true]).
Proof.
  unfold gx_get_requesting_node. rewrite (g_node_blocked_ok now lq maxlen_pos). cbn [bind pand].
  destruct known; cbn [andb bind]; [destruct (blocked now lq)|]; reflexivity.
Qed.

Definition admitted_queries (g : gstate) (nid : bytes) (now : Z) (known kept : bool) : list (bytes * list Z) :=
  let lq := if known then qget (g_queries g) nid else [] in
  qset (g_queries g) nid (if kept then py_deque_append g_last_queries_maxlen lq now else []).
Definition is_blocked (g : gstate) (nid : bytes) (now : Z) (known : bool) : bool :=
  known && blocked now (if known then qget (g_queries g) nid else []).

Lemma requesting_node_ok g nid now known kept :
  requesting_node g nid now known kept =
  Ok (if is_blocked g nid now known then (g, false)
      else (mkG (g_base g) (admitted_queries g nid now known kept), true)).
Proof.
  unfold requesting_node, is_blocked, admitted_queries. cbv zeta. rewrite gx_get_requesting_node_ok. cbn [bind].
  destruct (known && blocked now (if known then qget (g_queries g) nid else [])); reflexivity.
Qed.

Section Handlers.
Variable hash : bytes -> bytes.
Variable enc : bytes -> bytes.
Variable verify : bytes -> bytes -> bytes -> bool.
Variable siglen : bytes -> res nat.

Lemma gen_add_values_ok vals : forall s now key ma,
  gen_add_values hash verify siglen s now key vals ma = add_values hash verify siglen s now key vals ma.
Proof.
  induction vals as [|v vals IH]; intros s now key ma; cbn [gen_add_values M15_dht_store.add_values]; [reflexivity|].
  rewrite g_add_value_ok. destruct (add_value hash verify siglen s now key v ma); [apply IH | reflexivity].
Qed.

Lemma existsb_gt_lt values :
  existsb (fun value => blen value >? MAX_ENTRY_SIZE) values = existsb (fun v => MAX_ENTRY_SIZE <? blen v) values.
Proof. induction values as [|v l IH]; cbn [existsb]; [reflexivity|]. rewrite IH, Z.gtb_ltb. reflexivity. Qed.

Lemma gx_on_store_request_ok st rq token values nc :
  gx_on_store_request hash (ident hash enc rq) (secrets st) token values nc =
  Ok (if store_gate hash enc st rq token values then [EAddValues (store_max_age nc); ESendStoreResponse] else []).
Proof.
  unfold gx_on_store_request, M15_dht_store.store_gate. rewrite existsb_gt_lt.
  destruct (existsb (fun v => MAX_ENTRY_SIZE <? blen v) values); cbn [negb andb]; [reflexivity|].
  unfold py_len. rewrite Z.gtb_ltb.
  destruct (MAX_VALUES_IN_STORE <? Z.of_nat (length values)); cbn [negb andb]; [reflexivity|].
  rewrite g_check_token_ok. destruct (check_token hash enc st rq token); cbn [negb]; [|reflexivity].
  assert (Hp : 0 < 2 ^ Z.max 0 (nc - TARGET_NODES + 1)) by (apply Z.pow_pos_nonneg; lia).
  replace (Z.pow 2 (Z.max 0 (Z.add (Z.sub nc TARGET_NODES) 1)) =? 0) with false by (symmetry; apply Z.eqb_neq; lia).
  reflexivity.
Qed.

Lemma g_on_store_ok g rq nid now known kept token target values nc :
  g_on_store hash enc verify siglen g rq nid now known kept token target values nc =
  if is_blocked g nid now known then (g, GO (RStore false None))
  else let '(st', r) := on_store hash enc verify siglen (g_base g) rq now token target values nc in
       (mkG st' (admitted_queries g nid now known kept), GO r).
Proof.
  unfold g_on_store. rewrite requesting_node_ok. destruct (is_blocked g nid now known); [reflexivity|].
  cbn [g_base g_queries]. rewrite gx_on_store_request_ok. unfold M15_dht_store.on_store.
  destruct (store_gate hash enc (g_base g) rq token values).
  - cbn [exec_store]. rewrite gen_add_values_ok.
    destruct (add_values hash verify siglen (store (g_base g)) now target values (store_max_age nc)) as [s' [e|]];
      cbn [exec_store]; reflexivity.
  - cbn [exec_store]. unfold with_store. destruct (g_base g); reflexivity.
Qed.

Lemma g_on_find_ok g rq nid now known kept target offset force :
  0 <= offset -> secrets (g_base g) <> [] ->
  g_on_find hash enc g rq nid now known kept target offset force =
  if is_blocked g nid now known then (g, GNoAnswer None)
  else let '(st', r) := on_find hash enc (g_base g) rq target (Z.to_nat offset) force in
       (mkG st' (admitted_queries g nid now known kept), GO r).
Proof.
  intros Ho Hs. unfold g_on_find. rewrite requesting_node_ok. destruct (is_blocked g nid now known); [reflexivity|].
  cbn [g_base g_queries]. unfold gx_on_find_request, M15_dht_store.on_find.
  destruct force; cbn [negb bind].
  - unfold econs. cbn [exec_find]. rewrite g_generate_token_ok by exact Hs. reflexivity.
  - rewrite g_get_ok; [|exact Ho|intros n E; inversion E; apply find_limit_nonneg]. cbn [bind]. unfold econs. cbn [exec_find].
    rewrite g_generate_token_ok by exact Hs. reflexivity.
Qed.

Lemma pset_same p k : pget p k <> [] -> pset p k (pget p k) = p.
Proof.
  induction p as [|[k' l] p IH]; cbn [pget pset]; intros H; [congruence|].
  destruct (bytes_eqb k' k); [reflexivity|]. rewrite IH by exact H. reflexivity.
Qed.

Lemma g_on_store_peer_ok g rq token target :
  g_on_store_peer hash enc g rq token target =
  let '(st', r) := on_store_peer hash enc (g_base g) rq token target in (mkG st' (g_queries g), GO r).
Proof.
  unfold g_on_store_peer, gx_on_store_peer_request, M15_dht_store.on_store_peer. cbv zeta.
  rewrite g_check_token_ok. unfold econs.
  destruct (check_token hash enc (g_base g) rq token); cbn [negb].
  2:{ cbn [exec_store_peer]. destruct g as [[a b c] q]; reflexivity. }
  destruct (bytes_eqb target (hash (r_pk rq))); cbn [negb].
  2:{ cbn [exec_store_peer]. destruct g as [[a b c] q]; reflexivity. }
  replace (existsb (fun e_ => bytes_eqb e_ (r_pk rq)) (pget (peers (g_base g)) target))
    with (existsb (bytes_eqb (r_pk rq)) (pget (peers (g_base g)) target)).
  2:{ induction (pget (peers (g_base g)) target) as [|y l IH]; cbn [existsb]; [reflexivity|]. rewrite IH, bytes_eqb_sym. reflexivity. }
  destruct (existsb (bytes_eqb (r_pk rq)) (pget (peers (g_base g)) target)) eqn:Ee; cbn [negb exec_store_peer]; [|reflexivity].
  rewrite pset_same; [reflexivity|]. intro F. rewrite F in Ee. discriminate.
Qed.

Definition admission (o : gop) : option (bytes * Z * bool * bool) :=
  match o with
  | GFind _ nid now known kept _ _ _ => Some (nid, now, known, kept)
  | GStore _ nid now known kept _ _ _ _ => Some (nid, now, known, kept)
  | _ => None
  end.
Definition gop_wf (o : gop) : Prop :=
  match o with
  | GFind _ _ _ _ _ _ offset _ => 0 <= offset
  | GGet _ start limit => 0 <= start /\ forall n, limit = Some n -> 0 <= n
  | _ => True
  end.
Definition silent (o : gop) : gout :=
  match o with GStore _ _ _ _ _ _ _ _ _ => GO (RStore false None) | _ => GNoAnswer None end.
Definition ginv (g : gstate) : Prop :=
  secrets (g_base g) <> [] /\ NoDup (map fst (store (g_base g))).

Notation gstep := (gstep hash enc verify siglen).
Notation step := (step hash enc verify siglen).

Lemma gstep_refines g o :
  ginv g -> gop_wf o ->
  gstep g o =
  match admission o with
  | Some (nid, now, known, kept) =>
      if is_blocked g nid now known then (g, silent o)
      else let '(st', r) := step (g_base g) (base_op o) in
           (mkG st' (admitted_queries g nid now known kept), GO r)
  | None => let '(st', r) := step (g_base g) (base_op o) in (mkG st' (g_queries g), GO r)
  end.
Proof.
  intros [Hs Hk] Hwf. destruct o; cbn [M15_store_gen.gstep admission base_op silent M15_dht_store.step].
  - apply g_on_find_ok; [exact Hwf | exact Hs].
  - apply g_on_store_ok.
  - apply g_on_store_peer_ok.
  - reflexivity.
  - rewrite g_clean_ok by exact Hk. reflexivity.
  - rewrite g_put_ok. reflexivity.
  - destruct Hwf as [H1 H2]. rewrite g_get_ok by assumption. destruct g; reflexivity.
  - rewrite g_post_process_ok. destruct g; reflexivity.
  - rewrite g_unserialize_ok. destruct g; reflexivity.
  - destruct g; reflexivity.
Qed.

End Handlers.

Section Runs.
Variable hash : bytes -> bytes.
Variable enc : bytes -> bytes.
Variable verify : bytes -> bytes -> bytes -> bool.
Variable siglen : bytes -> res nat.
Notation gstep := (gstep hash enc verify siglen).
Notation grun := (grun hash enc verify siglen).
Notation step := (step hash enc verify siglen).

Lemma step_keys_nodup st o : NoDup (map fst (store st)) -> NoDup (map fst (store (fst (step st o)))).
Proof.
  apply (step_rel hash enc verify siglen (fun s s' => NoDup (map fst s) -> NoDup (map fst s'))) with (cleans := fun _ => True); auto.
  - apply put_keys_nodup.
  - intros now s _ H. rewrite clean_keys. exact H.
Qed.

Lemma gstep_base g o :
  ginv g -> gop_wf o ->
  (g_base (fst (gstep g o)) = fst (step (g_base g) (base_op o)))
  \/ (fst (gstep g o) = g /\ admission o <> None).
Proof.
  intros Hi Hw. rewrite (gstep_refines hash enc verify siglen g o Hi Hw).
  destruct (admission o) as [[[[nid now] known] kept]|].
  - destruct (is_blocked g nid now known); [right; split; [reflexivity | discriminate]|].
    left. destruct (step (g_base g) (base_op o)). reflexivity.
  - left. destruct (step (g_base g) (base_op o)). reflexivity.
Qed.

Lemma gstep_inv g o : ginv g -> gop_wf o -> ginv (fst (gstep g o)).
Proof.
  intros Hi Hw. destruct (gstep_base g o Hi Hw) as [E|[E _]]; [|rewrite E; exact Hi].
  destruct Hi as [H1 H2]. unfold ginv. rewrite E. split; [apply step_secrets_nonempty; [exact secrets_maxlen_pos | exact H1] | apply step_keys_nodup; exact H2].
Qed.

Lemma grun_cons g o ops : fst (grun g (o :: ops)) = fst (grun (fst (gstep g o)) ops).
Proof.
  cbn [M15_store_gen.grun]. destruct (gstep g o) as [g1 r]. cbn [fst]. destruct (grun g1 ops). reflexivity.
Qed.

Lemma admitted_no_rotation o l : admission o <> None -> rotations (base_op o :: l) = rotations l.
Proof. destruct o; cbn [admission]; intros H; try congruence; reflexivity. Qed.

Lemma ginv_same_base g g1 : g_base g1 = g_base g -> ginv g -> ginv g1.
Proof. unfold ginv. intros ->. auto. Qed.

Lemma ginit_inv s0 : ginv (ginit s0).
Proof. split; cbn; [discriminate | constructor]. Qed.

End Runs.

Definition no_gput (ops : list gop) : Prop :=
  forall o, In o ops -> forall now key data id ma ver, o <> GPut now key data id ma ver.

Lemma no_gput_base ops bops : no_gput ops -> (forall o, In o bops -> In o (map base_op ops)) -> no_put bops.
Proof.
  intros Hnp Hsub o Ho now key data id ma ver E. apply Hsub, in_map_iff in Ho as (go & Hgo & Hin).
  rewrite E in Hgo. destruct go; cbn [base_op] in Hgo; try discriminate. eapply Hnp; [exact Hin | reflexivity].
Qed.

(* an answered find leaves the hand-model state alone and hands out its token *)
Lemma gfind_answer hash enc verify siglen g rq nid now known kept target off force g1 tok vals :
  ginv g -> 0 <= off ->
  gstep hash enc verify siglen g (GFind rq nid now known kept target off force) = (g1, GO (RFind tok vals)) ->
  g_base g1 = g_base g /\ tok = generate_token hash enc (g_base g) rq.
Proof.
  intros [Hs _] Ho Hf. cbn [gstep] in Hf. rewrite g_on_find_ok in Hf by assumption.
  destruct (is_blocked g nid now known); [discriminate|]. injection Hf as <- <- _. auto.
Qed.
