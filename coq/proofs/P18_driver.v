(* C18 (extension) - theorems about the verifier's challenge bookkeeping (hand model M18_driver): an answer is
   matched to the outstanding challenge with ITS hash, counted once, a failed honesty check ends the
   verification for good, and a complete run aggregates exactly the answers, in whatever order they arrive. *)
From Coq Require Import ZArith List Bool Lia Permutation.
From IPV8V Require Import lib.Lists lib.PyErr lib.Bytes model.M18_driver.
Import ListNotations.
Open Scope Z_scope.

Section DriverProofs.
  Variable A R : Type.
  Variable sha : bytes -> Z.
  Variable proc : A -> option bytes -> R -> res A.
  Variable hon : Z -> R -> res bool.
  Variable empty_agg : A.
  Variable alg_honesty : bool.

  Local Notation step := (on_challenge_response sha proc hon empty_agg alg_honesty).

  Local Notation vs_ok := (vs_ok sha).
  Local Notation fold_answers := (fold_answers sha proc).

  Lemma remove_first_notin x l : ~ In x l -> remove_first x l = l.
  Proof.
    induction l as [|y l IH]; [reflexivity|]. cbn. intros H. destruct (y =? x) eqn:E; [exfalso; apply H; left; lia|].
    f_equal. apply IH. intros Hin. apply H. right. exact Hin.
  Qed.

  Lemma remove_first_in y x l : In y (remove_first x l) -> In y l.
  Proof.
    induction l as [|z l IH]; cbn; [tauto|]. destruct (z =? x); [auto|]. intros [H|H]; [left; exact H|right; exact (IH H)].
  Qed.

  Lemma remove_first_nodup x l : NoDup l -> NoDup (remove_first x l) /\ ~ In x (remove_first x l).
  Proof.
    induction 1 as [|y l Hy Hl IH]; [split; [constructor|tauto]|]. cbn. destruct (y =? x) eqn:E.
    - assert (y = x) by lia. subst. split; assumption.
    - destruct IH as [IH1 IH2]. split.
      + constructor; [|exact IH1]. intros Hin. apply Hy. eapply remove_first_in. exact Hin.
      + intros [H|H]; [lia|exact (IH2 H)].
  Qed.

  Lemma remove_first_length x l : In x l -> S (length (remove_first x l)) = length l.
  Proof.
    induction l as [|y l IH]; [contradiction|]. cbn. destruct (y =? x) eqn:E; [reflexivity|].
    intros [H|H]; [lia|]. cbn. f_equal. exact (IH H).
  Qed.

  Lemma remove_first_perm x l : In x l -> Permutation l (x :: remove_first x l).
  Proof.
    induction l as [|y l IH]; [contradiction|]. cbn. destruct (y =? x) eqn:E.
    - assert (y = x) by lia. subst. reflexivity.
    - intros [H|H]; [lia|]. etransitivity; [apply perm_skip; exact (IH H)|apply perm_swap].
  Qed.

  (* the matching loop: with distinct hashes it retires exactly the challenge whose hash was answered *)
  Lemma for_remove_first_spec hh : forall chals cur, NoDup (map sha chals) -> In hh (map sha chals) ->
    exists c chals', for_remove_first (fun c => sha c =? hh) chals cur = (Some c, chals') /\
      sha c = hh /\ In c chals /\ map sha chals' = remove_first hh (map sha chals).
  Proof.
    induction chals as [|c0 chals IH]; intros cur Hnd Hin; [contradiction|].
    cbn [for_remove_first map remove_first]. destruct (sha c0 =? hh) eqn:E.
    - exists c0, chals. split; [reflexivity|]. split; [lia|]. split; [left; reflexivity|reflexivity].
    - inversion Hnd as [|? ? Hn Hnd']; subst. destruct Hin as [H|Hin]; [lia|].
      destruct (IH (Some c0) Hnd' Hin) as (c & chals' & Hr & Hs & Hi & Hm). rewrite Hr.
      exists c, (c0 :: chals'). split; [reflexivity|]. split; [exact Hs|]. split; [right; exact Hi|].
      cbn. rewrite Hm. reflexivity.
  Qed.

  Lemma match_challenge_spec st hh : vs_ok st -> In hh (vs_hashed st) ->
    exists c (st' : vstate A), match_challenge sha st hh = (Some c, st') /\ sha c = hh /\ In c (vs_chals st) /\
      vs_hashed st' = remove_first hh (vs_hashed st) /\ vs_ok st' /\
      vs_pending st' = vs_pending st /\ vs_active st' = vs_active st /\ vs_agg st' = vs_agg st.
  Proof.
    intros [Hnd Hm] Hin. unfold match_challenge. rewrite (proj2 (existsb_eqb_in hh _) Hin).
    rewrite <- Hm in Hnd, Hin.
    destruct (for_remove_first_spec hh (vs_chals st) None Hnd Hin) as (c & chals' & Hr & Hs & Hi & Hmap).
    rewrite Hr. exists c. eexists. split; [reflexivity|]. cbn. split; [exact Hs|]. split; [exact Hi|].
    split; [reflexivity|]. split; [|auto]. unfold vs_ok; cbn. rewrite Hm in *. split; [apply remove_first_nodup; exact Hnd|exact Hmap].
  Qed.

  Lemma match_challenge_notin (st : vstate A) hh : ~ In hh (vs_hashed st) -> match_challenge sha st hh = (None, st).
  Proof.
    intros H. unfold match_challenge. destruct (existsb (Z.eqb hh) (vs_hashed st)) eqn:E; [|reflexivity].
    apply existsb_eqb_in in E. contradiction.
  Qed.

  Lemma pend_get_notin p h : ~ In h (map fst p) -> pend_get p h = None.
  Proof.
    induction p as [|[k v] p IH]; [reflexivity|]. cbn. intros H. destruct (k =? h) eqn:E; [exfalso; apply H; left; lia|].
    apply IH. intros Hin. apply H. right. exact Hin.
  Qed.

  Lemma pend_get_del_same p h : NoDup (map fst p) -> pend_get (pend_del p h) h = None.
  Proof.
    induction p as [|[k v] p IH]; [reflexivity|]. cbn. intros Hnd. inversion Hnd as [|? ? Hk Hnd']; subst.
    destruct (k =? h) eqn:E.
    - assert (k = h) by lia. subst. apply pend_get_notin. exact Hk.
    - cbn. rewrite E. exact (IH Hnd').
  Qed.

  Lemma pend_get_del_other p h h' : h' <> h -> pend_get (pend_del p h) h' = pend_get p h'.
  Proof.
    intros Hne. induction p as [|[k v] p IH]; [reflexivity|]. cbn. destruct (k =? h) eqn:E.
    - destruct (k =? h') eqn:E'; [lia|reflexivity].
    - cbn. destruct (k =? h'); [reflexivity|exact IH].
  Qed.

  Lemma not_outstanding_ignored_l st hh resp d b q : pend_get (vs_pending st) hh = None ->
    step st hh resp d b q = Ok (st, []).
  Proof. intros H. unfold on_challenge_response. rewrite H. reflexivity. Qed.

  Lemma ended_is_silent_l st hh resp d b q : vs_active st = false ->
    exists st' : vstate A, step st hh resp d b q = Ok (st', []) /\ vs_active st' = false /\ vs_agg st' = vs_agg st /\
                vs_hashed st' = vs_hashed st /\ vs_chals st' = vs_chals st.
  Proof.
    intros H. unfold on_challenge_response. destruct (pend_get (vs_pending st) hh).
    - cbn [vs_active set_pending]. rewrite H. cbn. eexists; split; [reflexivity|]. cbn. auto.
    - exists st. auto.
  Qed.

  (* a real challenge (honesty_check = -1) whose answer arrives: the aggregate is updated with THE challenge whose
     hash the answer carries, that challenge and its hash leave the lists, the hash is no longer outstanding *)
  Lemma answer_matched_by_hash_l st hh resp d b q hc st' out : vs_ok st -> vs_active st = true ->
    pend_get (vs_pending st) hh = Some hc -> hc < 0 -> In hh (vs_hashed st) ->
    step st hh resp d b q = Ok (st', out) ->
    exists c, In c (vs_chals st) /\ sha c = hh /\ proc (vs_agg st) (Some c) resp = Ok (vs_agg st') /\
      vs_hashed st' = remove_first hh (vs_hashed st) /\ vs_ok st' /\
      (vs_hashed st' = [] -> out = [VCallback (vs_agg st')] /\ vs_active st' = false).
  Proof.
    intros Hok Hact Hget Hneg Hin Hrun. unfold on_challenge_response in Hrun. rewrite Hget in Hrun. cbn [vs_active set_pending] in Hrun. rewrite Hact in Hrun. cbn [negb] in Hrun.
    set (st0 := set_pending st (pend_del (vs_pending st) hh)) in *.
    assert (Hok0 : vs_ok st0) by exact Hok.
    destruct (match_challenge_spec st0 hh Hok0 Hin) as (c & st1 & Hm & Hs & Hic & Hh & Hok1 & Hp & Ha & Hg).
    rewrite Hm in Hrun. destruct (hc <? 0) eqn:E; [|lia].
    destruct (proc (vs_agg st1) (Some c) resp) as [a|e] eqn:Ep; cbn [bind] in Hrun; [|discriminate].
    exists c. split; [exact Hic|]. split; [exact Hs|].
    assert (Hagg : vs_agg st1 = vs_agg st) by (rewrite Hg; reflexivity).
    cbn [vs_hashed set_agg] in *.
    destruct (Z.of_nat (length (vs_hashed st1)) =? 0) eqn:El.
    - inversion Hrun; subst st' out; clear Hrun. cbn. rewrite <- Hagg. split; [exact Ep|]. split; [exact Hh|].
      split; [exact Hok1|]. intros _. auto.
    - destruct (next_challenge sha alg_honesty (set_agg st1 a) d b q) as [[[c' b']|]|] eqn:En; cbn [bind] in Hrun; [| |discriminate];
        inversion Hrun; subst st' out; clear Hrun; cbn; rewrite <- Hagg;
        (split; [exact Ep|]); (split; [exact Hh|]); (split; [exact Hok1|]);
        intros Hnil; rewrite Hnil in El; discriminate.
  Qed.

  (* a failed honesty check: the cheater is reported with the empty aggregate, the verification ends *)
  Lemma failed_honesty_check_ends_l st hh resp d b q hc : vs_active st = true ->
    pend_get (vs_pending st) hh = Some hc -> 0 <= hc -> hon hc resp = Ok false ->
    exists st' : vstate A, step st hh resp d b q = Ok (st', [VCallback empty_agg]) /\ vs_active st' = false.
  Proof.
    intros Hact Hget Hhc Hhon. unfold on_challenge_response. rewrite Hget. cbn [vs_active set_pending]. rewrite Hact. cbn [negb].
    destruct (match_challenge sha _ hh) as [c st1] eqn:Em. destruct (hc <? 0) eqn:E; [lia|].
    rewrite Hhon. cbn [bind]. eexists; split; [reflexivity|reflexivity].
  Qed.

  Lemma find_by_hash hh chals c : NoDup (map sha chals) -> In c chals -> sha c = hh -> find (fun c => sha c =? hh) chals = Some c.
  Proof.
    induction chals as [|c0 chals IH]; [contradiction|]. cbn. intros Hnd Hin Hs. inversion Hnd as [|? ? Hn Hnd']; subst.
    destruct (sha c0 =? sha c) eqn:E.
    - destruct Hin as [->|Hin]; [reflexivity|]. exfalso. apply Hn. apply in_map_iff. exists c. split; [lia|exact Hin].
    - destruct Hin as [->|Hin]; [lia|]. exact (IH Hnd' Hin eq_refl).
  Qed.

  Lemma no_unsent_challenge (st : vstate A) d b q : alg_honesty = false -> vs_ok st -> all_outstanding st ->
    next_challenge sha alg_honesty st d b q = Ok None.
  Proof.
    intros Hh [_ Hm] Hall. unfold next_challenge. rewrite Hh. cbn.
    assert (E : find (fun c => negb (pend_has (vs_pending st) (sha c))) (vs_chals st) = None).
    { apply find_none_intro. intros c Hc. unfold pend_has. rewrite (Hall (sha c)); [reflexivity|].
      rewrite <- Hm. apply in_map. exact Hc. }
    rewrite E. reflexivity.
  Qed.

  Lemma for_remove_first_incl p : forall l cur v l', for_remove_first p l cur = (v, l') -> incl l' l.
  Proof.
    induction l as [|c l IH]; intros cur v l' H; cbn in H.
    - inversion H. apply incl_refl.
    - destruct (p c).
      + inversion H; subst. apply incl_tl, incl_refl.
      + destruct (for_remove_first p l (Some c)) as [v0 l0] eqn:E. inversion H; subst.
        apply incl_cons; [left; reflexivity|]. apply incl_tl. exact (IH _ _ _ E).
  Qed.

  Lemma match_challenge_incl (st : vstate A) hh v st' : match_challenge sha st hh = (v, st') -> incl (vs_chals st') (vs_chals st).
  Proof.
    unfold match_challenge. destruct (existsb (Z.eqb hh) (vs_hashed st)).
    - destruct (for_remove_first (fun c0 => sha c0 =? hh) (vs_chals st) None) as [v0 l'] eqn:Ef. intros H; inversion H; subst. cbn.
      exact (for_remove_first_incl _ _ _ _ _ Ef).
    - intros H; inversion H; subst. apply incl_refl.
  Qed.

  Lemma run_all_answers chals0 : NoDup (map sha chals0) -> alg_honesty = false ->
    forall answers st, vs_ok st -> vs_active st = true -> all_outstanding st -> incl (vs_chals st) chals0 ->
    Permutation (map fst answers) (vs_hashed st) -> vs_hashed st <> [] ->
    forall afin, fold_answers chals0 (vs_agg st) answers = Ok afin ->
    exists st' : vstate A, run_with step st
                  (map (fun a => (fst a, snd a, (false, 0, @nil bytes))) answers) = Ok (st', [VCallback afin]) /\
                vs_agg st' = afin /\ vs_active st' = false /\ vs_hashed st' = [] /\ vs_chals st' = [].
  Proof.
    intros Hnd0 Hh. induction answers as [|[hh resp] answers IH]; intros st Hok Hact Hall Hincl Hperm Hne afin Hfold.
    - cbn in Hperm. apply Permutation_nil in Hperm. contradiction.
    - cbn [map fst snd] in *. cbn [run_with fold_answers] in *.
      assert (Hin : In hh (vs_hashed st)) by (eapply Permutation_in; [exact Hperm|left; reflexivity]).
      pose proof (Hall hh Hin) as Hget.
      unfold on_challenge_response at 1. rewrite Hget. cbn [vs_active set_pending]. rewrite Hact. cbn [negb].
      set (st0 := set_pending st (pend_del (vs_pending st) hh)) in *.
      destruct (match_challenge_spec st0 hh Hok Hin) as (c & st1 & Hm & Hs & Hic & Hhd & Hok1 & Hp & Ha & Hg).
      change (vs_hashed st0) with (vs_hashed st) in Hhd. change (vs_chals st0) with (vs_chals st) in Hic.
      change (vs_active st0) with (vs_active st) in Ha. change (vs_agg st0) with (vs_agg st) in Hg.
      change (vs_pending st0) with (pend_del (vs_pending st) hh) in Hp.
      rewrite Hm. replace (-1 <? 0) with true by reflexivity.
      rewrite (find_by_hash hh chals0 c Hnd0 (Hincl c Hic) Hs) in Hfold.
      assert (Hagg : vs_agg st1 = vs_agg st) by (rewrite Hg; reflexivity). rewrite Hagg.
      destruct (proc (vs_agg st) (Some c) resp) as [a|e] eqn:Ep; cbn [bind] in *; [|discriminate].
      cbn [vs_hashed set_agg].
      assert (Hchals1 : incl (vs_chals st1) chals0).
      { eapply incl_tran; [exact (match_challenge_incl _ _ _ _ Hm)|exact Hincl]. }
      assert (Hnd : NoDup (vs_hashed st)) by exact (proj1 Hok).
      assert (Hperm' : Permutation (map fst answers) (remove_first hh (vs_hashed st))).
      { apply Permutation_cons_inv with (a := hh). etransitivity; [exact Hperm|apply remove_first_perm; exact Hin]. }
      destruct (Z.of_nat (length (vs_hashed st1)) =? 0) eqn:El.
      + (* last answer *)
        assert (Hnil : vs_hashed st1 = []) by (destruct (vs_hashed st1); [reflexivity|cbn in El; lia]).
        rewrite Hhd in Hnil. rewrite Hnil in Hperm'. apply Permutation_sym, Permutation_nil in Hperm'.
        destruct answers; [|discriminate]. cbn in *. inversion Hfold; subst afin.
        eexists. split; [reflexivity|]. cbn. rewrite Hhd, Hnil.
        destruct Hok1 as [_ Hmap]. rewrite Hhd, Hnil in Hmap. destruct (vs_chals st1); [auto|discriminate].
      + (* more answers to come *)
        set (st2 := set_agg st1 a).
        assert (Hok2 : vs_ok st2) by exact Hok1.
        assert (Hall2 : all_outstanding st2).
        { intros h Hh'. cbn in Hh'. rewrite Hhd in Hh'. cbn. rewrite Hp. cbn.
          destruct (remove_first_nodup hh _ Hnd) as [_ Hnot].
          rewrite pend_get_del_other by (intros ->; exact (Hnot Hh')). apply Hall. eapply remove_first_in. exact Hh'. }
        rewrite (no_unsent_challenge st2 false 0 [] Hh Hok2 Hall2). cbn [bind fst snd].
        assert (Hne2 : vs_hashed st2 <> []) by (cbn; intros Hn; rewrite Hn in El; discriminate).
        destruct (IH st2 Hok2 ltac:(cbn; rewrite Ha; exact Hact) Hall2 Hchals1
                     ltac:(cbn; rewrite Hhd; exact Hperm') Hne2 afin Hfold) as (st' & Hrun & Hres).
        rewrite Hrun. cbn [bind fst snd app]. exists st'. split; [reflexivity|exact Hres].
  Qed.
End DriverProofs.
