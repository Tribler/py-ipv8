(* C09 - what a destroy does, the first half of a remove_* task, the relay_early budget test of a relay. *)
From Coq Require Import ZArith List Bool Lia.
From IPV8V Require Import gen.G09_rules model.M09_reclaim proofs.P09_alist.
Import ListNotations.
Open Scope Z_scope.

Section More.
Variable st : settings.

Definition relay_adjacent (s : node) (src cid : Z) : bool :=
  match aget cid (relays s) with
  | Some nxt => match aget (r_next nxt) (relays s) with
                | Some prev => src =? r_peer prev
                | None => false
                end
  | None => false
  end.

Definition exit_adjacent (s : node) (src cid : Z) : bool :=
  match aget cid (exits s) with Some e => src =? e_peer e | None => false end.

Definition circuit_adjacent (s : node) (src cid : Z) : bool :=
  match aget cid (circuits s) with Some c => src =? c_first c | None => false end.

Lemma recv_destroy_eq s src cid reason :
  recv_destroy s src cid reason =
  if relay_adjacent s src cid then
    match aget cid (relays s) with
    | Some nxt => defer (DRemove KRelay (r_next nxt) 0 false) (defer (DRemove KRelay cid reason false) s)
    | None => s
    end
  else if exit_adjacent s src cid then defer (DRemove KExit cid 0 false) s
  else if circuit_adjacent s src cid then defer (DRemove KCirc cid 0 false) s
  else s.
Proof.
  (* not a relay's other side: the exit, then the circuit *)
  assert (REST : match aget cid (exits s) with
                 | Some e => if src =? e_peer e then defer (DRemove KExit cid 0 false) s
                             else match aget cid (circuits s) with
                                  | Some c => if src =? c_first c then defer (DRemove KCirc cid 0 false) s else s
                                  | None => s
                                  end
                 | None => match aget cid (circuits s) with
                           | Some c => if src =? c_first c then defer (DRemove KCirc cid 0 false) s else s
                           | None => s
                           end
                 end
                 = if exit_adjacent s src cid then defer (DRemove KExit cid 0 false) s
                   else if circuit_adjacent s src cid then defer (DRemove KCirc cid 0 false) s
                   else s).
  { unfold exit_adjacent, circuit_adjacent.
    destruct (aget cid (exits s)) as [e|].
    - destruct (src =? e_peer e); [reflexivity|]. destruct (aget cid (circuits s)); reflexivity.
    - destruct (aget cid (circuits s)); reflexivity. }
  unfold recv_destroy, relay_adjacent.
  destruct (aget cid (relays s)) as [nxt|].
  - destruct (aget (r_next nxt) (relays s)) as [prev|].
    + destruct (src =? r_peer prev).
      * reflexivity.
      * exact REST.
    + exact REST.
  - exact REST.
Qed.

Lemma delay_pos_waits rn : 0 < s_remove_delay st -> negb rn || (0 <? s_remove_delay st) = true.
Proof. intro H. apply Z.ltb_lt in H. rewrite H. apply orb_true_r. Qed.

Lemma start_remove_exit_l s cid destroy rn e :
  aget cid (exits s) = Some e -> 0 < s_remove_delay st ->
  start_remove st s KExit cid destroy rn
  = (set_sleeping (sleeping s ++ [(now s + s_remove_delay st, KExit, cid)]) s,
     if destroy =? 0 then [] else [ODestroy (e_peer e) cid destroy]).
Proof.
  intros H Hd. unfold start_remove. rewrite H.
  rewrite (delay_pos_waits rn Hd). reflexivity.
Qed.

Lemma start_remove_circuit_l s cid destroy rn c :
  aget cid (circuits s) = Some c -> 0 < s_remove_delay st ->
  exists s1,
    start_remove st s KCirc cid destroy rn
    = (set_sleeping (sleeping s1 ++ [(now s + s_remove_delay st, KCirc, cid)]) s1,
       if destroy =? 0 then [] else [ODestroy (c_first c) cid destroy])
    /\ sleeping s1 = sleeping s /\ aget cid (retries s1) = None
    /\ exists c1, aget cid (circuits s1) = Some c1 /\ c_closing c1 = true.
Proof.
  intros H Hd. unfold start_remove. simpl aget. rewrite H.
  rewrite (delay_pos_waits rn Hd).
  eexists. split; [reflexivity|]. split; [reflexivity|]. split.
  - simpl. rewrite aget_adel, Z.eqb_refl. reflexivity.
  - eexists. split; [simpl; rewrite aget_aset, Z.eqb_refl; reflexivity | reflexivity].
Qed.

(* a relay forwards a cell only through relay_cell; the budget test comes first and the counter of the
   route is incremented by every forwarded cell *)
Lemma relay_forward_l s src cid plain early len cr ls nxt :
  aget cid (relays s) = Some nxt ->
  let '(s', o) := recv_cell st s src cid plain early len cr ls in
  o = [] \/
  (o = [OCell (r_peer nxt) (r_next nxt) early 0] /\ plain = false
   /\ (early = true -> r_early nxt < s_max_early st)
   /\ exists nxt', aget cid (relays s') = Some nxt' /\ r_early nxt' = r_early nxt + 1).
Proof.
  intro H. unfold recv_cell. rewrite H.
  set (s1 := match aget (r_next nxt) (relays s) with
             | Some this => set_relays (aset (r_next nxt) (r_with_ro (fun r => ro_down len (ro_beat (now s) r)) this) (relays s)) s
             | None => s end).
  assert (H1 : exists nxt1, aget cid (relays s1) = Some nxt1 /\ r_early nxt1 = r_early nxt
                            /\ r_peer nxt1 = r_peer nxt /\ r_next nxt1 = r_next nxt).
  { unfold s1. destruct (aget (r_next nxt) (relays s)) as [this|] eqn:Et; [|exists nxt; auto].
    simpl. rewrite aget_aset. destruct (cid =? r_next nxt) eqn:E.
    - apply Z.eqb_eq in E. rewrite <- E in Et. rewrite H in Et. inversion Et; subst this.
      eexists; split; [reflexivity|]. simpl; auto.
    - exists nxt; auto. }
  destruct H1 as (nxt1 & E1 & E2 & E3 & E4).
  destruct plain; [left; reflexivity|]. rewrite E1.
  destruct (relay_drops_early early (r_early nxt1) (s_max_early st)) eqn:Ed; [left; reflexivity|].
  destruct cr as [| |m]; try (left; reflexivity).
  destruct (take ls) as [n ls']. right. rewrite E3, E4. split; [reflexivity|]. split; [reflexivity|]. split.
  - intro Ee. subst early. unfold relay_drops_early in Ed. simpl in Ed. lia.
  - eexists. split; [simpl; rewrite aget_aset, Z.eqb_refl; reflexivity|]. simpl. lia.
Qed.

Lemma ping_all_rel (R : node -> node -> Prop) :
  (forall s, R s s) -> (forall a b c, R a b -> R b c -> R a c) ->
  (forall s dst cid mid ls, R s (fst (fst (send_cell st s dst cid mid ls)))) ->
  forall cs s ls, R s (fst (ping_all st s cs ls)).
Proof.
  intros Hrefl Htrans Hsend. induction cs as [|[cid c0] tl IH]; intros s ls; simpl; [apply Hrefl|].
  destruct (aget cid (circuits s)) as [c|]; [|apply IH].
  destruct (negb (c_closing c) && (0 <? c_hops c)); [|apply IH].
  pose proof (Hsend s (c_first c) cid MSG_PING ls) as X1.
  destruct (send_cell st s (c_first c) cid MSG_PING ls) as [[s1 o1] ls1]. simpl in X1.
  pose proof (IH s1 ls1) as X2. destruct (ping_all st s1 tl ls1) as [s2 o2]. exact (Htrans _ _ _ X1 X2).
Qed.

End More.
