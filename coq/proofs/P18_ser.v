(* C18 - serialisation round trips: iunpack . ipack, unpack_nums . pack_nums (keys, bit pairs),
   _siunpack . _sipack. *)
From Coq Require Import ZArith List Bool Lia.
From IPV8V Require Import lib.Lists lib.PyErr lib.Bytes lib.BE model.M18_ser.
Import ListNotations.
Open Scope Z_scope.

Lemma slice_app3 x y z : slice (x ++ y ++ z) (Some (blen x)) (Some (blen x + blen y)) = y.
Proof.
  unfold slice. pose proof (blen_nonneg x). pose proof (blen_nonneg y). pose proof (blen_nonneg z).
  rewrite !clamp_id by (rewrite !blen_app; lia).
  replace (blen x + blen y - blen x) with (blen y) by lia.
  unfold blen. rewrite !Nat2Z.id. rewrite skipn_app_exact. apply firstn_app_exact.
Qed.

Lemma slice_app_tail x y : slice (x ++ y) (Some (blen x)) None = y.
Proof.
  unfold slice. pose proof (blen_nonneg x). pose proof (blen_nonneg y).
  rewrite clamp_id by (rewrite blen_app; lia). rewrite blen_app.
  replace (blen x + blen y - blen x) with (blen y) by lia.
  unfold blen. rewrite !Nat2Z.id. rewrite skipn_app_exact. rewrite <- (app_nil_r y) at 2. apply firstn_app_exact.
Qed.

Lemma nbytes_spec n : 0 <= n -> n < 256 ^ Z.of_nat (nbytes n).
Proof.
  intros Hn. unfold nbytes. destruct (n =? 0) eqn:E.
  - assert (n = 0) by lia. subst. reflexivity.
  - assert (Hpos : 0 < n) by lia.
    pose proof (Z.log2_spec n Hpos) as [_ Hlt]. pose proof (Z.log2_nonneg n) as Hl.
    rewrite Z2Nat.id by (pose proof (Z.div_pos (Z.log2 n) 8 Hl ltac:(lia)); lia).
    change 256 with (2 ^ 8). rewrite <- Z.pow_mul_r by (try lia; pose proof (Z.div_pos (Z.log2 n) 8 Hl ltac:(lia)); lia).
    eapply Z.lt_le_trans; [exact Hlt|]. apply Z.pow_le_mono_r; [lia|].
    pose proof (Z.div_mod (Z.log2 n) 8 ltac:(lia)). pose proof (Z.mod_pos_bound (Z.log2 n) 8 ltac:(lia)). lia.
Qed.

Lemma num_to_str_ok n : 0 <= n -> num_to_str n = Ok (be_encode (nbytes n) n).
Proof. intros H. unfold num_to_str. destruct (n <? 0) eqn:E; [lia|reflexivity]. Qed.

Lemma num_to_str_ok_nonneg n s : num_to_str n = Ok s -> 0 <= n.
Proof. unfold num_to_str. destruct (n <? 0) eqn:E; [destruct (Z.even _); discriminate|lia]. Qed.

Lemma str_num_roundtrip n : 0 <= n -> str_to_num (be_encode (nbytes n) n) = n.
Proof. intros H. unfold str_to_num. apply be_decode_encode. split; [exact H|apply nbytes_spec; exact H]. Qed.

Lemma ipack_form n s : ipack n = Ok s ->
  0 <= n /\ s = Z.of_nat (nbytes (Z.of_nat (nbytes n))) ::
                be_encode (nbytes (Z.of_nat (nbytes n))) (Z.of_nat (nbytes n)) ++ be_encode (nbytes n) n.
Proof.
  unfold ipack. destruct (num_to_str n) as [pnum|e] eqn:E1; [|discriminate]. cbn [bind].
  pose proof (num_to_str_ok_nonneg _ _ E1) as Hn. rewrite num_to_str_ok in E1 by exact Hn. inversion E1; subst pnum; clear E1.
  rewrite blen_be_encode. rewrite num_to_str_ok by lia. cbn [bind]. rewrite blen_be_encode.
  destruct (255 <? _) eqn:E2; [discriminate|]. intros H. inversion H. split; [exact Hn|reflexivity].
Qed.

Lemma iunpack_ipack_l n s rest : ipack n = Ok s -> iunpack (s ++ rest) = Ok (n, rest).
Proof.
  intros H. destruct (ipack_form n s H) as [Hn ->].
  set (L := Z.of_nat (nbytes n)). set (l := be_encode (nbytes L) L). set (pnum := be_encode (nbytes n) n).
  assert (HL : 0 <= L) by (unfold L; lia).
  assert (Hl : blen l = Z.of_nat (nbytes L)) by apply blen_be_encode.
  assert (Hp : blen pnum = L) by apply blen_be_encode.
  cbn [app]. unfold iunpack. rewrite <- Hl.
  assert (E1 : slice (blen l :: (l ++ pnum) ++ rest) (Some 1) (Some (1 + blen l)) = l).
  { change (blen l :: (l ++ pnum) ++ rest) with ([blen l] ++ (l ++ pnum) ++ rest). rewrite <- app_assoc.
    change 1 with (blen [blen l]) at 1 2. apply slice_app3. }
  rewrite E1. assert (El : str_to_num l = L) by (unfold l; apply str_num_roundtrip; exact HL). rewrite El.
  assert (E2 : slice (blen l :: (l ++ pnum) ++ rest) (Some (1 + blen l)) (Some (blen l + L + 1)) = pnum).
  { replace (blen l :: (l ++ pnum) ++ rest) with ((blen l :: l) ++ pnum ++ rest) by (cbn; rewrite <- app_assoc; reflexivity).
    replace (1 + blen l) with (blen (blen l :: l)) by (rewrite blen_cons; reflexivity).
    replace (blen l + L + 1) with (blen (blen l :: l) + blen pnum) by (rewrite blen_cons, Hp; lia).
    apply slice_app3. }
  rewrite E2.
  assert (E3 : slice (blen l :: (l ++ pnum) ++ rest) (Some (blen l + L + 1)) None = rest).
  { replace (blen l :: (l ++ pnum) ++ rest) with ((blen l :: l ++ pnum) ++ rest) by reflexivity.
    replace (blen l + L + 1) with (blen (blen l :: l ++ pnum)) by (rewrite blen_cons, blen_app, Hp; lia).
    apply slice_app_tail. }
  rewrite E3. assert (Ep : str_to_num pnum = n) by (unfold pnum; apply str_num_roundtrip; exact Hn). rewrite Ep. reflexivity.
Qed.

Lemma ipack_ok_l n : 0 <= n -> Z.of_nat (nbytes (Z.of_nat (nbytes n))) <= 255 -> exists s, ipack n = Ok s.
Proof.
  intros Hn Hl. unfold ipack. rewrite num_to_str_ok by exact Hn. cbn [bind]. rewrite blen_be_encode.
  rewrite num_to_str_ok by lia. cbn [bind]. rewrite blen_be_encode.
  destruct (255 <? _) eqn:E; [lia|]. eexists; reflexivity.
Qed.

Lemma ipack_nonempty n s : ipack n = Ok s -> exists b tl, s = b :: tl.
Proof. intros H. destruct (ipack_form n s H) as [_ ->]. eexists _, _; reflexivity. Qed.

Lemma unpack_pair_pack_pair_l a b s rest : pack_pair a b = Ok s -> unpack_pair (s ++ rest) = Ok (a, b, rest).
Proof.
  unfold pack_pair, unpack_pair. destruct (ipack a) as [x|] eqn:Ea; [|discriminate]. cbn [bind].
  destruct (ipack b) as [y|] eqn:Eb; [|discriminate]. cbn [bind]. intros H. inversion H; subst s; clear H.
  rewrite <- app_assoc, (iunpack_ipack_l a x _ Ea). cbn [bind snd fst].
  rewrite (iunpack_ipack_l b y _ Eb). reflexivity.
Qed.

Lemma unpack_pack_nums_l ns : forall s rest, pack_nums ns = Ok s ->
  unpack_nums (length ns) (s ++ rest) = Ok (ns, rest).
Proof.
  induction ns as [|n ns IH]; intros s rest H.
  - cbn in H. inversion H. reflexivity.
  - cbn [pack_nums] in H. destruct (ipack n) as [x|] eqn:En; [|discriminate]. cbn [bind] in H.
    destruct (pack_nums ns) as [y|] eqn:Ey; [|discriminate]. cbn [bind] in H. inversion H; subst s; clear H.
    destruct (ipack_nonempty n x En) as (b & tl & ->).
    cbn [length unpack_nums app].
    replace (b :: (tl ++ y) ++ rest) with ((b :: tl) ++ y ++ rest) by (cbn; rewrite <- app_assoc; reflexivity).
    rewrite (iunpack_ipack_l n _ _ En). cbn [bind snd fst]. rewrite (IH y rest eq_refl). reflexivity.
Qed.

(* BonehPublicKey / BonehPrivateKey: unserialize(serialize(key)) gives the same five / seven numbers *)
Lemma key_roundtrip_l ns s : pack_nums ns = Ok s -> key_unserialize (length ns) s = Ok (Some ns).
Proof.
  intros H. unfold key_unserialize. rewrite <- (app_nil_r s). rewrite (unpack_pack_nums_l ns s [] H).
  cbn [bind fst]. rewrite Nat.eqb_refl. reflexivity.
Qed.

Lemma abs_sign i sign : 0 <= sign ->
  (2 * sign + (if i <? 0 then 1 else 0)) / 2 = sign /\
  (if Z.odd (2 * sign + (if i <? 0 then 1 else 0)) then - Z.abs i else Z.abs i) = i.
Proof.
  intros Hs. destruct (i <? 0) eqn:E.
  - split; [symmetry; apply (Z.div_unique _ 2 sign 1); lia|].
    rewrite Z.add_comm, Z.odd_add_mul_2. cbn. lia.
  - split; [symmetry; apply (Z.div_unique _ 2 sign 0); lia|].
    rewrite Z.add_0_r, Z.odd_mul. cbn. lia.
Qed.

Lemma sipack_loop_spec ns : forall sign packed out, 0 <= sign -> sipack_loop ns sign packed = Ok out ->
  exists sg body, out = sg :: body /\
    forall m rest acc, siunpack_loop (length ns + m) (body ++ rest) sg acc =
                       siunpack_loop m (packed ++ rest) sign (ns ++ acc).
Proof.
  induction ns as [|i tl IH]; intros sign packed out Hs H.
  - cbn in H. inversion H. exists sign, packed. split; [reflexivity|]. intros. reflexivity.
  - cbn [sipack_loop] in H. destruct (ipack (Z.abs i)) as [p|] eqn:Ep; [|discriminate]. cbn [bind] in H.
    assert (Hs' : 0 <= 2 * sign + (if i <? 0 then 1 else 0)) by (destruct (i <? 0); lia).
    destruct (IH _ _ _ Hs' H) as (sg & body & -> & Hloop).
    exists sg, body. split; [reflexivity|]. intros m rest acc.
    replace (length (i :: tl) + m)%nat with (length tl + S m)%nat by (cbn; lia).
    rewrite Hloop. destruct (ipack_nonempty _ _ Ep) as (b & t & ->).
    cbn [siunpack_loop app].
    replace (b :: (t ++ packed) ++ rest) with ((b :: t) ++ packed ++ rest) by (cbn; rewrite <- app_assoc; reflexivity).
    rewrite (iunpack_ipack_l _ _ _ Ep). cbn [bind snd fst].
    destruct (abs_sign i sign Hs) as [-> ->]. reflexivity.
Qed.

Lemma siunpack_sipack_l ns s rest : sipack ns = Ok s -> siunpack (s ++ rest) (length ns) = Ok (ns, rest).
Proof.
  unfold sipack. destruct (8 <? Z.of_nat (length ns)); [discriminate|]. intros H.
  destruct (sipack_loop_spec ns 0 [] s ltac:(lia) H) as (sg & body & -> & Hloop).
  cbn [siunpack app]. specialize (Hloop 0%nat rest []). rewrite Nat.add_0_r in Hloop. rewrite Hloop.
  cbn. rewrite app_nil_r. reflexivity.
Qed.
