(* C09 - the translated do_remove chains compute the documented verdicts; one sweep schedules exactly
   the entries with a verdict. *)
From Coq Require Import ZArith List Bool.
From IPV8V Require Import gen.G09_rules model.M09_reclaim spec.S09_reclaim.
Import ListNotations.
Open Scope Z_scope.

(* the translated rules subtract on the right and use >?, the documented ones add on the left and use <? *)
Lemma ltb_sub a b c : (a <? b - c) = (a + c <? b).
Proof. apply eq_iff_eq_true. rewrite !Z.ltb_lt. symmetry. apply Z.lt_add_lt_sub_r. Qed.

Lemma state_ready c : (c_state c =? 0) = c_ready c.
Proof.
  unfold c_state, circuit_state, c_ready. destruct (c_closing c); [reflexivity|].
  rewrite Z.leb_antisym. destruct (c_hops c <? c_goal c); reflexivity.
Qed.

Lemma circ_rule_spec st tnow c : circ_rule st tnow c = circuit_verdict st tnow c.
Proof.
  unfold circ_rule, circuit_verdict, sweep_circuit_rule, inactive, too_old, overused.
  rewrite state_ready, !ltb_sub, Z.gtb_ltb. reflexivity.
Qed.

Lemma relay_rule_spec st tnow r : relay_rule st tnow r = relay_verdict st tnow r.
Proof.
  unfold relay_rule, relay_verdict, sweep_relay_rule, inactive, overused.
  rewrite ltb_sub, Z.gtb_ltb. reflexivity.
Qed.

Lemma exit_rule_spec st tnow e : exit_rule st tnow e = exit_verdict st tnow e.
Proof.
  unfold exit_rule, exit_verdict, sweep_exit_rule, inactive, too_old, overused.
  rewrite !ltb_sub, Z.gtb_ltb. reflexivity.
Qed.

Lemma rule_to_start_dropped k cid v : rule_to_start k cid v = dropped k cid v.
Proof. reflexivity. Qed.

Lemma starts_sweep st s : starts (sweep st s) = starts s ++ sweep_spec st s.
Proof.
  unfold sweep; simpl. unfold sweep_starts, sweep_spec.
  do 2 f_equal; [|f_equal]; apply flat_map_ext; intros [k v]; simpl.
  - rewrite circ_rule_spec; reflexivity.
  - rewrite relay_rule_spec; reflexivity.
  - rewrite exit_rule_spec; reflexivity.
Qed.

Lemma in_dropped_table {A} k k' cid dd rn (v : A -> option bool) (l : list (Z * A)) :
  In (DRemove k cid dd rn) (flat_map (fun kx => dropped k' (fst kx) (v (snd kx))) l) <->
  k = k' /\ exists x b, In (cid, x) l /\ v x = Some b /\ dd = (if b then 1 else 0) /\ rn = false.
Proof.
  rewrite in_flat_map. split.
  - intros [[c x] [Hin H]]. simpl in H. destruct (v x) as [b|] eqn:E; [|destruct H].
    destruct H as [H|[]]. inversion H; subst. split; [reflexivity|]. exists x, b. auto.
  - intros [Ek (x & b & Hin & Hv & Hd & Hr)]. subst. exists (cid, x). split; [exact Hin|].
    simpl. rewrite Hv. left; reflexivity.
Qed.

Lemma sweep_spec_in st s k cid dd rn :
  In (DRemove k cid dd rn) (sweep_spec st s) <->
  match k with
  | KCirc => exists c b, In (cid, c) (circuits s) /\ circuit_verdict st (now s) c = Some b
                         /\ dd = (if b then 1 else 0) /\ rn = false
  | KRelay => exists r b, In (cid, r) (relays s) /\ relay_verdict st (now s) r = Some b
                          /\ dd = (if b then 1 else 0) /\ rn = false
  | KExit => exists e b, In (cid, e) (exits s) /\ exit_verdict st (now s) e = Some b
                         /\ dd = (if b then 1 else 0) /\ rn = false
  end.
Proof.
  unfold sweep_spec. split; intro H.
  - repeat (apply in_app_or in H; destruct H as [H|H]); apply in_dropped_table in H; destruct H as [E H];
      destruct k; try discriminate E; exact H.
  - destruct k; [apply in_or_app; left | apply in_or_app; right; apply in_or_app; left | do 2 (apply in_or_app; right)];
      apply in_dropped_table; (split; [reflexivity | exact H]).
Qed.

Lemma in_dropped k cid v d : In d (dropped k cid v) -> exists dd, d = DRemove k cid dd false.
Proof. destruct v; simpl; [intros [H|[]]; eauto | intros []]. Qed.

Lemma in_sweep_spec_remove st d s : In d (sweep_spec st s) -> exists k cid dd, d = DRemove k cid dd false.
Proof.
  unfold sweep_spec. intro H. repeat (apply in_app_or in H; destruct H as [H|H]);
    apply in_flat_map in H; destruct H as [[k x] [_ H]]; apply in_dropped in H; destruct H; eauto.
Qed.

Lemma dc_inner_no_return rs : dc_inner rs <> SReturn.
Proof. induction rs as [|[] tl IH]; simpl; [discriminate | exact IH | discriminate]. Qed.

Lemma dc_outer_no_return ds : dc_outer ds <> SReturn.
Proof.
  induction ds as [|[[] rs] tl IH]; simpl; [discriminate | | exact IH].
  pose proof (dc_inner_no_return rs) as H. unfold dc_outer_body. simpl.
  destruct (dc_inner rs); try exact IH. contradiction.
Qed.
