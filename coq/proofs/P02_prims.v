(* List and `take` facts the wire proofs share, then round trip, definedness and arity of the leaf encoders. *)
From Coq Require Import ZArith List Bool Lia ZifyBool Arith.
From IPV8V Require Import lib.Lists lib.PyErr lib.Bytes lib.BE model.M02_wire.
Import ListNotations.
Open Scope Z_scope.


Lemma skipn_app_plus {A} (a b : list A) k : skipn (length a + k) (a ++ b) = skipn k b.
Proof. induction a as [|x a IH]; simpl; auto. Qed.

Lemma firstn_len_app {A} (a b : list A) n : n = length a -> firstn n (a ++ b) = a.
Proof. intros ->. apply firstn_app_exact. Qed.

Lemma skipn_len_app {A} (a b : list A) n : n = length a -> skipn n (a ++ b) = b.
Proof. intros ->. apply skipn_app_exact. Qed.

(* take n at the end of a prefix returns the next n bytes *)
Lemma take_here n (pre a rest : bytes) :
  length a = n -> take n (length pre) (pre ++ a ++ rest) = Ok a.
Proof.
  intros H. unfold take. rewrite !app_length.
  destruct (length pre + n <=? length pre + (length a + length rest))%nat eqn:E.
  - rewrite skipn_app_exact. rewrite firstn_len_app by (symmetry; exact H). reflexivity.
  - apply Nat.leb_gt in E. lia.
Qed.

Lemma take_at n k (pre a b rest : bytes) :
  length a = k -> length b = n -> take n (length pre + k) (pre ++ a ++ b ++ rest) = Ok b.
Proof.
  intros Ha Hb. replace (pre ++ a ++ b ++ rest) with ((pre ++ a) ++ b ++ rest) by (rewrite <- app_assoc; reflexivity).
  replace (length pre + k)%nat with (length (pre ++ a)) by (rewrite app_length; lia).
  apply take_here. exact Hb.
Qed.

Lemma bytes_okb_ok l : bytes_okb l = true -> bytes_ok l.
Proof. exact (Bytes.bytes_okb_ok l). Qed.

Lemma addr_eqb_refl a : addr_eqb a a = true.
Proof. destruct a; cbn [addr_eqb]; rewrite bytes_eqb_refl, Z.eqb_refl; reflexivity. Qed.

Lemma pow256_pos w : 0 < 256 ^ Z.of_nat w.
Proof. apply Z.pow_pos_nonneg; lia. Qed.

Lemma of_signed_range w z : (0 < w)%nat ->
  - (256 ^ Z.of_nat w / 2) <= z < 256 ^ Z.of_nat w / 2 -> 0 <= of_signed w z < 256 ^ Z.of_nat w.
Proof.
  intros Hw Hz. unfold of_signed.
  assert (Hp : 256 ^ Z.of_nat w = 2 * (256 ^ Z.of_nat w / 2)).
  { destruct w as [|w]; [lia|]. rewrite Nat2Z.inj_succ, Z.pow_succ_r by lia.
    replace (256 * 256 ^ Z.of_nat w) with ((128 * 256 ^ Z.of_nat w) * 2) by lia.
    rewrite Z.div_mul by lia. lia. }
  destruct (z <? 0) eqn:E; lia.
Qed.

Lemma prim_roundtrip p v bs :
  prim_wf p = true -> penc p v = Ok bs -> length bs = psize p /\ pdec p bs = v.
Proof.
  intros Hwf H. unfold penc in H. destruct (prim_ok p v) eqn:Hok; cbn [negb] in H; [|discriminate].
  destruct p as [w|w| | |w|n]; destruct v; try discriminate; cbn [prim_ok] in Hok; cbn [psize pdec].
  - inversion H; subst. split; [apply be_encode_length|]. f_equal. apply be_decode_encode. unfold in_range in Hok. lia.
  - inversion H; subst. split; [apply be_encode_length|]. f_equal.
    unfold in_range in Hok. cbn [prim_wf] in Hwf.
    rewrite be_decode_encode by (apply of_signed_range; lia). apply to_of_signed; lia.
  - inversion H; subst. split; [reflexivity|]. destruct b; reflexivity.
  - destruct b as [|c [|? ?]]; try discriminate. inversion H; subst. split; reflexivity.
  - inversion H; subst. split; [apply be_encode_length|]. f_equal. apply be_decode_encode. unfold in_range in Hok. lia.
  - inversion H; subst. apply andb_true_iff in Hok as [Hl _]. apply Nat.eqb_eq in Hl. split; [exact Hl|reflexivity].
Qed.

Lemma struct_roundtrip ps : forall vs bs,
  forallb prim_wf ps = true -> struct_enc ps vs = Ok bs ->
  length bs = struct_size ps /\ struct_dec ps bs = vs.
Proof.
  induction ps as [|p ps IH]; intros vs bs Hwf H; destruct vs as [|v vs]; cbn [struct_enc] in H; try discriminate.
  - inversion H; subst. split; reflexivity.
  - cbn [forallb] in Hwf. apply andb_true_iff in Hwf as [Hp Hps].
    destruct (penc p v) as [a|] eqn:Ea; cbn [bind] in H; [|discriminate].
    destruct (struct_enc ps vs) as [b|] eqn:Eb; cbn [bind] in H; [|discriminate].
    inversion H; subst. destruct (prim_roundtrip p v a Hp Ea) as [La Da].
    destruct (IH vs b Hps Eb) as [Lb Db].
    cbn [struct_size fold_right struct_dec]. fold (struct_size ps). split.
    + rewrite app_length. lia.
    + rewrite firstn_len_app by (symmetry; exact La). rewrite skipn_len_app by (symmetry; exact La).
      rewrite Da, Db. reflexivity.
Qed.

Lemma penc_defined p v : prim_ok p v = true -> exists b, penc p v = Ok b.
Proof.
  intros H. unfold penc. rewrite H. cbn [negb]. destruct p, v; try discriminate H; eauto.
Qed.

Lemma struct_enc_defined ps : forall vs, forallb2 prim_ok ps vs = true -> exists b, struct_enc ps vs = Ok b.
Proof.
  induction ps as [|p ps IH]; intros [|v vs] H; cbn [forallb2] in H; try discriminate H.
  - exists []. reflexivity.
  - apply andb_true_iff in H as [H1 H2]. destruct (penc_defined p v H1) as [a Ea]. destruct (IH vs H2) as [b Eb].
    exists (a ++ b). cbn [struct_enc]. rewrite Ea, Eb. reflexivity.
Qed.

Lemma struct_enc_arity ps : forall vs bs, struct_enc ps vs = Ok bs -> length vs = length ps.
Proof.
  induction ps as [|p ps IH]; intros [|v vs] bs H; cbn [struct_enc] in H; try discriminate; [reflexivity|].
  destruct (penc p v); cbn [bind] in H; [|discriminate].
  destruct (struct_enc ps vs) eqn:E; cbn [bind] in H; [|discriminate].
  simpl. f_equal. eapply IH. exact E.
Qed.

Lemma is_bit_inv v : is_bit v = true -> exists b, v = VInt b /\ (b = 0 \/ b = 1).
Proof.
  destruct v; cbn [is_bit]; try discriminate. intros H. exists z. split; [reflexivity|].
  apply orb_true_iff in H as [H|H]; apply Z.eqb_eq in H; auto.
Qed.

Lemma testbit_split k r b : 0 <= k -> 0 <= r < 2 ^ k -> b = 0 \/ b = 1 ->
  Z.b2z (Z.testbit (b * 2 ^ k + r) k) = b /\ forall i, 0 <= i < k -> Z.testbit (b * 2 ^ k + r) i = Z.testbit r i.
Proof.
  intros Hk Hr Hb. assert (Hp : 0 < 2 ^ k) by (apply Z.pow_pos_nonneg; lia). split.
  - rewrite Z.testbit_spec' by exact Hk. rewrite Z.add_comm, Z.div_add, Z.div_small by lia.
    destruct Hb; subst; reflexivity.
  - intros i Hi. rewrite <- (Z.mod_pow2_bits_low (b * 2 ^ k + r) k i) by lia.
    rewrite Z.add_comm, Z.mod_add, Z.mod_small by lia. reflexivity.
Qed.

(* bits: the encoder sums weights 2^k, 2^(k-1), ... 1; bit i of the sum is the (k-i)th summand's bit because
   everything after the first summand stays below its weight *)
Lemma bits_enc_spec k : forall vs z,
  length vs = S k -> forallb is_bit vs = true -> bits_enc vs (2 ^ Z.of_nat k) = Ok z ->
  0 <= z < 2 ^ Z.of_nat (S k) /\ map (fun i => bit_of z (Z.of_nat i)) (rev (seq 0 (S k))) = vs.
Proof.
  induction k as [|k IH]; intros [|v tl] z Hl Hb H; try discriminate Hl;
    cbn [forallb] in Hb; apply andb_true_iff in Hb as [Hv Hb]; destruct (is_bit_inv v Hv) as (b & -> & Hb01);
    cbn [bits_enc truthy bind] in H.
  - destruct tl; [|discriminate Hl]. destruct Hb01; subst b; injection H as <-; split; try reflexivity; cbn; lia.
  - replace (2 ^ Z.of_nat (S k) / 2) with (2 ^ Z.of_nat k) in H
      by (rewrite Nat2Z.inj_succ, Z.pow_succ_r, Z.mul_comm, Z.div_mul by lia; reflexivity).
    destruct (bits_enc tl (2 ^ Z.of_nat k)) as [r|] eqn:Er; [|discriminate H]. cbn [bind] in H.
    injection Hl as Hl. destruct (IH tl r Hl Hb Er) as [Hr Hm].
    assert (Ez : z = b * 2 ^ Z.of_nat (S k) + r) by (destruct Hb01; subst b; injection H as <-; cbn [Z.eqb negb]; lia).
    destruct (testbit_split (Z.of_nat (S k)) r b ltac:(lia) Hr Hb01) as [Htop Hlow]. split.
    + rewrite (Nat2Z.inj_succ (S k)), Z.pow_succ_r by lia. lia.
    + rewrite seq_S, rev_unit. cbn [map Nat.add]. unfold bit_of at 1. rewrite Ez. f_equal.
      * f_equal. exact Htop.
      * rewrite <- Hm. apply map_ext_in. intros i Hi. apply in_rev, in_seq in Hi. unfold bit_of.
        rewrite Hlow by lia. reflexivity.
Qed.

Lemma bits_roundtrip vs z :
  length vs = 8%nat -> forallb is_bit vs = true -> bits_enc vs 128 = Ok z ->
  0 <= z < 256 /\ map (bit_of z) [7; 6; 5; 4; 3; 2; 1; 0] = vs.
Proof. exact (bits_enc_spec 7 vs z). Qed.

Lemma le_roundtrip w z : 0 <= z < 256 ^ Z.of_nat w -> le_decode (le_encode w z) = z.
Proof. intros H. unfold le_decode, le_encode. rewrite rev_involutive. apply be_decode_encode. exact H. Qed.

Lemma le_encode_length w z : length (le_encode w z) = w.
Proof. unfold le_encode. rewrite rev_length. apply be_encode_length. Qed.

Lemma aelem_roundtrip e v bs :
  aelem e = true -> aenc e v = Ok bs -> length bs = psize e /\ adec e bs = v.
Proof.
  intros Hwf H. unfold aenc in H. destruct (prim_ok e v) eqn:Hok; cbn [negb] in H; [|discriminate].
  destruct e as [w|w| | |w|n]; destruct v; try discriminate; cbn [prim_ok] in Hok; cbn [psize adec aelem] in *.
  - inversion H; subst. split; [apply le_encode_length|]. f_equal. apply le_roundtrip. unfold in_range in Hok. lia.
  - inversion H; subst. split; [apply le_encode_length|]. f_equal. unfold in_range in Hok.
    rewrite le_roundtrip by (apply of_signed_range; lia). apply to_of_signed; lia.
  - inversion H; subst. split; [reflexivity|]. destruct b; reflexivity.
  - inversion H; subst. split; [apply le_encode_length|]. f_equal. apply le_roundtrip. unfold in_range in Hok. lia.
Qed.

Lemma array_roundtrip e : aelem e = true -> forall vs body,
  concat_res (map (aenc e) vs) = Ok body ->
  length body = (length vs * psize e)%nat /\ map (adec e) (chunks (psize e) (length vs) body) = vs.
Proof.
  intros He. induction vs as [|v vs IH]; intros body H; cbn [map concat_res] in H.
  - inversion H; subst. split; reflexivity.
  - destruct (aenc e v) as [a|] eqn:Ea; cbn [bind] in H; [|discriminate].
    destruct (concat_res (map (aenc e) vs)) as [b|] eqn:Eb; cbn [bind] in H; [|discriminate].
    inversion H; subst. destruct (aelem_roundtrip e v a He Ea) as [La Da]. destruct (IH b eq_refl) as [Lb Db].
    cbn [length chunks map]. split.
    + rewrite app_length. lia.
    + rewrite firstn_len_app by (symmetry; exact La). rewrite skipn_len_app by (symmetry; exact La).
      rewrite Da, Db. reflexivity.
Qed.
