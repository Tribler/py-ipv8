(* C04: plaintext-flagged cells at an end point. *)
From Coq Require Import ZArith List Bool Lia.
From IPV8V Require Import lib.PyErr lib.Bytes lib.BE model.M03_recv model.M04_onion spec.S04_onion_spec
  proofs.P04_base proofs.P04_node proofs.P04_endpoint.
Import ListNotations.
Open Scope Z_scope.

Section Plain.
Variables key nonce : Type.
Variable enc : key -> dir -> nonce -> bytes -> bytes.
Variable dec : key -> dir -> bytes -> option bytes.
Notation node := (node key).
Notation on_packet := (on_packet enc dec).
Notation community_on_cell_packet := (community_on_cell_packet enc).

Lemma incoming_plain (nd : node) c :
  cl_plain c = true -> incoming_crypto dec nd c = Ok (Some c) \/ exists e, incoming_crypto dec nd c = Raise e.
Proof.
  intros Hpl. unfold incoming_crypto. rewrite Hpl.
  assert (D : forall d hops, decrypt_cell dec c d hops = Ok c) by (intros; unfold decrypt_cell; rewrite Hpl; reflexivity).
  destruct (assoc (cl_cid c) (n_exits nd)) as [es|]; destruct (assoc (cl_cid c) (n_circuits nd)) as [ci|].
  - rewrite D. left; reflexivity.
  - rewrite D. left; reflexivity.
  - rewrite D. cbn [bind]. destruct (c_hs ci) as [hk|]; [|left; reflexivity].
    unfold circuit_hop. destruct (c_hops ci) as [|h0 ?]; [destruct (c_unverified ci) as [h0|]|]; cbn [bind];
      try (rewrite D; left; reflexivity).
    right. eexists; reflexivity.
  - left; reflexivity.
Qed.

Lemma community_cell_plain (nd : node) src cid m0 rest early rnd ns :
  length (n_prefix nd) = 22%nat -> cid_ok cid -> NO_CRYPTO m0 = true ->
  community_on_cell_packet nd src (cell_to_bin (n_prefix nd) (mkCell cid (m0 :: rest) true early)) rnd ns
  = try_catch (on_packet_from_circuit enc nd src (n_prefix nd ++ [m0] ++ be_encode 4 cid ++ rest) cid rnd ns)
              (fun _ => Ok (nd, [])).
Proof. intros Hp Hc Hn. apply community_cell_any; auto. Qed.

(* what an end point does with a plaintext-flagged cell: nothing, or it hands it to the handler of create (2) /
   created (3); its state stays as it is *)
Lemma plaintext_endpoint (nd : node) src cid msg early rnd ns res :
  length (n_prefix nd) = 22%nat -> cid_ok cid -> has cid (n_relays nd) = false ->
  on_packet nd src (cell_to_bin (n_prefix nd) (mkCell cid msg true early)) rnd ns = res ->
  (exists e, res = Raise e) \/ res = Ok (nd, [])
  \/ exists m0 data, (m0 = 2 \/ m0 = 3) /\ res = Ok (nd, [Control m0 src cid data]).
Proof.
  intros Hp Hc Hh. rewrite on_packet_cell by assumption. unfold process_cell_c. cbn [cl_cid]. rewrite Hh.
  destruct (incoming_plain nd (mkCell cid msg true early) eq_refl) as [E|[e E]]; rewrite E; cbn [bind]; [|intros <-; eauto].
  cbn [cl_msg cl_early cl_plain].
  destruct msg as [|m0 rest]; cbn [length Nat.eqb]; [intros <-; auto|].
  rewrite idx_head. cbn [bind].
  destruct ((negb early && (m0 =? 4)) || (n_max_early nd <=? 0)); [intros <-; auto|].
  cbn [andb]. destruct (NO_CRYPTO m0) eqn:En; cbn [negb]; [|intros <-; auto].
  rewrite cell_dispatch by auto.
  destruct (existsb (Z.eqb m0) (n_handlers nd)); cbn [negb try_catch]; [|intros <-; auto].
  assert (Hm : m0 = 2 \/ m0 = 3) by (unfold NO_CRYPTO in En; lia).
  intros <-. right; right. exists m0; eexists. split; [exact Hm|]. destruct Hm as [-> | ->]; reflexivity.
Qed.

End Plain.
