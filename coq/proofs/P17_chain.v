(* C17 - the node's own chain: an advertisement always extends it by one token, the own tree holds only
   chain tokens, and the disclosure sent with an advertisement carries chain tokens only. *)
From Coq Require Import ZArith List Bool.
From IPV8V Require Import lib.PyErr lib.Bytes model.M16_tokentree model.M17_consent spec.S17_consent
  proofs.P16_gather proofs.P17_base proofs.P17_step proofs.P17_props.
Import ListNotations.
Open Scope Z_scope.

Lemma find_update_first_same (p : token -> bool) y : forall l,
  existsb p l = true -> p y = true -> find p (update_first p (fun _ => y) l) = Some y.
Proof.
  induction l as [|x l IH]; simpl; [discriminate|]. intros E Py.
  destruct (p x) eqn:Px; simpl.
  - rewrite Py. reflexivity.
  - rewrite Px. apply IH; assumption.
Qed.

Lemma update_first_find_id (p : token -> bool) y : forall l,
  find p l = Some y -> update_first p (fun _ => y) l = l.
Proof.
  induction l as [|x l IH]; simpl; [discriminate|]. destruct (p x) eqn:Px.
  - intros H. inversion H. reflexivity.
  - intros H. rewrite IH; auto.
Qed.

Lemma find_snoc_first {A} (p : A -> bool) y : forall l,
  existsb p l = false -> p y = true -> find p (l ++ [y]) = Some y.
Proof.
  induction l as [|x l IH]; simpl; intros E Py.
  - rewrite Py. reflexivity.
  - apply orb_false_iff in E as [E1 E2]. rewrite E1. apply IH; assumption.
Qed.

Lemma update_first_In (p : token -> bool) y : forall l x,
  In x (update_first p (fun _ => y) l) -> In x l \/ x = y.
Proof.
  induction l as [|z l IH]; simpl; [intros x []|]. intros x. destruct (p z); simpl.
  - intros [H|H]; auto.
  - intros [H|H]; auto. destruct (IH _ H); auto.
Qed.

Section Chain.
Variable hash : bytes -> bytes.
Variable sigverify : bytes -> bytes -> bytes -> bool.
Variable mysign : bytes -> bytes.
Variable parse : bytes -> jdoc.
Variable norm : bytes -> bytes.
Variable me : bytes.
Variable rhl rsl : nat.
Variable wide : bool.
Hypothesis mysign_ok : forall m, sigverify me m (mysign m) = true.

Notation advertise := (advertise hash sigverify mysign norm me rhl rsl).
Notation step := (step hash sigverify mysign parse norm me rhl rsl wide).
Notation final := (final hash sigverify mysign parse norm me rhl rsl wide).
Notation thash := (thash hash).
Notation append_elem := (append_elem hash).
Notation adv_tok := (adv_tok hash mysign norm me).
Notation adv_core := (adv_core hash sigverify mysign norm me).
Notation adv_cred := (adv_cred hash sigverify mysign norm me).

Definition keyp (t : token) : token -> bool := fun x => bytes_eqb (thash x) (thash t).

Lemma has_key_existsb t e : has_key hash (thash t) e = existsb (keyp t) e.
Proof. reflexivity. Qed.

Lemma append_elem_find tr t : find_key hash (thash t) (elements (append_elem tr t)) = Some t.
Proof.
  unfold M17_consent.append_elem, find_key. destruct (has_key hash (thash t) (elements tr)) eqn:E; simpl.
  - apply (find_update_first_same (keyp t)); [exact E|apply bytes_eqb_refl].
  - apply (find_snoc_first (keyp t)); [exact E|apply bytes_eqb_refl].
Qed.

Lemma append_elem_In tr t x : In x (elements (append_elem tr t)) -> In x (elements tr) \/ x = t.
Proof.
  unfold M17_consent.append_elem. destruct (has_key hash (thash t) (elements tr)); simpl.
  - apply update_first_In.
  - intros H. apply in_app_or in H as [H|[H|[]]]; auto.
Qed.

Lemma update_first_keys t : forall e,
  keys hash (update_first (keyp t) (fun _ => t) e) = keys hash e.
Proof.
  induction e as [|x e IH]; [reflexivity|]. cbn [update_first]. unfold keyp at 1.
  destruct (bytes_eqb (thash x) (thash t)) eqn:E; simpl.
  - apply bytes_eqb_eq in E. rewrite E. reflexivity.
  - f_equal. exact IH.
Qed.

Lemma append_elem_keys tr t h : In h (keys hash (elements tr)) -> In h (keys hash (elements (append_elem tr t))).
Proof.
  unfold M17_consent.append_elem. destruct (has_key hash (thash t) (elements tr)); simpl.
  - fold (keyp t). rewrite update_first_keys. auto.
  - intros H. rewrite keys_app. apply in_or_app. auto.
Qed.

(* gather_token on a token that is in the dict under its own hash: it is its own shadow *)
Lemma gather_own tr t :
  tverify sigverify me t = true -> readyb hash me (elements tr) t = true -> t_content t = None ->
  find_key hash (thash t) (elements tr) = Some t ->
  gather_top hash sigverify me tr t = Ok (tr, Some t).
Proof.
  intros V R C F. unfold gather_top. cbn [gather]. rewrite V, R. cbn [negb].
  rewrite F. unfold merge_content. rewrite C.
  fold (keyp t). rewrite (update_first_find_id (keyp t)); [|exact F]. destruct tr; reflexivity.
Qed.

Lemma adv_core_success s h json :
  adv_core s h json =
  (let tok := adv_tok s h in
   let md := mkMd (thash tok) json (mysign (thash tok ++ json)) in
   (set_chains (set_dmd (set_pseus s (aset me (append_elem (get_tree me (pseus s)) tok) (pseus s)))
                        (insert_md me md (dmd s)))
               (chain s ++ [tok]) (mdchain s ++ [md]), Ok (Some (md, tok)))).
Proof.
  unfold P17_props.adv_core, adv_cred. cbv zeta. set (tok := adv_tok s h). set (tr0 := get_tree me (pseus s)).
  assert (V : tverify sigverify me tok = true) by (unfold tverify, plaintext; simpl; apply mysign_ok).
  assert (R : readyb hash me (elements (append_elem tr0 tok)) tok = true).
  { unfold readyb. cbn [t_prev tok P17_props.adv_tok]. apply orb_true_iff. fold tr0.
    destruct (last_opt (mdchain s)) as [after|]; [|left; apply bytes_eqb_refl].
    destruct (find_key hash (m_tptr after) (elements tr0)) as [tk|] eqn:F; [|left; apply bytes_eqb_refl].
    right. apply has_key_In. apply append_elem_keys.
    destruct (find_key_Some hash _ _ _ F) as [Hin _]. unfold keys. apply in_map. exact Hin. }
  rewrite (gather_own _ tok V R eq_refl (append_elem_find tr0 tok)).
  unfold md_verify, md_plain. cbn [m_tptr m_json m_sig]. rewrite mysign_ok.
  cbn [m_tptr pseus set_dmd set_pseus]. rewrite get_tree_aset_same, append_elem_find. reflexivity.
Qed.

Lemma advertise_success s p h json jlen :
  chain (st_of (advertise s p h json jlen)) = chain s ++ [adv_tok s h] /\
  (forall y, In y (elements (get_tree me (pseus (st_of (advertise s p h json jlen))))) ->
             In y (elements (get_tree me (pseus s))) \/ y = adv_tok s h) /\
  (forall q, p = Some q -> perm_of (st_of (advertise s p h json jlen)) q = length (chain s ++ [adv_tok s h])) /\
  (forall o, In o (outs_of (advertise s p h json jlen)) -> exists q m kept,
     p = Some q /\
     o = ODisclose q m (get_root_path hash sigverify me (get_tree me (pseus (st_of (advertise s p h json jlen))))
                                      (adv_tok s h) 1000) kept).
Proof.
  rewrite advertise_eq. pose proof (adv_core_success s h json) as E.
  destruct (adv_disclose_spec hash sigverify me rhl rsl p jlen (adv_core s h json)) as [S [PM O]].
  assert (P : forall (A : Type) (f : state -> A), (forall x pm, f (set_perms x pm) = f x) ->
            f (st_of (adv_disclose hash sigverify me rhl rsl p jlen (adv_core s h json))) = f (fst (adv_core s h json))).
  { intros A f Hf. destruct S as [S|[q [_ S]]]; rewrite S; [reflexivity|apply Hf]. }
  split; [rewrite (P _ chain), E; reflexivity|]. split; [|split].
  - intros y. rewrite (P _ pseus), E by reflexivity. cbn [fst pseus set_chains set_dmd set_pseus].
    rewrite get_tree_aset_same. apply append_elem_In.
  - intros q Ep. rewrite (PM q _ Ep (f_equal snd E)), E. unfold perm_of. cbn [fst perms set_perms].
    rewrite alookup_aset_same. reflexivity.
  - intros o Ho. destruct (O o Ho) as [q [md [tk [kept [Ep [Ec Eo]]]]]]. rewrite (P _ pseus) by reflexivity.
    rewrite E in Ec. inversion Ec; subst md tk. eauto.
Qed.

Definition own_in_chain (s : state) : Prop := incl (elements (get_tree me (pseus s))) (chain s).

Lemma own_in_chain_init : own_in_chain (init me).
Proof. unfold own_in_chain, get_tree. simpl. rewrite bytes_eqb_refl. intros y []. Qed.

Lemma path_loop_incl : forall n e cur acc x,
  In x (path_loop hash sigverify me n e cur acc) -> In x acc \/ In x e.
Proof.
  induction n as [|n IH]; intros e cur acc x H; cbn [path_loop] in H; [destruct H|].
  destruct (negb (tverify sigverify me cur)); [destruct H|].
  destruct (bytes_eqb (t_prev cur) (genesis hash me)); [left; exact H|].
  destruct (find_key hash (t_prev cur) e) as [nxt|] eqn:F; [|destruct H].
  destruct (IH _ _ _ _ H) as [A|A]; [|right; exact A].
  apply in_app_or in A as [A|[A|[]]]; [left; exact A|]. subst x. right.
  destruct (find_key_Some hash _ _ _ F). assumption.
Qed.

Lemma root_path_incl tr t md x :
  In x (get_root_path hash sigverify me tr t md) -> x = t \/ In x (elements tr).
Proof.
  unfold get_root_path. destruct (md <? 0); [intros []|]. intros H.
  apply path_loop_incl in H as [[H|[]]|H]; auto.
Qed.

Lemma own_in_chain_advertise s p h json jlen :
  own_in_chain s -> forall y,
  y = adv_tok s h \/ In y (elements (get_tree me (pseus (st_of (advertise s p h json jlen))))) ->
  In y (chain (st_of (advertise s p h json jlen))).
Proof.
  intros J y Hy. destruct (advertise_success s p h json jlen) as [C [EL _]]. rewrite C. apply in_or_app.
  destruct Hy as [Hy|Hy]; [right; left; auto|]. destruct (EL y Hy) as [H|H]; [left; apply J; exact H|right; left; auto].
Qed.

Lemma step_own_in_chain s now ev :
  sender_of ev <> Some me -> own_in_chain s -> own_in_chain (st_of (step s now ev)).
Proof.
  intros NS J.
  destruct ev as [h name key md|p h json jlen|p mds toks atts fail|p toks fail|p [a|]|p kn];
    cbn [M17_consent.step]; try exact J.
  - intros y Hy. apply own_in_chain_advertise; auto.
  - assert (N : me <> p) by (intros Eq; apply NS; simpl; congruence).
    destruct (recv_disclosure_spec hash sigverify mysign parse me wide s now p mds toks atts fail) as [F _].
    unfold own_in_chain. rewrite (f_other _ _ _ _ _ F me N), (f_chain _ _ _ _ _ F). exact J.
  - assert (N : me <> p) by (intros Eq; apply NS; simpl; congruence).
    destruct (recv_disclosure_spec hash sigverify mysign parse me wide s now p [] toks []
                (if fail then Some 0%nat else None)) as [F _].
    unfold own_in_chain. rewrite (f_other _ _ _ _ _ F me N), (f_chain _ _ _ _ _ F). exact J.
Qed.

Lemma final_own_in_chain : forall evs s,
  Forall (fun te => sender_of (snd te) <> Some me) evs -> own_in_chain s -> own_in_chain (final s evs).
Proof.
  induction evs as [|[now ev] evs IH]; intros s F J; [exact J|].
  rewrite final_cons. inversion F; subst. apply IH; [assumption|]. apply step_own_in_chain; assumption.
Qed.

Lemma disclosure_from_chain s now ev p m toks kept :
  own_in_chain s ->
  In (ODisclose p m toks kept) (outs_of (step s now ev)) ->
  (exists h json jlen, ev = EAdvertise (Some p) h json jlen) /\
  incl toks (chain (st_of (step s now ev))) /\
  perm_of (st_of (step s now ev)) p = length (chain (st_of (step s now ev))).
Proof.
  intros J Hin. destruct (step_out_event _ _ _ _ _ _ _ _ _ _ _ _ _ Hin) as [h [json [jlen E]]]. subst ev.
  split; [eauto|]. cbn [M17_consent.step] in *.
  destruct (advertise_success s (Some p) h json jlen) as [C [_ [PM O]]].
  destruct (O _ Hin) as [q [m0 [k0 [_ Eo]]]]. injection Eo as _ _ Et _. subst toks. rewrite (PM p eq_refl), C. split; [|reflexivity].
  rewrite <- C. intros y Hy. apply own_in_chain_advertise; [exact J|]. exact (root_path_incl _ _ _ _ Hy).
Qed.

End Chain.
