(* C06: each DataChecker predicate translated from the source (gen/G06_datachecker.v) decides the shape spec/S06_policy.v
   writes down for it, on every byte string; is_allowed is their combination under the exit flags. *)
From Coq Require Import ZArith List Bool Lia.
From IPV8V Require Import lib.PyErr lib.Bytes lib.BE gen.G06_datachecker spec.S06_policy.
Import ListNotations.
Open Scope Z_scope.

Lemma unpack_u_in w d off : 0 <= off -> off + Z.of_nat w <= blen d ->
  unpack_u w d off = Ok (be_decode (firstn w (skipn (Z.to_nat off) d))).
Proof.
  intros H1 H2. unfold unpack_u. destruct ((off <? 0) || (blen d <? off + Z.of_nat w)) eqn:E; [lia|reflexivity].
Qed.

Lemma unpack_u_short w d : blen d < Z.of_nat w -> unpack_u w d 0 = Raise StructError.
Proof.
  intros H. unfold unpack_u. destruct ((0 <? 0) || (blen d <? 0 + Z.of_nat w)) eqn:E; [reflexivity|lia].
Qed.

(* the first uTP byte: type in the high nibble (shift by 4 = division by 16), version 1 in the low one
   (mask 15 = remainder mod 16) *)
Lemma utp_first_byte b : 0 <= b < 256 ->
  ((0 <=? Z.shiftr b 4) && (Z.shiftr b 4 <=? 4)) && (Z.land b 15 =? 1) = existsb (Z.eqb b) [1; 17; 33; 49; 65].
Proof.
  intros Hb. rewrite (Z.shiftr_div_pow2 b 4) by discriminate.
  change 15 with (Z.ones 4). rewrite (Z.land_ones b 4) by discriminate. change (2 ^ 4) with 16. cbn [existsb].
  pose proof (Z.div_mod b 16 ltac:(discriminate)). pose proof (Z.mod_pos_bound b 16 eq_refl). lia.
Qed.

Lemma utp_correct d : bytes_ok d -> could_be_utp d = Ok (utp_shaped d).
Proof.
  intros Hok. unfold could_be_utp, utp_shaped.
  destruct (blen d <? 20) eqn:Hlen.
  - destruct d as [|b0 [|b1 tl]]; try reflexivity.
    replace (20 <=? blen (b0 :: b1 :: tl)) with false by lia. reflexivity.
  - destruct d as [|b0 [|b1 tl]]; try (unfold blen in Hlen; simpl in Hlen; lia).
    rewrite !unpack_u_in by lia. unfold be_decode. simpl (be_decode_acc _ _). cbn [bind].
    inversion Hok as [|? ? Hb0 Hok']; subst. inversion Hok' as [|? ? Hb1 _]; subst.
    rewrite (utp_first_byte b0 Hb0).
    replace (20 <=? blen (b0 :: b1 :: tl)) with true by lia.
    destruct (existsb (Z.eqb b0) _); simpl; [|reflexivity]. f_equal. lia.
Qed.

Lemma action_word a b c e : 0 <= a < 256 -> 0 <= b < 256 -> 0 <= c < 256 -> 0 <= e < 256 ->
  (0 <=? ((a * 256 + b) * 256 + c) * 256 + e) && (((a * 256 + b) * 256 + c) * 256 + e <=? 3)
  = (a =? 0) && (b =? 0) && (c =? 0) && existsb (Z.eqb e) [0; 1; 2; 3].
Proof. intros Ha Hb Hc He. cbn [existsb]. lia. Qed.

Lemma action_decode d : bytes_ok d -> 4 <= blen d ->
  (0 <=? be_decode (firstn 4 d)) && (be_decode (firstn 4 d) <=? 3) = action_at d.
Proof.
  intros Hok Hlen.
  destruct d as [|a [|b [|c [|e tl]]]]; try (unfold blen in Hlen; simpl in Hlen; lia).
  inversion Hok as [|? ? Ha Hok1]; subst. inversion Hok1 as [|? ? Hb Hok2]; subst.
  inversion Hok2 as [|? ? Hc Hok3]; subst. inversion Hok3 as [|? ? He _]; subst.
  unfold be_decode. simpl (be_decode_acc _ _). apply action_word; assumption.
Qed.

Lemma tracker_correct d : bytes_ok d -> could_be_udp_tracker d = Ok (tracker_shaped d).
Proof.
  intros Hok. unfold could_be_udp_tracker, tracker_shaped.
  destruct (blen d >=? 8) eqn:H8.
  - replace (8 <=? blen d) with true by lia. rewrite (unpack_u_in 4 d (0 + 0)) by lia.
    change (Z.to_nat (0 + 0)) with 0%nat. cbn [pand por bind skipn]. rewrite action_decode by (try assumption; lia).
    destruct (action_at d); [reflexivity|]. cbn [orb].
    destruct (blen d >=? 12) eqn:H12.
    + replace (12 <=? blen d) with true by lia. rewrite (unpack_u_in 4 d (8 + 0)) by lia.
      change (Z.to_nat (8 + 0)) with 8%nat. cbn [bind]. rewrite action_decode.
      * reflexivity.
      * apply bytes_ok_skipn; assumption.
      * unfold blen in *. rewrite skipn_length. lia.
    + replace (12 <=? blen d) with false by lia. reflexivity.
  - replace (8 <=? blen d) with false by lia. replace (12 <=? blen d) with false by lia.
    replace (blen d >=? 12) with false by lia. reflexivity.
Qed.

Lemma slice_0_1 x tl : slice (x :: tl) (Some 0) (Some 1) = [x].
Proof.
  unfold slice, clamp. rewrite blen_cons. pose proof (blen_nonneg tl).
  replace (0 <? 0) with false by reflexivity.
  replace (1 + blen tl <? 0) with false by lia.
  replace (1 <? 0) with false by reflexivity.
  replace (1 + blen tl <? 1) with false by lia. reflexivity.
Qed.

Lemma slice_1_2 x y tl : slice (x :: y :: tl) (Some 1) (Some 2) = [y].
Proof.
  unfold slice, clamp. rewrite !blen_cons. pose proof (blen_nonneg tl).
  replace (1 <? 0) with false by reflexivity.
  replace (1 + (1 + blen tl) <? 1) with false by lia.
  replace (2 <? 0) with false by reflexivity.
  replace (1 + (1 + blen tl) <? 2) with false by lia. reflexivity.
Qed.

Lemma skipn_last (d : bytes) : d <> [] -> skipn (length d - 1) d = [last d 0].
Proof.
  induction d as [|x tl IH]; intros H; [congruence|].
  destruct tl as [|y tl']; [reflexivity|].
  replace (length (x :: y :: tl') - 1)%nat with (S (length (y :: tl') - 1)) by (simpl; lia).
  cbn [skipn]. rewrite IH by congruence. reflexivity.
Qed.

Lemma slice_m1 (d : bytes) : d <> [] -> slice d (Some (-1)) None = [last d 0].
Proof.
  intros H. unfold slice, clamp.
  assert (Hl : 1 <= blen d). { destruct d; [congruence|]. rewrite blen_cons. pose proof (blen_nonneg d). lia. }
  replace (-1 <? 0) with true by reflexivity.
  replace (-1 + blen d <? 0) with false by lia.
  replace (blen d <? -1 + blen d) with false by lia.
  replace (Z.to_nat (-1 + blen d)) with (length d - 1)%nat by (unfold blen in *; lia).
  rewrite skipn_last by assumption.
  replace (Z.to_nat (blen d - (-1 + blen d))) with 1%nat by lia. reflexivity.
Qed.

Lemma dht_correct d : could_be_dht d = Ok (dht_shaped d).
Proof.
  unfold could_be_dht, dht_shaped.
  destruct d as [|x [|y tl]].
  - reflexivity.
  - unfold blen. simpl length. replace (Z.of_nat 1 >? 1) with false by reflexivity. reflexivity.
  - rewrite slice_0_1. rewrite slice_m1 by congruence.
    replace (blen (x :: y :: tl) >? 1) with true
      by (rewrite !blen_cons; pose proof (blen_nonneg tl); lia).
    cbn [bytes_eqb andb]. rewrite !andb_true_r.
    destruct ((x =? 100) && (last (x :: y :: tl) 0 =? 101)); reflexivity.
Qed.

Lemma bt_correct d : bytes_ok d -> could_be_bt d = Ok (bt_shaped d).
Proof.
  intros H. unfold could_be_bt, bt_shaped.
  rewrite utp_correct, tracker_correct, dht_correct by assumption.
  unfold por; cbn [bind]. destruct (utp_shaped d); [reflexivity|].
  destruct (tracker_shaped d); reflexivity.
Qed.

Lemma ipv8_correct d : could_be_ipv8 d = Ok (ipv8_shaped d).
Proof.
  unfold could_be_ipv8, ipv8_shaped. f_equal.
  destruct d as [|x [|y tl]].
  - reflexivity.
  - unfold blen; simpl length. replace (Z.of_nat 1 >=? 23) with false by reflexivity. reflexivity.
  - rewrite slice_0_1, slice_1_2. cbn [bytes_eqb existsb andb]. lia.
Qed.

Lemma is_allowed_correct flags prefix d :
  bytes_ok d -> is_allowed flags prefix d = Ok (permitted flags prefix d).
Proof.
  intros H. unfold is_allowed, permitted.
  rewrite bt_correct, ipv8_correct by assumption. cbn [bind].
  rewrite slice_prefix by lia. change (Z.to_nat 22) with 22%nat.
  unfold has_flag, EXIT_BT, EXIT_IPV8.
  rewrite (bytes_eqb_sym prefix).
  rewrite andb_orb_distrib_r.
  destruct (bt_shaped d && _), (ipv8_shaped d && existsb _ _), (ipv8_shaped d && bytes_eqb _ _); reflexivity.
Qed.
