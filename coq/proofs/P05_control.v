(* C05: the control handlers by cases - what a create, a created, an extend, a destroy and a timer tick can do
   to the state of a node. *)
From Coq Require Import ZArith List.
From IPV8V Require Import lib.PyErr model.M03_recv model.M04_onion model.M05_isolation
  spec.S05_isolation_spec proofs.P04_base.
Import ListNotations.
Open Scope Z_scope.

Lemma has_upd_same {A} k (v : A) l : has k (upd k v l) = true.
Proof. unfold has. rewrite assoc_upd_same. reflexivity. Qed.
Lemma has_upd_other {A} k k' (v : A) l : k' <> k -> has k' (upd k v l) = has k' l.
Proof. intros H. unfold has. rewrite assoc_upd_other by exact H. reflexivity. Qed.
Lemma has_del_other {A} k k' (l : list (Z * A)) : k' <> k -> has k' (del k l) = has k' l.
Proof. intros H. unfold has. rewrite assoc_del_other by exact H. reflexivity. Qed.
Lemma has_del_same {A} k (l : list (Z * A)) : has k (del k l) = false.
Proof. unfold has. rewrite assoc_del_same. reflexivity. Qed.
Lemma has_true {A} k (l : list (Z * A)) : has k l = true -> exists v, assoc k l = Some v.
Proof. unfold has. destruct (assoc k l); [eauto | discriminate]. Qed.
Lemma has_false {A} k (l : list (Z * A)) : has k l = false -> assoc k l = None.
Proof. unfold has. destruct (assoc k l); [discriminate | reflexivity]. Qed.
Lemma assoc_has {A} k (l : list (Z * A)) v : assoc k l = Some v -> has k l = true.
Proof. unfold has. intros ->. reflexivity. Qed.
Lemma assoc_del_some {A} k k' (l : list (Z * A)) v : assoc k' (del k l) = Some v -> k' <> k /\ assoc k' l = Some v.
Proof.
  intros H. destruct (Z.eq_dec k' k) as [->|Hn].
  - rewrite assoc_del_same in H. discriminate.
  - rewrite assoc_del_other in H by exact Hn. auto.
Qed.

(* l' has every entry of l *)
Definition entries_sub {A} (l l' : list (Z * A)) : Prop := forall x v, assoc x l = Some v -> assoc x l' = Some v.

Lemma entries_sub_refl {A} (l : list (Z * A)) : entries_sub l l.
Proof. intros x v H. exact H. Qed.
Lemma entries_sub_trans {A} (l1 l2 l3 : list (Z * A)) : entries_sub l1 l2 -> entries_sub l2 l3 -> entries_sub l1 l3.
Proof. intros H1 H2 x v H. apply H2, H1, H. Qed.
Lemma entries_sub_del {A} k (l : list (Z * A)) : entries_sub (del k l) l.
Proof. intros x v H. apply assoc_del_some in H. tauto. Qed.
Lemma entries_sub_upd_fresh {A} k (v : A) l : has k l = false -> entries_sub l (upd k v l).
Proof.
  intros Hk x w H. destruct (Z.eq_dec x k) as [->|Hn]; [apply assoc_has in H; congruence|].
  rewrite assoc_upd_other by exact Hn. exact H.
Qed.
Lemma has_sub {A} (l l' : list (Z * A)) x : entries_sub l' l -> has x l = false -> has x l' = false.
Proof.
  intros Hs Hf. unfold has in *. destruct (assoc x l') as [v|] eqn:E; [|reflexivity]. rewrite (Hs x v E) in Hf. discriminate.
Qed.

Section Control.
Variable key : Type.
Notation cnode := (cnode key).

Lemma on_create_cases (c : cnode) src cid ident npk k cands :
  on_create c src cid ident npk k cands = (c, []) \/
  exists pk k0, npk = Some pk /\ k = Some k0 /\ in_use (cn_tab c) cid = false /\ has cid (cn_created c) = false /\
    on_create c src cid ident npk k cands =
    (mkCN (set_exits (cn_tab c) (upd cid (mkES cid (mkHop pk src (Some k0)) false) (n_exits (cn_tab c))))
          (upd cid (mkCreated (mkPeer pk src) cands) (cn_created c)) (cn_create c) (cn_pending c) (cn_max_joined c),
     [CCell src cid 3 true]).
Proof.
  unfold on_create. destruct (n_flags (cn_tab c)); [left; reflexivity|].
  destruct (has cid (cn_created c)); [left; reflexivity|].
  destruct (in_use (cn_tab c) cid); [left; reflexivity|].
  match goal with |- context [if ?b then (c, []) else _] => destruct b end; [left; reflexivity|].
  destruct k as [k0|]; [|left; reflexivity]. destruct npk as [pk|]; [|left; reflexivity].
  right. exists pk, k0. auto 6.
Qed.

Lemma create_in_use_refused_l (c : cnode) src cid ident npk k cands :
  in_use (cn_tab c) cid = true \/ has cid (cn_created c) = true ->
  on_create c src cid ident npk k cands = (c, []).
Proof.
  intros H. destruct (on_create_cases c src cid ident npk k cands) as [E | (_ & _ & _ & _ & Hu & Hc & _)]; [exact E|].
  destruct H; congruence.
Qed.

(* created: nothing but the cache entry goes, or the exit socket cr_from becomes the relay pair cr_from <-> cr_to
   under the exit socket's keys and is scheduled for removal *)
Lemma on_created_cases (c : cnode) src cid ident :
  let c' := fst (on_created c src cid ident) in
  (cn_tab c' = cn_tab c /\ cn_pending c' = cn_pending c /\
   forall n rq, assoc n (cn_create c') = Some rq -> assoc n (cn_create c) = Some rq) \/
  exists rq es fw bw,
    assoc ident (cn_create c) = Some rq /\ assoc (cr_from rq) (n_exits (cn_tab c)) = Some es /\
    has (cr_from rq) (n_relays (cn_tab c)) = false /\
    cn_tab c' = set_relays (cn_tab c) (upd (cr_from rq) fw (upd (cr_to rq) bw (n_relays (cn_tab c)))) /\
    cn_pending c' = cn_pending c ++ [PExit (cr_from rq)] /\ cn_create c' = del ident (cn_create c) /\
    h_keys (rr_hop fw) = h_keys (es_hop es).
Proof.
  unfold on_created. destruct (assoc ident (cn_create c)) as [rq|] eqn:Ea; [|left; auto].
  assert (SUB : forall n r, assoc n (del ident (cn_create c)) = Some r -> assoc n (cn_create c) = Some r)
    by (intros n r Hn; apply assoc_del_some in Hn; tauto).
  destruct (assoc (cr_from rq) (n_exits (cn_tab c))) as [es|] eqn:Ee; [|left; auto].
  destruct (has (cr_from rq) (n_relays (cn_tab c))) eqn:Efr; [left; auto|].
  right. exists rq, es. do 2 eexists. cbn. repeat split; try assumption; reflexivity.
Qed.

(* extend: nothing, or one more extend in progress towards the id drawn *)
Lemma on_extend_cases (c : cnode) src cid ident npk naddr known number tocid :
  on_extend c src cid ident npk naddr known number tocid = (c, []) \/
  exists rq,
    fst (on_extend c src cid ident npk naddr known number tocid) =
    mkCN (cn_tab c) (cn_created c) (upd number rq (cn_create c)) (cn_pending c) (cn_max_joined c) /\ cr_to rq = tocid.
Proof.
  unfold on_extend. destruct (negb (existsb (Z.eqb 1) (n_flags (cn_tab c)))); [left; reflexivity|].
  destruct (assoc cid (cn_created c)) as [rq|]; [|left; reflexivity].
  destruct (assoc_peer npk (cc_candidates rq)) as [p|]; [|destruct (is_null naddr); [left; reflexivity|]].
  (* whichever way the target peer was found: is the previous hop of circuit cid known? *)
  all: match goal with |- context [match ?cand with Some _ => _ | None => (_, []) end] => destruct cand as [cd|] end.
  all: try (left; reflexivity).
  all: right; eexists; split; reflexivity.
Qed.

Lemma remove_relay_tab (c : cnode) cid reason : cn_tab (fst (remove_relay c cid reason)) = cn_tab c.
Proof. reflexivity. Qed.
Lemma remove_exit_tab (c : cnode) cid reason : cn_tab (fst (remove_exit c cid reason)) = cn_tab c.
Proof. reflexivity. Qed.

Lemma remove_circuit_inv (c : cnode) cid reason c' acts :
  remove_circuit c cid reason = Ok (c', acts) ->
  n_relays (cn_tab c') = n_relays (cn_tab c) /\ n_exits (cn_tab c') = n_exits (cn_tab c) /\
  cn_created c' = cn_created c /\ cn_create c' = cn_create c /\
  ((c' = c) \/ exists ci, assoc cid (n_circuits (cn_tab c)) = Some ci /\ cn_pending c' = cn_pending c ++ [PCircuit cid]
      /\ n_circuits (cn_tab c') = upd cid (mkCircuit (c_goal ci) (c_ctype ci) (c_hops ci) (c_unverified ci) (c_hs ci) true (c_early ci)) (n_circuits (cn_tab c))).
Proof.
  unfold remove_circuit. destruct (assoc cid (n_circuits (cn_tab c))) as [ci|] eqn:Ea.
  - match goal with |- (do acts <- ?X; _) = _ -> _ => destruct X end; cbn [bind]; [|discriminate].
    intros H. injection H as <- <-. cbn. repeat split; try reflexivity. right. exists ci. auto.
  - intros H. injection H as <- <-. repeat split; try reflexivity. left; reflexivity.
Qed.

(* destroy: the four things a destroy signed by pk can do, each only for an entry whose stored neighbour has
   key pk (peer_eqb compares public keys); a rule to be applied to a goal about the resulting state *)
Lemma on_destroy_rule (c : cnode) pk cid reason (P : cnode -> Prop) :
  P c ->
  (forall r pr, assoc cid (n_relays (cn_tab c)) = Some r -> assoc (rr_cid r) (n_relays (cn_tab c)) = Some pr ->
     pk = h_pk (rr_hop pr) -> P (add_pending (add_pending c [PRelay cid]) [PRelay (rr_cid r)])) ->
  (forall es, assoc cid (n_exits (cn_tab c)) = Some es -> pk = h_pk (es_hop es) -> P (add_pending c [PExit cid])) ->
  (forall ci h0 c' acts, assoc cid (n_circuits (cn_tab c)) = Some ci -> circuit_hop ci = Ok h0 -> pk = h_pk h0 ->
     remove_circuit c cid 0 = Ok (c', acts) -> P c') ->
  forall c' acts, on_destroy c pk cid reason = Ok (c', acts) -> P c'.
Proof.
  intros Pnop Prelay Pexit Pcirc c' acts. unfold on_destroy.
  (* the text of on_destroy repeats its circuit branch four times and its exit branch twice *)
  set (circ := match assoc cid (n_circuits (cn_tab c)) with Some _ => _ | None => _ end).
  set (rest := match assoc cid (n_exits (cn_tab c)) with Some _ => _ | None => _ end).
  assert (NOP : Ok (c, []) = Ok (c', acts) -> P c') by (intros H; injection H as <- _; exact Pnop).
  assert (CIRC : circ = Ok (c', acts) -> P c').
  { unfold circ. destruct (assoc cid (n_circuits (cn_tab c))) as [ci|] eqn:Ec; [|exact NOP].
    destruct (circuit_hop ci) as [h0|] eqn:Eh; cbn [bind]; [|discriminate].
    destruct (peer_eqb (mkPeer pk null_addr) (hop_peer h0)) eqn:Ep; [|exact NOP].
    apply (Pcirc ci h0); auto. apply Z.eqb_eq. exact Ep. }
  assert (REST : rest = Ok (c', acts) -> P c').
  { unfold rest. destruct (assoc cid (n_exits (cn_tab c))) as [es|] eqn:Ee; [|exact CIRC].
    destruct (peer_eqb (mkPeer pk null_addr) (hop_peer (es_hop es))) eqn:Ep; [|exact CIRC].
    intros H. injection H as <- _. apply (Pexit es); auto. apply Z.eqb_eq. exact Ep. }
  destruct (assoc cid (n_relays (cn_tab c))) as [r|] eqn:Er; [|exact REST].
  destruct (assoc (rr_cid r) (n_relays (cn_tab c))) as [pr|] eqn:Epr; [|exact REST].
  destruct (peer_eqb (mkPeer pk null_addr) (hop_peer (rr_hop pr))) eqn:Ep; [|exact REST].
  intros H. cbn in H. injection H as <- _. apply (Prelay r pr); auto. apply Z.eqb_eq. exact Ep.
Qed.

Lemma destroy_only_adjacent_l (c : cnode) pk cid reason c' acts :
  on_destroy c pk cid reason = Ok (c', acts) -> destroy_post c pk c'.
Proof.
  assert (POST : forall added, (forall p, In p added -> adjacent c pk p) -> forall c1 : cnode,
            n_relays (cn_tab c1) = n_relays (cn_tab c) -> n_exits (cn_tab c1) = n_exits (cn_tab c) ->
            cn_created c1 = cn_created c -> cn_create c1 = cn_create c -> cn_pending c1 = cn_pending c ++ added ->
            destroy_post c pk c1).
  { intros added Ha c1 R E Cd Cr Pd. unfold destroy_post.
    split; [exact R|]. split; [exact E|]. split; [exact Cd|]. split; [exact Cr|].
    exists added. split; [exact Pd|exact Ha]. }
  apply on_destroy_rule.
  - apply (POST []); auto using app_nil_r. intros p [].
  - intros r pr Er Epr Hpk. apply (POST [PRelay cid; PRelay (rr_cid r)]); auto; [|symmetry; exact (app_assoc (cn_pending c) [PRelay cid] [PRelay (rr_cid r)])].
    intros p [<-|[<-|[]]]; cbn.
    + exists r. split; [exact Er|]. right. exists pr. split; [exact Epr|exact Hpk].
    + exists pr. split; [exact Epr|]. left. exact Hpk.
  - intros es Ee Hpk. apply (POST [PExit cid]); auto. intros p [<-|[]]. cbn.
    exists es. split; [exact Ee|exact Hpk].
  - intros ci h0 c1 a1 Ec Eh Hpk H.
    destruct (remove_circuit_inv c cid 0 c1 a1 H) as (R1 & R2 & R3 & R4 & [->|(ci2 & _ & Hp & _)]).
    + apply (POST []); auto using app_nil_r. intros p [].
    + apply (POST [PCircuit cid]); auto. intros p [<-|[]]. cbn.
      exists ci, h0. split; [exact Ec|]. split; [exact Eh|exact Hpk].
Qed.

Lemma pop_sub (t : node key) p :
  entries_sub (n_relays (pop_pending t p)) (n_relays t) /\ entries_sub (n_exits (pop_pending t p)) (n_exits t) /\
  entries_sub (n_circuits (pop_pending t p)) (n_circuits t).
Proof. destruct p as [y|y|y]; cbn; auto using entries_sub_refl, entries_sub_del. Qed.

Lemma fold_pop_sub ps : forall (t : node key),
  entries_sub (n_relays (fold_left pop_pending ps t)) (n_relays t) /\ entries_sub (n_exits (fold_left pop_pending ps t)) (n_exits t) /\
  entries_sub (n_circuits (fold_left pop_pending ps t)) (n_circuits t).
Proof.
  induction ps as [|p tl IH]; intros t; cbn [fold_left]; [auto using entries_sub_refl|].
  destruct (IH (pop_pending t p)) as (I1 & I2 & I3). destruct (pop_sub t p) as (P1 & P2 & P3).
  repeat split; eapply entries_sub_trans; eassumption.
Qed.

Lemma fold_pop_exit_gone ps : forall (t : node key) x,
  In (PExit x) ps -> assoc x (n_exits (fold_left pop_pending ps t)) = None.
Proof.
  induction ps as [|p tl IH]; intros t x Hin; [destruct Hin|].
  cbn [fold_left]. destruct Hin as [->|Hin]; [|apply IH; exact Hin].
  destruct (assoc x (n_exits (fold_left pop_pending tl (pop_pending t (PExit x))))) as [v|] eqn:E; [|reflexivity].
  apply (proj1 (proj2 (fold_pop_sub tl _))) in E. cbn in E. rewrite assoc_del_same in E. discriminate.
Qed.

(* an entry that disappears at a timer tick was scheduled for removal *)
Lemma fold_pop_kept ps : forall (t : node key),
  (forall x v, assoc x (n_relays t) = Some v -> assoc x (n_relays (fold_left pop_pending ps t)) = Some v \/ In (PRelay x) ps) /\
  (forall x v, assoc x (n_exits t) = Some v -> assoc x (n_exits (fold_left pop_pending ps t)) = Some v \/ In (PExit x) ps).
Proof.
  induction ps as [|p tl IH]; intros t; cbn [fold_left]; [auto|].
  destruct (IH (pop_pending t p)) as [I1 I2].
  assert (LIFT : forall (A B : Prop), A \/ B -> forall C : Prop, A \/ (C \/ B)) by tauto.
  split; intros x v H; destruct p as [y|y|y]; try (apply LIFT; auto; fail).
  - destruct (Z.eq_dec x y) as [->|Hn]; [right; left; reflexivity|].
    apply LIFT, (I1 x v). cbn. rewrite assoc_del_other by exact Hn. exact H.
  - destruct (Z.eq_dec x y) as [->|Hn]; [right; left; reflexivity|].
    apply LIFT, (I2 x v). cbn. rewrite assoc_del_other by exact Hn. exact H.
Qed.

End Control.
