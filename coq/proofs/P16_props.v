(* C16 - the property-level lemmas.  A tree reached from the empty one satisfies the invariant of
   P16_gather (reach_inv) and, with room for every distinct offer, loses no valid offer (reach_complete);
   verify / get_root_path, the closure characterisation and the reload of a public dump are about any tree
   with these properties; content binding is about any run of gather_all and needs no invariant. *)
From Coq Require Import ZArith List Arith Lia Permutation.
From IPV8V Require Import lib.Lists lib.PyErr lib.Bytes model.M16_tokentree spec.S16_closure proofs.P16_gather.
Import ListNotations.

Definition bytes_eq_dec : forall a b : bytes, {a = b} + {a <> b} := list_eq_dec Z.eq_dec.

(* number of distinct offers (tokens are the same offer when their signed bytes are equal) *)
Definition distinct_offers (arr : list token) : nat := length (nodup bytes_eq_dec (map signed arr)).

Lemma app_inv_length {A} (a a' b b' : list A) :
  length a = length a' -> a ++ b = a' ++ b' -> a = a'.
Proof.
  revert a'. induction a as [|x a IH]; intros [|y a'] L E; simpl in *; try discriminate; auto.
  inversion E; subst. f_equal. apply IH; auto.
Qed.

Lemma firstn_exact {A} n (a b : list A) : length a = n -> firstn n (a ++ b) = a.
Proof. intros <-. apply firstn_app_exact. Qed.

Lemma skipn_exact {A} n (a b : list A) : length a = n -> skipn n (a ++ b) = b.
Proof. intros <-. apply skipn_app_exact. Qed.

Section Props.
Variable hash : bytes -> bytes.
Variable sigverify : bytes -> bytes -> bytes -> bool.
Variable hl : nat.
Variable sl : nat.
Variable pk : bytes.

Notation genesis := (genesis hash pk).
Notation thash := (thash hash).
Notation tverify := (tverify sigverify pk).
Notation keys := (keys hash).
Notation find_key := (find_key hash).
Notation readyb := (readyb hash pk).
Notation merge_content := (merge_content hash).
Notation receive_content := (receive_content hash).
Notation gather := (gather hash sigverify pk).
Notation gather_top := (gather_top hash sigverify pk).
Notation gather_all := (gather_all hash sigverify pk).
Notation verify_loop := (verify_loop hash sigverify pk).
Notation path_loop := (path_loop hash sigverify pk).
Notation tree_verify := (tree_verify hash sigverify pk).
Notation get_root_path := (get_root_path hash sigverify pk).
Notation unser_loop := (unser_loop hash sigverify hl sl pk).
Notation unserialize_public := (unserialize_public hash sigverify hl sl pk).
Notation token_unserialize := (token_unserialize hl sl).
Notation Sound := (Sound hash sigverify pk).
Notation chain_ok := (chain_ok hash pk).
Notation ready := (ready hash pk).
Notation chained := (chained hash).
Notation NoneChained := (NoneChained hash).
Notation in_closure := (in_closure hash sigverify pk).
Notation closure_keys := (closure_keys hash sigverify pk).

Definition same_fields (a b : token) : Prop := strip a = strip b.

Lemma in_strip_iff P x : In (strip x) (map strip P) <-> exists p, In p P /\ same_fields p x.
Proof. rewrite in_map_iff. split; intros [p [A B]]; exists p; split; assumption. Qed.

Lemma waiting_bounded_step P tr t tr' r :
  Sound P tr -> gather_pre sigverify pk P t -> gather_top tr t = Ok (tr', r) ->
  (length (unchained tr) <= cap tr)%nat -> (length (unchained tr') <= cap tr')%nat.
Proof.
  intros S Pt E L.
  destruct (gather_top_inv hash sigverify pk P tr t tr' r S Pt E) as [_ [C [_ [_ [R NRd]]]]]. rewrite C.
  destruct (M16_tokentree.readyb hash pk (elements tr) t) eqn:Er.
  - apply (readyb_iff hash sigverify pk) in Er. destruct (R Er) as [L2 _]. lia.
  - apply (readyb_false hash sigverify pk) in Er. destruct (NRd Er) as [_ EU]. rewrite EU.
    destruct (tverify t); [apply u_insert_bound|]; assumption.
Qed.

(* the run from the empty tree never fails; I as in gather_all_ind *)
Lemma reach_ind c arr (I : list token -> tree -> Prop) :
  (forall Q tr t tr' r, In t arr -> Sound arr tr -> NoneChained tr -> I Q tr ->
                        gather_top tr t = Ok (tr', r) -> I (Q ++ [t]) tr') ->
  I [] (empty_tree c) ->
  exists tr, gather_all (empty_tree c) arr = Ok tr /\ Sound arr tr /\ NoneChained tr /\ I arr tr.
Proof.
  intros Step HI.
  exact (gather_all_ind hash sigverify pk arr I Step arr [] (empty_tree c) (incl_refl _)
           (Sound_empty _ _ _ _ _) ltac:(intros u []) HI).
Qed.

Lemma reach_inv c arr tr :
  gather_all (empty_tree c) arr = Ok tr ->
  Sound arr tr /\ NoneChained tr /\ (length (unchained tr) <= cap tr)%nat /\ cap tr = c.
Proof.
  intros E.
  destruct (reach_ind c arr (fun _ tr => (length (unchained tr) <= cap tr)%nat /\ cap tr = c))
    as [tr' [E' R]].
  - intros _ tr0 t tr1 r Ht S _ [L C] Eg.
    pose proof (gpre_of_In sigverify pk arr t Ht) as Pt. split.
    + exact (waiting_bounded_step arr tr0 t tr1 r S Pt Eg L).
    + destruct (gather_top_inv hash sigverify pk arr tr0 t tr1 r S Pt Eg) as [_ [C1 _]]. congruence.
  - split; [apply Nat.le_0_l|reflexivity].
  - rewrite E in E'. inversion E'; subst. exact R.
Qed.

Lemma Sound_elem P tr e :
  Sound P tr -> In e (elements tr) -> tverify e = true /\ exists p, In p P /\ same_fields p e.
Proof.
  intros [S1 _ _ _ _] He. rewrite Forall_forall in S1. destruct (S1 e He) as [A B].
  split; [assumption|]. apply in_strip_iff. assumption.
Qed.

Lemma Sound_wait P tr u :
  Sound P tr -> In u (unchained tr) ->
  tverify u = true /\ (exists p, In p P /\ same_fields p u) /\ t_prev u <> genesis.
Proof.
  intros [_ _ _ S4 _] Hu. rewrite Forall_forall in S4. destruct (S4 u Hu) as [A [B C]].
  split; [assumption|]. split; [apply in_strip_iff|]; assumption.
Qed.

(* a path of stored, validly signed predecessors down to the genesis pointer *)
Inductive rooted (e : list token) : token -> Prop :=
| rooted_genesis : forall t, tverify t = true -> t_prev t = genesis -> rooted e t
| rooted_step : forall t u, tverify t = true -> find_key (t_prev t) e = Some u -> rooted e u -> rooted e t.

Lemma verify_loop_rooted : forall n e t, verify_loop n e t = true -> rooted e t.
Proof.
  induction n as [|n IH]; intros e t H; [discriminate|]. cbn [M16_tokentree.verify_loop] in H.
  destruct (tverify t) eqn:Ev; cbn [negb] in H; [|discriminate].
  destruct (bytes_eqb (t_prev t) genesis) eqn:Eg.
  - apply bytes_eqb_eq in Eg. apply rooted_genesis; assumption.
  - destruct (find_key (t_prev t) e) as [u|] eqn:Ef; [|discriminate].
    eapply rooted_step; eauto.
Qed.

Lemma rooted_signed_connected e t :
  rooted e t -> tverify t = true /\ (t_prev t = genesis \/ In (t_prev t) (keys e)).
Proof.
  intros R. destruct R as [t A B|t u A B C]; split; auto. right.
  apply (find_key_Some hash) in B as [B1 B2]. rewrite <- B2. unfold M16_tokentree.keys.
  apply in_map. assumption.
Qed.

Lemma verify_loop_mono : forall n m e t, (n <= m)%nat -> verify_loop n e t = true -> verify_loop m e t = true.
Proof.
  induction n as [|n IH]; intros m e t L H; [discriminate|].
  destruct m as [|m]; [lia|]. cbn [M16_tokentree.verify_loop] in *.
  destruct (negb (tverify t)); [discriminate|].
  destruct (bytes_eqb (t_prev t) genesis); [reflexivity|].
  destruct (find_key (t_prev t) e); [|discriminate]. apply IH with (m := m) in H; [assumption|lia].
Qed.

Lemma find_key_app_l h e1 e2 : In h (keys e1) -> find_key h (e1 ++ e2) = find_key h e1.
Proof.
  unfold M16_tokentree.find_key. induction e1 as [|x e1 IH]; simpl; intros H; [contradiction|].
  destruct (bytes_eqb (thash x) h) eqn:E; [reflexivity|].
  destruct H as [H|H]; [rewrite H, bytes_eqb_refl in E; discriminate|]. apply IH. assumption.
Qed.

Lemma verify_elements e :
  chain_ok e -> Forall (fun x => tverify x = true) e ->
  forall n e1 x e2, length e1 = n -> e = e1 ++ x :: e2 -> verify_loop (S n) e x = true.
Proof.
  intros C V. induction n as [n IHn] using lt_wf_ind. intros e1 x e2 L E.
  pose proof (chain_ok_prefix_ready hash pk e C e1 x e2 E) as R.
  assert (Vx : tverify x = true).
  { rewrite Forall_forall in V. apply V. rewrite E. apply in_or_app. right. left. reflexivity. }
  cbn [M16_tokentree.verify_loop]. rewrite Vx. cbn [negb].
  destruct (bytes_eqb (t_prev x) genesis) eqn:Eg; [reflexivity|].
  destruct R as [R|R]; [apply bytes_eqb_eq in R; congruence|].
  unfold P16_gather.chained in R.
  rewrite E, (find_key_app_l _ _ _ R).
  destruct (find_key_In hash _ _ R) as [u Fu]. rewrite Fu.
  destruct (find_key_Some hash _ _ _ Fu) as [Hu _].
  apply in_split in Hu as [a [b Eab]].
  rewrite <- E.
  apply verify_loop_mono with (n := S (length a)).
  - subst e1 n. rewrite app_length. simpl. lia.
  - apply (IHn (length a)) with (e1 := a) (e2 := b ++ x :: e2); [|reflexivity|].
    + subst e1 n. rewrite app_length. simpl. lia.
    + rewrite E, Eab, <- app_assoc. reflexivity.
Qed.

Lemma path_loop_verify : forall n e t acc,
  (verify_loop n e t = true -> exists p, path_loop n e t acc = acc ++ p) /\
  (verify_loop n e t = false -> path_loop n e t acc = []).
Proof.
  induction n as [|n IH]; intros e t acc; cbn [M16_tokentree.verify_loop M16_tokentree.path_loop].
  - split; [discriminate|reflexivity].
  - destruct (negb (tverify t)); [split; [discriminate|reflexivity]|].
    destruct (bytes_eqb (t_prev t) genesis).
    + split; [|discriminate]. intros _. exists []. rewrite app_nil_r. reflexivity.
    + destruct (find_key (t_prev t) e) as [u|]; [|split; [discriminate|reflexivity]].
      destruct (IH e u (acc ++ [u])) as [A B]. split; [|assumption].
      intros H. destruct (A H) as [p Ep]. exists (u :: p). rewrite Ep, <- app_assoc. reflexivity.
Qed.

Lemma Sound_verify P tr e md :
  Sound P tr -> In e (elements tr) -> (Z.of_nat (length (elements tr)) <= md)%Z ->
  tree_verify tr e md = true /\ exists p, get_root_path tr e md = e :: p.
Proof.
  intros [S1 S2 _ _ _] He L.
  unfold M16_tokentree.tree_verify, M16_tokentree.get_root_path.
  destruct (md <? 0)%Z eqn:Em; [apply Z.ltb_lt in Em; lia|].
  apply in_split in He as [e1 [e2 Ee]].
  assert (V : verify_loop (Z.to_nat md) (elements tr) e = true).
  { apply verify_loop_mono with (n := S (length e1)).
    - rewrite Ee, app_length in L. simpl in L. lia.
    - eapply verify_elements; eauto.
      eapply Forall_impl; [|exact S1]. simpl. tauto. }
  split; [assumption|].
  destruct (path_loop_verify (Z.to_nat md) (elements tr) e [e]) as [A _].
  destruct (A V) as [p Ep]. exists p. rewrite Ep. reflexivity.
Qed.

Lemma Sound_connected P tr t e :
  Sound P tr -> In e (elements tr) -> same_fields t e ->
  tverify t = true /\ (t_prev t = genesis \/ In (t_prev t) (keys (elements tr))).
Proof.
  intros S He Sf. destruct (Sound_elem P tr e S He) as [A _]. destruct S as [_ S2 _ _ _].
  split; [rewrite (strip_eq_tverify sigverify pk _ _ Sf); assumption|].
  rewrite (strip_eq_prev _ _ Sf).
  apply in_split in He as [e1 [e2 Ee]].
  destruct (chain_ok_prefix_ready hash pk _ S2 e1 e e2 Ee) as [R|R]; [left; assumption|right].
  unfold P16_gather.chained in R. rewrite Ee, (keys_app hash). apply in_or_app. left. assumption.
Qed.

Definition Complete (Q : list token) (tr : tree) : Prop :=
  forall p, In p Q -> tverify p = true ->
    In (thash p) (keys (elements tr)) \/ exists u, In u (unchained tr) /\ signed u = signed p.

Lemma signed_thash a b : signed a = signed b -> thash a = thash b.
Proof. unfold M16_tokentree.thash. intros H. rewrite H. reflexivity. Qed.

Lemma Sound_wait_offered P tr u :
  Sound P tr -> In u (unchained tr) -> In (signed u) (map signed P).
Proof.
  intros S Hu. destruct (Sound_wait P tr u S Hu) as [_ [[p [Hp Ep]] _]].
  rewrite <- (strip_eq_signed _ _ Ep). apply in_map. assumption.
Qed.

Lemma gather_top_complete P Q tr t tr' r :
  Sound P tr -> In t P -> Complete Q tr -> (distinct_offers P <= cap tr)%nat ->
  gather_top tr t = Ok (tr', r) -> Complete (Q ++ [t]) tr'.
Proof.
  intros S Ht CQ D E.
  destruct (gather_top_inv hash sigverify pk P tr t tr' r S (gpre_of_In sigverify pk P t Ht) E)
    as [_ [_ [K [_ [R NRd]]]]].
  intros p Hp Vp.
  destruct (M16_tokentree.readyb hash pk (elements tr) t) eqn:Er.
  - apply (readyb_iff hash sigverify pk) in Er. destruct (R Er) as [_ [_ [G H]]].
    apply in_app_or in Hp as [Hp|[Hp|[]]]; [|subst p; left; auto].
    destruct (CQ p Hp Vp) as [A|[u [A B]]]; [left; apply K; assumption|].
    destruct (G u A) as [A'|A']; [right; eauto|]. left. rewrite <- (signed_thash _ _ B). assumption.
  - apply (readyb_false hash sigverify pk) in Er. destruct (NRd Er) as [EE EU]. rewrite EE, EU.
    destruct (tverify t) eqn:Vt.
    2:{ apply in_app_or in Hp as [Hp|[Hp|[]]]; [auto|]. subst p. congruence. }
    (* the waiting area cannot overflow: its tokens are distinct offers *)
    rewrite u_insert_fits.
    2:{ eapply Nat.le_trans; [|exact D]. unfold distinct_offers.
        rewrite <- (map_length signed). apply NoDup_incl_length.
        - apply u_add_nodup. destruct S; assumption.
        - intros x Hx. apply nodup_In. apply in_map_iff in Hx as [y [Ey Hy]]. subst x.
          apply u_add_In in Hy as [Hy|Hy]; [exact (Sound_wait_offered P tr y S Hy)|].
          subst y. apply in_map. assumption. }
    apply in_app_or in Hp as [Hp|[Hp|[]]].
    + destruct (CQ p Hp Vp) as [A|[u [A B]]]; [auto|]. right. exists u. split; [|assumption].
      apply u_add_incl. assumption.
    + subst p. right. apply u_add_has.
Qed.

(* with room for every distinct offer, each validly signed offer ends as an element or waiting *)
Lemma reach_complete c arr : (distinct_offers arr <= c)%nat ->
  exists tr, gather_all (empty_tree c) arr = Ok tr /\ Sound arr tr /\ NoneChained tr /\ Complete arr tr.
Proof.
  intros D.
  destruct (reach_ind c arr (fun Q tr => cap tr = c /\ Complete Q tr)) as [tr [E [S [N [_ C]]]]]; [| |eauto].
  - intros Q tr t tr' r Ht S _ [C CQ] Eg. split.
    + destruct (gather_top_inv hash sigverify pk arr tr t tr' r S (gpre_of_In sigverify pk arr t Ht) Eg)
        as [_ [C1 _]]. congruence.
    + apply (gather_top_complete arr Q tr t tr' r S Ht CQ); [rewrite C|]; assumption.
  - split; [reflexivity|intros p []].
Qed.

Definition prev_wire (t : token) : Prop := length (t_prev t) = hl.

Lemma signed_prev a b :
  length (t_prev a) = length (t_prev b) -> signed a = signed b -> t_prev a = t_prev b.
Proof.
  unfold signed, plaintext. rewrite <- !app_assoc. apply app_inv_length.
Qed.

Lemma elems_in_closure P : forall e,
  chain_ok e -> Forall (fun x => tverify x = true /\ In (strip x) (map strip P)) e ->
  forall x, In x e -> exists p, in_closure P p /\ strip p = strip x.
Proof.
  induction 1 as [|e t He IH Hr]; intros F x Hx; [contradiction|].
  apply Forall_app in F as [F1 F2].
  apply in_app_or in Hx as [Hx|[Hx|[]]]; [apply IH; assumption|]. subst x.
  inversion F2 as [|? ? [Vt Pt] _]; subst.
  apply in_map_iff in Pt as [p [Ep Hp]].
  exists p. split; [|assumption].
  pose proof (strip_eq_tverify sigverify pk _ _ Ep) as Vp.
  pose proof (strip_eq_prev _ _ Ep) as Pp.
  destruct Hr as [Hr|Hr].
  - apply ic_root; [assumption|congruence|congruence].
  - unfold P16_gather.chained in Hr. apply in_map_iff in Hr as [y [Ey Hy]].
    destruct (IH F1 y Hy) as [q [Cq Eq]].
    apply ic_child with (u := q); [assumption|congruence|assumption|].
    rewrite Pp, <- Ey. symmetry. apply (strip_eq_thash hash). assumption.
Qed.

Lemma keys_in_closure P e h :
  chain_ok e -> Forall (fun x => tverify x = true /\ In (strip x) (map strip P)) e ->
  In h (keys e) -> closure_keys P h.
Proof.
  intros C F Hh. apply in_map_iff in Hh as [x [Ex Hx]].
  destruct (elems_in_closure P e C F x Hx) as [p [Cp Ep]].
  exists p. split; [assumption|]. rewrite <- Ex. apply (strip_eq_thash hash). assumption.
Qed.

(* a waiting token that is, on the wire, the offer t points where t points *)
Lemma waiting_prev P tr u t :
  Sound P tr -> Forall prev_wire P -> In u (unchained tr) -> In t P -> signed u = signed t ->
  t_prev u = t_prev t.
Proof.
  intros S W Hu Ht Es. apply signed_prev; [|assumption].
  destruct (Sound_wait P tr u S Hu) as [_ [[p [Hp Ep]] _]]. rewrite <- (strip_eq_prev _ _ Ep).
  rewrite Forall_forall in W. rewrite (W p Hp), (W t Ht). reflexivity.
Qed.

Lemma complete_closure P tr :
  Sound P tr -> NoneChained tr -> Complete P tr -> Forall prev_wire P ->
  forall h, In h (keys (elements tr)) <-> closure_keys P h.
Proof.
  intros S N CP W h. split.
  - destruct S as [S1 S2 _ _ _]. apply keys_in_closure; assumption.
  - (* a member of the closure is an element or waits (Complete); it cannot wait *)
    intros [t [Ct Et]]. subst h. induction Ct as [t Ht Vt Pt|t w Ht Vt Cw IHw Pt].
    + (* its pointer is genesis: no waiting token points there *)
      destruct (CP t Ht Vt) as [A|[u [A B]]]; [assumption|]. exfalso.
      destruct (Sound_wait P tr u S A) as [_ [_ Gu]]. apply Gu.
      rewrite (waiting_prev P tr u t S W A Ht B). assumption.
    + (* its pointer is the key of a member, an element by induction: no waiting token points to an element *)
      destruct (CP t Ht Vt) as [A|[u [A B]]]; [assumption|]. exfalso.
      apply (N u A). unfold P16_gather.chained.
      rewrite (waiting_prev P tr u t S W A Ht B), Pt. assumption.
Qed.

Lemma distinct_offers_incl a b : incl a b -> (distinct_offers a <= distinct_offers b)%nat.
Proof.
  intros I. unfold distinct_offers. apply NoDup_incl_length; [apply NoDup_nodup|].
  intros x Hx. apply nodup_In. apply nodup_In in Hx. apply in_map_iff in Hx as [y [Ey Hy]].
  subst x. apply in_map. auto.
Qed.

Definition content_ok (t : token) : Prop :=
  match t_content t with Some c => hash c = t_chash t | None => True end.

Lemma receive_content_ok t c : content_ok t -> content_ok (fst (receive_content t c)).
Proof.
  unfold M16_tokentree.receive_content, content_ok. intros H.
  destruct (bytes_eqb (hash c) (t_chash t)) eqn:E; simpl; [|assumption].
  apply bytes_eqb_eq in E. assumption.
Qed.

Section ForallQ.
Variable Q : token -> Prop.
Hypothesis Qmerge : forall sh t, Q sh -> Q t -> Q (merge_content sh t).

Lemma wake_forall (g : tree -> token -> res (tree * option token)) :
  (forall tr t tr' r, g tr t = Ok (tr', r) -> Forall Q (elements tr) -> Forall Q (unchained tr) -> Q t ->
                      Forall Q (elements tr') /\ Forall Q (unchained tr')) ->
  forall ws tr tr', wake_with g ws tr = Ok tr' ->
    Forall Q ws -> Forall Q (elements tr) -> Forall Q (unchained tr) ->
    Forall Q (elements tr') /\ Forall Q (unchained tr').
Proof.
  intros Hg. induction ws as [|r ws IH]; intros tr tr' E Fw Fe Fu; simpl in E.
  - inversion E; subst. auto.
  - unfold u_pop in E. destruct (existsb (tok_eqb r) (unchained tr)); [|discriminate].
    destruct (g _ r) as [[tr1 r1]|] eqn:Eg; [|discriminate].
    inversion Fw; subst.
    destruct (Hg _ _ _ _ Eg) as [A B]; simpl; auto.
    { apply Forall_forall. intros x Hx. apply remove_first_In in Hx. rewrite Forall_forall in Fu. auto. }
    eapply IH; eauto.
Qed.

Lemma gather_forall : forall f tr t tr' r,
  gather f tr t = Ok (tr', r) -> Forall Q (elements tr) -> Forall Q (unchained tr) -> Q t ->
  Forall Q (elements tr') /\ Forall Q (unchained tr').
Proof.
  induction f as [|f IH]; intros tr t tr' r E Fe Fu Qt; [discriminate|].
  cbn [M16_tokentree.gather] in E.
  destruct (negb (tverify t)); [inversion E; subst; auto|].
  destruct (negb (readyb (elements tr) t)).
  { inversion E; subst. simpl. split; [assumption|].
    apply Forall_forall. intros x Hx. apply u_insert_In in Hx as [Hx|Hx]; [|subst; assumption].
    rewrite Forall_forall in Fu. auto. }
  destruct (find_key (thash t) (elements tr)) as [shadow|] eqn:Ef.
  - inversion E; subst. simpl. split; [|assumption].
    apply update_first_Forall; [assumption|]. apply Qmerge; [|assumption].
    apply (find_key_Some hash) in Ef as [A _]. rewrite Forall_forall in Fe. auto.
  - destruct (wake_with _ _ _) as [tr2|] eqn:Ew; [|discriminate]. inversion E; subst.
    eapply wake_forall; [| exact Ew | | | ]; simpl.
    + intros. eapply IH; eauto.
    + apply Forall_forall. intros x Hx. apply filter_In in Hx as [Hx _].
      rewrite Forall_forall in Fu. auto.
    + apply Forall_app. split; [assumption|]. constructor; [assumption|constructor].
    + assumption.
Qed.

Lemma gather_all_forall : forall arr tr tr',
  gather_all tr arr = Ok tr' -> Forall Q arr -> Forall Q (elements tr) -> Forall Q (unchained tr) ->
  Forall Q (elements tr') /\ Forall Q (unchained tr').
Proof.
  induction arr as [|t arr IH]; intros tr tr' E Fa Fe Fu; simpl in E.
  - inversion E; subst. auto.
  - destruct (gather_top tr t) as [[tr1 r]|] eqn:Eg; [|discriminate]. inversion Fa; subst.
    destruct (gather_forall _ _ _ _ _ Eg) as [A B]; auto. eapply IH; eauto.
Qed.
End ForallQ.

(* a content present on x hashes to x's pointer and was the content of an offered token *)
Definition from_offer (arr : list token) (x : token) : Prop :=
  forall k, t_content x = Some k -> hash k = t_chash x /\ exists p, In p arr /\ t_content p = Some k.

Lemma from_offer_ok arr x : from_offer arr x -> content_ok x.
Proof. unfold from_offer, content_ok. intros H. destruct (t_content x) as [k|]; [apply (H k eq_refl)|exact I]. Qed.

Lemma merge_from_offer arr sh t : from_offer arr sh -> from_offer arr t -> from_offer arr (merge_content sh t).
Proof.
  intros A B k. unfold M16_tokentree.merge_content.
  destruct (t_content sh) eqn:Es; [intros Hk; apply A; congruence|].
  destruct (t_content t) as [k'|] eqn:Et; [|congruence].
  unfold M16_tokentree.receive_content.
  destruct (bytes_eqb (hash k') (t_chash sh)) eqn:Eb; simpl; [|congruence].
  intros Hk. inversion Hk; subst k'. apply bytes_eqb_eq in Eb. split; [assumption|]. apply (B k Et).
Qed.

Lemma content_from_offers c arr tr :
  Forall content_ok arr -> gather_all (empty_tree c) arr = Ok tr ->
  Forall (from_offer arr) (elements tr) /\ Forall (from_offer arr) (unchained tr).
Proof.
  intros F E.
  apply (gather_all_forall (from_offer arr) (merge_from_offer arr) arr (empty_tree c) tr E);
    [|constructor|constructor].
  apply Forall_forall. intros x Hx k Hk. rewrite Forall_forall in F. specialize (F x Hx).
  unfold content_ok in F. rewrite Hk in F. split; [assumption|]. exists x. auto.
Qed.

Definition wire_form (t : token) : Prop :=
  length (t_prev t) = hl /\ length (t_chash t) = hl /\ length (t_sig t) = sl.

Lemma wire_form_prev t : wire_form t -> prev_wire t.
Proof. intros [A _]. exact A. Qed.

Lemma Sound_wire P tr : Sound P tr -> Forall wire_form P -> Forall wire_form (elements tr).
Proof.
  intros S W. apply Forall_forall. intros x Hx.
  destruct (Sound_elem P tr x S Hx) as [_ [p [Hp Ep]]]. rewrite Forall_forall in W.
  unfold same_fields, strip in Ep. inversion Ep as [[E1 E2 E3]].
  unfold wire_form. rewrite <- E1, <- E2, <- E3. exact (W p Hp).
Qed.

Lemma signed_length t : wire_form t -> length (signed t) = chunk hl sl.
Proof.
  intros [A [B C]]. unfold signed, plaintext, chunk. rewrite !app_length. lia.
Qed.

Lemma token_unserialize_signed t rest :
  wire_form t -> token_unserialize (signed t ++ rest) = Ok (strip t).
Proof.
  intros W. pose proof (signed_length t W) as L. destruct W as [A [B C]].
  unfold M16_tokentree.token_unserialize.
  assert (Hl : (length (signed t ++ rest) <? chunk hl sl)%nat = false).
  { apply Nat.ltb_ge. rewrite app_length. lia. }
  rewrite Hl. unfold strip. f_equal.
  unfold signed, plaintext. rewrite <- !app_assoc.
  rewrite (firstn_exact hl (t_prev t)) by assumption.
  rewrite (skipn_exact hl (t_prev t)) by assumption.
  rewrite (firstn_exact hl (t_chash t)) by assumption.
  replace (t_prev t ++ t_chash t ++ t_sig t ++ rest) with ((t_prev t ++ t_chash t) ++ t_sig t ++ rest)
    by (rewrite <- app_assoc; reflexivity).
  rewrite (skipn_exact (hl + hl) (t_prev t ++ t_chash t)) by (rewrite app_length; lia).
  rewrite (firstn_exact sl (t_sig t)) by assumption.
  reflexivity.
Qed.

Lemma find_key_notin h e : ~ In h (keys e) -> find_key h e = None.
Proof.
  intros H. destruct (find_key h e) eqn:E; [|reflexivity].
  apply (find_key_Some hash) in E as [A B]. exfalso. apply H. rewrite <- B.
  unfold M16_tokentree.keys. apply in_map. assumption.
Qed.

(* one chunk of a dump through the loop of unserialize_public *)
Lemma unser_loop_chunk fuel tr e s correct : (0 < hl)%nat -> wire_form e ->
  unser_loop (S fuel) tr (signed e ++ s) correct
  = match gather_top tr (strip e) with
    | Raise x => (tr, Raise x)
    | Ok (tr', r) => unser_loop fuel tr' s (correct && is_some r)
    end.
Proof.
  intros Hhl We. pose proof (signed_length e We) as Ls.
  destruct (signed e ++ s) as [|b s'] eqn:Es.
  { apply (f_equal (@length _)) in Es. rewrite app_length in Es. unfold chunk in Ls. simpl in Es. lia. }
  cbn [M16_tokentree.unser_loop]. rewrite <- Es.
  rewrite (token_unserialize_signed e _ We), (skipn_exact (chunk hl sl) (signed e)) by assumption.
  reflexivity.
Qed.

Lemma unserialize_public_loop tr s :
  (0 < hl)%nat -> unserialize_public tr s = unser_loop (length s) tr s true.
Proof.
  intros Hhl. unfold M16_tokentree.unserialize_public.
  assert (Hc : (chunk hl sl =? 0)%nat = false) by (apply Nat.eqb_neq; unfold chunk; lia).
  rewrite Hc. reflexivity.
Qed.

(* gather_token of a new, ready token while nothing waits *)
Lemma gather_top_append tr t :
  unchained tr = [] -> tverify t = true -> ready (elements tr) t -> ~ In (thash t) (keys (elements tr)) ->
  gather_top tr t = Ok (mkTree (elements tr ++ [t]) [] (cap tr), Some t).
Proof.
  intros U V R N. unfold M16_tokentree.gather_top. rewrite U. cbn [length M16_tokentree.gather].
  rewrite V, (proj2 (readyb_iff hash sigverify pk _ _) R), (find_key_notin _ _ N), U. reflexivity.
Qed.

Lemma unser_dump c2 : (0 < hl)%nat -> forall rest done fuel,
  Forall (fun x => tverify x = true /\ wire_form x) (done ++ rest) ->
  chain_ok (done ++ rest) -> NoDup (keys (done ++ rest)) ->
  (length (flat_map signed rest) <= fuel)%nat ->
  unser_loop fuel (mkTree (map strip done) [] c2) (flat_map signed rest) true
  = (mkTree (map strip (done ++ rest)) [] c2, Ok true).
Proof.
  intros Hhl. induction rest as [|e rest IH]; intros done fuel F C N L.
  - rewrite app_nil_r. destruct fuel; reflexivity.
  - assert (Fe : tverify e = true /\ wire_form e) by (rewrite Forall_forall in F; apply F, in_elt).
    destruct Fe as [Ve We]. cbn [flat_map] in *.
    rewrite app_length, (signed_length e We) in L. unfold chunk in L.
    destruct fuel as [|fuel]; [lia|].
    rewrite (unser_loop_chunk _ _ _ _ _ Hhl We), gather_top_append; cbn [elements unchained cap].
    + replace (map strip done ++ [strip e]) with (map strip (done ++ [e])) by (rewrite map_app; reflexivity).
      replace (done ++ e :: rest) with ((done ++ [e]) ++ rest) in * by (rewrite <- app_assoc; reflexivity).
      apply IH; auto. lia.
    + reflexivity.
    + exact Ve.
    + pose proof (chain_ok_prefix_ready hash pk _ C done e rest eq_refl) as R.
      unfold P16_gather.ready, P16_gather.chained in *. rewrite (keys_strip hash). exact R.
    + rewrite (keys_strip hash). rewrite (keys_app hash) in N. apply NoDup_remove_2 in N.
      intros H. apply N. apply in_or_app. left. assumption.
Qed.

Lemma Sound_roundtrip P tr c2 :
  (0 < hl)%nat -> Sound P tr -> Forall wire_form P ->
  unserialize_public (empty_tree c2) (serialize_public tr)
  = (mkTree (map strip (elements tr)) [] c2, Ok true).
Proof.
  intros Hhl S W. pose proof (Sound_wire P tr S W) as We. destruct S as [S1 S2 S3 _ _].
  rewrite (unserialize_public_loop _ _ Hhl). unfold serialize_public, empty_tree.
  apply (unser_dump c2 Hhl (elements tr) [] (length (flat_map signed (elements tr)))); simpl; auto.
  apply Forall_forall. intros x Hx. rewrite Forall_forall in S1, We. split; [apply S1|apply We]; assumption.
Qed.

(* on chunks in wire form the loop of unserialize_public follows gather_all *)
Lemma unser_gather : (0 < hl)%nat -> forall l tr0 fuel correct tr',
  Forall wire_form l -> (length (flat_map signed l) <= fuel)%nat ->
  gather_all tr0 (map strip l) = Ok tr' ->
  exists b, unser_loop fuel tr0 (flat_map signed l) correct = (tr', Ok b).
Proof.
  intros Hhl. induction l as [|e l IH]; intros tr0 fuel correct tr' W L E.
  - simpl in *. inversion E; subst. exists correct. destruct fuel; reflexivity.
  - inversion W as [|? ? We Wl]; subst. cbn [flat_map map M16_tokentree.gather_all] in *.
    rewrite app_length, (signed_length e We) in L. unfold chunk in L.
    destruct fuel as [|fuel]; [lia|].
    rewrite (unser_loop_chunk _ _ _ _ _ Hhl We).
    destruct (gather_top tr0 (strip e)) as [[tr1 r]|]; [|discriminate].
    apply IH; auto. lia.
Qed.

Lemma nodup_length_le (l : list bytes) : (length (nodup bytes_eq_dec l) <= length l)%nat.
Proof.
  apply NoDup_incl_length; [apply NoDup_nodup|]. intros x Hx. apply nodup_In in Hx. assumption.
Qed.

(* the dump in any chunk order (e.g. built from a Python set) reloads to the same elements, as long as
   the fresh tree's waiting area can hold them *)
Lemma Sound_roundtrip_any_order P tr c2 l :
  (0 < hl)%nat -> Sound P tr -> Forall wire_form P ->
  Permutation l (elements tr) -> (length (elements tr) <= c2)%nat ->
  exists tr2 b, unserialize_public (empty_tree c2) (flat_map signed l) = (tr2, Ok b) /\
    forall h, In h (keys (elements tr2)) <-> In h (keys (elements tr)).
Proof.
  intros Hhl S W Pm Lc. pose proof (Sound_wire P tr S W) as We. destruct S as [S1 S2 _ _ _].
  assert (Wl : Forall wire_form l).
  { apply Forall_forall. intros x Hx. rewrite Forall_forall in We. apply We, (Permutation_in _ Pm), Hx. }
  set (arr' := map strip l).
  assert (Wp : Forall prev_wire arr').
  { apply Forall_forall. intros x Hx. apply in_map_iff in Hx as [y [Ey Hy]]. subst x.
    rewrite Forall_forall in Wl. apply (wire_form_prev y (Wl y Hy)). }
  assert (D : (distinct_offers arr' <= c2)%nat).
  { unfold distinct_offers. eapply Nat.le_trans; [apply nodup_length_le|].
    unfold arr'. rewrite !map_length. rewrite (Permutation_length Pm). assumption. }
  destruct (reach_complete c2 arr' D) as [tr2 [E2 [S' [N' C']]]].
  pose proof (complete_closure arr' tr2 S' N' C' Wp) as K2.
  destruct (unser_gather Hhl l (empty_tree c2) (length (flat_map signed l)) true tr2 Wl (le_n _) E2) as [b Eb].
  exists tr2, b. split; [rewrite (unserialize_public_loop _ _ Hhl); exact Eb|].
  intros h. rewrite K2. split.
  - intros [t [Ct Et]]. destruct (in_closure_signed _ _ _ _ _ Ct) as [_ Ht].
    apply in_map_iff in Ht as [y [Ey Hy]]. subst t h.
    rewrite (thash_strip hash). unfold M16_tokentree.keys. apply in_map.
    apply (Permutation_in _ Pm). assumption.
  - apply keys_in_closure; [assumption|].
    apply Forall_forall. intros y Hy. rewrite Forall_forall in S1. destruct (S1 y Hy) as [A _].
    split; [assumption|]. unfold arr'. rewrite map_map. apply in_map_iff. exists y.
    split; [reflexivity|]. apply (Permutation_in _ (Permutation_sym Pm)). assumption.
Qed.

End Props.
