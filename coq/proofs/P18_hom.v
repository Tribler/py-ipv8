(* C18 - the homomorphic encryption of boneh.py over an abstract abelian group: power laws,
   decode . encode, the homomorphism used by the bit-pair challenge, and the toy instance Z_6. *)
From Coq Require Import ZArith List Bool Lia.
From IPV8V Require Import lib.Lists model.M18_hom spec.S18_bgn.
Import ListNotations.
Open Scope Z_scope.

Lemma mod_sub_0_iff a b n : 0 < n -> ((a - b) mod n = 0 <-> a mod n = b mod n).
Proof.
  intros Hn. split; intros H.
  - apply Z.mod_divide in H; [|lia]. destruct H as [q Hq]. replace a with (b + q * n) by lia. apply Z_mod_plus_full.
  - rewrite Zminus_mod, H, Z.sub_diag. apply Z.mod_0_l. lia.
Qed.

Section BGNProofs.
  Variable G : Type.
  Variable gmul : G -> G -> G.
  Variable gone : G.
  Variable ginv : G -> G.
  Variable geqb : G -> G -> bool.
  Hypothesis geqb_eq : forall a b, geqb a b = true <-> a = b.
  Hypothesis gmul_assoc : forall a b c, gmul a (gmul b c) = gmul (gmul a b) c.
  Hypothesis gmul_comm : forall a b, gmul a b = gmul b a.
  Hypothesis gmul_one_l : forall a, gmul gone a = a.
  Hypothesis gmul_inv_l : forall a, gmul (ginv a) a = gone.

  Local Notation "a ** b" := (gmul a b) (at level 40, left associativity).
  Local Notation pw := (gpow G gmul gone ginv).

  Lemma gmul_one_r a : a ** gone = a.
  Proof. rewrite gmul_comm. apply gmul_one_l. Qed.
  Lemma gmul_inv_r a : a ** ginv a = gone.
  Proof. rewrite gmul_comm. apply gmul_inv_l. Qed.

  Lemma gmul_cancel_l a b c : a ** b = a ** c -> b = c.
  Proof.
    intros H. rewrite <- (gmul_one_l b), <- (gmul_one_l c), <- (gmul_inv_l a), <- !gmul_assoc, H. reflexivity.
  Qed.

  Lemma ginv_unique a x : x ** a = gone -> x = ginv a.
  Proof.
    intros H. apply (gmul_cancel_l a). rewrite gmul_inv_r, gmul_comm. exact H.
  Qed.

  Lemma ginv_mul a b : ginv (a ** b) = ginv a ** ginv b.
  Proof.
    symmetry. apply ginv_unique.
    rewrite <- gmul_assoc, (gmul_comm (ginv b)), <- gmul_assoc, (gmul_assoc (ginv a) a), gmul_inv_l, gmul_one_l.
    rewrite gmul_comm. apply gmul_inv_l.
  Qed.

  Lemma ginv_one : ginv gone = gone.
  Proof. symmetry. apply ginv_unique. apply gmul_one_l. Qed.

  Lemma ginv_inv a : ginv (ginv a) = a.
  Proof. symmetry. apply ginv_unique. apply gmul_inv_r. Qed.

  Lemma ip_succ p x : Pos.iter_op gmul (Pos.succ p) x = x ** Pos.iter_op gmul p x.
  Proof. apply Pos.iter_op_succ. exact gmul_assoc. Qed.

  Lemma gpow_succ x k : pw x (Z.succ k) = x ** pw x k.
  Proof.
    destruct k as [|p|p].
    - cbn. symmetry. apply gmul_one_r.
    - rewrite <- Pos2Z.inj_succ. cbn [gpow]. apply ip_succ.
    - destruct (Pos.eq_dec p 1) as [->|Hp].
      + cbn. symmetry. apply gmul_inv_r.
      + destruct (Pos.succ_pred_or p) as [E|E]; [contradiction|].
        rewrite <- E at 2. replace (Z.succ (Z.neg p)) with (Z.neg (Pos.pred p)) by lia.
        cbn [gpow]. rewrite ip_succ, ginv_mul, gmul_assoc, gmul_inv_r, gmul_one_l. reflexivity.
  Qed.

  Lemma gpow_pred x k : pw x (Z.pred k) = ginv x ** pw x k.
  Proof.
    rewrite <- (Z.succ_pred k) at 2. rewrite gpow_succ, gmul_assoc, gmul_inv_l, gmul_one_l. reflexivity.
  Qed.

  Lemma gpow_0 x : pw x 0 = gone.
  Proof. reflexivity. Qed.
  Lemma gpow_1 x : pw x 1 = x.
  Proof. reflexivity. Qed.

  Lemma gpow_add x a b : pw x (a + b) = pw x a ** pw x b.
  Proof.
    revert b. apply Z.peano_ind.
    - rewrite Z.add_0_r, gpow_0, gmul_one_r. reflexivity.
    - intros b IH. rewrite Z.add_succ_r, !gpow_succ, IH.
      rewrite gmul_assoc, (gmul_comm x), <- gmul_assoc. reflexivity.
    - intros b IH. rewrite Z.add_pred_r, !gpow_pred, IH.
      rewrite gmul_assoc, (gmul_comm (ginv x)), <- gmul_assoc. reflexivity.
  Qed.

  Lemma gpow_neg x k : pw x (- k) = ginv (pw x k).
  Proof.
    apply ginv_unique. rewrite <- gpow_add. replace (- k + k) with 0 by lia. reflexivity.
  Qed.

  Lemma gpow_sub x a b : pw x (a - b) = pw x a ** ginv (pw x b).
  Proof. unfold Z.sub. rewrite gpow_add, gpow_neg. reflexivity. Qed.

  Lemma gpow_mul_base x y k : pw (x ** y) k = pw x k ** pw y k.
  Proof.
    revert k. apply Z.peano_ind.
    - rewrite !gpow_0, gmul_one_l. reflexivity.
    - intros k IH. rewrite !gpow_succ, IH.
      rewrite <- !gmul_assoc. f_equal. rewrite !gmul_assoc. f_equal. apply gmul_comm.
    - intros k IH. rewrite !gpow_pred, IH, ginv_mul.
      rewrite <- !gmul_assoc. f_equal. rewrite !gmul_assoc. f_equal. apply gmul_comm.
  Qed.

  Lemma gpow_one k : pw gone k = gone.
  Proof.
    revert k. apply Z.peano_ind.
    - reflexivity.
    - intros k IH. rewrite gpow_succ, IH. apply gmul_one_l.
    - intros k IH. rewrite gpow_pred, IH, ginv_one. apply gmul_one_l.
  Qed.

  Lemma gpow_inv_base x k : pw (ginv x) k = ginv (pw x k).
  Proof.
    apply ginv_unique. rewrite <- gpow_mul_base, gmul_inv_l. apply gpow_one.
  Qed.

  Lemma gpow_gpow x a b : pw (pw x a) b = pw x (a * b).
  Proof.
    revert b. apply Z.peano_ind.
    - rewrite Z.mul_0_r. reflexivity.
    - intros b IH. rewrite gpow_succ, IH, Z.mul_succ_r, gpow_add. apply gmul_comm.
    - intros b IH. rewrite gpow_pred, IH, Z.mul_pred_r, gpow_sub. apply gmul_comm.
  Qed.

  Lemma gpow_mod_order x n k : pw x n = gone -> pw x (k mod n + n) = pw x k.
  Proof.
    intros Hn. destruct (Z.eq_dec n 0) as [->|Hnz].
    { rewrite Zmod_0_r, Z.add_0_r. reflexivity. }
    pose proof (Z.div_mod k n Hnz) as Hk.
    replace (k mod n + n) with (k + n * (1 - k / n)) by lia.
    rewrite gpow_add, <- gpow_gpow, Hn, gpow_one. apply gmul_one_r.
  Qed.

  Variable g h : G.
  Variable t1 t2 : Z.
  Hypothesis t2_pos : 0 < t2.
  Hypothesis h_order : pw h t1 = gone.                         (* h = u^t2 has order dividing t1 *)
  Hypothesis g_n : pw g (t1 * t2) = gone.                      (* g lives in the order-n subgroup, n = t1*t2 *)
  Hypothesis g_t1_order : forall m, 0 < m < t2 -> pw (pw g t1) m <> gone.   (* g^t1 has order exactly t2 *)

  Local Notation enc := (encode G gmul gone ginv g h).
  Local Notation dec := (decode G gmul gone ginv geqb g t1).

  Lemma gt_pow_one_iff k : pw (pw g t1) k = gone <-> k mod t2 = 0.
  Proof.
    pose proof (Z.div_mod k t2 ltac:(lia)) as Hk. pose proof (Z.mod_pos_bound k t2 t2_pos) as Hb.
    assert (E : pw (pw g t1) k = pw (pw g t1) (k mod t2)).
    { assert (Hq : pw (pw g t1) (t2 * (k / t2)) = gone).
      { rewrite <- gpow_gpow. rewrite (gpow_gpow g t1 t2), g_n. apply gpow_one. }
      rewrite Hk at 1. rewrite gpow_add, Hq. apply gmul_one_l. }
    rewrite E. split.
    - intros H. destruct (Z.eq_dec (k mod t2) 0) as [H0|H0]; [exact H0|].
      exfalso. apply (g_t1_order (k mod t2)); [lia|exact H].
    - intros ->. reflexivity.
  Qed.

  Lemma gt_pow_eq_iff a b : pw (pw g t1) a = pw (pw g t1) b <-> (a - b) mod t2 = 0.
  Proof.
    rewrite <- gt_pow_one_iff, gpow_sub. split.
    - intros ->. apply gmul_inv_r.
    - intros H. apply (gmul_cancel_l (ginv (pw (pw g t1) b))).
      rewrite gmul_inv_l, gmul_comm. exact H.
  Qed.

  Lemma encode_t1 m r : pw (enc m r) t1 = pw (pw g t1) m.
  Proof.
    unfold encode. rewrite gpow_mul_base, !gpow_gpow, (Z.mul_comm r), <- (gpow_gpow h), h_order, gpow_one, gmul_one_r.
    f_equal. apply Z.mul_comm.
  Qed.

  (* encodings multiply to the encoding of the sum: the homomorphism the challenge relies on *)
  Lemma encode_mul_l a r b s : enc a r ** enc b s = enc (a + b) (r + s).
  Proof.
    unfold encode. rewrite !gpow_add. rewrite <- !gmul_assoc. f_equal.
    rewrite !gmul_assoc. f_equal. apply gmul_comm.
  Qed.

  (* what decode computes on any encoding: the first candidate congruent to the message mod t2 *)
  Lemma decode_spec_l ms m r : dec ms (enc m r) = find (fun m' => (m - m') mod t2 =? 0) ms.
  Proof.
    unfold decode. cbv zeta. apply find_ext. intros m'. rewrite encode_t1.
    apply eq_true_iff_eq. rewrite geqb_eq, gt_pow_eq_iff, Z.eqb_eq. reflexivity.
  Qed.

  Lemma decode_encode_l ms m r : Forall (fun x => 0 <= x < t2) ms -> In m ms -> dec ms (enc m r) = Some m.
  Proof.
    intros Hms Hin. rewrite decode_spec_l. induction ms as [|x ms IH]; [contradiction|].
    inversion Hms as [|? ? Hx Hrest]; subst. cbn [find].
    destruct ((m - x) mod t2 =? 0) eqn:E.
    - f_equal. assert (Hm : 0 <= m < t2).
      { destruct Hin as [->|Hin]; [exact Hx|]. rewrite Forall_forall in Hrest. exact (Hrest m Hin). }
      apply Z.eqb_eq, mod_sub_0_iff in E; [|exact t2_pos]. rewrite !Z.mod_small in E by assumption. symmetry. exact E.
    - destruct Hin as [->|Hin].
      + rewrite Z.sub_diag, Z.mod_0_l in E by lia. discriminate.
      + exact (IH Hrest Hin).
  Qed.

  Lemma decode_none_l ms m r : Forall (fun x => (m - x) mod t2 <> 0) ms -> dec ms (enc m r) = None.
  Proof.
    intros H. rewrite decode_spec_l. induction H as [|x ms Hx _ IH]; [reflexivity|].
    cbn [find]. destruct ((m - x) mod t2 =? 0) eqn:E; [lia|exact IH].
  Qed.

  Lemma decode_product_l ms a r b s : Forall (fun x => 0 <= x < t2) ms -> In (a + b) ms ->
    dec ms (enc a r ** enc b s) = Some (a + b).
  Proof. intros. rewrite encode_mul_l. apply decode_encode_l; assumption. Qed.

  (* the response to a challenge on any encoding: the class of the message modulo t2, 3 if none of 0,1,2 *)
  Lemma challenge_response_spec_l m r : 2 < t2 ->
    challenge_response G gmul gone ginv geqb g t1 (enc m r) =
      if m mod t2 =? 0 then 0 else if m mod t2 =? 1 then 1 else if m mod t2 =? 2 then 2 else 3.
  Proof.
    intros Ht. unfold challenge_response. rewrite decode_spec_l. cbn [find].
    assert (Hk : forall k, 0 <= k < t2 -> ((m - k) mod t2 =? 0) = (m mod t2 =? k)).
    { intros k Hk. apply eq_true_iff_eq. rewrite !Z.eqb_eq, (mod_sub_0_iff m k t2 t2_pos), (Z.mod_small k t2 Hk). reflexivity. }
    rewrite !Hk by lia. replace (m - 0) with m by lia.
    destruct (m mod t2 =? 0) eqn:E0; [reflexivity|].
    destruct (m mod t2 =? 1) eqn:E1; [reflexivity|].
    destruct (m mod t2 =? 2) eqn:E2; reflexivity.
  Qed.
End BGNProofs.

Section Keyed.
  Variable G : Type.
  Variable gmul : G -> G -> G.
  Variable gone : G.
  Variable ginv : G -> G.
  Variable geqb : G -> G -> bool.
  Variable g h : G.
  Variable t1 t2 P : Z.
  Hypothesis key : bgn_keypair G gmul gone ginv geqb g h t1 t2 P.

  Local Notation enc := (encode G gmul gone ginv g h).
  Local Notation dec := (decode G gmul gone ginv geqb g t1).

  Lemma decode_spec_w ms m r : dec ms (enc m r) = find (fun m' => (m - m') mod t2 =? 0) ms.
  Proof.
    destruct key as ((A & C & O & I) & E & Ht & Hh & Hn & Ho & _).
    apply (decode_spec_l G gmul gone ginv geqb E A C O I g h t1 t2 ltac:(lia) Hh Hn Ho).
  Qed.

  Lemma decode_encode_w ms m r : Forall (fun x => 0 <= x < t2) ms -> In m ms -> dec ms (enc m r) = Some m.
  Proof.
    destruct key as ((A & C & O & I) & E & Ht & Hh & Hn & Ho & _).
    apply (decode_encode_l G gmul gone ginv geqb E A C O I g h t1 t2 ltac:(lia) Hh Hn Ho).
  Qed.

  Lemma decode_product_w ms a r b s : Forall (fun x => 0 <= x < t2) ms -> In (a + b) ms ->
    dec ms (gmul (enc a r) (enc b s)) = Some (a + b).
  Proof.
    destruct key as ((A & C & O & I) & E & Ht & Hh & Hn & Ho & _).
    apply (decode_product_l G gmul gone ginv geqb E A C O I g h t1 t2 ltac:(lia) Hh Hn Ho).
  Qed.

  Lemma challenge_response_spec_w m r :
    challenge_response G gmul gone ginv geqb g t1 (enc m r) =
      if m mod t2 =? 0 then 0 else if m mod t2 =? 1 then 1 else if m mod t2 =? 2 then 2 else 3.
  Proof.
    destruct key as ((A & C & O & I) & E & Ht & Hh & Hn & Ho & _).
    apply (challenge_response_spec_l G gmul gone ginv geqb E A C O I g h t1 t2 ltac:(lia) Hh Hn Ho m r Ht).
  Qed.
End Keyed.

Lemma z6_eqb_eq a b : z6_eqb a b = true <-> a = b.
Proof. destruct a, b; cbv; split; intro H; try reflexivity; try discriminate. Qed.
Lemma z6_assoc a b c : z6_mul a (z6_mul b c) = z6_mul (z6_mul a b) c.
Proof. destruct a, b, c; reflexivity. Qed.
Lemma z6_comm a b : z6_mul a b = z6_mul b a.
Proof. destruct a, b; reflexivity. Qed.
Lemma z6_one_l a : z6_mul A0 a = a.
Proof. destruct a; reflexivity. Qed.
Lemma z6_inv_l a : z6_mul (z6_inv a) a = A0.
Proof. destruct a; reflexivity. Qed.
Lemma z6_h_order : gpow z6 z6_mul A0 z6_inv A3 2 = A0.
Proof. reflexivity. Qed.
Lemma z6_g_n : gpow z6 z6_mul A0 z6_inv A1 (2 * 3) = A0.
Proof. reflexivity. Qed.
Lemma z6_g_order m : 0 < m < 3 -> gpow z6 z6_mul A0 z6_inv (gpow z6 z6_mul A0 z6_inv A1 2) m <> A0.
Proof. intros H. assert (m = 1 \/ m = 2) as [-> | ->] by lia; cbv; discriminate. Qed.

Lemma z6_is_keypair : bgn_keypair z6 z6_mul A0 z6_inv z6_eqb A1 A3 2 3 5.
Proof.
  unfold bgn_keypair, abelian_group, eq_decides.
  split; [split; [exact z6_assoc|split; [exact z6_comm|split; [exact z6_one_l|exact z6_inv_l]]]|].
  split; [exact z6_eqb_eq|]. split; [lia|]. split; [exact z6_h_order|]. split; [exact z6_g_n|].
  split; [exact z6_g_order|]. split; [lia|]. exists 1. reflexivity.
Qed.
