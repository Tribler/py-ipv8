(* C14 - the prefix tree of trie.py behaves like a finite map from bit strings to values;
   deletion prunes exactly the value-less leaf chains; suffixes lists exactly the keys below a key. *)
From Coq Require Import ZArith List Bool Arith Lia.
From IPV8V Require Import lib.PyErr model.M14_routing spec.S14_kademlia proofs.P14_bits.
Import ListNotations.

Lemma mapM_app {B C} (f : B -> res C) l1 : forall l2 r1 r2,
  mapM f l1 = Ok r1 -> mapM f l2 = Ok r2 -> mapM f (l1 ++ l2) = Ok (r1 ++ r2).
Proof.
  induction l1 as [|x l1 IH]; intros l2 r1 r2 H1 H2; cbn in *.
  - injection H1 as <-. exact H2.
  - destruct (f x) as [y|]; cbn in *; [|discriminate].
    destruct (mapM f l1) as [ys|] eqn:M; cbn in *; [|discriminate].
    injection H1 as <-. rewrite (IH l2 ys r2 eq_refl H2). reflexivity.
Qed.

Lemma mapM_map {B B' C} (g : B' -> B) (f : B -> res C) l : mapM f (map g l) = mapM (fun x => f (g x)) l.
Proof. induction l as [|x l IH]; cbn; [reflexivity|]. rewrite IH. reflexivity. Qed.

Lemma mapM_ext {B C} (f g : B -> res C) l : (forall x, f x = g x) -> mapM f l = mapM g l.
Proof. intros E. induction l as [|x l IH]; cbn; [reflexivity|]. rewrite E, IH. reflexivity. Qed.

Section TrieFacts.
Context {A : Type}.
Implicit Types (t : trie A) (k : bits).

Lemma tfind_Empty k : tfind (@Empty A) k = Empty.
Proof. induction k; cbn; auto. Qed.

Lemma tfind_app t k1 k2 : tfind t (k1 ++ k2) = tfind (tfind t k1) k2.
Proof. revert t; induction k1; intros t; cbn; auto. Qed.

Lemma tget_Empty k : tget (@Empty A) k = Raise KeyError.
Proof. unfold tget. rewrite tfind_Empty. reflexivity. Qed.

Lemma tget_cons x k t : tget t (x :: k) = tget (child x t) k.
Proof. reflexivity. Qed.

Lemma tget_app t k1 k2 : tget t (k1 ++ k2) = tget (tfind t k1) k2.
Proof. unfold tget. rewrite tfind_app. reflexivity. Qed.

Lemma tget_empty_root k : tget (@empty_root A) k = Raise KeyError.
Proof. destruct k as [|[] k]; [reflexivity| |]; apply tget_Empty. Qed.

(* ---- __setitem__ *)
Lemma child_tset_nil y t v : child y (tset t [] v) = child y t.
Proof. destruct t, y; reflexivity. Qed.

Lemma child_tset y t x k v :
  child y (tset t (x :: k) v) = if Bool.eqb x y then tset (child y t) k v else child y t.
Proof. destruct t, x, y; reflexivity. Qed.

Lemma tset_nonempty t k v : tset t k v <> Empty.
Proof. destruct k as [|[] k], t; discriminate. Qed.

Lemma tget_tset_same k : forall t v, tget (tset t k v) k = Ok v.
Proof.
  induction k as [|x k IH]; intros t v; [destruct t; reflexivity|].
  rewrite tget_cons, child_tset, eqb_reflx. apply IH.
Qed.

Lemma tget_tset_other k : forall t v k', k' <> k -> tget (tset t k v) k' = tget t k'.
Proof.
  induction k as [|x k IH]; intros t v [|y k'] N; try congruence.
  - rewrite !tget_cons, child_tset_nil. reflexivity.
  - destruct t, x; reflexivity.
  - rewrite !tget_cons, child_tset. destruct (Bool.eqb x y) eqn:E; [|reflexivity].
    apply eqb_prop in E. apply IH. congruence.
Qed.

(* used where `injection` would also unfold prune on the way *)
Lemma Some_inj {B} (a b : B) : Some a = Some b -> a = b.
Proof. congruence. Qed.

(* ---- __delitem__: the value is removed, then every node on the way back up is pruned if that left it
   without value and children; pruning is invisible to lookups *)
Definition prune t : trie A := match t with TNode None Empty Empty => Empty | _ => t end.

Lemma tget_prune t k : tget (prune t) k = tget t k.
Proof.
  destruct t as [|[a|] [|] [|]]; try reflexivity. rewrite tget_Empty. symmetry. apply tget_empty_root.
Qed.

Lemma prune_keep w t0 t1 : t0 <> Empty \/ t1 <> Empty -> prune (TNode w t0 t1) = TNode w t0 t1.
Proof. destruct w, t0, t1; intros [N|N]; try reflexivity; congruence. Qed.

Lemma tdel_aux_nil t :
  tdel_aux t [] = match t with TNode (Some _) c0 c1 => Some (prune (TNode None c0 c1)) | _ => None end.
Proof. destruct t as [|[a|] [|] [|]]; reflexivity. Qed.

Lemma tdel_aux_cons w c0 c1 x k :
  tdel_aux (TNode w c0 c1) (x :: k) =
  match tdel_aux (if x then c1 else c0) k with
  | Some c' => Some (prune (TNode w (if x then c0 else c') (if x then c' else c1)))
  | None => None
  end.
Proof.
  cbn [tdel_aux]. destruct (tdel_aux _ k) as [c'|]; [|reflexivity].
  destruct w; [reflexivity|]. destruct (if x then c0 else c'), (if x then c' else c1); reflexivity.
Qed.

Lemma tget_tdel_aux k : forall t t',
  tdel_aux t k = Some t' ->
  (exists v, tget t k = Ok v) /\ tget t' k = Raise KeyError /\ (forall k', k' <> k -> tget t' k' = tget t k').
Proof.
  induction k as [|x k IH]; intros t t' H.
  - rewrite tdel_aux_nil in H. destruct t as [|[a|] c0 c1]; try discriminate. apply Some_inj in H as <-.
    split; [exists a; reflexivity|]. split; [rewrite tget_prune; reflexivity|].
    intros [|y k'] N; [congruence|]. rewrite tget_prune. reflexivity.
  - destruct t as [|w c0 c1]; [discriminate|]. rewrite tdel_aux_cons in H.
    destruct (tdel_aux (if x then c1 else c0) k) as [c'|] eqn:D; [|discriminate]. apply Some_inj in H as <-.
    apply IH in D as (Hv & Hk & Ho). split; [exact Hv|].
    split; [rewrite tget_prune; destruct x; exact Hk|].
    intros [|y k'] N; rewrite tget_prune; [reflexivity|].
    destruct x, y; try reflexivity; apply Ho; congruence.
Qed.

Lemma tdel_aux_none k : forall t, tdel_aux t k = None -> tget t k = Raise KeyError.
Proof.
  induction k as [|x k IH]; intros t H.
  - rewrite tdel_aux_nil in H. destruct t as [|[a|] c0 c1]; [reflexivity | discriminate | reflexivity].
  - destruct t as [|w c0 c1]; [apply tget_Empty|]. rewrite tdel_aux_cons in H.
    destruct (tdel_aux (if x then c1 else c0) k) eqn:D; [discriminate|]. exact (IH _ D).
Qed.

(* ---- no value-less leaf chain is ever left behind *)
Lemma compact_sub_compact t : compact_sub t -> compact t.
Proof. destruct t; cbn; tauto. Qed.

Lemma compact_sub_nonvoid t : compact_sub t -> t <> Empty -> nonvoid t = true.
Proof. destruct t; cbn; [congruence | tauto]. Qed.

Lemma compact_sub_TNode (w : option A) (c0 c1 : trie A) :
  compact_sub c0 -> compact_sub c1 -> w <> None \/ c0 <> Empty \/ c1 <> Empty -> compact_sub (TNode w c0 c1).
Proof.
  intros C0 C1 H. split; [|auto]. cbn [nonvoid]. destruct H as [H|[H|H]].
  - destruct w; [reflexivity | contradiction].
  - rewrite (compact_sub_nonvoid c0 C0 H), orb_true_r. reflexivity.
  - rewrite (compact_sub_nonvoid c1 C1 H). apply orb_true_r.
Qed.

Lemma compact_sub_prune (w : option A) (c0 c1 : trie A) : compact_sub c0 -> compact_sub c1 -> compact_sub (prune (TNode w c0 c1)).
Proof.
  intros C0 C1. destruct w as [a|]; [apply compact_sub_TNode; auto; left; discriminate|].
  destruct c0; [destruct c1; [exact I|]|]; apply compact_sub_TNode; auto; [right; right | right; left]; discriminate.
Qed.

(* compact is the weaker hypothesis: it holds of the root and of every compact sub-tree *)
Lemma compact_sub_tset k : forall t v, compact t -> compact_sub (tset t k v).
Proof.
  induction k as [|x k IH]; intros t v C.
  - destruct t; apply compact_sub_TNode; try apply C; try exact I; left; discriminate.
  - assert (N : forall c, tset c k v <> Empty) by (intros c; apply tset_nonempty).
    destruct t as [|w c0 c1], x; cbn [tset]; apply compact_sub_TNode; auto.
    + apply C.
    + apply IH, compact_sub_compact, C.
    + apply IH, compact_sub_compact, C.
    + apply C.
Qed.

Lemma compact_tset t k v : compact t -> compact (tset t k v).
Proof. intros C. apply compact_sub_compact, compact_sub_tset, C. Qed.

Lemma compact_tdel_aux k : forall t u, compact t -> tdel_aux t k = Some u -> compact_sub u.
Proof.
  induction k as [|x k IH]; intros t u C H.
  - rewrite tdel_aux_nil in H. destruct t as [|[a|] c0 c1]; try discriminate. apply Some_inj in H as <-.
    apply compact_sub_prune; apply C.
  - destruct t as [|w c0 c1]; [discriminate|]. rewrite tdel_aux_cons in H.
    destruct (tdel_aux (if x then c1 else c0) k) as [c'|] eqn:D; [|discriminate]. apply Some_inj in H as <-.
    destruct C as [C0 C1]. apply IH in D; [|destruct x; apply compact_sub_compact; assumption].
    apply compact_sub_prune; destruct x; assumption.
Qed.

Lemma compact_tdel t k t' : compact t -> tdel t k = Ok t' -> compact t'.
Proof.
  unfold tdel. intros C H. destruct (tdel_aux t k) as [u|] eqn:D; [|discriminate].
  apply compact_tdel_aux in D; [|exact C].
  destruct u; injection H as <-; [cbn; auto | apply compact_sub_compact; exact D].
Qed.

(* ---- keys / values / suffixes *)
Lemma in_tkeys t : forall k, In k (tkeys t) <-> exists v, tget t k = Ok v.
Proof.
  induction t as [|w c0 IH0 c1 IH1]; intros k.
  - cbn. rewrite tget_Empty. split; [tauto | intros [v H]; discriminate].
  - cbn [tkeys]. rewrite !in_app_iff, !in_map_iff. split.
    + intros [H|[(s & <- & H)|(s & <- & H)]].
      * destruct w as [a|]; [|destruct H]. destruct H as [<-|[]]. exists a. reflexivity.
      * apply IH0. exact H.
      * apply IH1. exact H.
    + intros [v H]. destruct k as [|x k].
      * left. destruct w as [a|]; [left; reflexivity | discriminate].
      * destruct x.
        -- right. right. exists k. split; [reflexivity|]. apply IH1. eauto.
        -- right. left. exists k. split; [reflexivity|]. apply IH0. eauto.
Qed.

Lemma NoDup_map_cons (x : bool) (l : list bits) : NoDup l -> NoDup (map (cons x) l).
Proof.
  induction 1 as [|a l N _ IH]; cbn; constructor; auto.
  rewrite in_map_iff. intros (b & E & Hb). injection E as ->. contradiction.
Qed.

Lemma NoDup_tkeys t : NoDup (tkeys t).
Proof.
  induction t as [|w c0 IH0 c1 IH1]; cbn [tkeys]; [constructor|].
  assert (N01 : NoDup (map (cons false) (tkeys c0) ++ map (cons true) (tkeys c1))).
  { apply NoDup_app_disj; try (apply NoDup_map_cons; assumption).
    intros x. rewrite !in_map_iff. intros (s & <- & _) (s' & E & _). discriminate. }
  destruct w as [a|]; [|exact N01]. cbn. constructor; [|exact N01].
  rewrite in_app_iff, !in_map_iff. intros [(s & E & _)|(s & E & _)]; discriminate.
Qed.

Lemma in_suffixes t p s : In s (suffixes t p) <-> exists v, tget t (p ++ s) = Ok v.
Proof. unfold suffixes. rewrite in_tkeys, tget_app. reflexivity. Qed.

Lemma in_titems t k v : In (k, v) (titems t) <-> tget t k = Ok v.
Proof.
  unfold titems. rewrite in_flat_map. split.
  - intros (k' & Hk & H). destruct (tget t k') eqn:G; cbn in H; [|destruct H].
    destruct H as [E|[]]. injection E as <- <-. exact G.
  - intros G. exists k. split; [apply in_tkeys; eauto|]. rewrite G. left. reflexivity.
Qed.

Lemma mapM_tget_tkeys t : mapM (tget t) (tkeys t) = Ok (tvalues t).
Proof.
  induction t as [|w c0 IH0 c1 IH1]; [reflexivity|]. cbn [tkeys tvalues].
  apply mapM_app; [destruct w; reflexivity|].
  apply mapM_app; rewrite mapM_map.
  - rewrite (mapM_ext _ (tget c0)); [exact IH0 | reflexivity].
  - rewrite (mapM_ext _ (tget c1)); [exact IH1 | reflexivity].
Qed.

(* the buckets visited for one level of closest_nodes: never a KeyError, exactly the values below key *)
Lemma under_ok t q : under t q = Ok (tvalues (tfind t q)).
Proof.
  unfold under, suffixes. rewrite (mapM_ext _ (tget (tfind t q))).
  - apply mapM_tget_tkeys.
  - intros s. apply tget_app.
Qed.

Lemma in_tvalues t v : In v (tvalues t) <-> exists k, tget t k = Ok v.
Proof.
  induction t as [|w c0 IH0 c1 IH1].
  - cbn. split; [tauto|]. intros [k H]. rewrite tget_Empty in H. discriminate.
  - cbn [tvalues]. rewrite !in_app_iff, IH0, IH1. split.
    + intros [H|[[k H]|[k H]]].
      * destruct w as [a|]; [|destruct H]. destruct H as [<-|[]]. exists []. reflexivity.
      * exists (false :: k). exact H.
      * exists (true :: k). exact H.
    + intros [[|x k] H].
      * left. destruct w as [a|]; [|discriminate]. injection H as <-. left. reflexivity.
      * destruct x; [right; right|right; left]; eauto.
Qed.

(* ---- tmap *)
Lemma tvalues_tmap f t : tvalues (tmap f t) = map f (tvalues t).
Proof.
  induction t as [|w c0 IH0 c1 IH1]; [reflexivity|]. cbn [tmap tvalues].
  rewrite IH0, IH1, !map_app. destruct w; reflexivity.
Qed.

End TrieFacts.
