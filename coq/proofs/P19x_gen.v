(* C19x - the symbolic exploration evaluated on the generated check_database programs (gen/G19x_upgrade.v), under
   the transaction rules of model/M19_sqltx.v, and the kill histories props/C19x.v speaks of. *)
From Coq Require Import ZArith List.
From IPV8V Require Import model.M19_sqltx gen.G19x_upgrade spec.S19x_legacy proofs.P19x_sound.
Import ListNotations.
Open Scope Z_scope.

(* the reachable set is named before evaluating, so that it is computed once for both halves of the check *)
Lemma identity_checked :
  upgrade_check identity_sources identity_ucfg identity_v1 identity_allowed (identity_v2 (version_is 2)) = true.
Proof. unfold upgrade_check. set (R := reach _ _ _). vm_compute. reflexivity. Qed.

Lemma wallet_checked :
  upgrade_check wallet_sources wallet_ucfg wallet_v1 wallet_allowed (wallet_v2 (version_is 2)) = true.
Proof. unfold upgrade_check. set (R := reach _ _ _). vm_compute. reflexivity. Qed.

(* first open of a brand-new file: no sources, no tables; the targets are whatever is reachable *)
Lemma identity_fresh_checked : upgrade_check [] identity_ucfg [] (reach [] identity_ucfg []) identity_new = true.
Proof. unfold upgrade_check. set (R := reach _ _ _). vm_compute. reflexivity. Qed.

Lemma wallet_fresh_checked : upgrade_check [] wallet_ucfg [] (reach [] wallet_ucfg []) wallet_new = true.
Proof. unfold upgrade_check. set (R := reach _ _ _). vm_compute. reflexivity. Qed.

Definition identity_history (env : Z -> list xrow) (ks : list nat) :=
  xhistory apply_c version_c identity_ucfg (fresh_conn (conc env identity_v1)) (kills ks).
Definition wallet_history (env : Z -> list xrow) (ks : list nat) :=
  xhistory apply_c version_c wallet_ucfg (fresh_conn (conc env wallet_v1)) (kills ks).

Definition identity_creation (ks : list nat) :=
  xhistory apply_c version_c identity_ucfg (fresh_conn []) (kills ks).
Definition wallet_creation (ks : list nat) :=
  xhistory apply_c version_c wallet_ucfg (fresh_conn []) (kills ks).
