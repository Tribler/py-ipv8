(* C13 - addr_eqb as equality; lemmas about the per-node transition functions of the introduction protocol (any node
   state); the translated LAN subnet table is RFC 1918. *)
From Coq Require Import ZArith List Bool Lia ZifyBool.
From IPV8V Require Import gen.G13_lan model.M13_nat.
Import ListNotations.
Open Scope Z_scope.

Lemma addr_eqb_eq a b : addr_eqb a b = true <-> a = b.
Proof.
  destruct a as [a1 a2], b as [b1 b2]. unfold addr_eqb. cbn [fst snd].
  rewrite andb_true_iff, !Z.eqb_eq. split.
  - intros [-> ->]. reflexivity.
  - intros H. inversion H. split; reflexivity.
Qed.
Lemma addr_eqb_refl a : addr_eqb a a = true.
Proof. apply addr_eqb_eq. reflexivity. Qed.
Lemma addr_eqb_neq a b : addr_eqb a b = false <-> a <> b.
Proof.
  split.
  - intros H E. apply addr_eqb_eq in E. congruence.
  - intros H. destruct (addr_eqb a b) eqn:E; [apply addr_eqb_eq in E; contradiction | reflexivity].
Qed.

Lemma find_put_peer p l : find_peer (p_key p) (put_peer p l) = Some p.
Proof.
  unfold find_peer. induction l as [|q tl IH]; cbn [put_peer find].
  - rewrite Z.eqb_refl. reflexivity.
  - destruct (p_key q =? p_key p) eqn:E.
    + cbn [find]. rewrite Z.eqb_refl. reflexivity.
    + destruct (p_key p <? p_key q) eqn:L; cbn [find].
      * rewrite Z.eqb_refl. reflexivity.
      * rewrite E. exact IH.
Qed.
Lemma in_put_peer p l : In p (put_peer p l).
Proof.
  induction l as [|q tl IH]; cbn [put_peer]; [left; reflexivity|].
  destruct (p_key q =? p_key p); [left; reflexivity|].
  destruct (p_key p <? p_key q); [left; reflexivity | right; exact IH].
Qed.
Lemma put_peer_inv q p l : In q (put_peer p l) -> q = p \/ In q l.
Proof.
  induction l as [|r tl IH]; cbn [put_peer].
  - intros [H|[]]; left; auto.
  - destruct (p_key r =? p_key p).
    + intros [H|H]; [left; auto | right; right; exact H].
    + destruct (p_key p <? p_key r).
      * intros [H|H]; [left; auto | right; exact H].
      * intros [H|H]; [right; left; exact H |].
        destruct (IH H) as [E|E]; [left; exact E | right; right; exact E].
Qed.

Lemma find_peer_key k l p : find_peer k l = Some p -> p_key p = k /\ In p l.
Proof.
  unfold find_peer. intros H. pose proof (find_some _ _ H) as [Hin Hk]. split; [lia | exact Hin].
Qed.

Lemma touch_peer n key src p known : touch n key src = (p, known) -> p_key p = key /\ p_v4 p = src.
Proof.
  unfold touch. destruct (find_peer key (n_peers n)) as [q|] eqn:Ef; intros E; inversion E; subst; cbn; [|tauto].
  apply find_peer_key in Ef. tauto.
Qed.

(* record projections through the setters *)
Lemma add_verified_static n p known :
  n_key (add_verified n p known) = n_key n /\ n_lan (add_verified n p known) = n_lan n
  /\ n_wan (add_verified n p known) = n_wan n /\ n_gt (add_verified n p known) = n_gt n
  /\ n_sel (add_verified n p known) = n_sel n.
Proof.
  unfold add_verified. destruct (p_key p =? n_key n); [repeat split|].
  destruct known; cbn; repeat split.
Qed.

Lemma add_verified_peers n p known :
  p_key p <> n_key n -> n_peers (add_verified n p known) = put_peer p (n_peers n).
Proof.
  intros H. unfold add_verified. destruct (p_key p =? n_key n) eqn:E; [lia|].
  destruct known; reflexivity.
Qed.

Lemma discover_cases n k a b :
  discover n k a b = n \/ discover n k a b = set_addrs n (addrs_set a (Some k, b) (n_addrs n)).
Proof. unfold discover. destruct (match addrs_get a (n_addrs n) with None => true | _ => _ end); auto. Qed.
Lemma discover_static n k a b :
  n_key (discover n k a b) = n_key n /\ n_lan (discover n k a b) = n_lan n
  /\ n_wan (discover n k a b) = n_wan n /\ n_peers (discover n k a b) = n_peers n.
Proof. destruct (discover_cases n k a b) as [-> | ->]; repeat split. Qed.

Lemma fold_discover_static l : forall n k b,
  let n' := fold_left (fun acc a => discover acc k a b) l n in
  n_key n' = n_key n /\ n_lan n' = n_lan n /\ n_wan n' = n_wan n /\ n_peers n' = n_peers n.
Proof.
  induction l as [|a tl IH]; intros n k b; cbn [fold_left]; [repeat split|].
  specialize (IH (discover n k a b) k b). cbn zeta in IH.
  destruct IH as (H1 & H2 & H3 & H4). destruct (discover_static n k a b) as (E1 & E2 & E3 & E4).
  cbn zeta. rewrite H1, H2, H3, H4. repeat split; assumption.
Qed.

Definition introduces (m : msg) : bool :=
  match m with
  | IntroResp _ _ _ _ _ ilan iwan _ _ _ => negb (addr_eqb ilan zero_addr && addr_eqb iwan zero_addr)
  | _ => false
  end.

Lemma pick_in n l c : pick n l = Some c -> In c l.
Proof.
  unfold pick, pick_sel. destruct l as [|x tl]; [discriminate|]. intros H. eapply nth_error_In; exact H.
Qed.

Lemma intro_candidates_sub n src c : In c (intro_candidates n src) -> In c (n_peers n).
Proof.
  unfold intro_candidates. destruct (find (has_addr src) (n_peers n)); [|auto].
  intros H. apply filter_In in H. tauto.
Qed.

Lemma selection_sound : forall my_lan my_wan ilan iwan a,
  In a (intro_selection my_lan my_wan ilan iwan) -> a = ilan \/ a = iwan \/ a = (fst my_lan, snd iwan).
Proof.
  intros my_lan my_wan ilan iwan a. unfold intro_selection.
  destruct (negb (addr_eqb iwan zero_addr) && negb (fst iwan =? fst my_wan)).
  - destruct (negb (addr_eqb ilan zero_addr)); cbn; intuition.
  - destruct (negb (addr_eqb ilan zero_addr) && (fst iwan =? fst my_wan)); [cbn; intuition|].
    destruct (negb (addr_eqb iwan zero_addr)); cbn; intuition.
Qed.

Definition learned_wan (n : node) (dest : addr) : addr :=
  if in_lan_subnets (fst dest) then n_wan n else dest.

Lemma addrs_set_in a v l : In (a, v) (addrs_set a v l).
Proof.
  induction l as [|e tl IH]; cbn [addrs_set]; [left; reflexivity|].
  destruct (addr_eqb (fst e) a); [left; reflexivity | right; exact IH].
Qed.
Lemma addrs_set_keeps a v l x w : x <> a -> In (x, w) l -> In (x, w) (addrs_set a v l).
Proof.
  intros Hx. induction l as [|e tl IH]; cbn [addrs_set]; [intros []|].
  destruct (addr_eqb (fst e) a) eqn:E.
  - intros [H|H]; [subst e; cbn in E; apply addr_eqb_eq in E; contradiction | right; exact H].
  - intros [H|H]; [left; exact H | right; apply IH; exact H].
Qed.

Definition registered (a : addr) (n : node) : Prop := exists k b, In (a, (Some k, b)) (n_addrs n).

Lemma discover_registers n k a b : registered a (discover n k a b).
Proof.
  unfold discover, registered. destruct (addrs_get a (n_addrs n)) as [[io b0]|] eqn:Eg.
  - destruct io as [k0|].
    + destruct (find_peer k0 (n_peers n)).
      * unfold addrs_get in Eg. destruct (find (fun e => addr_eqb (fst e) a) (n_addrs n)) as [e|] eqn:Ef; [|discriminate].
        pose proof (find_some _ _ Ef) as [Hin He]. apply addr_eqb_eq in He. inversion Eg.
        exists k0, b0. destruct e as [a' v]. cbn in *. subst. exact Hin.
      * exists k, b. cbn. apply addrs_set_in.
    + exists k, b. cbn. apply addrs_set_in.
  - exists k, b. cbn. apply addrs_set_in.
Qed.
Lemma discover_keeps n k a b x : registered x n -> registered x (discover n k a b).
Proof.
  intros (k0 & b0 & Hin). destruct (addr_eqb x a) eqn:E.
  - apply addr_eqb_eq in E. subst x. apply discover_registers.
  - apply addr_eqb_neq in E. exists k0, b0. destruct (discover_cases n k a b) as [-> | ->]; [exact Hin|].
    apply addrs_set_keeps; assumption.
Qed.
Lemma fold_discover_registers l : forall n k b a,
  In a l \/ registered a n -> registered a (fold_left (fun acc x => discover acc k x b) l n).
Proof.
  induction l as [|x tl IH]; intros n k b a H; cbn [fold_left].
  - destruct H as [[]|H]; exact H.
  - apply IH. destruct H as [[H|H]|H].
    + subst x. right. apply discover_registers.
    + left. exact H.
    + right. apply discover_keeps. exact H.
Qed.

Lemma addr_insert_in a x l : In x (addr_insert a l) <-> x = a \/ In x l.
Proof.
  induction l as [|b tl IH]; cbn [addr_insert].
  - cbn. intuition.
  - destruct (addr_leb a b); cbn [In]; [intuition|]. rewrite IH. intuition.
Qed.
Lemma addr_sort_in x l : In x (addr_sort l) <-> In x l.
Proof.
  induction l as [|a tl IH]; cbn [addr_sort fold_right]; [tauto|].
  fold (addr_sort tl). rewrite addr_insert_in, IH. cbn. intuition.
Qed.
(* the translated table is RFC 1918: 10/8, 172.16/12, 192.168/16 *)
Definition rfc1918 (ip : Z) : Prop :=
  (ip4 10 0 0 0 <= ip <= ip4 10 255 255 255) \/ (ip4 172 16 0 0 <= ip <= ip4 172 31 255 255)
  \/ (ip4 192 168 0 0 <= ip <= ip4 192 168 255 255).

Lemma shiftr_range ip base k : 0 <= k ->
  (Z.shiftr ip k =? Z.shiftr base k) = true <-> (Z.shiftr base k) * 2 ^ k <= ip < (Z.shiftr base k + 1) * 2 ^ k.
Proof.
  intros Hk. rewrite Z.eqb_eq, !Z.shiftr_div_pow2 by assumption.
  assert (0 < 2 ^ k) by (apply Z.pow_pos_nonneg; lia).
  split.
  - intros E. rewrite <- E. pose proof (Z.mul_div_le ip (2 ^ k) H).
    pose proof (Z.mul_succ_div_gt ip (2 ^ k) H). lia.
  - intros [L U]. symmetry. apply Z.div_unique with (r := ip - base / 2 ^ k * 2 ^ k); lia.
Qed.

Lemma lan_subnets_rfc1918_l : forall ip, in_lan_subnets ip = true <-> rfc1918 ip.
Proof.
  intros ip. unfold in_lan_subnets, lan_subnets. cbn [existsb]. rewrite orb_false_r, !orb_true_iff.
  unfold in_subnet. cbn [fst snd].
  rewrite !shiftr_range by lia. unfold rfc1918, ip4.
  change (Z.shiftr 3232235520 (32 - 16)) with 49320. change (Z.shiftr 2886729728 (32 - 12)) with 2753.
  change (Z.shiftr 167772160 (32 - 8)) with 10.
  change (2 ^ (32 - 16)) with 65536. change (2 ^ (32 - 12)) with 1048576. change (2 ^ (32 - 8)) with 16777216.
  lia.
Qed.
