(* C18 - the Peng-Bao range proof over any abelian group: completeness (exponent algebra), the impossibility of
   building a proof honestly for a value outside the range, the refutation of soundness against a prover who knows
   the order of g, and the group laws of the executable instance ev. *)
From Coq Require Import ZArith List Bool Lia.
From IPV8V Require Import lib.PyErr model.M18_hom model.M18_range spec.S18_bgn proofs.P18_hom.
Import ListNotations.
Open Scope Z_scope.

(* sign of mst = w^2 (v - a + 1) (b - v + 1), the number whose square root create_attest_pair takes *)
Lemma mst_nonneg w v a b : a <= v <= b -> 0 <= w * w * (v - a + 1) * (b - v + 1).
Proof.
  intros Hv. assert (0 <= w * w) by nia. assert (0 <= (v - a + 1) * (b - v + 1)) by nia.
  rewrite <- Z.mul_assoc. apply Z.mul_nonneg_nonneg; assumption.
Qed.

Lemma mst_nonpos w v a b : a <= b -> v < a \/ b < v -> w * w * (v - a + 1) * (b - v + 1) <= 0.
Proof.
  intros Hab Hout. assert (HW : 0 <= w * w) by nia. remember (w * w) as W eqn:HeqW. clear HeqW.
  destruct Hout.
  - assert (W * (v - a + 1) <= 0) by nia. nia.
  - assert (0 <= W * (v - a + 1)) by nia. nia.
Qed.

Section RangeProofs.
  Variable G : Type.
  Variable gmul : G -> G -> G.
  Variable gone : G.
  Variable ginv : G -> G.
  Variable geqb : G -> G -> bool.
  Variable g h : G.
  Variable Hsh : G -> G -> Z.
  Hypothesis grp : abelian_group G gmul gone ginv.
  Hypothesis geqb_refl : forall a, geqb a a = true.

  Local Notation "a ** b" := (gmul a b) (at level 40, left associativity).
  Local Notation pw := (gpow G gmul gone ginv).
  (* a^m * b^r *)
  Local Notation com := (commit G gmul gone ginv).

  Let A := proj1 grp.
  Let C := proj1 (proj2 grp).
  Let O := proj1 (proj2 (proj2 grp)).
  Let I := proj2 (proj2 (proj2 grp)).

  Lemma com_mul a b m r m' r' : com a b m r ** com a b m' r' = com a b (m + m') (r + r').
  Proof.
    unfold commit. rewrite !(gpow_add G gmul gone ginv A C O I).
    rewrite <- !A. f_equal. rewrite !A. f_equal. apply C.
  Qed.

  Lemma com_pow a b m r k : pw (com a b m r) k = com a b (m * k) (r * k).
  Proof.
    unfold commit. rewrite (gpow_mul_base G gmul gone ginv A C O I), !(gpow_gpow G gmul gone ginv A C O I). reflexivity.
  Qed.

  Lemma com_inv a b m r : ginv (com a b m r) = com a b (- m) (- r).
  Proof.
    unfold commit. rewrite (ginv_mul G gmul gone ginv A C O I), !(gpow_neg G gmul gone ginv A C O I). reflexivity.
  Qed.

  Lemma com_base_l a b m : pw a m = com a b m 0.
  Proof. unfold commit. cbn [gpow]. symmetry. apply (gmul_one_r G gmul gone C O). Qed.

  Lemma com_base_r a b r : pw b r = com a b 0 r.
  Proof. unfold commit. cbn [gpow]. symmetry. apply O. Qed.

  Lemma com_eq a b m r m' r' : m = m' -> r = r' -> com a b m r = com a b m' r'.
  Proof. intros -> ->. reflexivity. Qed.

  Lemma geqb_com a b m r m' r' : m = m' -> r = r' -> geqb (com a b m r) (com a b m' r') = true.
  Proof. intros -> ->. apply geqb_refl. Qed.

  (* the verifier recomputes the prover's commitment a^w b^n from the responses and y = a^x b^r *)
  Lemma el_recompute a b x r w n c : pw a (w + c * x) ** pw b (n + c * r) ** pw (com a b x r) (- c) = pw a w ** pw b n.
  Proof.
    change (com a b (w + c * x) (n + c * r) ** pw (com a b x r) (- c) = com a b w n).
    rewrite com_pow, com_mul. apply com_eq; ring.
  Qed.

  Lemma el_complete x r1 r2 g1 h1 g2 h2 rnd :
    el_check G gmul gone ginv Hsh (el_create G gmul gone ginv Hsh x r1 r2 g1 h1 g2 h2 rnd)
             g1 h1 g2 h2 (com g1 h1 x r1) (com g2 h2 x r2) = true.
  Proof.
    destruct rnd as [[w n1] n2]. unfold el_check, el_create. cbv zeta. cbn [el_c el_D el_D1 el_D2].
    rewrite !el_recompute. apply Z.eqb_refl.
  Qed.

  Lemma sqr_complete x r1 gg hh rnd :
    sqr_check G gmul gone ginv Hsh (sqr_create G gmul gone ginv Hsh x r1 gg hh rnd) gg hh (com gg hh (x * x) r1) = true.
  Proof.
    destruct rnd as [[[r2 w] n1] n2]. unfold sqr_check, sqr_create. cbv zeta. cbn [sq_F sq_el].
    change (pw gg x ** pw hh r2) with (com gg hh x r2).
    set (F := com gg hh x r2).
    assert (E : com gg hh (x * x) r1 = com F hh x (r1 - r2 * x)).
    { unfold F. unfold commit at 2. rewrite com_pow. rewrite (com_base_r gg hh (r1 - r2 * x)), com_mul. apply com_eq; ring. }
    rewrite E. apply el_complete.
  Qed.

  (* Any answer (x, y, u, w) that opens ca1^s ca2 ca3 and ca1 ca2^t ca3 with positive x, y is accepted,
     whatever m4, m1, r1, r2 the commitments were built from. *)
  Lemma build_pair_accepts v a b rd m4 m1 r1 r2 s t x y u w' :
    let pp := build_pair G gmul gone ginv g h Hsh v a b rd m4 m1 r1 r2 in
    0 < x -> 0 < y ->
    com g h x u = com g h (s * p_m1 (snd pp) + p_m2 (snd pp) + p_m3 (snd pp)) (s * p_r1 (snd pp) + p_r2 (snd pp) + p_r3 (snd pp)) ->
    com g h y w' = com g h (p_m1 (snd pp) + t * p_m2 (snd pp) + p_m3 (snd pp)) (p_r1 (snd pp) + t * p_r2 (snd pp) + p_r3 (snd pp)) ->
    range_check G gmul gone ginv geqb g h Hsh (fst pp) a b s t (x, y, u, w') = true.
  Proof.
    cbv zeta. unfold build_pair. cbv zeta. cbn [fst snd p_m1 p_m2 p_m3 p_r1 p_r2 p_r3].
    set (r := d_r rd). set (ra := d_ra rd). set (raa := d_raa rd * d_raa rd). set (w := d_w rd).
    set (mst := w * w * (v - a + 1) * (b - v + 1)).
    set (rst := w * w * ((b - v + 1) * r + ra) + raa).
    set (m2 := mst - m1 - m4 * m4). set (r3 := rst - r1 - r2).
    intros Hx Hy Ex Ey.
    unfold range_check. cbn [pub_com pub_el pub_sqr1 pub_sqr2 k_c k_c1 k_c2 k_ca k_ca1 k_ca2 k_ca3 k_caa].
    change (pw g v ** pw h r) with (com g h v r).
    change (pw g m1 ** pw h r1) with (com g h m1 r1).
    change (pw g m2 ** pw h r2) with (com g h m2 r2).
    assert (Ec1 : com g h v r ** ginv (pw g (a - 1)) = com g h (v - a + 1) r).
    { rewrite <- (gpow_neg G gmul gone ginv A C O I), (com_base_l g h (- (a - 1))), com_mul. apply com_eq; ring. }
    assert (Ec2 : pw g (b + 1) ** ginv (com g h v r) = com g h (b - v + 1) (- r)).
    { rewrite com_inv, (com_base_l g h (b + 1)), com_mul. apply com_eq; ring. }
    assert (Eca : pw (com g h (v - a + 1) r) (b - v + 1) ** pw h ra = com g h ((v - a + 1) * (b - v + 1)) (r * (b - v + 1) + ra)).
    { rewrite com_pow, (com_base_r g h ra), com_mul. apply com_eq; ring. }
    assert (Ecaa : pw (com g h ((v - a + 1) * (b - v + 1)) (r * (b - v + 1) + ra)) (w * w) ** pw h raa = com g h mst rst).
    { rewrite com_pow, (com_base_r g h raa), com_mul. apply com_eq; unfold mst, rst; ring. }
    assert (Eca3 : com g h mst rst ** ginv (com g h m1 r1 ** com g h m2 r2) = com g h (m4 * m4) r3).
    { rewrite com_mul, com_inv, com_mul. apply com_eq; unfold m2, r3; ring. }
    rewrite !Ec1. rewrite !Eca. rewrite !Ecaa. rewrite !Eca3.
    repeat (apply andb_true_iff; split).
    - rewrite Ec2. rewrite <- Eca. apply el_complete.
    - rewrite <- Ecaa. apply sqr_complete.
    - apply sqr_complete.
    - apply geqb_refl.
    - apply geqb_refl.
    - rewrite !com_mul. apply geqb_com; unfold m2, r3; ring.
    - change (pw g x ** pw h u) with (com g h x u). rewrite Ex, com_pow, !com_mul. apply geqb_com; ring.
    - change (pw g y ** pw h w') with (com g h y w'). rewrite Ey, com_pow, !com_mul. apply geqb_com; ring.
    - lia.
    - lia.
  Qed.

  Lemma create_ok_inv v a b rd pub priv :
    create_attest_pair G gmul gone ginv g h Hsh v a b rd = Ok (pub, priv) ->
    exists m4 m1 r1 r2, 0 < m4 /\ 0 < m1 /\ (pub, priv) = build_pair G gmul gone ginv g h Hsh v a b rd m4 m1 r1 r2.
  Proof.
    unfold create_attest_pair. cbv zeta.
    set (mst := d_w rd * d_w rd * (v - a + 1) * (b - v + 1)).
    destruct (mst <? 0) eqn:E0; [discriminate|].
    destruct (Z.sqrt mst - 1 =? 0) eqn:E1; [discriminate|].
    destruct (d_m4 rd mod (Z.sqrt mst - 1) =? 0) eqn:E2; [discriminate|].
    destruct (mst - d_m4 rd mod (Z.sqrt mst - 1) =? 0) eqn:E3; [discriminate|].
    destruct (d_m1 rd mod (mst - d_m4 rd mod (Z.sqrt mst - 1)) =? 0) eqn:E4; [discriminate|].
    match goal with |- (if ?c then _ else _) = _ -> _ => destruct c eqn:E5; [discriminate|] end.
    match goal with |- (if ?c then _ else _) = _ -> _ => destruct c eqn:E6; [discriminate|] end.
    match goal with |- (if ?c then _ else _) = _ -> _ => destruct c eqn:E7; [discriminate|] end.
    intros H. inversion H as [H']; clear H.
    set (m4 := d_m4 rd mod (Z.sqrt mst - 1)) in *.
    (* the modulus sqrt(mst) - 1 is not 0, and -1 would make every draw 0: it is positive *)
    assert (Hk : 0 < Z.sqrt mst - 1).
    { pose proof (Z.sqrt_nonneg mst). destruct (Z.eq_dec (Z.sqrt mst - 1) (-1)) as [Hk|Hk]; [|lia].
      unfold m4 in E2. rewrite Hk in E2. pose proof (Z.mod_neg_bound (d_m4 rd) (-1) ltac:(lia)). lia. }
    pose proof (Z.mod_pos_bound (d_m4 rd) _ Hk) as Hm4. fold m4 in Hm4.
    pose proof (Z.sqrt_le_lin mst ltac:(lia)).
    pose proof (Z.mod_pos_bound (d_m1 rd) (mst - m4) ltac:(lia)) as Hm1.
    eexists m4, _, _, _. split; [lia|]. split; [|reflexivity]. lia.
  Qed.

  Lemma range_complete_l v a b rd pub priv s t :
    create_attest_pair G gmul gone ginv g h Hsh v a b rd = Ok (pub, priv) ->
    0 <= p_m2 priv -> 0 < s -> 0 < t ->
    range_check G gmul gone ginv geqb g h Hsh pub a b s t (generate_response priv s t) = true.
  Proof.
    intros Hc Hm2 Hs Ht. destruct (create_ok_inv _ _ _ _ _ _ Hc) as (m4 & m1 & r1 & r2 & Hm4 & Hm1 & Hpp).
    pose proof (build_pair_accepts v a b rd m4 m1 r1 r2 s t) as Hacc. cbv zeta in Hacc.
    rewrite <- Hpp in Hacc. cbn [fst snd] in Hacc. unfold generate_response.
    assert (Hm3 : p_m3 priv = m4 * m4 /\ p_m1 priv = m1).
    { unfold build_pair in Hpp. cbv zeta in Hpp. inversion Hpp. cbn [p_m1 p_m3]. split; reflexivity. }
    destruct Hm3 as [Hm3 Hm1e].
    apply Hacc; try reflexivity; nia.
  Qed.

  (* refutation of soundness against whoever knows the order of the group (the key owner does: n = t1*t2):
     the commitments can be built for ANY value - inside the range or not - with a negative part in the
     decomposition, and answers reduced modulo n are positive and satisfy every equation *)
  Lemma range_forgery_l n v a b rd m4 m1 r1 r2 s t : 0 < n ->
    gpow G gmul gone ginv g n = gone ->
    exists resp, range_check G gmul gone ginv geqb g h Hsh
                   (fst (build_pair G gmul gone ginv g h Hsh v a b rd m4 m1 r1 r2)) a b s t resp = true.
  Proof.
    intros Hn Hg.
    set (pp := build_pair G gmul gone ginv g h Hsh v a b rd m4 m1 r1 r2).
    set (x0 := s * p_m1 (snd pp) + p_m2 (snd pp) + p_m3 (snd pp)).
    set (y0 := p_m1 (snd pp) + t * p_m2 (snd pp) + p_m3 (snd pp)).
    exists (x0 mod n + n, y0 mod n + n, s * p_r1 (snd pp) + p_r2 (snd pp) + p_r3 (snd pp),
            p_r1 (snd pp) + t * p_r2 (snd pp) + p_r3 (snd pp)).
    pose proof (Z.mod_pos_bound x0 n Hn). pose proof (Z.mod_pos_bound y0 n Hn).
    apply (build_pair_accepts v a b rd m4 m1 r1 r2 s t); try lia.
    - unfold commit. rewrite (gpow_mod_order G gmul gone ginv A C O I g n x0 Hg). reflexivity.
    - unfold commit. rewrite (gpow_mod_order G gmul gone ginv A C O I g n y0 Hg). reflexivity.
  Qed.

  (* the intended soundness statement "an accepted proof whose commitment opens to v has a <= v <= b" is
     false of the model as soon as the order of g is known: for EVERY v and r there is public data whose
     commitment is g^v h^r and an answer that range_check accepts *)
  Lemma range_soundness_refuted_l n v a b s t r : 0 < n -> gpow G gmul gone ginv g n = gone ->
    exists pub resp, k_c G (pub_com G pub) = com g h v r /\
                     range_check G gmul gone ginv geqb g h Hsh pub a b s t resp = true.
  Proof.
    intros Hn Hg.
    set (rd := MkRR r 0 0 1 0 0 0 0 (0, 0, 0) (0, 0, 0, 0) (0, 0, 0, 0)).
    destruct (range_forgery_l n v a b rd 0 1 0 0 s t Hn Hg) as (resp & Hresp).
    exists (fst (build_pair G gmul gone ginv g h Hsh v a b rd 0 1 0 0)), resp.
    split; [reflexivity|exact Hresp].
  Qed.

  (* for a value outside [a, b] the construction never returns: the square root is undefined
     (ValueError) or, exactly at a-1 / b+1, the loop drawing m4 cannot terminate *)
  Lemma range_outside_unbuildable_l v a b rd : a <= b -> v < a \/ b < v ->
    create_attest_pair G gmul gone ginv g h Hsh v a b rd = Raise ValueError \/
    create_attest_pair G gmul gone ginv g h Hsh v a b rd = Raise OutOfFuel.
  Proof.
    intros Hab Hout. unfold create_attest_pair. cbv zeta.
    set (mst := d_w rd * d_w rd * (v - a + 1) * (b - v + 1)).
    pose proof (mst_nonpos (d_w rd) v a b Hab Hout) as Hmst. fold mst in Hmst.
    destruct (mst <? 0) eqn:E0; [left; reflexivity|]. right.
    assert (mst = 0) by lia. rewrite H. change (Z.sqrt 0 - 1) with (-1).
    replace (-1 =? 0) with false by reflexivity.
    pose proof (Z.mod_neg_bound (d_m4 rd) (-1) ltac:(lia)) as Hb.
    destruct (d_m4 rd mod -1 =? 0) eqn:E; [reflexivity|lia].
  Qed.
  (* inside the INCLUSIVE range a <= v <= b (both ends included) the square root is defined: the builder never
     refuses the value; it can only ask for other random draws *)
  Lemma range_inside_not_refused_l v a b rd : a <= v <= b ->
    create_attest_pair G gmul gone ginv g h Hsh v a b rd <> Raise ValueError.
  Proof.
    intros Hv. unfold create_attest_pair. cbv zeta.
    set (mst := d_w rd * d_w rd * (v - a + 1) * (b - v + 1)).
    pose proof (mst_nonneg (d_w rd) v a b Hv) as Hmst. fold mst in Hmst.
    destruct (mst <? 0) eqn:E0; [lia|].
    repeat match goal with |- (if ?c then _ else _) <> _ => destruct c end; discriminate.
  Qed.
End RangeProofs.

(* the executable instance is an abelian group *)
Lemma ev_assoc a b c : ev_mul a (ev_mul b c) = ev_mul (ev_mul a b) c.
Proof. destruct a, b, c; unfold ev_mul; cbn; f_equal; ring. Qed.
Lemma ev_comm a b : ev_mul a b = ev_mul b a.
Proof. destruct a, b; unfold ev_mul; cbn; f_equal; ring. Qed.
Lemma ev_one_l a : ev_mul ev_one a = a.
Proof. destruct a; unfold ev_mul; cbn; f_equal. Qed.
Lemma ev_inv_l a : ev_mul (ev_inv a) a = ev_one.
Proof. destruct a; unfold ev_mul, ev_inv, ev_one; cbn; f_equal; ring. Qed.
Lemma ev_eqb_refl a : ev_eqb a a = true.
Proof. destruct a; unfold ev_eqb; cbn. rewrite !Z.eqb_refl. reflexivity. Qed.

Lemma ev_is_group : abelian_group ev ev_mul ev_one ev_inv.
Proof. split; [exact ev_assoc|split; [exact ev_comm|split; [exact ev_one_l|exact ev_inv_l]]]. Qed.
