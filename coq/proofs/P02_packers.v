(* The translated Packer classes / Serializer methods (gen/G02_packers.v) refine the wire model M02_wire. *)
From Coq Require Import String ZArith List Bool Lia ZifyBool.
From IPV8V Require Import lib.PyErr lib.Bytes lib.BE model.M02_wire model.M02_oldstyle model.M02_packers_rt
  gen.G02_packers proofs.P02_prims proofs.P02_roundtrip.
Import ListNotations.
Open Scope Z_scope.

Lemma val_eqb_int w z : val_eqb w (VInt z) = true -> w = VInt z.
Proof. destruct w; cbn; try discriminate. intros H. apply Z.eqb_eq in H. subst. reflexivity. Qed.

Lemma attr_is_int p n z : attr_is p n (VInt z) = true -> pk_attr p n = Ok (VInt z).
Proof.
  unfold attr_is, pk_attr. destruct (alist_get n (pk_attrs p)); [|discriminate]. intros H. apply val_eqb_int in H. subst. reflexivity.
Qed.

Lemma fmt_attr_inv p n r : fmt_attr p n = Some r -> exists s, pk_attr p n = Ok (VStr s) /\ parse_fmt s = Some r.
Proof.
  unfold fmt_attr, pk_attr. destruct (alist_get n (pk_attrs p)) as [v|]; [|discriminate]. destruct v; try discriminate.
  intros H. exists b. split; [reflexivity|exact H].
Qed.

Lemma len_attr_inv p n sz le lw : len_attr p n sz le = Some lw ->
  exists s, pk_attr p n = Ok (VStr s) /\ parse_fmt s = Some (le, [PU lw]) /\ pk_attr p sz = Ok (VInt (Z.of_nat lw)).
Proof.
  unfold len_attr. destruct (fmt_attr p n) as [[le' ps]|] eqn:E; [|discriminate].
  destruct ps as [|q [|? ?]]; try discriminate; (destruct q; try discriminate).
  destruct (Bool.eqb le le' && attr_is p sz (VInt (Z.of_nat w))) eqn:C; [|discriminate].
  intros H. injection H as <-. apply andb_true_iff in C as [C1 C2]. apply Bool.eqb_prop in C1. subst le'.
  destruct (fmt_attr_inv _ _ _ E) as (s & Hs & Hp). exists s. split; [exact Hs|]. split; [exact Hp|]. apply attr_is_int. exact C2.
Qed.

Lemma nat_attr_inv p n k : nat_attr p n = Some k -> pk_attr p n = Ok (VInt (Z.of_nat k)).
Proof.
  unfold nat_attr, pk_attr. destruct (alist_get n (pk_attrs p)) as [v|]; [|discriminate]. destruct v; try discriminate.
  destruct (0 <=? z) eqn:E; [|discriminate]. intros H. injection H as <-. rewrite Z2Nat.id by lia. reflexivity.
Qed.

Lemma nat_of_offset_nat off : nat_of_offset (VInt (Z.of_nat off)) = Ok off.
Proof. unfold nat_of_offset. cbn [as_int]. replace (Z.of_nat off <? 0) with false by lia. rewrite Nat2Z.id. reflexivity. Qed.

Lemma py_unpack_from_nat s le ps data off : parse_fmt s = Some (le, ps) ->
  py_unpack_from (VStr s) (VBytes data) (VInt (Z.of_nat off))
  = (do bs <- take (struct_size ps) off data; Ok (VTuple (struct_dec ps (if le then rev bs else bs)))).
Proof. intros H. unfold py_unpack_from, fmt_of_val. rewrite H. cbn [bind]. rewrite nat_of_offset_nat. reflexivity. Qed.

Lemma py_add_nat a b : py_add (VInt (Z.of_nat a)) (VInt (Z.of_nat b)) = Ok (VInt (Z.of_nat (a + b))).
Proof. cbn [py_add as_int]. rewrite Nat2Z.inj_add. reflexivity. Qed.
Lemma py_iadd_nat a b : py_iadd (VInt (Z.of_nat a)) (VInt (Z.of_nat b)) = Ok (VInt (Z.of_nat (a + b))).
Proof. apply py_add_nat. Qed.
Lemma py_mul_nat a b : py_mul (VInt (Z.of_nat a)) (VInt (Z.of_nat b)) = Ok (VInt (Z.of_nat (a * b))).
Proof. cbn [py_mul as_int]. rewrite Nat2Z.inj_mul. reflexivity. Qed.
Lemma py_len_bytes d : py_len (VBytes d) = Ok (VInt (Z.of_nat (length d))).
Proof. reflexivity. Qed.
Lemma py_gt_nat a b : py_gt (VInt (Z.of_nat a)) (VInt (Z.of_nat b)) = Ok (VBool (b <? a)%nat).
Proof. unfold py_gt, cmp2. cbn [as_int]. do 2 f_equal. lia. Qed.
Lemma py_append_list l x : py_append (VList l) x = Ok (VList (l ++ [x])).
Proof. reflexivity. Qed.

Lemma clamp_nat n a : clamp (Z.of_nat n) (Z.of_nat a) = Z.of_nat (Nat.min a n).
Proof. unfold clamp. cbv zeta. destruct (Z.of_nat a <? 0) eqn:E0; [lia|]. rewrite E0. destruct (Z.of_nat n <? Z.of_nat a) eqn:E; lia. Qed.
Lemma lslice_nat {A} (d : list A) a b :
  lslice d (Some (Z.of_nat a)) (Some (Z.of_nat b)) = firstn (b - a) (skipn a d).
Proof.
  unfold lslice. rewrite !clamp_nat. set (n := length d).
  replace (Z.to_nat (Z.of_nat (Nat.min b n) - Z.of_nat (Nat.min a n))) with (Nat.min b n - Nat.min a n)%nat by lia.
  rewrite Nat2Z.id.
  destruct (Nat.le_gt_cases a n) as [Ha|Ha].
  - rewrite (Nat.min_l a n Ha). destruct (Nat.le_gt_cases b n) as [Hb|Hb].
    + rewrite (Nat.min_l b n Hb). reflexivity.
    + rewrite (Nat.min_r b n) by lia. rewrite !firstn_all2; try reflexivity; rewrite skipn_length; fold n; lia.
  - rewrite (Nat.min_r a n) by lia. rewrite !skipn_all2 by (fold n; lia). rewrite !firstn_nil. reflexivity.
Qed.
Lemma py_slice_nat d a b :
  py_slice (VBytes d) (Some (VInt (Z.of_nat a))) (Some (VInt (Z.of_nat b))) = Ok (VBytes (firstn (b - a) (skipn a d))).
Proof. unfold py_slice. cbn [opt_int as_int bind]. rewrite lslice_nat. reflexivity. Qed.

Lemma pk_index_tuple0 x l : pk_index (VTuple (x :: l)) (VInt 0) = Ok x.
Proof. reflexivity. Qed.

Lemma pk_index_list0 x l : pk_index (VList (x :: l)) (VInt 0) = Ok x.
Proof. reflexivity. Qed.

Lemma struct_dec_length ps : forall bs, length (struct_dec ps bs) = length ps.
Proof. induction ps as [|p ps IH]; intros bs; [reflexivity|]. cbn [struct_dec length]. rewrite IH. reflexivity. Qed.

Lemma fmt_inv p f : fmt_of_packer p = Some f ->
  match f with
  | FStruct ps =>
      pk_cls p = "DefaultStruct"%string /\ ps <> [] /\
      exists s, pk_attr p "format_str" = Ok (VStr s) /\ parse_fmt s = Some (false, ps) /\
                pk_attr p "size" = Ok (VInt (Z.of_nat (struct_size ps)))
  | FBits => pk_cls p = "Bits"%string
  | FRaw => pk_cls p = "Raw"%string
  | FIPv4 => pk_cls p = "IPv4"%string
  | FAddr b => pk_cls p = "Address"%string /\ pk_attr p "ip_only" = Ok (VBool b)
  | FVarLen lw base utf8 =>
      pk_cls p = (if utf8 then "VarLenUtf8" else "VarLen")%string /\
      len_attr p "length_format" "length_size" false = Some lw /\ nat_attr p "base" = Some base
  | FListOf lw f' =>
      pk_cls p = "ListOf"%string /\ len_attr p "length_format" "length_size" false = Some lw /\
      exists q, subs_get "packer" (pk_subs p) = Some q /\ fmt_of_packer q = Some f'
  | FArray e lw =>
      pk_cls p = "DefaultArray"%string /\ len_attr p "length_format" "length_size" true = Some lw /\
      exists tc real e', pk_attr p "format_str" = Ok (VStr tc) /\ pk_attr p "real_format_str" = Ok (VStr real) /\
        array_elem (VStr real) = Ok e' /\ pk_attr p "base" = Ok (VInt (Z.of_nat (psize e'))) /\
        ((tc = [63] /\ real = [66] /\ e = PBool) \/ (bytes_eqb tc [63] = false /\ tc = real /\ e = e'))
  | FFlags w => pk_cls p = "Flags"%string /\ len_attr p "format" "size" false = Some w
  | FNode => pk_cls p = "NodePacker"%string
  | FNested _ => False
  end.
Proof.
  destruct p as [cls attrs subs]. cbn [fmt_of_packer pk_cls pk_subs]. intros H.
  (* the conclusion stays folded while the class name is analysed, so that each case split carries only H *)
  pattern f. match goal with |- ?Q0 f => set (Q := Q0) end.
  destruct (String.eqb cls "DefaultStruct") eqn:E1.
  { apply String.eqb_eq in E1. destruct (fmt_attr _ _) as [[[] ps]|] eqn:Ef; try discriminate H.
    destruct (_ && _) eqn:C; [|discriminate H]. injection H as <-. apply andb_true_iff in C as [C1 C2].
    split; [exact E1|]. split; [intros ->; discriminate C1|].
    destruct (fmt_attr_inv _ _ _ Ef) as (s & Hs & Hp). exists s. split; [exact Hs|]. split; [exact Hp|]. apply attr_is_int. exact C2. }
  destruct (String.eqb cls "Bits") eqn:E2. { apply String.eqb_eq in E2. injection H as <-. exact E2. }
  destruct (String.eqb cls "Raw") eqn:E3. { apply String.eqb_eq in E3. injection H as <-. exact E3. }
  destruct (String.eqb cls "IPv4") eqn:E4. { apply String.eqb_eq in E4. injection H as <-. exact E4. }
  destruct (String.eqb cls "Address") eqn:E5.
  { apply String.eqb_eq in E5. destruct (alist_get "ip_only" attrs) as [[]|] eqn:A; try discriminate H.
    injection H as <-. split; [exact E5|]. unfold pk_attr. cbn [pk_attrs]. rewrite A. reflexivity. }
  destruct (String.eqb cls "VarLen" || String.eqb cls "VarLenUtf8") eqn:E6.
  { destruct (len_attr _ _ _ _) as [lw|] eqn:L; [|discriminate H]. destruct (nat_attr _ _) as [base|] eqn:B; [|discriminate H].
    injection H as <-. split; [|split; reflexivity].
    destruct (String.eqb cls "VarLenUtf8") eqn:E7; [apply String.eqb_eq; exact E7|].
    rewrite orb_false_r in E6. apply String.eqb_eq. exact E6. }
  apply orb_false_iff in E6 as [E6 E7].
  destruct (String.eqb cls "ListOf") eqn:E8.
  { apply String.eqb_eq in E8. destruct (len_attr _ _ _ _) as [lw|] eqn:L; [|discriminate H].
    match type of H with match ?X with _ => _ end = _ => destruct X as [f'|] eqn:S end; [|discriminate H].
    injection H as <-. split; [exact E8|]. split; [reflexivity|].
    clear - S. induction subs as [|[k q] tl IH]; [discriminate S|]. cbn [pk_subs subs_get] in *. destruct (String.eqb k "packer"); [exists q; split; [reflexivity|exact S]|].
    apply IH. exact S. }
  destruct (String.eqb cls "DefaultArray") eqn:E9.
  { apply String.eqb_eq in E9. destruct (len_attr _ _ _ _) as [lw|] eqn:L; [|discriminate H].
    destruct (alist_get "format_str" attrs) as [[]|] eqn:A1; try discriminate H.
    destruct (alist_get "real_format_str" attrs) as [[]|] eqn:A2; try discriminate H.
    destruct (array_elem (VStr b0)) as [e'|] eqn:Ae; [|discriminate H].
    destruct (attr_is _ "base" _ && _) eqn:C; [|discriminate H]. injection H as <-. apply andb_true_iff in C as [C1 C2].
    split; [exact E9|]. split; [reflexivity|]. exists b, b0, e'. unfold pk_attr. cbn [pk_attrs]. rewrite A1, A2.
    split; [reflexivity|]. split; [reflexivity|]. split; [exact Ae|].
    split; [apply attr_is_int in C1; unfold pk_attr in C1; cbn [pk_attrs] in C1; exact C1|].
    destruct (bytes_eqb b [63]) eqn:Eq.
    - left. apply bytes_eqb_eq in Eq. apply bytes_eqb_eq in C2. auto.
    - right. apply bytes_eqb_eq in C2. auto. }
  destruct (String.eqb cls "Flags") eqn:E10.
  { apply String.eqb_eq in E10. destruct (len_attr _ _ _ _) as [w|] eqn:L; [|discriminate H]. injection H as <-. split; [exact E10|reflexivity]. }
  destruct (String.eqb cls "NodePacker") eqn:E11. { apply String.eqb_eq in E11. injection H as <-. exact E11. }
  discriminate H.
Qed.

Lemma bytes_ok_rev l : bytes_ok l -> bytes_ok (rev l).
Proof. unfold bytes_ok. intros H. apply Forall_rev. exact H. Qed.
Lemma be_decode_nat bs : bytes_ok bs -> Z.of_nat (Z.to_nat (be_decode bs)) = be_decode bs.
Proof. intros H. apply Z2Nat.id, (be_decode_bound bs H). Qed.

(* take either fails with struct.error or yields n bytes *)
Lemma take_cases n off data :
  (exists bs, take n off data = Ok bs /\ length bs = n /\ (bytes_ok data -> bytes_ok bs)) \/ take n off data = Raise StructError.
Proof.
  unfold take. destruct (off + n <=? length data)%nat eqn:E; [left|right; reflexivity]. apply Nat.leb_le in E.
  eexists. split; [reflexivity|]. split; [rewrite firstn_length, skipn_length; lia|].
  intros H. apply bytes_ok_firstn, bytes_ok_skipn, H.
Qed.

(* unpack_from with one unsigned field of either byte order; with an n-byte string and a port *)
Lemma py_unpack_from_uint s {le} w data off : parse_fmt s = Some (le, [PU w]) ->
  py_unpack_from (VStr s) (VBytes data) (VInt (Z.of_nat off))
  = (do bs <- take w off data; Ok (VTuple [VInt (be_decode (if le then rev bs else bs))])).
Proof.
  intros H. rewrite (py_unpack_from_nat s le [PU w] data off H). cbn [struct_size fold_right psize]. rewrite Nat.add_0_r.
  destruct (take_cases w off data) as [(bs & -> & Hl & _)| ->]; [|reflexivity].
  cbn [bind struct_dec pdec psize]. rewrite firstn_all2 by (destruct le; rewrite ?rev_length; lia). reflexivity.
Qed.
Lemma py_unpack_from_ip_port s n data off : parse_fmt s = Some (false, [PBytes n; PU 2]) ->
  py_unpack_from (VStr s) (VBytes data) (VInt (Z.of_nat off))
  = (do bs <- take (n + 2) off data; Ok (VTuple [VBytes (firstn n bs); VInt (be_decode (skipn n bs))])).
Proof.
  intros H. rewrite (py_unpack_from_nat s false [PBytes n; PU 2] data off H). cbn [struct_size fold_right psize]. rewrite Nat.add_0_r.
  destruct (take_cases (n + 2) off data) as [(bs & -> & Hl & _)| ->]; [|reflexivity].
  cbn [bind struct_dec pdec psize]. rewrite (firstn_all2 (n := 2)) by (rewrite skipn_length; lia). reflexivity.
Qed.

Lemma lslice_from {A} (d : list A) a : lslice d (Some (Z.of_nat a)) None = skipn a d.
Proof.
  unfold lslice. rewrite clamp_nat. set (n := length d). rewrite Nat2Z.id.
  replace (Z.to_nat (Z.of_nat n - Z.of_nat (Nat.min a n))) with (n - Nat.min a n)%nat by lia.
  destruct (Nat.le_gt_cases a n) as [Ha|Ha].
  - rewrite (Nat.min_l a n Ha). apply firstn_all2. rewrite skipn_length. fold n. lia.
  - rewrite (Nat.min_r a n) by lia. rewrite !skipn_all2 by (fold n; lia). apply firstn_nil.
Qed.
Lemma py_slice_from d a : py_slice (VBytes d) (Some (VInt (Z.of_nat a))) None = Ok (VBytes (skipn a d)).
Proof. unfold py_slice. cbn [opt_int as_int bind]. rewrite lslice_from. reflexivity. Qed.

(* 2^k & b is 2^k or 0 according to bit k of b *)
Lemma land_pow2 k b : 0 <= k -> Z.land (2 ^ k) b = if Z.testbit b k then 2 ^ k else 0.
Proof.
  intros Hk. apply Z.bits_inj'. intros m Hm. rewrite Z.land_spec, Z.pow2_bits_eqb by lia.
  destruct (Z.eqb_spec k m) as [->|Hne].
  - destruct (Z.testbit b m); [rewrite Z.pow2_bits_eqb, Z.eqb_refl by lia; reflexivity|rewrite Z.bits_0; reflexivity].
  - cbn [andb]. destruct (Z.testbit b k); [rewrite Z.pow2_bits_eqb by lia; symmetry; apply Z.eqb_neq; exact Hne|rewrite Z.bits_0; reflexivity].
Qed.
Lemma bit_truth k b : 0 <= k -> negb (Z.land (2 ^ k) b =? 0) = Z.testbit b k.
Proof.
  intros Hk. rewrite land_pow2 by exact Hk. destruct (Z.testbit b k); [|reflexivity].
  assert (0 < 2 ^ k) by (apply Z.pow_pos_nonneg; lia). destruct (2 ^ k =? 0) eqn:E; [lia|reflexivity].
Qed.

Ltac pyev := repeat (progress (cbn [bind]; rewrite ?py_add_nat, ?py_iadd_nat, ?py_mul_nat, ?py_len_bytes, ?py_gt_nat,
                                 ?py_append_list, ?pk_index_tuple0, ?pk_index_list0, ?py_slice_nat)).

(* The common shape of unpack_sim, unpack_msg_sim, pack_sim and val_sim: results related by R, or both raise and the
   translated side not by running out of fuel.  A step of a proof below is res_sim_bind: related computations, then
   continuations that are related on related results. *)
Definition res_sim {A B} (R : A -> B -> Prop) (g : res A) (w : res B) : Prop :=
  match g, w with
  | Ok a, Ok b => R a b
  | Raise e, Raise _ => e <> OutOfFuel
  | _, _ => False
  end.

Lemma res_sim_bind {A B A' B'} (R : A -> B -> Prop) (R' : A' -> B' -> Prop) g w k k' :
  res_sim R g w -> (forall a b, R a b -> res_sim R' (k a) (k' b)) -> res_sim R' (bind g k) (bind w k').
Proof. destruct g, w; cbn [res_sim bind]; try contradiction; auto. Qed.

Lemma res_sim_bind_r {A B B'} (R : A -> B -> Prop) (R' : A -> B' -> Prop) g w k' :
  res_sim R g w -> (forall a b, R a b -> res_sim R' (Ok a) (k' b)) -> res_sim R' g (bind w k').
Proof. destruct g, w; cbn [bind]; intros H Hk; try contradiction; [apply Hk|]; exact H. Qed.

Lemma res_sim_bind_l {A B A'} (R : A -> B -> Prop) (R' : A' -> B -> Prop) g w k :
  res_sim R g w -> (forall a b, R a b -> res_sim R' (k a) (Ok b)) -> res_sim R' (bind g k) w.
Proof. destruct g, w; cbn [bind]; intros H Hk; try contradiction; [apply Hk|]; exact H. Qed.

Lemma res_sim_inv {A B} (R : A -> B -> Prop) g w : res_sim R g w ->
  (exists a b, g = Ok a /\ w = Ok b /\ R a b) \/ (exists e e', g = Raise e /\ w = Raise e' /\ e <> OutOfFuel).
Proof. destruct g as [a|e], w as [b|e']; cbn [res_sim]; intros H; try contradiction; [left|right]; eauto 6. Qed.

Lemma bind_assoc {A B C} (g : res A) (k : A -> res B) (h : B -> res C) : bind (bind g k) h = bind g (fun a => bind (k a) h).
Proof. destruct g; reflexivity. Qed.

Lemma unpack_sim_res f ul g w :
  unpack_sim f ul g w <-> res_sim (fun '(l, o') '(v, o) => l = VList (ul ++ entries f v) /\ o' = VInt (Z.of_nat o)) g w.
Proof. destruct g as [[l o']|e], w as [[v o]|e2]; reflexivity. Qed.

Lemma unpack_msg_sim_res m g w :
  unpack_msg_sim m g w <-> res_sim (fun r '(vs, o) => r = VTuple [VMsg (flat_msg m vs); VInt (Z.of_nat o)]) g w.
Proof. destruct g as [r|e], w as [[vs o]|e2]; reflexivity. Qed.

Lemma unpack_sim_cases f ul g w : unpack_sim f ul g w ->
  (exists v o, g = Ok (VList (ul ++ entries f v), VInt (Z.of_nat o)) /\ w = Ok (v, o)) \/
  (exists e e', g = Raise e /\ w = Raise e' /\ e <> OutOfFuel).
Proof.
  intros H. destruct (res_sim_inv _ _ _ (proj1 (unpack_sim_res f ul g w) H)) as [([l o'] & [v o] & -> & -> & -> & ->)|C]; [left|right; exact C].
  exists v, o. split; reflexivity.
Qed.

Lemma unpack_msg_sim_bind {A' B'} (R' : A' -> B' -> Prop) m g w k k' :
  unpack_msg_sim m g w -> (forall vs o, res_sim R' (k (VTuple [VMsg (flat_msg m vs); VInt (Z.of_nat o)])) (k' (vs, o))) ->
  res_sim R' (bind g k) (bind w k').
Proof. intros H Hk. apply (res_sim_bind _ R' g w k k' (proj1 (unpack_msg_sim_res m g w) H)). intros r [vs o] ->. apply Hk. Qed.

(* the state (offset, unpack_list) of a loop: what F makes of the model's result has been appended *)
Definition loop_sim {B} (F : B -> list val) (ul : list val) : res (val * val) -> res (B * nat) -> Prop :=
  res_sim (fun '(o', l) '(v, o) => l = VList (ul ++ F v) /\ o' = VInt (Z.of_nat o)).

Lemma unpack_sim_swap f ul g w : unpack_sim f ul g w -> loop_sim (entries f) ul (do (l, o') <- g; Ok (o', l)) w.
Proof. intros H. apply (res_sim_bind_l _ _ _ _ _ (proj1 (unpack_sim_res f ul g w) H)). intros [l o'] [v o] C. exact C. Qed.

Section Classes.
Variable R : recs.
Variable key_ok : bytes -> bool.

Lemma DefaultStruct_unpack_ok p ps data off ul cargs :
  fmt_of_packer p = Some (FStruct ps) ->
  unpack_sim (FStruct ps) ul (DefaultStruct_unpack R p (VBytes data) (VInt (Z.of_nat off)) (VList ul) cargs)
             (unpack key_ok (FStruct ps) data off).
Proof.
  intros H. destruct (fmt_inv _ _ H) as (_ & Hne & s & Hs & Hp & Hz).
  unfold DefaultStruct_unpack. rewrite Hs. cbn [bind]. rewrite (py_unpack_from_nat s false ps data off Hp).
  cbn [unpack]. destruct (take_cases (struct_size ps) off data) as [(bs & -> & _)| ->]; cbn [bind]; [|discriminate].
  cbn [py_len]. rewrite struct_dec_length. cbn [bind].
  change (VInt 1) with (VInt (Z.of_nat 1)). rewrite py_gt_nat. cbn [bind py_truthy].
  destruct ps as [|p1 [|p2 ps]]; [congruence| |]; cbn [length Nat.ltb Nat.leb struct_dec]; pyev; rewrite Hz; pyev; split; reflexivity.
Qed.

Lemma VarLen_unpack_varlen p lw base data off ul cargs :
  bytes_ok data ->
  len_attr p "length_format" "length_size" false = Some lw -> nat_attr p "base" = Some base ->
  res_sim (fun '(l, o') '(b, o) => l = VList (ul ++ [VBytes b]) /\ o' = VInt (Z.of_nat o))
          (VarLen_unpack R p (VBytes data) (VInt (Z.of_nat off)) (VList ul) cargs) (varlen_unpack lw base data off).
Proof.
  intros Hd HL HB. destruct (len_attr_inv _ _ _ _ _ HL) as (s & Hs & Hp & Hsz). pose proof (nat_attr_inv _ _ _ HB) as Hb.
  unfold VarLen_unpack, varlen_unpack. rewrite Hs. cbn [bind]. rewrite (py_unpack_from_uint s lw data off Hp).
  destruct (take_cases lw off data) as [(bs & -> & _ & Hbs)| ->]; cbn [bind]; [|discriminate].
  rewrite pk_index_tuple0. cbn [bind]. rewrite Hb. cbn [bind].
  set (n := Z.to_nat (be_decode bs)). replace (be_decode bs) with (Z.of_nat n) by (apply be_decode_nat, Hbs, Hd).
  rewrite !Hsz. pyev. cbn [py_truthy]. cbn [bind].
  destruct (off + lw + n * base <=? length data)%nat eqn:E.
  - replace (length data <? off + lw + n * base)%nat with false by lia. pyev.
    replace (off + lw + n * base - (off + lw))%nat with (n * base)%nat by lia. split; reflexivity.
  - replace (length data <? off + lw + n * base)%nat with true by lia. discriminate.
Qed.

Lemma VarLen_unpack_ok p lw base data off ul cargs :
  bytes_ok data -> fmt_of_packer p = Some (FVarLen lw base false) ->
  unpack_sim (FVarLen lw base false) ul (VarLen_unpack R p (VBytes data) (VInt (Z.of_nat off)) (VList ul) cargs)
             (unpack key_ok (FVarLen lw base false) data off).
Proof.
  intros Hd H. destruct (fmt_inv _ _ H) as (_ & HL & HB). apply unpack_sim_res. cbn [unpack].
  apply (res_sim_bind_r _ _ _ _ _ (VarLen_unpack_varlen p lw base data off ul cargs Hd HL HB)). intros [l o'] [b o] C. exact C.
Qed.

Lemma VarLenUtf8_unpack_ok p lw base data off ul cargs :
  bytes_ok data -> fmt_of_packer p = Some (FVarLen lw base true) ->
  unpack_sim (FVarLen lw base true) ul (VarLenUtf8_unpack R p (VBytes data) (VInt (Z.of_nat off)) (VList ul) cargs)
             (unpack key_ok (FVarLen lw base true) data off).
Proof.
  intros Hd H. destruct (fmt_inv _ _ H) as (_ & HL & HB). apply unpack_sim_res. unfold VarLenUtf8_unpack. cbn [unpack].
  apply (res_sim_bind _ _ _ _ _ _ (VarLen_unpack_varlen p lw base data off [] [] Hd HL HB)). intros [l o'] [b o] [-> ->].
  cbn [app]. rewrite pk_index_list0. cbn [bind py_decode].
  destruct (utf8_valid b); cbn [bind]; [|discriminate]. rewrite py_append_list. cbn [bind]. split; reflexivity.
Qed.

Lemma Raw_unpack_ok p data off ul cargs :
  unpack_sim FRaw ul (Raw_unpack R p (VBytes data) (VInt (Z.of_nat off)) (VList ul) cargs) (unpack key_ok FRaw data off).
Proof. unfold Raw_unpack. rewrite py_slice_from. pyev. cbn [unpack]. split; reflexivity. Qed.

Lemma bit_step (k : Z) (b : Z) (K : val -> res (val * val)) : 0 <= k ->
  (do v <- (do c_ <- (do t <- py_bitand (VInt (2 ^ k)) (VInt b); py_truthy t); if c_ then Ok (VInt 1) else Ok (VInt 0)); K v)
  = K (bit_of b k).
Proof.
  intros Hk. cbn [py_bitand int2 as_int bind py_truthy]. rewrite (bit_truth k b Hk). unfold bit_of.
  destruct (Z.testbit b k); reflexivity.
Qed.

Lemma Bits_unpack_ok p data off ul cargs :
  unpack_sim FBits ul (Bits_unpack R p (VBytes data) (VInt (Z.of_nat off)) (VList ul) cargs) (unpack key_ok FBits data off).
Proof.
  unfold Bits_unpack. rewrite (py_unpack_from_uint [62; 66] 1 data off eq_refl). cbn [unpack].
  destruct (take_cases 1 off data) as [(bs & -> & _)| ->]; cbn [bind]; [|discriminate].
  cbn [py_destruct py_iter bind length Nat.eqb].
  change 128 with (2 ^ 7). rewrite bit_step by lia. change 64 with (2 ^ 6). rewrite bit_step by lia.
  change 32 with (2 ^ 5). rewrite bit_step by lia. change 16 with (2 ^ 4). rewrite bit_step by lia.
  change 8 with (2 ^ 3). rewrite bit_step by lia. change 4 with (2 ^ 2). rewrite bit_step by lia.
  change (VInt 2) with (VInt (2 ^ 1)). rewrite bit_step by lia. change (VInt 1) with (VInt (2 ^ 0)) at 1. rewrite bit_step by lia.
  cbn [py_iadd py_extend py_iter bind]. change (VInt 1) with (VInt (Z.of_nat 1)). pyev. split; reflexivity.
Qed.

Lemma IPv4_unpack_ok p data off ul cargs :
  unpack_sim FIPv4 ul (IPv4_unpack R p (VBytes data) (VInt (Z.of_nat off)) (VList ul) cargs) (unpack key_ok FIPv4 data off).
Proof.
  unfold IPv4_unpack. rewrite (py_unpack_from_ip_port [62; 52; 115; 72] 4 data off eq_refl). cbn [Nat.add unpack].
  destruct (take_cases 6 off data) as [(bs & -> & Hlen & _)| ->]; cbn [bind]; [|discriminate].
  cbn [py_destruct py_iter bind length Nat.eqb py_inet_ntoa].
  rewrite firstn_length, Hlen. cbn [Nat.min Nat.eqb bind py_udp4].
  change (VInt 6) with (VInt (Z.of_nat 6)). pyev. split; reflexivity.
Qed.

Lemma Address_unpack_ok p ip_only data off ul cargs :
  bytes_ok data -> fmt_of_packer p = Some (FAddr ip_only) ->
  unpack_sim (FAddr ip_only) ul (Address_unpack R p (VBytes data) (VInt (Z.of_nat off)) (VList ul) cargs)
             (unpack key_ok (FAddr ip_only) data off).
Proof.
  intros Hd H. destruct (fmt_inv _ _ H) as (_ & Hip).
  unfold Address_unpack. rewrite (py_unpack_from_uint [62; 66] 1 data off eq_refl). cbn [unpack]. unfold addr_unpack.
  destruct (take_cases 1 off data) as [(t & -> & _)| ->]; cbn [bind]; [|discriminate].
  cbn [py_destruct py_iter bind length Nat.eqb].
  set (ty := be_decode t). unfold py_eq_val. cbn [py_eq bind py_truthy].
  change (VInt 1) with (VInt (Z.of_nat 1)). change (VInt 3) with (VInt (Z.of_nat 3)). change (VInt 7) with (VInt (Z.of_nat 7)).
  change (VInt 19) with (VInt (Z.of_nat 19)). change (VInt 5) with (VInt (Z.of_nat 5)).
  destruct (ty =? 1) eqn:E1.
  { replace (ty =? Z.of_nat 1) with true by (cbn; lia). pyev.
    rewrite (py_unpack_from_ip_port [62; 52; 115; 72] 4 data (off + 1) eq_refl). cbn [Nat.add].
    destruct (take_cases 6 (off + 1) data) as [(bs & -> & Hb & _)| ->]; cbn [bind]; [|discriminate].
    cbn [py_destruct py_iter bind length Nat.eqb py_inet_ntop].
    rewrite firstn_length, Hb. cbn [Nat.min Nat.eqb bind py_udp4]. pyev. split; reflexivity. }
  replace (ty =? Z.of_nat 1) with false by (cbn; lia). cbn [bind].
  destruct (ty =? 3) eqn:E3.
  { replace (ty =? Z.of_nat 3) with true by (cbn; lia). pyev.
    rewrite (py_unpack_from_ip_port [62; 49; 54; 115; 72] 16 data (off + 1) eq_refl). cbn [Nat.add].
    destruct (take_cases 18 (off + 1) data) as [(bs & -> & Hb & _)| ->]; cbn [bind]; [|discriminate].
    cbn [py_destruct py_iter bind length Nat.eqb py_inet_ntop].
    rewrite firstn_length, Hb. cbn [Nat.min Nat.eqb bind py_udp6]. pyev. split; reflexivity. }
  replace (ty =? Z.of_nat 3) with false by (cbn; lia). cbn [bind].
  rewrite Hip. cbn [bind py_truthy pand].
  destruct ip_only; cbn [negb bind andb].
  { discriminate. }
  destruct (ty =? 2) eqn:E2; cbn [bind]; [|discriminate].
  pyev.
  rewrite (py_unpack_from_uint [62; 72] 2 data (off + 1) eq_refl).
  destruct (take_cases 2 (off + 1) data) as [(l & -> & _ & Hlb)| ->]; cbn [bind]; [|discriminate].
  cbn [py_destruct py_iter bind length Nat.eqb].
  set (n := Z.to_nat (be_decode l)). replace (be_decode l) with (Z.of_nat n) by (apply be_decode_nat, Hlb, Hd).
  pyev. replace (off + 3 + n - (off + 3))%nat with n by lia.
  cbn [py_decode]. destruct (utf8_valid (firstn n (skipn (off + 3) data))); cbn [negb bind]; [|discriminate].
  rewrite (py_unpack_from_uint [62; 72] 2 data (off + 3 + n) eq_refl).
  destruct (take_cases 2 (off + 3 + n) data) as [(pt & -> & _)| ->]; cbn [bind]; [|discriminate].
  pyev. cbn [py_domain]. pyev. split; reflexivity.
Qed.

Lemma array_elem_inv tc e : array_elem tc = Ok e -> aelem e = true /\ (0 < psize e)%nat.
Proof.
  unfold array_elem. intros H.
  repeat match type of H with
         | match ?x with _ => _ end = _ => destruct x; try discriminate H
         end.
  all: injection H as <-; split; [reflexivity|cbn; lia].
Qed.

Lemma listcomp_bool l : py_listcomp (fun v_b => py_bool v_b) (VList (map (adec (PU 1)) l)) = Ok (VList (map (adec PBool) l)).
Proof.
  unfold py_listcomp. cbn [py_iter bind].
  assert (E : mapM (fun v_b => py_bool v_b) (map (adec (PU 1)) l) = Ok (map (adec PBool) l)).
  { induction l as [|x l IH]; [reflexivity|]. cbn [map mapM adec py_bool py_truthy bind]. rewrite IH. reflexivity. }
  rewrite E. reflexivity.
Qed.

Lemma DefaultArray_unpack_ok p e lw data off ul cargs :
  bytes_ok data -> fmt_of_packer p = Some (FArray e lw) ->
  unpack_sim (FArray e lw) ul (DefaultArray_unpack R p (VBytes data) (VInt (Z.of_nat off)) (VList ul) cargs)
             (unpack key_ok (FArray e lw) data off).
Proof.
  intros Hd H. destruct (fmt_inv _ _ H) as (_ & HL & tc & real & e' & Htc & Hreal & He' & Hbase & Hcase).
  destruct (len_attr_inv _ _ _ _ _ HL) as (s & Hs & Hp & Hsz).
  assert (Hpe : psize e = psize e') by (destruct Hcase as [(-> & -> & ->)|(_ & _ & ->)]; [injection He' as <-|]; reflexivity).
  pose proof (proj2 (array_elem_inv _ _ He')) as Hpos.
  unfold DefaultArray_unpack. rewrite Hs. cbn [bind]. rewrite (py_unpack_from_uint s lw data off Hp). cbn [unpack].
  destruct (take_cases lw off data) as [(bs & -> & _ & Hbs)| ->]; cbn [bind]; [|discriminate].
  pyev. rewrite Hbase. cbn [bind].
  fold (le_decode bs). set (n := Z.to_nat (le_decode bs)).
  replace (le_decode bs) with (Z.of_nat n) by (apply (be_decode_nat (rev bs)), bytes_ok_rev, Hbs, Hd).
  rewrite !Hsz. pyev. cbn [py_truthy]. cbn [bind]. rewrite Hpe.
  destruct (off + lw + n * psize e' <=? length data)%nat eqn:E.
  2:{ replace (length data <? off + lw + n * psize e')%nat with true by lia. discriminate. }
  replace (length data <? off + lw + n * psize e')%nat with false by lia. rewrite Hreal. pyev.
  replace (off + lw + n * psize e' - (off + lw))%nat with (n * psize e')%nat by lia.
  unfold py_array_frombytes. rewrite He'. cbn [bind].
  assert (Hsl : length (firstn (n * psize e') (skipn (off + lw) data)) = (n * psize e')%nat).
  { rewrite firstn_length, skipn_length. lia. }
  rewrite Hsl, Nat.mod_mul, Nat.div_mul by lia. cbn [Nat.eqb bind]. rewrite Htc. cbn [bind]. unfold py_eq_val. cbn [py_eq bind py_truthy].
  destruct Hcase as [(-> & -> & ->)|(Hq & -> & ->)].
  - injection He' as <-. cbn [bytes_eqb Z.eqb Pos.eqb andb]. rewrite listcomp_bool. pyev. split; reflexivity.
  - rewrite Hq. cbn [py_list py_iter bind]. pyev. split; reflexivity.
Qed.

Lemma flags_items number : forall l,
  (do t6_ <- py_listcomp (fun v_i => do t4_ <- py_pow (VInt 2) v_i; py_bitand (VInt number) t4_) (VList (map (fun k => VInt (Z.of_nat k)) l));
   py_filter_none t6_)
  = Ok (VList (flat_map (fun i => if Z.testbit number (Z.of_nat i) then [VInt (2 ^ Z.of_nat i)] else []) l)).
Proof.
  intros l. set (f := fun v_i : val => do t4_ <- py_pow (VInt 2) v_i; py_bitand (VInt number) t4_).
  assert (E : forall l, exists r, mapM f (map (fun k => VInt (Z.of_nat k)) l) = Ok r /\
              filter_truthy r = Ok (flat_map (fun i => if Z.testbit number (Z.of_nat i) then [VInt (2 ^ Z.of_nat i)] else []) l)).
  { clear l. induction l as [|k l (r & E1 & E2)]; [exists []; split; reflexivity|].
    cbn [map mapM flat_map]. unfold f at 1. unfold py_pow at 1. unfold int2 at 1. cbn [as_int]. replace (Z.of_nat k <? 0) with false by lia.
    cbn [bind py_bitand int2 as_int]. rewrite E1. cbn [bind]. eexists. split; [reflexivity|].
    cbn [filter_truthy py_truthy bind]. rewrite E2. cbn [bind]. rewrite Z.land_comm, land_pow2 by lia.
    destruct (Z.testbit number (Z.of_nat k)); [|reflexivity].
    assert (0 < 2 ^ Z.of_nat k) by (apply Z.pow_pos_nonneg; lia). destruct (2 ^ Z.of_nat k =? 0) eqn:E; [lia|]. reflexivity. }
  destruct (E l) as (r & E1 & E2). unfold py_listcomp, py_filter_none. cbn [py_iter]. cbn [bind]. rewrite E1. cbn [bind py_iter]. rewrite E2. reflexivity.
Qed.

Lemma Flags_unpack_ok p w data off ul cargs :
  fmt_of_packer p = Some (FFlags w) ->
  unpack_sim (FFlags w) ul (Flags_unpack R p (VBytes data) (VInt (Z.of_nat off)) (VList ul) cargs)
             (unpack key_ok (FFlags w) data off).
Proof.
  intros H. destruct (fmt_inv _ _ H) as (_ & HL). destruct (len_attr_inv _ _ _ _ _ HL) as (s & Hs & Hp & Hsz).
  unfold Flags_unpack. rewrite Hs. cbn [bind]. rewrite (py_unpack_from_uint s w data off Hp). cbn [unpack].
  destruct (take_cases w off data) as [(bs & -> & _)| ->]; cbn [bind]; [|discriminate].
  cbn [py_destruct py_iter bind length Nat.eqb].
  rewrite !Hsz. cbn [bind]. change (VInt 8) with (VInt (Z.of_nat 8)). pyev.
  unfold py_range. cbn [all_ints as_int]. unfold range_list. cbn [Z.ltb Z.compare].
  replace ((Z.of_nat (w * 8) - 0 + 1 - 1) / 1) with (Z.of_nat (w * 8)) by (rewrite Z.div_1_r; lia). rewrite Nat2Z.id.
  erewrite map_ext; [|intros k; rewrite Z.mul_1_r, Z.add_0_l; reflexivity]. cbn [bind].
  pose proof (flags_items (be_decode bs) (seq 0 (w * 8))) as F. cbn [bind] in F.
  destruct (py_listcomp _ _) as [t6|ex]; cbn [bind] in F |- *; [|discriminate F]. rewrite F. cbn [bind py_list py_iter].
  pyev. unfold flags_dec. split; reflexivity.
Qed.

(* ListOf.unpack: the loop against unpack_n *)
Lemma listof_loop (q : packer) f' data cargs :
  (forall off ul, unpack_sim f' ul (r_unpack R q (VBytes data) (VInt (Z.of_nat off)) (VList ul) cargs) (unpack key_ok f' data off)) ->
  forall n off acc,
  loop_sim (fun vs => concat (map (entries f') vs)) acc
    (repeat_n n (fun '(v_offset, v_result) =>
                   bind (bind (Ok q) (fun t2_ => r_unpack R t2_ (VBytes data) v_offset v_result cargs))
                        (fun '(v_result, v_offset) => Ok (v_offset, v_result)))
              (VInt (Z.of_nat off), VList acc))
    (unpack_n (unpack key_ok f') n data off).
Proof.
  intros Hq. induction n as [|n IH]; intros off acc.
  - cbn [repeat_n unpack_n]. split; [cbn [map concat]; rewrite app_nil_r|]; reflexivity.
  - cbn [repeat_n unpack_n bind]. apply (res_sim_bind _ _ _ _ _ _ (unpack_sim_swap _ _ _ _ (Hq off acc))). intros [o' l] [v o] [-> ->].
    apply (res_sim_bind_r _ _ _ _ _ (IH o (acc ++ entries f' v))). intros [o'' l] [vs o2] [-> ->].
    split; [cbn [map concat]; rewrite app_assoc|]; reflexivity.
Qed.

Lemma ListOf_unpack_ok p q lw f' data off ul cargs :
  bytes_ok data ->
  len_attr p "length_format" "length_size" false = Some lw -> subs_get "packer" (pk_subs p) = Some q ->
  (forall off ul, unpack_sim f' ul (r_unpack R q (VBytes data) (VInt (Z.of_nat off)) (VList ul) cargs) (unpack key_ok f' data off)) ->
  unpack_sim (FListOf lw f') ul (ListOf_unpack R p (VBytes data) (VInt (Z.of_nat off)) (VList ul) cargs)
             (unpack key_ok (FListOf lw f') data off).
Proof.
  intros Hd HL Hsub Hq. destruct (len_attr_inv _ _ _ _ _ HL) as (s & Hs & Hp & Hsz).
  unfold ListOf_unpack. rewrite Hs. cbn [bind]. rewrite (py_unpack_from_uint s lw data off Hp). cbn [unpack].
  destruct (take_cases lw off data) as [(bs & -> & _)| ->]; cbn [bind]; [|discriminate].
  cbn [py_destruct py_iter bind length Nat.eqb].
  rewrite Hsz. pyev. unfold py_repeat. cbn [as_int]. unfold pk_sub. rewrite Hsub. apply unpack_sim_res.
  apply (res_sim_bind _ _ _ _ _ _ (listof_loop q f' data cargs Hq (Z.to_nat (be_decode bs)) (off + lw)%nat [])).
  intros [o' l] [vs o] [-> ->]. pyev. split; reflexivity.
Qed.

Lemma cls_index_0 c l : cls_index (c :: l) 0 = Ok c.
Proof. destruct l; reflexivity. Qed.

Lemma NestedPayload_unpack_ok p c m data off ul cargs :
  bytes_ok data ->
  (forall d, bytes_ok d -> unpack_msg_sim m (r_unpack_serializable R c (VBytes d) (VInt 0)) (unpack_msg key_ok m d 0)) ->
  unpack_sim (FNested m) ul (NestedPayload_unpack R p (VBytes data) (VInt (Z.of_nat off)) (VList ul) (c :: cargs))
             (unpack key_ok (FNested m) data off).
Proof.
  intros Hd Hs. unfold NestedPayload_unpack. rewrite (py_unpack_from_uint [62; 72] 2 data off eq_refl).
  rewrite unpack_nested.
  destruct (take_cases 2 off data) as [(bs & -> & _ & Hbs)| ->]; cbn [bind]; [|discriminate].
  cbn [py_destruct py_iter bind length Nat.eqb].
  set (n := Z.to_nat (be_decode bs)). replace (be_decode bs) with (Z.of_nat n) by (apply be_decode_nat, Hbs, Hd).
  change (VInt 2) with (VInt (Z.of_nat 2)). pyev. cbn [py_truthy]. cbn [bind]. cbv zeta.
  destruct (off + 2 + n <=? length data)%nat eqn:E.
  2:{ replace (length data <? off + 2 + n)%nat with true by lia. discriminate. }
  replace (length data <? off + 2 + n)%nat with false by lia. rewrite cls_index_0. pyev.
  replace (off + 2 + n - (off + 2))%nat with n by lia.
  apply unpack_sim_res. apply (unpack_msg_sim_bind _ _ _ _ _ _ (Hs _ (bytes_ok_firstn _ _ (bytes_ok_skipn _ _ Hd)))). intros vs o.
  cbn [py_destruct py_iter bind length Nat.eqb]. pyev. split; reflexivity.
Qed.

(* Serializer.unpack(name, data, offset), as NodePacker uses it *)
Definition ser_unpack_sim (f : fmt) : res val -> res (val * nat) -> Prop :=
  res_sim (fun r '(v, o) => r = VTuple [flat_val f v; VInt (Z.of_nat o)]).

Lemma Serializer_unpack_name S n p f data off :
  ser_find S n = Ok p -> (forall v, entries f v = [flat_val f v]) ->
  unpack_sim f [] (r_unpack R p (VBytes data) (VInt (Z.of_nat off)) (VList []) []) (unpack key_ok f data off) ->
  ser_unpack_sim f (Serializer_unpack R S (FeName n) (VBytes data) (VInt (Z.of_nat off))) (unpack key_ok f data off).
Proof.
  intros Hf He Hu. unfold Serializer_unpack. cbn [fent_is_str bind ser_getitem_fent]. rewrite Hf. cbn [bind].
  apply (res_sim_bind_l _ _ _ _ _ (proj1 (unpack_sim_res _ _ _ _) Hu)). intros [l o'] [v o] [-> ->].
  rewrite He. cbn [app]. pyev. reflexivity.
Qed.

Lemma NodePacker_unpack_ok p data off ul cargs :
  (forall off, ser_unpack_sim (FAddr true) (r_ser_unpack R (FeName n_ip_address) (VBytes data) (VInt (Z.of_nat off)))
                              (unpack key_ok (FAddr true) data off)) ->
  (forall off, ser_unpack_sim (FVarLen 2 1 false) (r_ser_unpack R (FeName n_varlenH) (VBytes data) (VInt (Z.of_nat off)))
                              (unpack key_ok (FVarLen 2 1 false) data off)) ->
  unpack_sim FNode ul (NodePacker_unpack key_ok R p (VBytes data) (VInt (Z.of_nat off)) (VList ul) cargs)
             (unpack key_ok FNode data off).
Proof.
  intros Ha Hv. unfold NodePacker_unpack. cbn [unpack]. specialize (Ha off). cbn [unpack] in Ha. fold n_ip_address n_varlenH.
  destruct (r_ser_unpack R (FeName n_ip_address) _ _) as [r|e]; destruct (addr_unpack true data off) as [[a o1]|e2];
    cbn [bind ser_unpack_sim res_sim] in Ha |- *; try contradiction; auto.
  subst r. cbn [flat_val py_destruct py_iter bind length Nat.eqb].
  specialize (Hv o1). cbn [unpack] in Hv.
  destruct (r_ser_unpack R (FeName n_varlenH) _ _) as [r|e]; destruct (varlen_unpack 2 1 data o1) as [[k o2]|e2];
    cbn [bind ser_unpack_sim res_sim] in Hv |- *; try contradiction; auto.
  subst r. cbn [flat_val py_destruct py_iter bind length Nat.eqb py_node_new].
  destruct (key_ok k); cbn [bind]; [|discriminate]. pyev. split; reflexivity.
Qed.

Fixpoint msg_fields (m : msgfmt) : list fmt := match m with MNil => [] | MCons f m' => f :: msg_fields m' end.

(* every packer object that stands for f refines f on this buffer *)
Definition field_refines S data (f : fmt) : Prop :=
  forall p cargs, packer_fmt S p cargs f -> forall off ul,
  unpack_sim f ul (r_unpack R p (VBytes data) (VInt (Z.of_nat off)) (VList ul) cargs) (unpack key_ok f data off).

Lemma ser_wf_inv S : ser_wf S = true ->
  (exists pp, ser_find S n_payload = Ok pp /\ is_nested pp = true) /\
  (exists lw pl q, payload_list_lw S = Some lw /\ ser_find S n_payload_list = Ok pl /\ pk_cls pl = "ListOf"%string /\
                   len_attr pl "length_format" "length_size" false = Some lw /\ subs_get "packer" (pk_subs pl) = Some q /\ is_nested q = true) /\
  (exists pa, ser_find S n_ip_address = Ok pa /\ fmt_of_packer pa = Some (FAddr true)) /\
  (exists pv, ser_find S n_varlenH = Ok pv /\ fmt_of_packer pv = Some (FVarLen 2 1 false)).
Proof.
  unfold ser_wf. intros H. repeat (apply andb_true_iff in H as [H ?]).
  split; [|split; [|split]].
  - destruct (ser_find S n_payload) as [pp|]; [|discriminate]. exists pp. auto.
  - unfold payload_list_lw in *. destruct (ser_find S n_payload_list) as [pl|]; [|discriminate].
    destruct (String.eqb (pk_cls pl) "ListOf") eqn:Ec; [|discriminate]. apply String.eqb_eq in Ec.
    destruct (len_attr pl _ _ _) as [lw|] eqn:L; [|discriminate]. destruct (subs_get "packer" (pk_subs pl)) as [q|] eqn:Sq; [|discriminate].
    destruct (is_nested q) eqn:Nq; [|discriminate]. exists lw, pl, q. auto 10.
  - destruct (ser_find S n_ip_address) as [pa|]; [|discriminate]. exists pa. split; [reflexivity|].
    destruct (fmt_of_packer pa) as [[]|]; try discriminate. destruct ip_only; [reflexivity|discriminate].
  - destruct (ser_find S n_varlenH) as [pv|]; [|discriminate]. exists pv. split; [reflexivity|].
    destruct (fmt_of_packer pv) as [f|]; [|discriminate].
    destruct f as [| | |lw base utf8| | | | | | |]; try discriminate.
    destruct lw as [|[|[|?]]]; try discriminate. destruct base as [|[|?]]; try discriminate. destruct utf8; [discriminate|reflexivity].
Qed.

(* Serializer.unpack_serializable: the loop over format_list against unpack_msg *)
Lemma Serializer_unpack_serializable_ok S c m data off :
  ser_wf S = true -> fents_msg S (cls_formats c) m -> (forall f, In f (msg_fields m) -> field_refines S data f) ->
  unpack_msg_sim m (Serializer_unpack_serializable R S c (VBytes data) (VInt (Z.of_nat off))) (unpack_msg key_ok m data off).
Proof.
  intros Hwf Hm HR. destruct (ser_wf_inv S Hwf) as ((pp & Hpp & Npp) & (lw & pl & q & Hlw & Hpl & Cpl & Lpl & Spl & Nq) & _ & _).
  unfold Serializer_unpack_serializable. cbv zeta.
  match goal with |- context [py_for _ ?b _] => set (body := b) end.
  assert (Hstep : forall e f off ul, fent_fmt S e f -> field_refines S data f ->
            loop_sim (entries f) ul (body e (VInt (Z.of_nat off), VList ul)) (unpack key_ok f data off)).
  { intros e f off' ul He Hp. subst body. cbn beta iota.
    destruct He as [n p f Hn Hf|c' m' Hm'|c' m' lw' Hlw' Hm'].
    - cbn [ser_getitem_fent]. rewrite Hn. cbn [bind].
      destruct (unpack_sim_cases _ _ _ _ (Hp p [] (pf_plain S p [] f Hf) off' ul)) as [(v & o & -> & ->)|(ex & e' & -> & -> & Hex)];
        cbn [bind py_try]; [split; reflexivity|].
      unfold catchable. destruct (exn_eqb ex OutOfFuel) eqn:Eo; [apply exn_eqb_eq in Eo; contradiction|]. cbn [negb].
      destruct (exn_eqb ex KeyError); [cbn [fent_issubclass bind]; discriminate|].
      destruct (exn_eqb ex TypeError); [cbn [fent_is_list bind negb]; exact Hex|]. cbn [bind]. discriminate.
    - cbn [ser_getitem_fent bind py_try catchable exn_eqb negb fent_issubclass fent_cls]. fold n_payload. cbn [ser_getitem]. rewrite Hpp. cbn [bind].
      destruct (unpack_sim_cases _ _ _ _ (Hp pp [c'] (pf_nested S pp c' [] m' Npp Hm') off' ul)) as [(v & o & -> & ->)|(ex & e' & -> & -> & Hex)];
        [split; reflexivity|exact Hex].
    - cbn [ser_getitem_fent bind py_try catchable exn_eqb negb fent_is_list fent_first]. fold n_payload_list. cbn [ser_getitem]. rewrite Hpl. cbn [bind].
      assert (lw' = lw) by congruence. subst lw'.
      destruct (unpack_sim_cases _ _ _ _ (Hp pl [c'] (pf_list S pl q [c'] lw (FNested m') Cpl Lpl Spl (pf_nested S q c' [] m' Nq Hm')) off' ul))
        as [(v & o & -> & ->)|(ex & e' & -> & -> & Hex)]; [split; reflexivity|exact Hex]. }
  assert (Hloop : forall fs m, fents_msg S fs m -> (forall f, In f (msg_fields m) -> field_refines S data f) ->
            forall off ul, loop_sim (flat_msg m) ul (py_for fs body (VInt (Z.of_nat off), VList ul)) (unpack_msg key_ok m data off)).
  { clear Hm HR. induction 1 as [|e f l m0 He Hl IH]; intros HR off' ul.
    - cbn [py_for unpack_msg]. split; [cbn [flat_msg]; rewrite app_nil_r|]; reflexivity.
    - cbn [py_for]. rewrite unpack_msg_cons.
      apply (res_sim_bind _ _ _ _ _ _ (Hstep e f off' ul He (HR f (or_introl eq_refl)))). intros [o' l'] [v o] [-> ->].
      apply (res_sim_bind_r _ _ _ _ _ (IH (fun f' Hin => HR f' (or_intror Hin)) o (ul ++ entries f v))). intros [o'' l''] [vs o2] [-> ->].
      split; [rewrite <- app_assoc|]; reflexivity. }
  apply unpack_msg_sim_res. apply (res_sim_bind_l _ _ _ _ _ (Hloop _ m Hm HR off [])). intros [o' l] [vs o] [-> ->].
  cbn [app py_from_unpack_list py_iter bind]. reflexivity.
Qed.
End Classes.

Lemma need_field f m : In f (msg_fields m) -> (need f <= need_msg m)%nat.
Proof. induction m as [|f0 m IH]; cbn [msg_fields need_msg]; [intros []|]. intros [->|H]; [lia|]. specialize (IH H). lia. Qed.

(* the class name H of a packer selects its method *)
Ltac dispatch_to H := unfold dispatch_unpack, dispatch_pack; rewrite H; cbn [String.eqb Ascii.eqb Bool.eqb].

Section Close.
Variable key_ok : bytes -> bool.
Variable S : ser.
Hypothesis Hwf : ser_wf S = true.

Definition Pf (f : fmt) : Prop :=
  forall n p cargs data off ul, packer_fmt S p cargs f -> bytes_ok data -> (need f <= n)%nat ->
  unpack_sim f ul (r_unpack (run key_ok S n) p (VBytes data) (VInt (Z.of_nat off)) (VList ul) cargs) (unpack key_ok f data off).
Definition Pm (m : msgfmt) : Prop :=
  (forall f, In f (msg_fields m) -> Pf f) /\
  forall n c data off, fents_msg S (cls_formats c) m -> bytes_ok data -> (Datatypes.S (need_msg m) <= n)%nat ->
  unpack_msg_sim m (r_unpack_serializable (run key_ok S n) c (VBytes data) (VInt (Z.of_nat off))) (unpack_msg key_ok m data off).

Lemma plain_only p cargs f : packer_fmt S p cargs f ->
  match f with FListOf _ _ | FNested _ => True | _ => fmt_of_packer p = Some f end.
Proof. intros H. destruct H; [destruct f; auto|exact I|exact I]. Qed.

(* a format other than list and nested payload: the call uses one unit of fuel; Hf: p stands for the format,
   Hc: what fmt_inv says of p *)
Ltac plain_case n Hp Hn Hf Hc :=
  destruct n as [|n]; [cbn [need] in Hn; lia|];
  pose proof (plain_only _ _ _ Hp) as Hf; cbn beta iota in Hf; pose proof (fmt_inv _ _ Hf) as Hc; cbn beta iota in Hc;
  cbn [run r_unpack].

Lemma refines_all : (forall f, Pf f) /\ (forall m, Pm m).
Proof.
  apply fmt_msg_ind.
  - (* struct *) intros ps n p cargs data off ul Hp Hd Hn. plain_case n Hp Hn Hf Hc. destruct Hc as (Hc & _). dispatch_to Hc. apply DefaultStruct_unpack_ok. exact Hf.
  - (* bits *) intros n p cargs data off ul Hp Hd Hn. plain_case n Hp Hn Hf Hc. dispatch_to Hc. apply Bits_unpack_ok.
  - (* raw *) intros n p cargs data off ul Hp Hd Hn. plain_case n Hp Hn Hf Hc. dispatch_to Hc. apply Raw_unpack_ok.
  - (* varlen *) intros lw base utf8 n p cargs data off ul Hp Hd Hn. plain_case n Hp Hn Hf Hc. destruct Hc as (Hc & _). destruct utf8; dispatch_to Hc.
    + apply VarLenUtf8_unpack_ok; assumption.
    + apply VarLen_unpack_ok; assumption.
  - (* ipv4 *) intros n p cargs data off ul Hp Hd Hn. plain_case n Hp Hn Hf Hc. dispatch_to Hc. apply IPv4_unpack_ok.
  - (* addr *) intros ip_only n p cargs data off ul Hp Hd Hn. plain_case n Hp Hn Hf Hc. destruct Hc as (Hc & _). dispatch_to Hc. apply Address_unpack_ok; assumption.
  - (* flags *) intros w n p cargs data off ul Hp Hd Hn. plain_case n Hp Hn Hf Hc. destruct Hc as (Hc & _). dispatch_to Hc. apply Flags_unpack_ok; assumption.
  - (* array *) intros e lw n p cargs data off ul Hp Hd Hn. plain_case n Hp Hn Hf Hc. destruct Hc as (Hc & _). dispatch_to Hc. apply DefaultArray_unpack_ok; assumption.
  - (* node *) intros n p cargs data off ul Hp Hd Hn. plain_case n Hp Hn Hf Hc. dispatch_to Hc.
    cbn [need] in Hn. destruct n as [|[|n]]; try lia.
    destruct (ser_wf_inv S Hwf) as (_ & _ & (pa & Hpa & Fpa) & (pv & Hpv & Fpv)).
    apply NodePacker_unpack_ok; intros off'; cbn [run r_ser_unpack].
    + apply (Serializer_unpack_name _ key_ok S n_ip_address pa (FAddr true) data off' Hpa (fun v => eq_refl)).
      cbn [run r_unpack]. destruct (fmt_inv _ _ Fpa) as (Ca & _). dispatch_to Ca. apply Address_unpack_ok; assumption.
    + apply (Serializer_unpack_name _ key_ok S n_varlenH pv (FVarLen 2 1 false) data off' Hpv (fun v => eq_refl)).
      cbn [run r_unpack]. destruct (fmt_inv _ _ Fpv) as (Cv & _). dispatch_to Cv. apply VarLen_unpack_ok; assumption.
  - (* listof *) intros lw f' IH n p cargs data off ul Hp Hd Hn. cbn [need] in Hn. destruct n as [|n]; [lia|].
    assert (Hq : exists q, pk_cls p = "ListOf"%string /\ len_attr p "length_format" "length_size" false = Some lw /\
                           subs_get "packer" (pk_subs p) = Some q /\ packer_fmt S q cargs f').
    { inversion Hp; subst.
      - destruct (fmt_inv _ _ H) as (Hc & HL & q & Hs & Hfq). exists q. repeat split; auto. apply pf_plain. exact Hfq.
      - exists q. repeat split; auto. }
    destruct Hq as (q & Hc & HL & Hs & Hpq). cbn [run r_unpack]. dispatch_to Hc.
    apply (ListOf_unpack_ok _ key_ok p q lw f' data off ul cargs Hd HL Hs).
    intros off' ul'. apply IH; [exact Hpq|exact Hd|lia].
  - (* nested *) intros m [_ IHm] n p cargs data off ul Hp Hd Hn. cbn [need] in Hn. destruct n as [|n]; [lia|].
    inversion Hp; subst.
    + destruct (fmt_inv _ _ H).
    + match goal with Hnp : is_nested p = true, Hmm : fents_msg S (cls_formats ?c) m |- _ =>
        cbn [run r_unpack]; unfold is_nested in Hnp; apply String.eqb_eq in Hnp; dispatch_to Hnp;
        apply NestedPayload_unpack_ok; [exact Hd|]; intros d Hdd; apply (IHm n c d 0%nat Hmm Hdd); lia
      end.
  - (* MNil *) split; [intros f []|]. intros n c data off Hm Hd Hn. destruct n as [|n]; [lia|]. cbn [run r_unpack_serializable].
    apply Serializer_unpack_serializable_ok; [exact Hwf|exact Hm|]. intros f [].
  - (* MCons *) intros f IHf m [IHfields IHm]. split.
    + intros f0 [<-|Hin]; [exact IHf|apply IHfields; exact Hin].
    + intros n c data off Hm Hd Hn. destruct n as [|n]; [lia|]. cbn [run r_unpack_serializable].
      apply Serializer_unpack_serializable_ok; [exact Hwf|exact Hm|].
      intros f0 Hin p cargs Hp off' ul'.
      assert (Pf f0) as P0 by (destruct Hin as [<-|Hin]; [exact IHf|apply IHfields; exact Hin]).
      apply P0; [exact Hp|exact Hd|]. pose proof (need_field f0 (MCons f m) Hin). lia.
Qed.
End Close.

(* decimal rendering of the byte count in f">BH{n}sH" and its parsing by struct *)
Definition dchar (d : nat) : Z := 48 + Z.of_nat d.
Lemma digit_dchar d : (d < 10)%nat -> digit (dchar d) = Some d.
Proof. intros H. unfold digit, dchar. replace ((48 <=? 48 + Z.of_nat d) && (48 + Z.of_nat d <=? 57)) with true by lia. f_equal. lia. Qed.

(* reading digits left to right *)
Fixpoint read_digits (ds : list nat) (acc : option nat) : option nat :=
  match ds with
  | [] => acc
  | d :: tl => read_digits tl (Some (match acc with None => d | Some k => (10 * k + d)%nat end))
  end.

Lemma parse_items_digits ds : forall tl cnt, Forall (fun d => (d < 10)%nat) ds ->
  parse_items (map dchar ds ++ tl) cnt = parse_items tl (read_digits ds cnt).
Proof.
  induction ds as [|d ds IH]; intros tl cnt H; [reflexivity|]. inversion H; subst.
  cbn [map app parse_items read_digits]. rewrite digit_dchar by assumption. apply IH. assumption.
Qed.

(* the digits dec_digits produces *)
Lemma dec_digits_spec : forall fuel n acc, (n < fuel)%nat ->
  exists ds, dec_digits fuel n acc = map dchar ds ++ acc /\ Forall (fun d => (d < 10)%nat) ds /\
             forall k, read_digits ds k = Some (match k with None => n | Some k => (k * 10 ^ length ds + n)%nat end).
Proof.
  induction fuel as [|fuel IH]; intros n acc H; [lia|]. cbn [dec_digits].
  destruct (n <? 10)%nat eqn:E.
  - exists [n]. apply Nat.ltb_lt in E. rewrite Nat.mod_small by lia. split; [reflexivity|]. split; [constructor; [exact E|constructor]|].
    intros k. destruct k; cbn [read_digits length Nat.pow]; f_equal; lia.
  - apply Nat.ltb_ge in E. assert (Hd : (n / 10 < fuel)%nat).
    { apply Nat.div_lt_upper_bound; lia. }
    destruct (IH (n / 10)%nat ((48 + Z.of_nat (n mod 10)) :: acc) Hd) as (ds & Hds & Hall & Hread).
    exists (ds ++ [(n mod 10)%nat]). split.
    + rewrite Hds, map_app. cbn [map]. rewrite <- app_assoc. reflexivity.
    + split; [apply Forall_app; split; [exact Hall|constructor; [apply Nat.mod_upper_bound; lia|constructor]]|].
      intros k.
      assert (G : forall l k0, read_digits (l ++ [(n mod 10)%nat]) k0 = match read_digits l k0 with None => Some (n mod 10)%nat | Some q => Some (10 * q + n mod 10)%nat end).
      { induction l as [|x l IHl]; intros k0; cbn [app read_digits]; [destruct k0; reflexivity|apply IHl]. }
      rewrite G, Hread, app_length. cbn [length]. rewrite Nat.add_1_r, Nat.pow_succ_r'.
      pose proof (Nat.div_mod n 10 ltac:(lia)). destruct k; f_equal; lia.
Qed.

Lemma parse_items_dec n tl : parse_items (dec_of_nat n ++ tl) None = parse_items tl (Some n).
Proof.
  unfold dec_of_nat. destruct (dec_digits_spec (S n) n [] ltac:(lia)) as (ds & Hds & Hall & Hread).
  rewrite Hds, app_nil_r. rewrite parse_items_digits by exact Hall. rewrite Hread. reflexivity.
Qed.

Lemma parse_domain_fmt n :
  parse_fmt ([62; 66; 72] ++ dec_of_nat n ++ [115; 72]) = Some (false, [PU 1; PU 2; PBytes n; PU 2]).
Proof.
  cbn [app parse_fmt Z.eqb Pos.eqb orb parse_items digit prim_of_char andb Z.leb Z.compare Pos.compare Pos.compare_cont].
  rewrite parse_items_dec. reflexivity.
Qed.

Lemma spack1_penc p v : prim_ok p v = true -> spack1 p v = penc p v.
Proof.
  intros H. unfold penc. rewrite H. cbn [negb]. destruct p, v; try discriminate H; cbn [spack1 as_int prim_ok] in *.
  - rewrite H. reflexivity.
  - apply andb_true_iff in H as [_ H]. rewrite H. reflexivity.
  - reflexivity.
  - destruct b as [|c [|? ?]]; try discriminate H. reflexivity.
  - rewrite H. reflexivity.
  - apply andb_true_iff in H as [H _]. apply Nat.eqb_eq in H. rewrite <- H, firstn_all, Nat.sub_diag. cbn [repeat]. rewrite app_nil_r. reflexivity.
Qed.

Lemma spack_struct_enc ps : forall vs, forallb2 prim_ok ps vs = true -> spack ps vs = struct_enc ps vs.
Proof.
  induction ps as [|p ps IH]; intros [|v vs] H; cbn [forallb2] in H; try discriminate H; [reflexivity|].
  apply andb_true_iff in H as [H1 H2]. cbn [spack struct_enc]. rewrite (spack1_penc p v H1), (IH vs H2). reflexivity.
Qed.

Lemma py_pack_be s ps args : parse_fmt s = Some (false, ps) -> py_pack (VStr s) args = (do b <- spack ps args; Ok (VBytes b)).
Proof. intros H. unfold py_pack, fmt_of_val. rewrite H. reflexivity. Qed.

Lemma spack_uint lw n : in_range 0 (256 ^ Z.of_nat lw) n = true -> spack [PU lw] [VInt n] = Ok (be_encode lw n).
Proof. intros H. cbn [spack spack1 as_int]. rewrite H. cbn [bind]. rewrite app_nil_r. reflexivity. Qed.
Lemma spack_uint_bad lw n : in_range 0 (256 ^ Z.of_nat lw) n = false -> spack [PU lw] [VInt n] = Raise StructError.
Proof. intros H. cbn [spack spack1 as_int]. rewrite H. reflexivity. Qed.

Lemma pk_index_addr a :
  pk_index (VAddr a) (VInt 0) = Ok (match a with A4 b _ => host4 b | A6 b _ => host6 b | ADom h _ => VStr h end) /\
  pk_index (VAddr a) (VInt 1) = Ok (VInt (match a with A4 _ p | A6 _ p | ADom _ p => p end)).
Proof. destruct a; split; reflexivity. Qed.

Lemma Forall2_len {A B} (P : A -> B -> Prop) l1 l2 : Forall2 P l1 l2 -> length l1 = length l2.
Proof. induction 1; cbn [length]; congruence. Qed.

Section PackClasses.
Variable R : recs.
Variable key_ok : bytes -> bool.

Lemma DefaultStruct_pack_ok p ps v :
  fmt_of_packer p = Some (FStruct ps) -> val_ok key_ok (FStruct ps) v = true ->
  pack_sim (DefaultStruct_pack R p (pargs (FStruct ps) v)) (pack key_ok (FStruct ps) v).
Proof.
  intros H Hok. destruct (fmt_inv _ _ H) as (_ & Hne & s & Hs & Hp & _).
  unfold DefaultStruct_pack. cbv zeta. rewrite Hs. cbn [bind py_iter]. rewrite (py_pack_be s ps _ Hp).
  destruct ps as [|p1 [|p2 ps]]; [congruence| |].
  - cbn [pargs val_ok pack] in *. cbn [spack]. rewrite (spack1_penc p1 v Hok).
    destruct (penc_defined p1 v Hok) as [b ->]. cbn [bind]. rewrite app_nil_r. reflexivity.
  - cbn [val_ok pack] in *. destruct v; try discriminate Hok. cbn [pargs]. rewrite (spack_struct_enc _ _ Hok).
    destruct (struct_enc_defined _ _ Hok) as [b ->]. reflexivity.
Qed.

Lemma Raw_pack_ok p v : val_ok key_ok FRaw v = true -> pack_sim (Raw_pack R p (pargs FRaw v)) (pack key_ok FRaw v).
Proof. cbn [val_ok pargs pack Raw_pack]. destruct v; try discriminate. intros ->. reflexivity. Qed.

Lemma bits_bools l : forallb is_bit l = true -> exists cs : list bool, l = map (fun c : bool => VInt (if c then 1 else 0)) cs.
Proof.
  induction l as [|x l IH]; cbn [forallb]; intros H; [exists []; reflexivity|]. apply andb_true_iff in H as [Hx Hl].
  destruct (IH Hl) as [cs ->]. destruct (is_bit_inv x Hx) as (b & -> & [-> | ->]); [exists (false :: cs)|exists (true :: cs)]; reflexivity.
Qed.

(* the eight bits as booleans: 256 closed instances *)
Lemma Bits_pack_ok p v : val_ok key_ok FBits v = true -> pack_sim (Bits_pack R p (pargs FBits v)) (pack key_ok FBits v).
Proof.
  cbn [val_ok]. destruct v; try discriminate. intros H. apply andb_true_iff in H as [Hl Hb]. apply Nat.eqb_eq in Hl.
  destruct (bits_bools l Hb) as [cs ->]. rewrite map_length in Hl.
  destruct cs as [|c7 [|c6 [|c5 [|c4 [|c3 [|c2 [|c1 [|c0 [|? ?]]]]]]]]]; try discriminate Hl.
  clear. destruct c7, c6, c5, c4, c3, c2, c1, c0; vm_compute; reflexivity.
Qed.

Lemma py_floordiv_nat a b : (0 < b)%nat -> py_floordiv (VInt (Z.of_nat a)) (VInt (Z.of_nat b)) = Ok (VInt (Z.of_nat (a / b))).
Proof. intros H. unfold py_floordiv, int2. cbn [as_int]. replace (Z.of_nat b =? 0) with false by lia. rewrite Nat2Z.inj_div. reflexivity. Qed.

Lemma VarLen_pack_varlen p lw base b :
  len_attr p "length_format" "length_size" false = Some lw -> nat_attr p "base" = Some base -> bytes_okb b = true ->
  pack_sim (VarLen_pack R p [VBytes b]) (varlen_pack lw base b).
Proof.
  intros HL HB Hb. destruct (len_attr_inv _ _ _ _ _ HL) as (s & Hs & Hp & _). pose proof (nat_attr_inv _ _ _ HB) as Hbase.
  unfold VarLen_pack, varlen_pack. rewrite Hs. cbn [bind]. rewrite py_len_bytes. cbn [bind]. rewrite Hbase. cbn [bind].
  destruct base as [|base].
  - cbn [Nat.eqb]. unfold py_floordiv, int2. cbn [as_int Z.of_nat Z.eqb]. cbn [bind]. discriminate.
  - cbn [Nat.eqb]. rewrite py_floordiv_nat by lia. cbn [bind]. rewrite (py_pack_be s [PU lw] _ Hp). rewrite Hb, andb_true_r.
    destruct (in_range 0 (256 ^ Z.of_nat lw) (Z.of_nat (length b / S base))) eqn:Er.
    + rewrite (spack_uint _ _ Er). cbn [bind py_add as_int]. reflexivity.
    + rewrite (spack_uint_bad _ _ Er). cbn [bind]. discriminate.
Qed.

Lemma VarLen_pack_ok p lw base v :
  fmt_of_packer p = Some (FVarLen lw base false) -> val_ok key_ok (FVarLen lw base false) v = true ->
  pack_sim (VarLen_pack R p (pargs (FVarLen lw base false) v)) (pack key_ok (FVarLen lw base false) v).
Proof.
  intros H Hok. destruct (fmt_inv _ _ H) as (_ & HL & HB). cbn [val_ok] in Hok. destruct v; try discriminate Hok.
  apply andb_true_iff in Hok as [Hok _]. apply andb_true_iff in Hok as [_ Hb].
  exact (VarLen_pack_varlen p lw base b HL HB Hb).
Qed.

Lemma VarLenUtf8_pack_ok p lw base v :
  fmt_of_packer p = Some (FVarLen lw base true) -> val_ok key_ok (FVarLen lw base true) v = true ->
  pack_sim (VarLenUtf8_pack R p (pargs (FVarLen lw base true) v)) (pack key_ok (FVarLen lw base true) v).
Proof.
  intros H Hok. destruct (fmt_inv _ _ H) as (_ & HL & HB). cbn [val_ok] in Hok. destruct v; try discriminate Hok.
  cbn [pargs pack]. apply andb_true_iff in Hok as [Hok Hu]. apply andb_true_iff in Hok as [Hok _]. apply andb_true_iff in Hok as [_ Hb].
  rewrite Hu. unfold VarLenUtf8_pack. cbn [py_encode bind].
  pose proof (VarLen_pack_varlen p lw base b HL HB Hb) as C. destruct (VarLen_pack R p [VBytes b]) as [r|e]; cbn [bind]; exact C.
Qed.

Lemma spack_bytes_exact n b : length b = n -> spack1 (PBytes n) (VBytes b) = Ok b.
Proof. intros <-. cbn [spack1]. rewrite firstn_all, Nat.sub_diag. cbn [repeat]. rewrite app_nil_r. reflexivity. Qed.

Lemma IPv4_pack_ok p v : val_ok key_ok FIPv4 v = true -> pack_sim (IPv4_pack R p (pargs FIPv4 v)) (pack key_ok FIPv4 v).
Proof.
  cbn [val_ok]. destruct v as [| | | | |a| | | |]; try discriminate. destruct a as [ip port| |]; try discriminate.
  intros H. cbn [pargs pack]. cbn [addr_ok] in H. rewrite H. apply andb_true_iff in H as [H Hport]. apply andb_true_iff in H as [Hl _]. apply Nat.eqb_eq in Hl.
  unfold IPv4_pack. rewrite (proj1 (pk_index_addr _)), (proj2 (pk_index_addr _)). cbn [bind py_inet_aton host4].
  rewrite (py_pack_be [62; 52; 115; 72] [PBytes 4; PU 2] _ eq_refl). cbn [spack]. rewrite (spack_bytes_exact 4 ip Hl). cbn [bind spack1 as_int].
  change (256 ^ Z.of_nat 2) with 65536. rewrite Hport. cbn [bind]. rewrite app_nil_r. reflexivity.
Qed.

(* ">B4sH" / ">B16sH": tag, address bytes, port *)
Lemma spack_tag_ip_port n ip port : length ip = n -> in_range 0 65536 port = true -> forall t, in_range 0 256 t = true ->
  spack [PU 1; PBytes n; PU 2] [VInt t; VBytes ip; VInt port] = Ok (be_encode 1 t ++ ip ++ be_encode 2 port).
Proof.
  intros Hl Hp t Ht. cbn [spack]. rewrite (spack_bytes_exact n ip Hl). cbn [spack1 as_int].
  change (256 ^ Z.of_nat 1) with 256. change (256 ^ Z.of_nat 2) with 65536. rewrite Ht, Hp. cbn [bind]. rewrite app_nil_r. reflexivity.
Qed.

Lemma Address_pack_ok p ip_only v :
  fmt_of_packer p = Some (FAddr ip_only) -> val_ok key_ok (FAddr ip_only) v = true ->
  pack_sim (Address_pack R p (pargs (FAddr ip_only) v)) (pack key_ok (FAddr ip_only) v).
Proof.
  intros H Hok. destruct (fmt_inv _ _ H) as (_ & Hip). cbn [val_ok] in Hok. destruct v as [| | | | |a| | | |]; try discriminate Hok.
  cbn [pargs pack]. unfold Address_pack.
  destruct a as [ip port|ip port|host port]; cbn [addr_ok] in Hok; cbn [addr_pack].
  - rewrite Hok. apply andb_true_iff in Hok as [Hok Hport]. apply andb_true_iff in Hok as [Hl _]. apply Nat.eqb_eq in Hl.
    rewrite (proj1 (pk_index_addr _)), (proj2 (pk_index_addr _)). cbn [bind py_inet_pton host4].
    rewrite (py_pack_be [62; 66; 52; 115; 72] [PU 1; PBytes 4; PU 2] _ eq_refl), (spack_tag_ip_port 4 ip port Hl Hport 1 eq_refl). reflexivity.
  - rewrite Hok. apply andb_true_iff in Hok as [Hok Hport]. apply andb_true_iff in Hok as [Hl _]. apply Nat.eqb_eq in Hl.
    rewrite !(proj1 (pk_index_addr _)), !(proj2 (pk_index_addr _)). cbn [bind py_inet_pton host6 py_try catchable exn_eqb negb].
    rewrite (py_pack_be [62; 66; 49; 54; 115; 72] [PU 1; PBytes 16; PU 2] _ eq_refl), (spack_tag_ip_port 16 ip port Hl Hport 3 eq_refl). reflexivity.
  - destruct ip_only; [discriminate Hok|]. cbn [negb andb] in Hok. rewrite Hok.
    apply andb_true_iff in Hok as [Hok Hport]. apply andb_true_iff in Hok as [Hok _]. apply andb_true_iff in Hok as [Hlen _].
    rewrite !(proj1 (pk_index_addr _)), !(proj2 (pk_index_addr _)). cbn [bind py_inet_pton py_try catchable exn_eqb negb].
    rewrite Hip. cbn [bind py_truthy negb py_encode]. rewrite !py_len_bytes. cbn [bind].
    unfold py_fstring. cbn [mapM py_format_piece bind]. replace (Z.of_nat (length host) <? 0) with false by lia. rewrite Nat2Z.id.
    cbn [bind concat]. rewrite app_nil_r.
    rewrite (py_pack_be _ [PU 1; PU 2; PBytes (length host); PU 2] _ (parse_domain_fmt (length host))).
    cbn [spack]. rewrite (spack_bytes_exact _ host eq_refl). cbn [bind spack1 as_int]. change (256 ^ Z.of_nat 2) with 65536.
    unfold in_range at 2. replace ((0 <=? Z.of_nat (length host)) && (Z.of_nat (length host) <? 65536)) with true by lia.
    rewrite Hport. cbn [in_range Z.leb Z.ltb Z.compare Z.pow Z.pow_pos Pos.iter Z.mul Pos.mul Z.of_nat Pos.of_succ_nat Pos.succ andb bind].
    change (2 <? 256) with true. change (be_encode 1 2) with [2]. cbn [bind app]. rewrite app_nil_r. reflexivity.
Qed.

Lemma concat_res_mapM {A} (f : A -> res bytes) l : concat_res (map f l) = (do bs <- mapM f l; Ok (concat bs)).
Proof.
  induction l as [|x l IH]; [reflexivity|]. cbn [map concat_res mapM]. destruct (f x); cbn [bind]; [|reflexivity].
  rewrite IH. destruct (mapM f l); reflexivity.
Qed.

Lemma array_item_aenc e v : aelem e = true -> prim_ok e v = true -> array_item e v = aenc e v.
Proof.
  intros He H. unfold array_item. destruct e, v; try discriminate H; try discriminate He;
    unfold aenc; rewrite H; reflexivity.
Qed.

Lemma mapM_ext_in {A B} (f g : A -> res B) l : (forall x, In x l -> f x = g x) -> mapM f l = mapM g l.
Proof.
  induction l as [|x l IH]; intros H; [reflexivity|]. cbn [mapM]. rewrite (H x (or_introl eq_refl)).
  rewrite IH by (intros y Hy; apply H; right; exact Hy). reflexivity.
Qed.

Lemma DefaultArray_pack_ok p e lw v :
  fmt_of_packer p = Some (FArray e lw) -> val_ok key_ok (FArray e lw) v = true ->
  pack_sim (DefaultArray_pack R p (pargs (FArray e lw) v)) (pack key_ok (FArray e lw) v).
Proof.
  intros H Hok. destruct (fmt_inv _ _ H) as (_ & HL & tc & real & e' & Htc & Hreal & He' & Hbase & Hcase).
  destruct (len_attr_inv _ _ _ _ _ HL) as (s & Hs & Hp & Hsz).
  cbn [val_ok] in Hok. destruct v; try discriminate Hok. apply andb_true_iff in Hok as [Hn Hall].
  cbn [pargs pack]. unfold DefaultArray_pack. rewrite Hs. cbn [bind py_len]. unfold py_pack, fmt_of_val. rewrite Hp. cbn [bind].
  unfold in_range. replace ((0 <=? Z.of_nat (length l)) && (Z.of_nat (length l) <? 256 ^ Z.of_nat lw)) with true by lia.
  rewrite spack_uint by (unfold in_range; lia). cbn [bind]. rewrite Hreal. cbn [bind]. unfold py_array_tobytes. rewrite He'. cbn [bind py_iter].
  rewrite concat_res_mapM.
  assert (E : mapM (array_item e') l = mapM (aenc e) l).
  { apply mapM_ext_in. intros x Hx. rewrite forallb_forall in Hall. specialize (Hall x Hx).
    destruct Hcase as [(-> & -> & ->)|(_ & -> & ->)].
    - injection He' as <-. destruct x; try discriminate Hall. destruct b; reflexivity.
    - apply array_item_aenc; [exact (proj1 (array_elem_inv _ _ He'))|exact Hall]. }
  rewrite E.
  assert (D : exists bs, mapM (aenc e) l = Ok bs).
  { assert (Ha : aelem e = true) by (destruct Hcase as [(_ & _ & ->)|(_ & _ & ->)]; [reflexivity|exact (proj1 (array_elem_inv _ _ He'))]).
    clear - Hall Ha. induction l as [|x l IH]; [exists []; reflexivity|]. cbn [forallb mapM] in *.
    apply andb_true_iff in Hall as [H1 H2]. destruct (IH H2) as [bs Hbs]. rewrite Hbs.
    unfold aenc. rewrite H1. cbn [negb]. destruct e, x; try discriminate H1; try discriminate Ha; cbn [bind]; eauto. }
  destruct D as [bs ->]. cbn [bind py_add as_int]. reflexivity.
Qed.

Lemma val_eqb_ints_r zs : forall a, val_eqb (VList a) (VList (map VInt zs)) = true -> a = map VInt zs.
Proof.
  induction zs as [|z zs IH]; intros [|x a] H; cbn in H; try discriminate; [reflexivity|].
  apply andb_true_iff in H as [H1 H2]. apply val_eqb_int in H1. subst. cbn [map]. f_equal. apply IH. exact H2.
Qed.

Lemma flags_dec_ints w n : exists zs, flags_dec w n = map VInt zs /\ forall z, In z zs -> 0 <= z.
Proof.
  unfold flags_dec. induction (seq 0 (w * 8)) as [|i l (zs & E & Hz)]; [exists []; split; [reflexivity|intros ? []]|].
  cbn [flat_map]. rewrite E. destruct (Z.testbit n (Z.of_nat i)); [exists (2 ^ Z.of_nat i :: zs)|exists zs]; (split; [reflexivity|]); [|exact Hz].
  intros z [<-|H]; [apply Z.pow_nonneg; lia|exact (Hz z H)].
Qed.

Lemma reduce_lor zs : forall a, (forall z, In z zs -> 0 <= z) ->
  py_reduce (fun v_a v_b => py_bitor v_a v_b) (map VInt zs) (VInt a) = Ok (VInt (Z.lor a (fold_right Z.lor 0 zs))) /\
  flags_or (map VInt zs) = Ok (fold_right Z.lor 0 zs).
Proof.
  induction zs as [|z zs IH]; intros a Hz.
  - cbn [map py_reduce fold_right flags_or]. rewrite Z.lor_0_r. split; reflexivity.
  - cbn [map py_reduce fold_right flags_or py_bitor int2 as_int bind].
    destruct (IH (Z.lor a z) (fun z' Hz' => Hz z' (or_intror Hz'))) as [E1 E2]. rewrite E1, E2.
    replace (z <? 0) with false by (specialize (Hz z (or_introl eq_refl)); lia). cbn [bind]. rewrite Z.lor_assoc. split; reflexivity.
Qed.

Lemma Flags_pack_ok p w v :
  fmt_of_packer p = Some (FFlags w) -> val_ok key_ok (FFlags w) v = true ->
  pack_sim (Flags_pack R p (pargs (FFlags w) v)) (pack key_ok (FFlags w) v).
Proof.
  intros H Hok. destruct (fmt_inv _ _ H) as (_ & HL). destruct (len_attr_inv _ _ _ _ _ HL) as (s & Hs & Hp & _).
  cbn [val_ok] in Hok. destruct v; try discriminate Hok.
  destruct (flags_dec_ints w match flags_or l with Ok z => z | Raise _ => -1 end) as (zs & Ezs & Hzs). rewrite Ezs in Hok.
  apply val_eqb_ints_r in Hok. subst l. clear Ezs.
  cbn [pargs pack]. unfold Flags_pack. rewrite Hs. cbn [bind py_iter].
  destruct (reduce_lor zs 0 Hzs) as [E1 E2]. rewrite E1, E2. cbn [bind]. rewrite Z.lor_0_l.
  rewrite (py_pack_be s [PU w] _ Hp).
  destruct (in_range 0 (256 ^ Z.of_nat w) (fold_right Z.lor 0 zs)) eqn:Er.
  - rewrite (spack_uint _ _ Er). reflexivity.
  - rewrite (spack_uint_bad _ _ Er). cbn [bind]. discriminate.
Qed.

Lemma mapM_sim {X Y A B} (Q : A -> B -> Prop) (f : X -> res A) (g : Y -> res B) xs ys :
  Forall2 (fun x y => res_sim Q (f x) (g y)) xs ys -> res_sim (Forall2 Q) (mapM f xs) (mapM g ys).
Proof.
  induction 1 as [|x y xs ys H _ IH]; [constructor|]. cbn [mapM].
  apply (res_sim_bind _ _ _ _ _ _ H). intros a b Hab. apply (res_sim_bind _ _ _ _ _ _ IH). intros l l' Hl. constructor; assumption.
Qed.

Lemma listcomp_pack (q : packer) f' xs vs :
  Forall2 (fun x v => pack_sim (r_pack R q [x]) (pack key_ok f' v)) xs vs ->
  pack_sim (do t5_ <- py_listcomp (fun v_item => do t4_ <- Ok q; r_pack R t4_ [v_item]) (VList xs); py_join (VBytes []) t5_)
           (concat_res (map (pack key_ok f') vs)).
Proof.
  intros Hq. rewrite concat_res_mapM. unfold py_listcomp. cbn [py_iter bind]. rewrite bind_assoc.
  apply (res_sim_bind _ _ _ _ _ _ (mapM_sim (fun r b => r = VBytes b) _ _ _ _ Hq)). intros rs bs Hrs. cbn [bind].
  assert (rs = map VBytes bs) as -> by (induction Hrs; cbn [map]; congruence).
  unfold py_join. cbn [py_iter bind].
  assert (E : mapM bytes_of (map VBytes bs) = Ok bs) by (clear; induction bs as [|x bs IH]; [reflexivity|cbn [map mapM bytes_of bind]; rewrite IH; reflexivity]).
  rewrite E. cbn [bind res_sim]. f_equal. clear. induction bs as [|x [|y bs] IH]; [reflexivity|cbn; rewrite app_nil_r; reflexivity|].
  cbn [intercalate concat app] in *. rewrite IH. reflexivity.
Qed.

Lemma ListOf_pack_ok p q lw f' xs vs :
  len_attr p "length_format" "length_size" false = Some lw -> subs_get "packer" (pk_subs p) = Some q ->
  Forall2 (fun x v => pack_sim (r_pack R q [x]) (pack key_ok f' v)) xs vs ->
  pack_sim (ListOf_pack R p [VList xs]) (pack key_ok (FListOf lw f') (VList vs)).
Proof.
  intros HL Hsub Hq. destruct (len_attr_inv _ _ _ _ _ HL) as (s & Hs & Hp & _).
  unfold ListOf_pack. rewrite Hs. cbn [bind py_len pack]. rewrite (py_pack_be s [PU lw] _ Hp).
  rewrite (Forall2_len _ _ _ Hq).
  destruct (in_range 0 (256 ^ Z.of_nat lw) (Z.of_nat (length vs))) eqn:Er.
  2:{ rewrite (spack_uint_bad _ _ Er). cbn [bind]. discriminate. }
  rewrite (spack_uint _ _ Er). cbn [bind]. unfold pk_sub. rewrite Hsub.
  rewrite bind_assoc. apply (res_sim_bind _ _ _ _ _ _ (listcomp_pack q f' xs vs Hq)). intros r b ->. reflexivity.
Qed.

Lemma NestedPayload_pack_ok p m vs ents :
  pack_sim (r_pack_serializable R (VMsg ents)) (pack_msg key_ok m vs) ->
  pack_sim (NestedPayload_pack R p [VMsg ents]) (pack key_ok (FNested m) (VMsg vs)).
Proof.
  intros Hs. unfold NestedPayload_pack. rewrite pack_nested. apply (res_sim_bind _ _ _ _ _ _ Hs). intros r b ->.
  cbn [py_len bind]. unfold blen. rewrite (py_pack_be [62; 72] [PU 2] _ eq_refl).
  destruct (Z.of_nat (length b) <? 65536) eqn:E.
  - rewrite spack_uint by (unfold in_range; change (256 ^ Z.of_nat 2) with 65536; lia). reflexivity.
  - rewrite spack_uint_bad by (unfold in_range; change (256 ^ Z.of_nat 2) with 65536; lia). cbn [bind]. discriminate.
Qed.

Lemma Serializer_pack_ok S n p v (w : res bytes) :
  ser_find S n = Ok p -> pack_sim (r_pack R p [v]) w -> pack_sim (Serializer_pack R S (VStr n) v) w.
Proof.
  intros Hf Hp. unfold Serializer_pack. cbn [ser_getitem]. rewrite Hf. cbn [bind].
  destruct (r_pack R p [v]) as [r|e]; cbn [bind]; exact Hp.
Qed.

Lemma NodePacker_pack_ok p a k :
  (pack_sim (r_ser_pack R (VStr n_ip_address) (VAddr a)) (addr_pack true a)) ->
  (pack_sim (r_ser_pack R (VStr n_varlenH) (VBytes k)) (varlen_pack 2 1 k)) ->
  key_ok k = true ->
  pack_sim (NodePacker_pack R p [VNode a k]) (pack key_ok FNode (VNode a k)).
Proof.
  intros Ha Hk Hkey. unfold NodePacker_pack. cbn [py_node_address py_node_key_bin bind pack]. fold n_ip_address n_varlenH. rewrite Hkey.
  rewrite bind_assoc. apply (res_sim_bind _ _ _ _ _ _ Ha). intros r x ->.
  rewrite bind_assoc. apply (res_sim_bind _ _ _ _ _ _ Hk). intros r y ->. reflexivity.
Qed.

Lemma py_slice_tuple_tail x l : py_slice (VTuple (x :: l)) (Some (VInt 1)) None = Ok (VTuple l).
Proof.
  unfold py_slice. cbn [opt_int as_int bind]. f_equal. f_equal. change 1 with (Z.of_nat 1). rewrite lslice_from. reflexivity.
Qed.

(* every entry of a pack list that stands for a value of f names a packer that packs it *)
Definition entry_packs S (f : fmt) : Prop :=
  forall e v ent, entry_rel S e f v ent ->
  exists n p args, ent = VTuple (VStr n :: args) /\ ser_find S n = Ok p /\
                   (val_ok key_ok f v = true -> pack_sim (r_pack R p args) (pack key_ok f v)).

(* Serializer.pack_serializable: the loop over to_pack_list() against pack_msg *)
Lemma Serializer_pack_serializable_ok S fs m vs ents :
  inst_rel S fs m vs ents -> (forall f, In f (msg_fields m) -> entry_packs S f) -> msg_ok key_ok m vs = true ->
  pack_sim (Serializer_pack_serializable R S (VMsg ents)) (pack_msg key_ok m vs).
Proof.
  intros Hi HR Hok. unfold Serializer_pack_serializable. cbv zeta. cbn [py_to_pack_list bind py_iter].
  match goal with |- context [py_for _ ?b _] => set (body := b) end.
  assert (Hloop : forall fs m vs ents, inst_rel S fs m vs ents -> (forall f, In f (msg_fields m) -> entry_packs S f) ->
            msg_ok key_ok m vs = true -> forall acc,
            res_sim (fun r b => r = VBytes (acc ++ b)) (py_for ents body (VBytes acc)) (pack_msg key_ok m vs)).
  { clear. induction 1 as [|e f fs m v vs ent ents He Hi IH]; intros HR Hok acc.
    - cbn [py_for pack_msg res_sim]. rewrite app_nil_r. reflexivity.
    - rewrite msg_ok_cons in Hok. apply andb_true_iff in Hok as [Hv Hvs]. rewrite pack_msg_cons. cbn [py_for].
      destruct (HR f (or_introl eq_refl) e v ent He) as (n & p & args & -> & Hp & Hpk). specialize (Hpk Hv).
      unfold body at 1. rewrite pk_index_tuple0. cbn [bind ser_getitem]. rewrite Hp. cbn [bind]. rewrite py_slice_tuple_tail. cbn [bind py_iter].
      destruct (res_sim_inv _ _ _ Hpk) as [(r & a & -> & -> & ->)|(ex & e' & -> & -> & Hex)]; cbn [bind py_try].
      + cbn [py_iadd py_add as_int bind py_try].
        apply (res_sim_bind_r _ _ _ _ _ (IH (fun f' Hin => HR f' (or_intror Hin)) Hvs (acc ++ a))). intros r b ->.
        cbn [res_sim]. rewrite app_assoc. reflexivity.
      + unfold catchable. destruct (exn_eqb ex OutOfFuel) eqn:Eo; [apply exn_eqb_eq in Eo; contradiction|]. cbn [negb bind]. discriminate. }
  apply (res_sim_bind_l _ _ _ _ _ (Hloop fs m vs ents Hi HR Hok [])). intros r b ->. reflexivity.
Qed.
End PackClasses.

Section ClosePack.
Variable key_ok : bytes -> bool.
Variable S : ser.
Hypothesis Hwf : ser_wf S = true.

Definition Ppack (f : fmt) : Prop :=
  forall n p v args, pack_rel S p f v args -> val_ok key_ok f v = true -> (need f <= n)%nat ->
  pack_sim (r_pack (run key_ok S n) p args) (pack key_ok f v).
Definition Pmpack (m : msgfmt) : Prop :=
  (forall f, In f (msg_fields m) -> Ppack f) /\
  forall n fs vs ents, inst_rel S fs m vs ents -> msg_ok key_ok m vs = true -> (Datatypes.S (need_msg m) <= n)%nat ->
  pack_sim (r_pack_serializable (run key_ok S n) (VMsg ents)) (pack_msg key_ok m vs).

Lemma plain_only_pack p f v args : pack_rel S p f v args ->
  match f with FListOf _ _ | FNested _ => True | _ => fmt_of_packer p = Some f /\ args = pargs f v end.
Proof. intros H. destruct H; [destruct f; auto|exact I|exact I]. Qed.

Ltac plain_pack n Hp Hn Hf Hc :=
  destruct n as [|n]; [cbn [need] in Hn; lia|];
  pose proof (plain_only_pack _ _ _ _ Hp) as Hf; cbn beta iota in Hf; destruct Hf as [Hf ->];
  pose proof (fmt_inv _ _ Hf) as Hc; cbn beta iota in Hc; cbn [run r_pack].

(* the entry of a pack list: name, packer, arguments *)
Lemma entry_packer e f v ent :
  entry_rel S e f v ent ->
  exists n p args, ent = VTuple (VStr n :: args) /\ ser_find S n = Ok p /\ pack_rel S p f v args.
Proof.
  destruct (ser_wf_inv S Hwf) as ((pp & Hpp & Npp) & (lw & pl & q & Hlw & Hpl & Cpl & Lpl & Spl & Nq) & _ & _).
  intros He. destruct He as [n p f v Hn Hf Hpk|c m vs ents Hi|c m lw' vss entss Hlw' His].
  - exists n, p, (pargs f v). split; [reflexivity|]. split; [exact Hn|]. apply pr_plain; assumption.
  - exists n_payload, pp, [VMsg ents]. split; [reflexivity|]. split; [exact Hpp|]. eapply pr_nested; eassumption.
  - assert (lw' = lw) by congruence. subst lw'.
    exists n_payload_list, pl, [VList entss]. split; [reflexivity|]. split; [exact Hpl|]. eapply pr_list; eassumption.
Qed.

Lemma pack_rel_listof p lw f' v args : pack_rel S p (FListOf lw f') v args ->
  (fmt_of_packer p = Some (FListOf lw f') /\ packable (FListOf lw f') = true /\ args = pargs (FListOf lw f') v) \/
  exists q fs m vss entss, f' = FNested m /\ v = VList vss /\ args = [VList entss] /\ pk_cls p = "ListOf"%string /\
    len_attr p "length_format" "length_size" false = Some lw /\ subs_get "packer" (pk_subs p) = Some q /\
    is_nested q = true /\ insts_rel S fs m vss entss.
Proof. inversion 1; subst; [left; auto|right]. do 5 eexists. repeat split; eassumption. Qed.

Lemma pack_refines_all : (forall f, Ppack f) /\ (forall m, Pmpack m).
Proof.
  apply fmt_msg_ind.
  - intros ps n p v args Hp Hok Hn. plain_pack n Hp Hn Hf Hc. destruct Hc as (Hc & _). dispatch_to Hc. apply DefaultStruct_pack_ok; assumption.
  - intros n p v args Hp Hok Hn. plain_pack n Hp Hn Hf Hc. dispatch_to Hc. apply Bits_pack_ok; assumption.
  - intros n p v args Hp Hok Hn. plain_pack n Hp Hn Hf Hc. dispatch_to Hc. apply Raw_pack_ok; assumption.
  - intros lw base utf8 n p v args Hp Hok Hn. plain_pack n Hp Hn Hf Hc. destruct Hc as (Hc & _). destruct utf8; dispatch_to Hc.
    + apply VarLenUtf8_pack_ok; assumption.
    + apply VarLen_pack_ok; assumption.
  - intros n p v args Hp Hok Hn. plain_pack n Hp Hn Hf Hc. dispatch_to Hc. apply IPv4_pack_ok; assumption.
  - intros ip_only n p v args Hp Hok Hn. plain_pack n Hp Hn Hf Hc. destruct Hc as (Hc & _). dispatch_to Hc. apply Address_pack_ok; assumption.
  - intros w n p v args Hp Hok Hn. plain_pack n Hp Hn Hf Hc. destruct Hc as (Hc & _). dispatch_to Hc. apply Flags_pack_ok; assumption.
  - intros e lw n p v args Hp Hok Hn. plain_pack n Hp Hn Hf Hc. destruct Hc as (Hc & _). dispatch_to Hc. apply DefaultArray_pack_ok; assumption.
  - (* node *) intros n p v args Hp Hok Hn. plain_pack n Hp Hn Hf Hc. dispatch_to Hc. cbn [need] in Hn. destruct n as [|[|n]]; try lia.
    cbn [val_ok] in Hok. destruct v; try discriminate Hok. cbn [pargs].
    apply andb_true_iff in Hok as [Hok Hlen]. apply andb_true_iff in Hok as [Hok Hkb]. apply andb_true_iff in Hok as [Ha Hk].
    destruct (ser_wf_inv S Hwf) as (_ & _ & (pa & Hpa & Fpa) & (pv & Hpv & Fpv)).
    apply NodePacker_pack_ok; [| |exact Hk]; cbn [run r_ser_pack].
    + apply (Serializer_pack_ok _ S n_ip_address pa (VAddr a) _ Hpa). cbn [run r_pack].
      destruct (fmt_inv _ _ Fpa) as (Ca & _). dispatch_to Ca.
      exact (Address_pack_ok _ key_ok pa true (VAddr a) Fpa Ha).
    + apply (Serializer_pack_ok _ S n_varlenH pv (VBytes key) _ Hpv). cbn [run r_pack].
      destruct (fmt_inv _ _ Fpv) as (Cv & _). dispatch_to Cv.
      assert (Hv : val_ok key_ok (FVarLen 2 1 false) (VBytes key) = true).
      { cbn [val_ok]. rewrite Hkb. rewrite Nat.mod_1_r, Nat.div_1_r. change (256 ^ Z.of_nat 2) with 65536. cbn [Nat.ltb Nat.leb Nat.eqb andb]. exact Hlen. }
      exact (VarLen_pack_ok _ key_ok pv 2 1 (VBytes key) Fpv Hv).
  - (* listof *) intros lw f' IH n p v args Hp Hok Hn. cbn [need] in Hn. destruct n as [|n]; [lia|].
    cbn [val_ok] in Hok. destruct v as [| | | | | | |vs| |]; try discriminate Hok. apply andb_true_iff in Hok as [_ Hall].
    rewrite forallb_forall in Hall. cbn [run r_pack].
    destruct (pack_rel_listof _ _ _ _ _ Hp) as [(Hf & Hk & ->)|(q & fs & m & vss & entss & -> & Ev & -> & Hc & HL & Hs & Nq & His)].
    + (* a plain list *)
      destruct (fmt_inv _ _ Hf) as (Hc & HL & q & Hs & Hfq). cbn [packable] in Hk. apply andb_true_iff in Hk as [Hk1 Hk2].
      cbn [pargs]. dispatch_to Hc. apply (ListOf_pack_ok _ key_ok p q lw f' vs vs HL Hs).
      assert (Hone : forall x, pargs f' x = [x]) by (intros x; destruct f' as [[|? [|? ?]]| | | | | | | | | |]; try discriminate Hk2; destruct x; reflexivity).
      clear - IH Hall Hfq Hk1 Hone Hn. induction vs as [|x vs IHvs]; constructor.
      * rewrite <- (Hone x). apply IH; [apply pr_plain; assumption|apply Hall; left; reflexivity|lia].
      * apply IHvs. intros y Hy. apply Hall. right. exact Hy.
    + (* payload-list *)
      injection Ev as <-. dispatch_to Hc. apply (ListOf_pack_ok _ key_ok p q lw (FNested m) entss vs HL Hs).
      clear - Nq His IH Hall Hn. induction His as [|fs m vs1 ents1 vss1 entss1 Hi _ IHs]; constructor.
      * apply IH; [eapply pr_nested; eassumption|apply Hall; left; reflexivity|lia].
      * apply IHs; [exact IH|exact Hn|]. intros y Hy. apply Hall. right. exact Hy.
  - (* nested *) intros m [_ IHm] n p v args Hp Hok Hn. cbn [need] in Hn. destruct n as [|n]; [lia|].
    inversion Hp; subst.
    + match goal with Hf : fmt_of_packer p = Some _ |- _ => destruct (fmt_inv _ _ Hf) end.
    + match goal with Hnp : is_nested p = true, Hi : inst_rel S ?fs m ?vs ?ents |- _ =>
        cbn [run r_pack]; unfold is_nested in Hnp; apply String.eqb_eq in Hnp; dispatch_to Hnp;
        apply NestedPayload_pack_ok; rewrite val_ok_nested in Hok; apply andb_true_iff in Hok as [Hok _];
        apply (IHm n fs vs ents Hi Hok); lia
      end.
  - (* MNil *) split; [intros f []|]. intros n fs vs ents Hi Hok Hn. destruct n as [|n]; [lia|]. cbn [run r_pack_serializable].
    apply (Serializer_pack_serializable_ok _ key_ok S fs MNil vs ents Hi); [|exact Hok]. intros f [].
  - (* MCons *) intros f IHf m [IHfields IHm]. split.
    + intros f0 [<-|Hin]; [exact IHf|apply IHfields; exact Hin].
    + intros n fs vs ents Hi Hok Hn. destruct n as [|n]; [lia|]. cbn [run r_pack_serializable].
      apply (Serializer_pack_serializable_ok _ key_ok S fs (MCons f m) vs ents Hi); [|exact Hok].
      intros f0 Hin e v ent He. destruct (entry_packer e f0 v ent He) as (nm & p & args & -> & Hp & Hrel).
      exists nm, p, args. split; [reflexivity|]. split; [exact Hp|]. intros Hv.
      assert (Ppack f0) as P0 by (destruct Hin as [<-|Hin]; [exact IHf|apply IHfields; exact Hin]).
      apply P0; [exact Hrel|exact Hv|]. pose proof (need_field f0 (MCons f m) Hin). lia.
Qed.
End ClosePack.
