(* C15 - lemmas about the value codec: unserialize_value, post_process_values, serialize_value. *)
From Coq Require Import ZArith List Bool Lia.
From IPV8V Require Import lib.Lists lib.PyErr lib.Bytes lib.BE gen.G15_consts model.M15_dht_store proofs.P15_storage.
Import ListNotations.
Open Scope Z_scope.

Lemma okey_eqb_spec a b : reflect (a = b) (okey_eqb a b).
Proof.
  destruct a as [x|], b as [y|]; cbn [okey_eqb]; try (constructor; congruence).
  destruct (bytes_eqb_spec x y); constructor; congruence.
Qed.

Section Codec.
Variable verify : bytes -> bytes -> bytes -> bool.
Variable siglen : bytes -> res nat.

Notation unserialize := (unserialize verify siglen).
Notation unpack_values := (unpack_values verify siglen).
Notation post_process := (post_process verify siglen).

(* a value that unserializes is plain, or signed: its fields unpack and the signature verifies *)
Lemma unserialize_some value d pk ver :
  unserialize value = Ok (Some (d, pk, ver)) ->
  match pk with
  | None => value = DHT_ENTRY_STR :: d /\ ver = 0
  | Some k => exists n, unpack_signed value = Ok (d, ver, k) /\ siglen k = Ok n
                /\ verify k (slice value None (Some (- Z.of_nat n))) (slice value (Some (- Z.of_nat n)) None) = true
  end.
Proof.
  unfold M15_dht_store.unserialize. destruct value as [|t tl]; [discriminate|].
  destruct (t =? DHT_ENTRY_STR) eqn:Et.
  - intros H. injection H as <- <- <-. cbn [skipn]. split; [f_equal; lia | reflexivity].
  - destruct (t =? DHT_ENTRY_STR_SIGNED); [|discriminate].
    destruct (unpack_signed (t :: tl)) as [[[d0 ver0] pk0]|e]; cbn [bind]; [|discriminate].
    destruct (siglen pk0) as [n|e] eqn:En; cbn [bind]; [|discriminate]. cbv zeta.
    destruct (verify pk0 _ _) eqn:Ev; [|discriminate].
    intros H. injection H as <- <- <-. exists n. auto.
Qed.

Fixpoint dlook (d : udict) (k : option bytes) : list (Z * bytes) :=
  match d with
  | [] => []
  | (k', l) :: tl => if okey_eqb k' k then l else dlook tl k
  end.

Lemma dlook_dd_append d k x k' :
  dlook (dd_append d k x) k' = if okey_eqb k k' then dlook d k ++ [x] else dlook d k'.
Proof.
  induction d as [|[k1 l1] d IH]; cbn [dd_append dlook]; [destruct (okey_eqb k k'); reflexivity|].
  destruct (okey_eqb_spec k1 k) as [->|Hne]; cbn [dlook].
  - destruct (okey_eqb k k'); reflexivity.
  - rewrite IH. destruct (okey_eqb_spec k1 k') as [->|]; [|reflexivity].
    destruct (okey_eqb_spec k k'); [congruence | reflexivity].
Qed.

Lemma In_dlook d k l : NoDup (map fst d) -> In (k, l) d -> dlook d k = l.
Proof.
  induction d as [|[k1 l1] d IH]; cbn [map fst dlook]; intros Hnd H; [destruct H|]. destruct H as [E|H].
  - injection E as -> ->. destruct (okey_eqb_spec k k); [reflexivity | contradiction].
  - inversion Hnd as [|? ? Hk Hd]; subst. destruct (okey_eqb_spec k1 k) as [->|]; [|apply IH; assumption].
    exfalso. apply Hk. apply (in_map fst) in H. exact H.
Qed.

Lemma dlook_In d k : dlook d k <> [] -> In (k, dlook d k) d.
Proof.
  induction d as [|[k1 l1] d IH]; cbn [dlook]; [congruence|].
  destruct (okey_eqb_spec k1 k) as [->|]; [left; reflexivity | right; apply IH; assumption].
Qed.

Lemma dd_append_keys d k x :
  map fst (dd_append d k x) = if existsb (fun e => okey_eqb (fst e) k) d then map fst d else map fst d ++ [k].
Proof.
  induction d as [|[k' l] d IH]; cbn [dd_append existsb map fst]; [reflexivity|].
  destruct (okey_eqb k' k) eqn:E; cbn [orb map fst]; [reflexivity|].
  rewrite IH. destruct (existsb _ d); reflexivity.
Qed.

Lemma dd_append_nodup d k x : NoDup (map fst d) -> NoDup (map fst (dd_append d k x)).
Proof.
  intros H. rewrite dd_append_keys. destruct (existsb (fun e => okey_eqb (fst e) k) d) eqn:E; [exact H|].
  apply NoDup_snoc; [exact H|].
  intro Hin. apply in_map_iff in Hin as (e & He & Hin). apply Bool.not_true_iff_false in E. apply E.
  apply existsb_exists. exists e. split; [exact Hin | destruct (okey_eqb_spec (fst e) k); tauto].
Qed.

(* the values that unserialize with signer k, as (version, data), in the order of the input *)
Definition entries (k : option bytes) (vals : list bytes) : list (Z * bytes) :=
  flat_map (fun v => match unserialize v with
                     | Ok (Some (data, pk, ver)) => if okey_eqb pk k then [(ver, data)] else []
                     | _ => []
                     end) vals.

Lemma in_entries k vals ver data :
  In (ver, data) (entries k vals) <-> exists value, In value vals /\ unserialize value = Ok (Some (data, k, ver)).
Proof.
  unfold entries. rewrite in_flat_map. split; intros (value & Hin & H); exists value; (split; [exact Hin|]).
  - destruct (unserialize value) as [[[[d pk] v]|]|]; try destruct H.
    destruct (okey_eqb_spec pk k) as [->|]; [|destruct H]. destruct H as [E|[]]. injection E as -> ->. reflexivity.
  - rewrite H. destruct (okey_eqb_spec k k); [left; reflexivity | contradiction].
Qed.

Lemma unpack_values_dlook vals : forall d d' k,
  unpack_values vals d = Ok d' -> dlook d' k = dlook d k ++ entries k vals.
Proof.
  induction vals as [|v vals IH]; intros d d' k H; cbn [M15_dht_store.unpack_values] in H.
  - injection H as <-. symmetry. apply app_nil_r.
  - unfold entries. cbn [flat_map]. fold (entries k vals).
    destruct (unserialize v) as [[[[data pk] ver]|]|e]; cbn [bind] in H; [| apply (IH _ _ _ H) | discriminate].
    rewrite (IH _ _ _ H), dlook_dd_append. destruct (okey_eqb_spec pk k) as [->|]; [rewrite <- app_assoc|]; reflexivity.
Qed.

Lemma unpack_values_nodup vals : forall d d',
  NoDup (map fst d) -> unpack_values vals d = Ok d' -> NoDup (map fst d').
Proof.
  induction vals as [|v vals IH]; intros d d' Hd H; cbn [M15_dht_store.unpack_values] in H; [injection H as <-; exact Hd|].
  destruct (unserialize v) as [[[[data pk] ver]|]|e]; cbn [bind] in H; [| eapply IH; eauto | discriminate].
  eapply IH; [|exact H]. apply dd_append_nodup, Hd.
Qed.

Lemma max_by_version_in l : forall best, In (max_by_version best l) (best :: l).
Proof.
  induction l as [|x l IH]; intros best; cbn [max_by_version]; [left; reflexivity|].
  destruct (fst best <? fst x).
  - destruct (IH x) as [H|H]; [right; left; exact H | right; right; exact H].
  - destruct (IH best) as [H|H]; [left; exact H | right; right; exact H].
Qed.

Lemma max_by_version_ge l : forall best x, In x (best :: l) -> fst x <= fst (max_by_version best l).
Proof.
  assert (Hb : forall l best, fst best <= fst (max_by_version best l)).
  { induction l0 as [|y l0 IH]; intros best; cbn [max_by_version]; [lia|].
    destruct (fst best <? fst y) eqn:E; [specialize (IH y); lia | apply IH]. }
  induction l as [|y l IH]; intros best x Hin; cbn [max_by_version].
  - destruct Hin as [<-|[]]. lia.
  - destruct (fst best <? fst y) eqn:E.
    + destruct Hin as [<-|Hin]; [specialize (Hb l y); lia | apply IH; exact Hin].
    + destruct Hin as [<-|[<-|Hin]]; [apply Hb | specialize (Hb l best); lia | apply IH; right; exact Hin].
Qed.

Lemma signed_results_cons k l d :
  signed_results ((k, l) :: d) =
  match k, l with Some pk, x :: tl => [(snd (max_by_version x tl), Some pk)] | _, _ => [] end ++ signed_results d.
Proof. reflexivity. Qed.

Lemma in_signed_results d data pk :
  NoDup (map fst d) ->
  (In (data, Some pk) (signed_results d) <->
   exists x tl, dlook d (Some pk) = x :: tl /\ data = snd (max_by_version x tl)).
Proof.
  intros Hnd. unfold signed_results. rewrite in_flat_map. split.
  - intros ([k l] & Hin & H). cbn [fst snd] in H. destruct k as [b|]; [|destruct H]. destruct l as [|x tl]; [destruct H|].
    destruct H as [H|[]]. injection H as <- <-. exists x, tl. split; [apply In_dlook; assumption | reflexivity].
  - intros (x & tl & E & ->). exists (Some pk, x :: tl). split; [|left; reflexivity].
    rewrite <- E. apply dlook_In. rewrite E. discriminate.
Qed.

Lemma unsigned_results_dlook d :
  NoDup (map fst d) -> unsigned_results d = map (fun x => (snd x, None)) (dlook d None).
Proof.
  induction d as [|[k l] d IH]; cbn [map fst]; intros H; [reflexivity|].
  inversion H as [|? ? Hn Hd]; subst. unfold unsigned_results. cbn [flat_map fst snd dlook]. fold (unsigned_results d).
  rewrite (IH Hd). destruct k as [pk|]; cbn [okey_eqb app]; [reflexivity|].
  assert (E : dlook d None = []); [|rewrite E; apply app_nil_r].
  destruct (dlook d None) eqn:E; [reflexivity|]. exfalso. apply Hn, (in_map fst d (None, dlook d None)), dlook_In.
  rewrite E. discriminate.
Qed.

Lemma unsigned_results_none d e : In e (unsigned_results d) -> snd e = None.
Proof.
  unfold unsigned_results. intros H. apply in_flat_map in H as [[k l] [_ H]]. cbn [fst snd] in H.
  destruct k; [destruct H|]. apply in_map_iff in H as [x [<- _]]. reflexivity.
Qed.

Lemma signed_results_some d e : In e (signed_results d) -> snd e <> None.
Proof.
  unfold signed_results. intros H. apply in_flat_map in H as [[k l] [_ H]]. cbn [fst snd] in H.
  destruct k as [b|]; [|destruct H]. destruct l; [destruct H|]. destruct H as [<-|[]]. discriminate.
Qed.

Lemma signed_results_keys d y : In y (map snd (signed_results d)) -> In y (map fst d).
Proof.
  intros H. apply in_map_iff in H as [e [<- H]]. unfold signed_results in H.
  apply in_flat_map in H as [[k l] [Hin H]]. cbn [fst snd] in H.
  destruct k as [b|]; [|destruct H]. destruct l; [destruct H|]. destruct H as [<-|[]].
  apply (in_map fst) in Hin. exact Hin.
Qed.

Lemma signed_results_nodup d : NoDup (map fst d) -> NoDup (map snd (signed_results d)).
Proof.
  induction d as [|[k l] d IH]; cbn [map fst]; intros H; [constructor|].
  inversion H as [|? ? Hnotin Hnd]; subst.
  rewrite signed_results_cons.
  destruct k as [b|]; [|apply IH; exact Hnd]. destruct l as [|x tl]; [apply IH; exact Hnd|].
  cbn [app map snd]. constructor; [|apply IH; exact Hnd].
  intro F. apply Hnotin. apply signed_results_keys. exact F.
Qed.

(* the result is read off a dict with one entry per signer, holding exactly the inputs of that signer *)
Lemma post_process_dict vals res :
  post_process vals = Ok res ->
  exists d, res = signed_results d ++ unsigned_results d /\ NoDup (map fst d) /\ forall k, dlook d k = entries k vals.
Proof.
  unfold M15_dht_store.post_process. destruct (unpack_values vals []) as [d|e] eqn:Eu; cbn [bind]; [|discriminate].
  intros H. injection H as <-. exists d. split; [reflexivity|].
  split; [apply (unpack_values_nodup vals [] d (NoDup_nil _) Eu) | intros k; apply (unpack_values_dlook _ _ _ k Eu)].
Qed.

End Codec.

Lemma take_mid {A} (pre x post : list A) off n :
  length pre = off -> length x = n -> firstn n (skipn off (pre ++ x ++ post)) = x.
Proof.
  intros <- <-. rewrite skipn_app, skipn_all, Nat.sub_diag. cbn [skipn app].
  rewrite firstn_app, firstn_all, Nat.sub_diag. cbn [firstn]. apply app_nil_r.
Qed.

Lemma u16_at_mid pre v post off :
  length pre = off -> 0 <= v < 65536 -> u16_at (pre ++ be_encode 2 v ++ post) off = Ok (Z.to_nat v).
Proof.
  intros Hp Hv. unfold u16_at.
  replace (off + 2 <=? length (pre ++ be_encode 2 v ++ post))%nat with true
    by (symmetry; apply Nat.leb_le; rewrite !app_length, be_encode_length; lia).
  rewrite (take_mid pre (be_encode 2 v) post off 2 Hp (be_encode_length 2 v)).
  rewrite be_decode_encode by (change (256 ^ Z.of_nat 2) with 65536; lia). reflexivity.
Qed.

Lemma varlenH_at_mid pre x post off :
  length pre = off -> blen x < 65536 ->
  varlenH_at (pre ++ be_encode 2 (blen x) ++ x ++ post) off = Ok (x, (off + 2 + length x)%nat).
Proof.
  intros Hp Hx. unfold varlenH_at. pose proof (blen_nonneg x).
  rewrite u16_at_mid by (auto; lia). cbn [bind].
  replace (Z.to_nat (blen x)) with (length x) by (unfold blen; lia).
  replace (off + 2 + length x <=? length (pre ++ be_encode 2 (blen x) ++ x ++ post))%nat with true
    by (symmetry; apply Nat.leb_le; rewrite !app_length, be_encode_length; lia).
  rewrite (app_assoc pre).
  rewrite (take_mid (pre ++ be_encode 2 (blen x)) x post (off + 2) (length x));
    [reflexivity | rewrite app_length, be_encode_length; lia | reflexivity].
Qed.

Lemma u32_at_mid pre v post off :
  length pre = off -> 0 <= v < 4294967296 -> u32_at (pre ++ be_encode 4 v ++ post) off = Ok (v, (off + 4)%nat).
Proof.
  intros Hp Hv. unfold u32_at.
  replace (off + 4 <=? length (pre ++ be_encode 4 v ++ post))%nat with true
    by (symmetry; apply Nat.leb_le; rewrite !app_length, be_encode_length; lia).
  rewrite (take_mid pre (be_encode 4 v) post off 4 Hp (be_encode_length 4 v)).
  rewrite be_decode_encode by (change (256 ^ Z.of_nat 4) with 4294967296; lia). reflexivity.
Qed.

Section Roundtrip.
Variable verify : bytes -> bytes -> bytes -> bool.
Variable siglen : bytes -> res nat.

Lemma unpack_signed_body data ver pk tail :
  blen data < 65536 -> blen pk < 65536 -> 0 <= ver < 4294967296 ->
  unpack_signed (signed_body data ver pk ++ tail) = Ok (data, ver, pk).
Proof.
  intros Hd Hk Hv. unfold unpack_signed, signed_body.
  rewrite <- !app_assoc.
  rewrite (varlenH_at_mid [DHT_ENTRY_STR_SIGNED] data _ 1) by (auto; reflexivity). cbn [bind].
  do 2 rewrite app_assoc.
  rewrite (u32_at_mid _ ver _ (1 + 2 + length data)) by (auto; rewrite !app_length, be_encode_length; reflexivity).
  cbn [bind]. rewrite app_assoc.
  rewrite (varlenH_at_mid _ pk tail (1 + 2 + length data + 4)) by (auto; rewrite !app_length, !be_encode_length; reflexivity).
  reflexivity.
Qed.

(* any bytes of the prescribed length that verify over the body make a value that reads back *)
Lemma unserialize_signed_body pk data ver n sg :
  blen data < 65536 -> blen pk < 65536 -> 0 <= ver < 4294967296 ->
  siglen pk = Ok n -> (0 < n)%nat -> length sg = n -> verify pk (signed_body data ver pk) sg = true ->
  unserialize verify siglen (signed_body data ver pk ++ sg) = Ok (Some (data, Some pk, ver)).
Proof.
  intros Hd Hk Hv Hn Hpos Hl Hok. set (body := signed_body data ver pk) in *.
  unfold M15_dht_store.unserialize. change (body ++ sg) with (DHT_ENTRY_STR_SIGNED :: tl body ++ sg) at 1. cbv iota.
  replace (DHT_ENTRY_STR_SIGNED =? DHT_ENTRY_STR) with false by reflexivity.
  rewrite Z.eqb_refl. unfold body at 1. rewrite unpack_signed_body by assumption. cbn [bind].
  rewrite Hn. cbn [bind]. cbv zeta.
  assert (Hcut : Z.to_nat (Z.max 0 (blen (body ++ sg) - Z.of_nat n)) = length body).
  { rewrite blen_app. unfold blen. rewrite Hl. lia. }
  rewrite slice_upto_neg, slice_from_neg by lia. rewrite Hcut.
  rewrite firstn_app, firstn_all, Nat.sub_diag, skipn_app, skipn_all, Nat.sub_diag. cbn [firstn skipn app].
  rewrite app_nil_r. rewrite Hok. reflexivity.
Qed.

Lemma plain_roundtrip_l data :
  unserialize verify siglen (serialize_plain data) = Ok (Some (data, None, 0)).
Proof. unfold serialize_plain, M15_dht_store.unserialize. rewrite Z.eqb_refl. reflexivity. Qed.

End Roundtrip.
