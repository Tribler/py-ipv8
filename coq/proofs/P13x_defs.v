(* C13 (extension) - the enlarged sweep (introducer not a public host), for one choice of request styles
   (P13_sweeplib.scn_check_styles), decided by evaluation. *)
From Coq Require Import ZArith List Bool.
From IPV8V Require Import model.M13_nat model.M13_scenario
  proofs.P13_proto proofs.P13_nat proofs.P13_sweeplib.
Import ListNotations.
Open Scope Z_scope.

(* closed form of b_blind on the swept configurations: the introducer shares a NAT box (not a public
   machine) with exactly one of requester / introduced peer *)
Definition blind_simple (bp : bplace) (tA tC : nat_type) (same : bool) : bool :=
  match bp with
  | BPublic | BOwn _ => false
  | BWithA => negb (is_open tA) && negb same
  | BWithC _ => negb same && negb (is_open tC)
  end.

(* the network does not depend on `resp` *)
Definition check_overx (ts : list nat_type) (bs : list bool) (ks : list nat) : bool :=
  forallb (fun tA => forallb (fun tC => forallb (fun same =>
  forallb (fun k => forallb (fun pos => forallb (fun bp =>
    net_wfb (mk_net (cfg_forx bp tA (mkCand tC same false false false false) false k pos))
    && forallb (fun resp =>
         let g := cfg_forx bp tA (mkCand tC same resp false false false) false k pos in
         judge_run g (run_scn_with g) same pos (blind_simple bp tA tC same)) bs)
  (bplaces pos)) (seq 0 k)) ks) bs) ts) ts.

Lemma check_overx_spec : forall ts bs ks, check_overx ts bs ks = true ->
  forall bp tA tC same resp k pos,
  In tA ts -> In tC ts -> In same bs -> In resp bs -> In k ks -> In pos (seq 0 k) -> In bp (bplaces pos) ->
  scn_check_with (cfg_forx bp tA (mkCand tC same resp false false false) false k pos) same pos (blind_simple bp tA tC same)
  = true.
Proof.
  intros ts bs ks H bp tA tC same resp k pos H1 H2 H3 H4 H7 H8 H9. unfold check_overx in H.
  rewrite forallb_forall in H. specialize (H tA H1).
  rewrite forallb_forall in H. specialize (H tC H2).
  rewrite forallb_forall in H. specialize (H same H3).
  rewrite forallb_forall in H. specialize (H k H7).
  rewrite forallb_forall in H. specialize (H pos H8).
  rewrite forallb_forall in H. specialize (H bp H9). apply andb_true_iff in H. destruct H as [Hw H].
  rewrite forallb_forall in H. specialize (H resp H4). unfold scn_check_with, judge. rewrite H. cbn [andb].
  unfold cfg_forx in *. cbv zeta in *.
  etransitivity; [|exact Hw]. f_equal. apply mk_net_cands_for. reflexivity.
Qed.

Lemma check_allx_13 : check_overx all_types bools [1; 3]%nat = true.
Proof. vm_compute. reflexivity. Qed.
