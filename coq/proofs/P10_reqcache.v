(* Lemmas for C10: the invariant of the request-cache model, the effect of one call (eff) and the trace property `holds`
   derived from it, then completion of futures on timeout, shutdown, and bounded liveness of the timers. *)
From Coq Require Import ZArith List Bool Lia.
From IPV8V Require Import lib.PyErr model.M10_reqcache spec.S10_reqcache.
Import ListNotations.
Open Scope Z_scope.

Lemma key_eqb_spec a b : reflect (a = b) (key_eqb a b).
Proof.
  destruct a as [a1 a2], b as [b1 b2]. unfold key_eqb. simpl.
  destruct (Z.eqb_spec a1 b1), (Z.eqb_spec a2 b2); constructor; congruence.
Qed.
Lemma key_eqb_refl a : key_eqb a a = true.
Proof. destruct (key_eqb_spec a a); congruence. Qed.

Lemma tbl_get_app t k c k' :
  tbl_get (t ++ [(k, c)]) k' =
  match tbl_get t k' with Some x => Some x | None => if key_eqb k k' then Some c else None end.
Proof.
  induction t as [|[k0 c0] t IH]; simpl; [reflexivity|].
  destruct (key_eqb k0 k'); [reflexivity | exact IH].
Qed.

Lemma tbl_get_del t k k' :
  tbl_get (tbl_del t k) k' = if key_eqb k k' then None else tbl_get t k'.
Proof.
  unfold tbl_del. induction t as [|[k0 c0] t IH]; simpl.
  - destruct (key_eqb k k'); reflexivity.
  - destruct (key_eqb_spec k0 k) as [->|N]; simpl; rewrite IH; [destruct (key_eqb k k'); reflexivity|].
    destruct (key_eqb_spec k0 k') as [->|]; [|reflexivity].
    destruct (key_eqb_spec k k'); congruence.
Qed.

Lemma tbl_get_In t k c : tbl_get t k = Some c -> In (k, c) t.
Proof.
  induction t as [|[k0 c0] t IH]; simpl; [discriminate|].
  destruct (key_eqb_spec k0 k) as [->|]; [intros [= ->]; left; reflexivity | auto].
Qed.

Lemma tbl_get_none_notin t k c : tbl_get t k = None -> ~ In (k, c) t.
Proof.
  induction t as [|[k0 c0] t IH]; simpl; [tauto|].
  destruct (key_eqb_spec k0 k); [discriminate|]. intros H [[= -> ->]|H1]; [congruence | exact (IH H H1)].
Qed.

Lemma In_tbl_del t k e : In e (tbl_del t k) <-> In e t /\ fst e <> k.
Proof. unfold tbl_del. rewrite filter_In, negb_true_iff. destruct (key_eqb_spec (fst e) k); intuition congruence. Qed.

Lemma tk_get_app l c x c' :
  tk_get (l ++ [(c, x)]) c' =
  match tk_get l c' with Some y => Some y | None => if Nat.eqb c c' then Some x else None end.
Proof.
  induction l as [|[c0 x0] l IH]; simpl; [reflexivity|].
  destruct (Nat.eqb c0 c'); [reflexivity | exact IH].
Qed.

Lemma tk_get_del l c c' :
  tk_get (tk_del l c) c' = if Nat.eqb c c' then None else tk_get l c'.
Proof.
  unfold tk_del. induction l as [|[c0 x0] l IH]; simpl.
  - destruct (Nat.eqb c c'); reflexivity.
  - destruct (Nat.eqb_spec c0 c) as [->|N]; simpl; rewrite IH; [destruct (Nat.eqb c c'); reflexivity|].
    destruct (Nat.eqb_spec c0 c') as [->|]; [|reflexivity].
    destruct (Nat.eqb_spec c c'); congruence.
Qed.

Lemma tk_get_map l f c :
  tk_get (map (fun e => (fst e, f (snd e))) l) c = option_map f (tk_get l c).
Proof.
  induction l as [|[c0 x0] l IH]; simpl; [reflexivity|].
  destruct (Nat.eqb c0 c); [reflexivity | exact IH].
Qed.

Lemma tk_get_In l c x : tk_get l c = Some x -> In (c, x) l.
Proof.
  induction l as [|[c0 x0] l IH]; simpl; [discriminate|].
  destruct (Nat.eqb_spec c0 c) as [->|]; [intros [= ->]; left; reflexivity | auto].
Qed.

Lemma nth_upd {A} (l : list A) i f j d :
  nth j (upd l i f) d = if Nat.eqb i j then (if Nat.ltb i (length l) then f (nth j l d) else nth j l d) else nth j l d.
Proof.
  revert i j. induction l as [|x l IH]; intros i j; simpl.
  - destruct (Nat.eqb i j); destruct j, i; reflexivity.
  - destruct i, j; simpl; try reflexivity.
    rewrite IH. change (S i <? S (length l))%nat with (i <? length l)%nat. reflexivity.
Qed.

Lemma length_upd {A} (l : list A) i f : length (upd l i f) = length l.
Proof. revert i; induction l as [|x l IH]; intros [|i]; simpl; auto. Qed.

(* two lists of rows of futures with rows of the same lengths: all the invariant says about futures *)
Definition same_rows (fs' fs : list (list fstate)) : Prop := forall c, length (nth c fs' []) = length (nth c fs []).

Lemma same_rows_refl fs : same_rows fs fs.
Proof. intros c. reflexivity. Qed.

Lemma same_rows_upd fs c f : (forall l, length (f l) = length l) -> same_rows (upd fs c f) fs.
Proof.
  intros Hf x. rewrite nth_upd. destruct (Nat.eqb c x), (c <? length fs)%nat; auto.
Qed.

(* the row of cache c after an update of that row (a missing row reads as the empty one) *)
Lemma row_upd_at (fs : list (list fstate)) c f : f [] = [] -> nth c (upd fs c f) [] = f (nth c fs []).
Proof.
  intros Hf. rewrite nth_upd, Nat.eqb_refl. destruct (c <? length fs)%nat eqn:El; [reflexivity|].
  apply Nat.ltb_ge in El. rewrite nth_overflow by exact El. symmetry. exact Hf.
Qed.

Record inv (cfg : list cache) (s : st) : Prop := mkInv {
  inv_cons : forall k c, tbl_get (table s) k = Some c -> k = ckey cfg c;
  inv_vis : forall k c, In (k, c) (table s) -> tbl_get (table s) k = Some c;
  inv_task : forall c, tk_get (tasks s) c <> None <-> tbl_get (table s) (ckey cfg c) = Some c;
  inv_shut : shut s = true -> table s = [] /\ tasks s = [];
  inv_futlen : forall c, length (nth c (futs s) []) = length (c_futs (getc cfg c)) }.

Lemma inv_task_some cfg s c x :
  inv cfg s -> tk_get (tasks s) c = Some x -> tbl_get (table s) (ckey cfg c) = Some c.
Proof. intros I H. apply (inv_task _ _ I). congruence. Qed.

(* a cache that is not registered has no timer: register_task's "Task already exists" cannot meet add *)
Lemma inv_no_timer cfg s c : inv cfg s -> tbl_get (table s) (ckey cfg c) = None -> tk_get (tasks s) c = None.
Proof.
  intros I Hg. destruct (tk_get (tasks s) c) eqn:Hk; [|reflexivity].
  pose proof (inv_task_some _ _ _ _ I Hk). congruence.
Qed.

Lemma inv_init cfg : inv cfg (init cfg).
Proof.
  constructor; simpl; try discriminate; try tauto.
  - intros c. split; intros H; [congruence | discriminate].
  - intros c. unfold init_futs, getc.
    change (@nil fstate) with ((fun k => map (fun _ : fspec => FPending) (c_futs k)) dflt_cache).
    rewrite map_nth. rewrite map_length. reflexivity.
Qed.

Lemma inv_ext cfg s s' :
  inv cfg s -> table s' = table s -> tasks s' = tasks s -> shut s' = shut s -> same_rows (futs s') (futs s) -> inv cfg s'.
Proof.
  intros I Ht Hk Hs Hf. constructor; rewrite ?Ht, ?Hk, ?Hs; try apply I. intros c. rewrite Hf. apply I.
Qed.

Lemma inv_emptied cfg s s' :
  inv cfg s -> table s' = [] -> tasks s' = [] -> same_rows (futs s') (futs s) -> inv cfg s'.
Proof.
  intros I Ht Hk Hf. constructor; rewrite ?Ht, ?Hk; simpl; try discriminate; try tauto.
  - intros c; split; intros H; [congruence | discriminate].
  - intros c. rewrite Hf. apply I.
Qed.

(* the state after the entry and the timer of cache c have been released (pop, retrieve_cache, timeout) *)
Definition remove (cfg : list cache) (s : st) (c : nat) : st :=
  set_tasks (set_table s (tbl_del (table s) (ckey cfg c))) (tk_del (tasks s) c).

Lemma inv_remove cfg s c :
  inv cfg s -> tbl_get (table s) (ckey cfg c) = Some c -> inv cfg (remove cfg s c).
Proof.
  intros I H. constructor; simpl.
  - intros k c0. rewrite tbl_get_del. destruct (key_eqb (ckey cfg c) k); [discriminate|]. apply (inv_cons _ _ I).
  - intros k c0 Hin. apply In_tbl_del in Hin as [Hin Hne]. simpl in Hne.
    rewrite tbl_get_del. destruct (key_eqb_spec (ckey cfg c) k); [congruence|]. apply (inv_vis _ _ I); exact Hin.
  - intros x. rewrite tk_get_del, tbl_get_del.
    destruct (Nat.eqb_spec c x) as [<-|N]; [rewrite key_eqb_refl; split; congruence|].
    destruct (key_eqb_spec (ckey cfg c) (ckey cfg x)) as [E|]; [|apply (inv_task _ _ I)].
    split; [|discriminate]. intros Hx. apply (inv_task _ _ I) in Hx. rewrite <- E in Hx. congruence.
  - intros Hs. destruct (inv_shut _ _ I Hs) as [Ht _]. rewrite Ht in H. discriminate.
  - apply (inv_futlen _ _ I).
Qed.

Lemma inv_added cfg s c d :
  inv cfg s -> shut s = false -> tbl_get (table s) (ckey cfg c) = None -> tk_get (tasks s) c = None ->
  inv cfg (set_tasks (set_table s (table s ++ [(ckey cfg c, c)])) (tasks s ++ [(c, TCreated d)])).
Proof.
  intros I Hs Hg Hk. constructor; simpl.
  - intros k c0. rewrite tbl_get_app. destruct (tbl_get (table s) k) eqn:E.
    + intros [= <-]. apply (inv_cons _ _ I); exact E.
    + destruct (key_eqb_spec (ckey cfg c) k); [|discriminate]. intros [= <-]. congruence.
  - intros k c0 Hin. rewrite tbl_get_app. apply in_app_or in Hin as [Hin|[[= <- <-]|[]]].
    + rewrite (inv_vis _ _ I _ _ Hin). reflexivity.
    + rewrite Hg, key_eqb_refl. reflexivity.
  - intros x. rewrite tk_get_app, tbl_get_app. pose proof (inv_task _ _ I x) as T.
    destruct (Nat.eqb_spec c x) as [<-|N].
    + rewrite Hk, Hg, key_eqb_refl. split; congruence.
    + transitivity (tbl_get (table s) (ckey cfg x) = Some x).
      * rewrite <- T. destruct (tk_get (tasks s) x); split; congruence.
      * destruct (tbl_get (table s) (ckey cfg x)); [reflexivity|].
        destruct (key_eqb (ckey cfg c) (ckey cfg x)); split; congruence.
  - congruence.
  - apply I.
Qed.

(* `out`, the set of outstanding caches that `holds` carries along, lists exactly the caches registered under their own identity *)
Definition R (cfg : list cache) (s : st) (out : list nat) : Prop :=
  forall c, In c out <-> tbl_get (table s) (ckey cfg c) = Some c.

Lemma memn_In c l : memn c l = true <-> In c l.
Proof.
  unfold memn. rewrite existsb_exists. split.
  - intros [x [Hx E]]. apply Nat.eqb_eq in E; subst; exact Hx.
  - intros H. exists c. split; [exact H | apply Nat.eqb_refl].
Qed.

Lemma In_deln x c l : In x (deln c l) <-> In x l /\ x <> c.
Proof. unfold deln. rewrite filter_In, negb_true_iff, Nat.eqb_neq. tauto. Qed.

Lemma events_app a b : events (a ++ b) = events a ++ events b.
Proof. unfold events. apply flat_map_app. Qed.

Lemma R_same cfg s s' out : table s' = table s -> R cfg s out -> R cfg s' out.
Proof. intros Ht H c. rewrite Ht. apply H. Qed.

Lemma R_nil cfg s : table s = [] -> R cfg s [].
Proof. intros Ht c. rewrite Ht. split; [intros [] | discriminate]. Qed.

Lemma R_remove cfg s c out :
  tbl_get (table s) (ckey cfg c) = Some c -> R cfg s out -> R cfg (remove cfg s c) (deln c out).
Proof.
  intros Hg HR x. simpl. rewrite In_deln, tbl_get_del, (HR x).
  destruct (key_eqb_spec (ckey cfg c) (ckey cfg x)) as [E|N].
  - split; [|discriminate]. intros [Hx Hne]. rewrite <- E in Hx. congruence.
  - split; [tauto|]. intros Hx. split; [exact Hx | congruence].
Qed.

Lemma R_added cfg s c d out :
  tbl_get (table s) (ckey cfg c) = None -> R cfg s out ->
  R cfg (set_tasks (set_table s (table s ++ [(ckey cfg c, c)])) (tasks s ++ [(c, TCreated d)])) (out ++ [c]).
Proof.
  intros Hg HR x. simpl. rewrite in_app_iff, tbl_get_app, (HR x). simpl.
  destruct (tbl_get (table s) (ckey cfg x)) eqn:Ex.
  - split; [intros [H|[<-|[]]]; [exact H | congruence] | tauto].
  - destruct (key_eqb_spec (ckey cfg c) (ckey cfg x)) as [E|N].
    + split; [intros [H|[H|[]]]; congruence | intros H; right; left; congruence].
    + split; [intros [H|[<-|[]]]; congruence | discriminate].
Qed.

Lemma R_memn cfg s c out : R cfg s out -> tbl_get (table s) (ckey cfg c) = Some c -> memn c out = true.
Proof. intros HR H. apply memn_In, HR, H. Qed.

(* every registered cache is outstanding, and none remains outstanding once the table is emptied *)
Lemma R_dropped cfg s s' out :
  inv cfg s -> R cfg s out -> table s' = [] ->
  forallb (fun c => memn c out) (map snd (table s)) = true /\
  R cfg s' (filter (fun x => negb (memn x (map snd (table s)))) out).
Proof.
  intros I HR Ht. split.
  - apply forallb_forall. intros c Hc. apply in_map_iff in Hc as [[k c'] [E Hin]]. simpl in E; subst c'.
    pose proof (inv_vis _ _ I _ _ Hin) as Hg. rewrite (inv_cons _ _ I _ _ Hg) in Hg. exact (R_memn _ _ _ _ HR Hg).
  - intros x. rewrite Ht. split; [|discriminate]. intros Hx. exfalso.
    apply filter_In in Hx as [Hx Hn]. apply negb_true_iff in Hn.
    apply HR, tbl_get_In in Hx.
    rewrite (proj2 (memn_In x _)) in Hn; [discriminate|]. apply in_map_iff. exists (ckey cfg x, x). auto.
Qed.

(* The effect of a call on table, timers and shutdown flag, in a state satisfying inv, with the events it emits:
   nothing visible; an accepted add; the resolution (pop result or timeout) of a registered cache; every cache
   dropped (clear, first half of shutdown); the flag set on the emptied cache (second half of shutdown). *)
Inductive eff (cfg : list cache) (s : st) : st -> list ev -> Prop :=
| eff_quiet s' : table s' = table s -> tasks s' = tasks s -> shut s' = shut s -> same_rows (futs s') (futs s) -> eff cfg s s' []
| eff_add c d : shut s = false -> tbl_get (table s) (ckey cfg c) = None -> tk_get (tasks s) c = None ->
    eff cfg s (set_tasks (set_table s (table s ++ [(ckey cfg c, c)])) (tasks s ++ [(c, TCreated d)])) [EAdded c]
| eff_res c e : is_res c e -> tbl_get (table s) (ckey cfg c) = Some c -> eff cfg s (remove cfg s c) [e]
| eff_drop s' : table s' = [] -> tasks s' = [] -> shut s' = shut s -> same_rows (futs s') (futs s) ->
    eff cfg s s' [EDropped (map snd (table s))]
| eff_close s' : table s = [] -> table s' = [] -> tasks s' = [] -> shut s' = true -> same_rows (futs s') (futs s) ->
    eff cfg s s' [EShut].

Inductive effs (cfg : list cache) : st -> st -> list ev -> Prop :=
| effs_nil s : effs cfg s s []
| effs_cons s s1 s2 l1 l2 : eff cfg s s1 l1 -> effs cfg s1 s2 l2 -> effs cfg s s2 (l1 ++ l2).

Lemma effs_one cfg s s' l : eff cfg s s' l -> effs cfg s s' l.
Proof. intros H. rewrite <- (app_nil_r l). exact (effs_cons _ _ _ _ _ _ H (effs_nil _ _)). Qed.

Lemma effs_app cfg s s1 s2 l1 l2 : effs cfg s s1 l1 -> effs cfg s1 s2 l2 -> effs cfg s s2 (l1 ++ l2).
Proof.
  intros H1 H2. induction H1 as [|s s0 s1 a b E _ IH]; [exact H2|].
  rewrite <- app_assoc. exact (effs_cons _ _ _ _ _ _ E (IH H2)).
Qed.

Lemma eff_inv cfg s s' l : inv cfg s -> eff cfg s s' l -> inv cfg s'.
Proof.
  intros I [s1 Ht Hk Hs Hf | c d Hs Hg Hk | c e _ Hg | s1 Ht Hk _ Hf | s1 _ Ht Hk _ Hf].
  - exact (inv_ext _ _ _ I Ht Hk Hs Hf).
  - exact (inv_added _ _ _ d I Hs Hg Hk).
  - exact (inv_remove _ _ _ I Hg).
  - exact (inv_emptied _ _ _ I Ht Hk Hf).
  - exact (inv_emptied _ _ _ I Ht Hk Hf).
Qed.

Lemma effs_inv cfg s s' l : inv cfg s -> effs cfg s s' l -> inv cfg s'.
Proof. intros I H. induction H as [|s s1 s2 a b E _ IH]; [exact I | exact (IH (eff_inv _ _ _ _ I E))]. Qed.

Lemma effs_shut_stays cfg s s' l : effs cfg s s' l -> shut s = true -> shut s' = true.
Proof.
  intros H. induction H as [|s s1 s2 a b E _ IH]; [auto|]. intros Hs. apply IH.
  destruct E as [s1 _ _ E _ | | | s1 _ _ E _ | s1 _ _ _ E _]; simpl; congruence.
Qed.

Lemma inv_live cfg s k c : inv cfg s -> tbl_get (table s) k = Some c -> shut s = false.
Proof.
  intros I Hg. destruct (shut s) eqn:Hs; [|reflexivity].
  destruct (inv_shut _ _ I Hs) as [Ht _]. rewrite Ht in Hg. discriminate.
Qed.

Lemma eff_holds cfg s s' l out rest :
  inv cfg s -> R cfg s out -> eff cfg s s' l ->
  (forall out', R cfg s' out' -> holds cfg out' (shut s') rest = true) ->
  holds cfg out (shut s) (l ++ rest) = true.
Proof.
  intros I HR [s1 Ht _ Hs _ | c d Hs Hg Hk | c e He Hg | s1 Ht _ Hs _ | s1 Ht0 Ht _ Hs _] K; simpl.
  - rewrite <- Hs. apply K. exact (R_same _ _ _ _ Ht HR).
  - (* no outstanding cache has the identity of c; afterwards c is outstanding as well *)
    pose proof (K _ (R_added _ _ _ d _ Hg HR)) as K1. simpl in K1. rewrite Hs in *. rewrite K1, andb_true_r.
    apply negb_true_iff. destruct (existsb _ out) eqn:Ex; [|reflexivity]. exfalso.
    apply existsb_exists in Ex as [c' [Hin E]]. destruct (key_eqb_spec (ckey cfg c') (ckey cfg c)) as [E'|]; [|discriminate].
    apply HR in Hin. rewrite E' in Hin. congruence.
  - pose proof (K _ (R_remove _ _ _ _ Hg HR)) as K1. simpl in K1.
    destruct He as [-> | ->]; simpl; rewrite (R_memn _ _ _ _ HR Hg); [exact K1|].
    rewrite (inv_live _ _ _ _ I Hg) in *. exact K1.
  - destruct (R_dropped cfg s s1 out I HR Ht) as [Hall HR1]. rewrite Hall, <- Hs. exact (K _ HR1).
  - destruct out as [|x out].
    + rewrite Hs in K. exact (K _ (R_nil _ _ Ht)).
    + pose proof (proj1 (HR x) (or_introl eq_refl)) as Hx. rewrite Ht0 in Hx. discriminate.
Qed.

Lemma effs_holds cfg s s' l : effs cfg s s' l -> forall out rest,
  inv cfg s -> R cfg s out ->
  (forall out', R cfg s' out' -> holds cfg out' (shut s') rest = true) ->
  holds cfg out (shut s) (l ++ rest) = true.
Proof.
  intros H. induction H as [|s s1 s2 a b E _ IH]; intros out rest I HR K; [exact (K _ HR)|].
  rewrite <- app_assoc. apply (eff_holds _ _ _ _ _ _ I HR E).
  intros out' HR'. exact (IH _ _ (eff_inv _ _ _ _ I E) HR' K).
Qed.

(* a call that changes at most clock and passthrough settings *)
Lemma eff_nothing cfg s s' :
  table s' = table s -> tasks s' = tasks s -> shut s' = shut s -> futs s' = futs s -> eff cfg s s' [].
Proof. intros Ht Hk Hs Hf. apply eff_quiet; try assumption. rewrite Hf. apply same_rows_refl. Qed.

Lemma eff_release cfg s k c :
  inv cfg s -> tbl_get (table s) k = Some c ->
  eff cfg s (set_tasks (set_table s (tbl_del (table s) k)) (tk_del (tasks s) c)) [EPopped c].
Proof.
  intros I Hg. pose proof (inv_cons _ _ I _ _ Hg) as E. rewrite E in *. exact (eff_res _ _ _ _ (or_introl eq_refl) Hg).
Qed.

Lemma step_b_eff cfg s b :
  inv cfg s -> eff cfg s (fst (step_b cfg s b)) (events (snd (step_b cfg s b))).
Proof.
  intros I. destruct b; simpl; try (apply eff_nothing; reflexivity).
  - destruct (c_delay (getc cfg c) <=? 0); [apply eff_nothing; reflexivity|].
    destruct (shut s) eqn:Hs; simpl.
    { apply eff_quiet; try reflexivity. apply same_rows_upd, map_length. }
    destruct (tbl_get (table s) (ckey cfg c)) eqn:Hg; [apply eff_nothing; reflexivity|].
    rewrite (inv_no_timer _ _ _ I Hg). exact (eff_add _ _ _ _ Hs Hg (inv_no_timer _ _ _ I Hg)).
  - destruct (tbl_get (table s) (p, n)) eqn:Hg; [exact (eff_release _ _ _ _ I Hg) | apply eff_nothing; reflexivity].
  - destruct (tbl_get (table s) (p, n)) eqn:Hg; [exact (eff_release _ _ _ _ I Hg) | apply eff_nothing; reflexivity].
  - apply eff_drop; try reflexivity. apply same_rows_refl.
  - apply eff_quiet; try reflexivity. apply same_rows_upd. intros l. apply length_upd.
Qed.

Lemma run_b_effs cfg bs : forall s,
  inv cfg s -> effs cfg s (fst (run_b cfg s bs)) (events (snd (run_b cfg s bs))).
Proof.
  induction bs as [|b bs IH]; intros s I; simpl; [apply effs_nil|].
  pose proof (step_b_eff cfg s b I) as E. destruct (step_b cfg s b) as [s1 o1].
  specialize (IH s1 (eff_inv _ _ _ _ I E)). destruct (run_b cfg s1 bs) as [s2 o2].
  simpl in *. rewrite events_app. exact (effs_cons _ _ _ _ _ _ E IH).
Qed.

Lemma run_b_inv cfg bs s : inv cfg s -> inv cfg (fst (run_b cfg s bs)).
Proof. intros I. exact (effs_inv _ _ _ _ I (run_b_effs cfg bs s I)). Qed.

Lemma timeout_futl_length sps fl : length (timeout_futl sps fl) = length fl.
Proof. revert fl; induction sps as [|sp sps IH]; intros [|f fl]; simpl; auto. Qed.

(* a timeout: the cache is released, its callback runs, its futures are completed *)
Lemma fire_effs cfg s c :
  inv cfg s -> effs cfg s (fst (fire cfg s c)) (events (snd (fire cfg s c))).
Proof.
  intros I. unfold fire. destruct (tk_get (tasks s) c) as [[| | |]|] eqn:Hk; try apply effs_nil.
  pose proof (inv_task_some _ _ _ _ I Hk) as Hg.
  pose proof (run_b_effs cfg (c_script (getc cfg c)) _ (inv_remove _ _ _ I Hg)) as E.
  destruct (run_b cfg _ (c_script (getc cfg c))) as [s2 o2]. simpl in *.
  rewrite events_app. simpl.
  apply (effs_cons _ _ _ _ [ETimeout c] _ (eff_res _ _ _ _ (or_intror eq_refl) Hg)).
  apply (effs_app _ _ _ _ _ _ E), effs_one, eff_quiet; try reflexivity.
  apply same_rows_upd, timeout_futl_length.
Qed.

Lemma fold_cancel_rows cs : forall fs, same_rows (fold_left cancel_futs cs fs) fs.
Proof.
  induction cs as [|c cs IH]; intros fs x; simpl; [reflexivity|].
  rewrite IH. apply same_rows_upd, map_length.
Qed.

(* every operation but the start of a loop iteration; shutdown drops every cache, then sets the flag *)
Lemma step_effs cfg s o :
  inv cfg s -> not_iterbegin o = true -> effs cfg s (fst (step cfg s o)) (events (snd (step cfg s o))).
Proof.
  intros I Ho. destruct o; simpl; try discriminate; try apply effs_nil.
  - apply effs_one, step_b_eff, I.
  - apply effs_one, eff_nothing; reflexivity.
  - apply fire_effs, I.
  - apply (effs_cons _ _ (mkSt [] [] (fold_left cancel_futs (map snd (table s)) (futs s)) (now s) (shut s) (ovr s) (filt s))
             _ [EDropped _] [EShut]).
    + apply eff_drop; try reflexivity. apply fold_cancel_rows.
    + apply effs_one, eff_close; try reflexivity. apply same_rows_refl.
Qed.

Lemma step_inv cfg s o : inv cfg s -> inv cfg (fst (step cfg s o)).
Proof.
  intros I. destruct (not_iterbegin o) eqn:Ho; [exact (effs_inv _ _ _ _ I (step_effs _ _ _ I Ho))|].
  destruct o; try discriminate.
  (* IterBegin changes the state of the timers, not which caches have one *)
  constructor; simpl; try apply I.
  - intros c. rewrite tk_get_map, <- (inv_task _ _ I c).
    destruct (tk_get (tasks s) c); simpl; split; congruence.
  - intros Hs. destruct (inv_shut _ _ I Hs) as [H1 H2]. rewrite H2. auto.
Qed.

Lemma run_inv cfg ops : forall s, inv cfg s -> inv cfg (fst (run cfg s ops)).
Proof.
  induction ops as [|o ops IH]; intros s I; simpl; [exact I|].
  pose proof (step_inv cfg s o I) as I1. destruct (step cfg s o) as [s1 o1].
  specialize (IH s1 I1). destruct (run cfg s1 ops) as [s2 o2]. exact IH.
Qed.

Definition reachable (cfg : list cache) (s : st) : Prop := exists ops, fst (run cfg (init cfg) ops) = s.

Lemma reachable_inv cfg s : reachable cfg s -> inv cfg s.
Proof. intros [ops <-]. apply run_inv, inv_init. Qed.

Lemma run_cons cfg s o ops :
  run cfg s (o :: ops) =
  (fst (run cfg (fst (step cfg s o)) ops), snd (step cfg s o) ++ snd (run cfg (fst (step cfg s o)) ops)).
Proof. simpl. destruct (step cfg s o) as [s1 o1]. simpl. destruct (run cfg s1 ops) as [s2 o2]. reflexivity. Qed.

Lemma run_app cfg a : forall s b,
  run cfg s (a ++ b) =
  (fst (run cfg (fst (run cfg s a)) b), snd (run cfg s a) ++ snd (run cfg (fst (run cfg s a)) b)).
Proof.
  induction a as [|o a IH]; intros s b; [simpl; destruct (run cfg s b); reflexivity|].
  rewrite <- app_comm_cons, !run_cons, IH. simpl. rewrite app_assoc. reflexivity.
Qed.

Lemma reachable_run cfg s ops : reachable cfg s -> reachable cfg (fst (run cfg s ops)).
Proof. intros [o1 <-]. exists (o1 ++ ops). rewrite run_app. reflexivity. Qed.

Lemma run_effs cfg ops : forall s,
  inv cfg s -> forallb not_iterbegin ops = true -> effs cfg s (fst (run cfg s ops)) (events (snd (run cfg s ops))).
Proof.
  induction ops as [|o ops IH]; intros s I Hn; [apply effs_nil|].
  apply andb_true_iff in Hn as [Hn1 Hn2]. rewrite run_cons. simpl. rewrite events_app.
  exact (effs_app _ _ _ _ _ _ (step_effs _ _ _ I Hn1) (IH _ (step_inv _ _ _ I) Hn2)).
Qed.

Lemma step_holds cfg s o out rest :
  inv cfg s -> R cfg s out ->
  (forall out', R cfg (fst (step cfg s o)) out' -> holds cfg out' (shut (fst (step cfg s o))) rest = true) ->
  holds cfg out (shut s) (events (snd (step cfg s o)) ++ rest) = true.
Proof.
  intros I HR K. destruct (not_iterbegin o) eqn:Ho; [exact (effs_holds _ _ _ _ (step_effs _ _ _ I Ho) _ _ I HR K)|].
  destruct o; try discriminate. exact (K _ HR).
Qed.

Lemma run_holds cfg ops : forall s out,
  inv cfg s -> R cfg s out -> holds cfg out (shut s) (events (snd (run cfg s ops))) = true.
Proof.
  induction ops as [|o ops IH]; intros s out I HR; [reflexivity|].
  rewrite run_cons. simpl. rewrite events_app. apply (step_holds _ _ _ _ _ I HR).
  intros out' HR'. exact (IH _ _ (step_inv _ _ _ I) HR').
Qed.

Lemma holds_all_runs cfg ops :
  holds cfg [] false (events (snd (run cfg (init cfg) ops))) = true.
Proof. exact (run_holds cfg ops (init cfg) [] (inv_init cfg) (R_nil cfg (init cfg) eq_refl)). Qed.

Lemma memn_app c a b : memn c (a ++ b) = memn c a || memn c b.
Proof. unfold memn. apply existsb_app. Qed.

Lemma memn_deln c c' l : memn c (deln c' l) = if Nat.eqb c c' then false else memn c l.
Proof.
  apply eq_true_iff_eq. rewrite memn_In, In_deln.
  destruct (Nat.eqb_spec c c'); rewrite ?memn_In; intuition congruence.
Qed.

Lemma memn_filter_not c cs l :
  memn c (filter (fun x => negb (memn x cs)) l) = if memn c cs then false else memn c l.
Proof.
  apply eq_true_iff_eq. rewrite memn_In, filter_In, negb_true_iff.
  destruct (memn c cs); rewrite ?memn_In; intuition congruence.
Qed.

(* `holds` as a machine: the outstanding set and the shutdown flag after one accepted event *)
Definition out_after (e : ev) (out : list nat) : list nat :=
  match e with
  | EAdded c => out ++ [c]
  | EPopped c | ETimeout c => deln c out
  | EDropped cs => filter (fun x => negb (memn x cs)) out
  | EShut => []
  end.
Definition sh_after (e : ev) (sh : bool) : bool := match e with EShut => true | _ => sh end.

Lemma holds_cons cfg out sh e r :
  holds cfg out sh (e :: r) = true -> holds cfg (out_after e out) (sh_after e sh) r = true.
Proof.
  destruct e; simpl; intros H; try (apply andb_true_iff in H as [_ H]; exact H).
  destruct out; [exact H | discriminate].
Qed.

Lemma memn_out_after c e out :
  memn c (out_after e out) =
  match e with
  | EAdded c' => memn c out || Nat.eqb c' c
  | EPopped c' | ETimeout c' => if Nat.eqb c' c then false else memn c out
  | EDropped cs => if memn c cs then false else memn c out
  | EShut => false
  end.
Proof.
  destruct e; simpl; rewrite ?(Nat.eqb_sym _ c).
  - rewrite memn_app. simpl. rewrite orb_false_r. reflexivity.
  - apply memn_deln.
  - apply memn_deln.
  - apply memn_filter_not.
  - reflexivity.
Qed.

(* what the head event needs of cache c: not outstanding before an accepted add, outstanding before a resolution *)
Lemma holds_head cfg c out sh e r :
  holds cfg out sh (e :: r) = true ->
  match e with
  | EAdded c' => c' = c -> memn c out = false
  | EPopped c' | ETimeout c' => c' = c -> memn c out = true
  | EDropped cs => memn c cs = true -> memn c out = true
  | EShut => memn c out = false
  end.
Proof.
  destruct e as [c'|c'|c'|cs|]; simpl; intros H.
  - intros ->. apply andb_true_iff in H as [H _]. apply andb_true_iff in H as [_ H]. apply negb_true_iff in H.
    destruct (memn c out) eqn:M; [|reflexivity]. rewrite <- H. symmetry.
    apply existsb_exists. exists c. split; [apply memn_In, M | apply key_eqb_refl].
  - intros ->. apply andb_true_iff in H as [H _]. exact H.
  - intros ->. apply andb_true_iff in H as [H _]. apply andb_true_iff in H as [_ H]. exact H.
  - intros M. apply andb_true_iff in H as [H _]. rewrite forallb_forall in H. apply H, memn_In, M.
  - destruct out; [reflexivity | discriminate].
Qed.

Lemma holds_counts cfg c l : forall out sh,
  holds cfg out sh l = true ->
  (n_res c l <= n_add c l + (if memn c out then 1 else 0)
   /\ n_add c l + (if memn c out then 1 else 0) <= n_res c l + 1)%nat.
Proof.
  induction l as [|e l IH]; intros out sh H; simpl.
  - destruct (memn c out); lia.
  - pose proof (holds_head cfg c _ _ _ _ H) as Hh. specialize (IH _ _ (holds_cons _ _ _ _ _ H)).
    rewrite memn_out_after in IH. destruct e as [c'|c'|c'|cs|]; simpl.
    + destruct (Nat.eqb_spec c' c) as [->|]; [rewrite (Hh eq_refl) in *|rewrite orb_false_r in IH]; simpl in IH; lia.
    + destruct (Nat.eqb_spec c' c) as [->|]; [rewrite (Hh eq_refl)|]; lia.
    + destruct (Nat.eqb_spec c' c) as [->|]; [rewrite (Hh eq_refl)|]; lia.
    + destruct (memn c cs); [rewrite (Hh eq_refl)|]; lia.
    + rewrite Hh. exact IH.
Qed.

Lemma holds_suffix cfg l1 : forall out sh l,
  holds cfg out sh (l1 ++ l) = true -> exists out' sh', holds cfg out' sh' l = true.
Proof.
  induction l1 as [|e l1 IH]; intros out sh l H; [eauto|]. exact (IH _ _ _ (holds_cons _ _ _ _ _ H)).
Qed.

(* a cache that is not outstanding is resolved next only after it has been added again *)
Lemma holds_needs_add cfg c y l3 l2 : forall out sh,
  holds cfg out sh (l2 ++ y :: l3) = true -> memn c out = false -> is_res c y -> In (EAdded c) l2.
Proof.
  induction l2 as [|e l2 IH]; intros out sh H M Hy; simpl in H.
  - pose proof (holds_head cfg c _ _ _ _ H) as Hh. destruct Hy; subst y; rewrite Hh in M by reflexivity; discriminate.
  - assert (K : e = EAdded c \/ memn c (out_after e out) = false).
    { rewrite memn_out_after, M. destruct e as [c'|c'|c'|cs|]; simpl.
      - destruct (Nat.eqb_spec c' c) as [->|]; [left | right]; reflexivity.
      - right. destruct (Nat.eqb c' c); reflexivity.
      - right. destruct (Nat.eqb c' c); reflexivity.
      - right. destruct (memn c cs); reflexivity.
      - right. reflexivity. }
    destruct K as [->|K]; [left; reflexivity | right; exact (IH _ _ (holds_cons _ _ _ _ _ H) K Hy)].
Qed.

Lemma holds_one_resolution_per_add cfg c x y l1 l2 l3 out sh :
  holds cfg out sh (l1 ++ x :: l2 ++ y :: l3) = true -> is_res c x -> is_res c y -> In (EAdded c) l2.
Proof.
  intros H Hx Hy. apply holds_suffix in H as [out' [sh' H]]. apply holds_cons in H.
  apply (holds_needs_add _ _ _ _ _ _ _ H); [|exact Hy].
  rewrite memn_out_after. destruct Hx; subst x; rewrite Nat.eqb_refl; reflexivity.
Qed.

Lemma holds_after_shutdown cfg l : forall out,
  holds cfg out true l = true -> forall c, ~ In (EAdded c) l /\ ~ In (ETimeout c) l.
Proof.
  induction l as [|e l IH]; intros out H c; [simpl; tauto|].
  pose proof (holds_cons _ _ _ _ _ H) as H'. replace (sh_after e true) with true in H' by (destruct e; reflexivity).
  destruct (IH _ H' c) as [A B].
  (* with sh = true the clauses of `holds` for EAdded and ETimeout begin with negb sh: those heads are impossible *)
  destruct e; simpl in H; try discriminate; split; intros [X|X]; try discriminate; tauto.
Qed.

Lemma holds_counts_start cfg c l sh :
  holds cfg [] sh l = true -> (n_res c l <= n_add c l /\ n_add c l <= n_res c l + 1)%nat.
Proof. intros H. pose proof (holds_counts cfg c l [] sh H) as K. simpl in K. lia. Qed.

Lemma one_resolution_per_add cfg ops c x y l1 l2 l3 :
  events (snd (run cfg (init cfg) ops)) = l1 ++ x :: l2 ++ y :: l3 ->
  is_res c x -> is_res c y -> In (EAdded c) l2.
Proof.
  intros E. pose proof (holds_all_runs cfg ops) as H. rewrite E in H.
  eapply holds_one_resolution_per_add; exact H.
Qed.

Lemma pop_releases cfg s p n c :
  tbl_get (table s) (p, n) = Some c ->
  let s' := fst (step_b cfg s (BPop p n)) in
  snd (step_b cfg s (BPop p n)) = [OPop p n (Ok c)] /\ tk_get (tasks s') c = None /\
  snd (fire cfg s' c) = [ORefused c].
Proof.
  intros Hg. simpl. rewrite Hg. simpl. split; [reflexivity|].
  assert (E : tk_get (tk_del (tasks s) c) c = None) by (rewrite tk_get_del, Nat.eqb_refl; reflexivity).
  split; [exact E|]. unfold fire. simpl. rewrite E. reflexivity.
Qed.

Lemma timeout_releases cfg s c :
  tk_get (tasks s) c = Some TReady -> c_script (getc cfg c) = [] ->
  let s' := fst (fire cfg s c) in
  In (OTimeout c) (snd (fire cfg s c)) /\
  snd (step_b cfg s' (BPop (fst (ckey cfg c)) (snd (ckey cfg c))))
  = [OPop (fst (ckey cfg c)) (snd (ckey cfg c)) (Raise KeyError)] /\
  snd (fire cfg s' c) = [ORefused c].
Proof.
  intros Hk Hsc. unfold fire. rewrite Hk, Hsc. simpl. split; [auto|]. split.
  - fold (ckey cfg c). rewrite tbl_get_del, key_eqb_refl. reflexivity.
  - rewrite tk_get_del, Nat.eqb_refl. reflexivity.
Qed.

Lemma add_never_task_exists cfg s c :
  inv cfg s -> snd (step_b cfg s (BAdd c)) <> [OAdd c (ARaise RuntimeError)].
Proof.
  intros I. simpl.
  destruct (c_delay (getc cfg c) <=? 0); [simpl; congruence|].
  destruct (shut s); [simpl; congruence|].
  destruct (tbl_get (table s) (ckey cfg c)) eqn:Hg; [simpl; congruence|].
  rewrite (inv_no_timer _ _ _ I Hg). simpl. congruence.
Qed.

Lemma timeout_futl_done sps : forall fl,
  length fl = length sps -> Forall not_pending (timeout_futl sps fl).
Proof.
  induction sps as [|sp sps IH]; intros [|f fl] H; simpl in *; try discriminate; constructor.
  - unfold not_pending. destruct f, sp; simpl; discriminate.
  - apply IH. lia.
Qed.

Lemma timeout_futl_nth sps : forall fl k sp f,
  nth_error sps k = Some sp -> nth_error fl k = Some f ->
  nth_error (timeout_futl sps fl) k = Some (match f with FPending => configured sp | x => x end).
Proof.
  induction sps as [|sp0 sps IH]; intros [|f0 fl] [|k] sp f Hs Hf; simpl in *; try discriminate.
  - inversion Hs; inversion Hf; subst. destruct f, sp; reflexivity.
  - eapply IH; eassumption.
Qed.

Lemma fire_ready_shape cfg s c :
  tk_get (tasks s) c = Some TReady ->
  exists s2 o2,
    run_b cfg (remove cfg s c) (c_script (getc cfg c)) = (s2, o2) /\
    fire cfg s c =
      (set_futs s2 (upd (futs s2) c (timeout_futl (c_futs (getc cfg c)))),
       OTimeout c :: o2 ++ [OTimeoutEnd c (nth c (upd (futs s2) c (timeout_futl (c_futs (getc cfg c)))) [])]).
Proof.
  intros Hk. unfold fire. rewrite Hk. fold (remove cfg s c).
  destruct (run_b cfg _ (c_script (getc cfg c))) as [s2 o2] eqn:E. exists s2, o2. split; reflexivity.
Qed.

Lemma fire_completes cfg s c :
  inv cfg s -> tk_get (tasks s) c = Some TReady ->
  In (OTimeout c) (snd (fire cfg s c)) /\ Forall not_pending (nth c (futs (fst (fire cfg s c))) []).
Proof.
  intros I Hk. destruct (fire_ready_shape cfg s c Hk) as [s2 [o2 [E2 EF]]]. rewrite EF. simpl. split; [auto|].
  pose proof (inv_task_some _ _ _ _ I Hk) as Hg.
  pose proof (run_b_inv cfg (c_script (getc cfg c)) _ (inv_remove _ _ _ I Hg)) as I2.
  rewrite E2 in I2. simpl in I2.
  rewrite row_upd_at by (destruct (c_futs (getc cfg c)); reflexivity).
  apply timeout_futl_done, (inv_futlen _ _ I2).
Qed.

(* every future still pending when the callback returns receives exactly its configured outcome,
   the others are left alone *)
Lemma fire_configured cfg s c :
  tk_get (tasks s) c = Some TReady ->
  exists s2 o2,
    run_b cfg (remove cfg s c) (c_script (getc cfg c)) = (s2, o2) /\
    forall k sp f, nth_error (c_futs (getc cfg c)) k = Some sp -> nth_error (nth c (futs s2) []) k = Some f ->
      nth_error (nth c (futs (fst (fire cfg s c))) []) k
      = Some (match f with FPending => configured sp | x => x end).
Proof.
  intros Hk. destruct (fire_ready_shape cfg s c Hk) as [s2 [o2 [E2 EF]]]. exists s2, o2. split; [exact E2|].
  intros k sp f Hs Hf. rewrite EF. simpl. rewrite row_upd_at by (destruct (c_futs (getc cfg c)); reflexivity).
  apply timeout_futl_nth; assumption.
Qed.

Lemma cancelled_done l : Forall not_pending (map cancel_fut l).
Proof. apply Forall_forall. intros f Hf. apply in_map_iff in Hf as [g [<- _]]. destruct g; discriminate. Qed.

Lemma cancel_futs_keeps_done fs c c0 :
  Forall not_pending (nth c fs []) -> Forall not_pending (nth c (cancel_futs fs c0) []).
Proof.
  intros H. unfold cancel_futs. rewrite nth_upd.
  destruct (Nat.eqb c0 c), (c0 <? length fs)%nat; try exact H. apply cancelled_done.
Qed.

Lemma cancel_futs_done_at fs c : Forall not_pending (nth c (cancel_futs fs c) []).
Proof.
  unfold cancel_futs. rewrite row_upd_at by reflexivity. apply cancelled_done.
Qed.

Lemma fold_cancel_keeps_done cs : forall fs c,
  Forall not_pending (nth c fs []) -> Forall not_pending (nth c (fold_left cancel_futs cs fs) []).
Proof.
  induction cs as [|c0 cs IH]; intros fs c H; simpl; [exact H|].
  apply IH. apply cancel_futs_keeps_done. exact H.
Qed.

Lemma fold_cancel_done cs : forall fs c,
  In c cs -> Forall not_pending (nth c (fold_left cancel_futs cs fs) []).
Proof.
  induction cs as [|c0 cs IH]; intros fs c Hin; [destruct Hin|].
  destruct Hin as [H|H]; simpl.
  - subst c0. apply fold_cancel_keeps_done. apply cancel_futs_done_at.
  - apply IH. exact H.
Qed.

Lemma shutdown_empties cfg s0 :
  let s1 := fst (step cfg s0 Shutdown) in
  shut s1 = true /\ table s1 = [] /\ tasks s1 = [] /\
  (forall c, In c (map snd (table s0)) -> Forall not_pending (nth c (futs s1) [])).
Proof. repeat split. intros c Hc. simpl. apply fold_cancel_done. exact Hc. Qed.

Lemma run_shut_stays cfg ops : forall s, inv cfg s -> shut s = true -> shut (fst (run cfg s ops)) = true.
Proof.
  induction ops as [|o ops IH]; intros s I H; [exact H|].
  rewrite run_cons. apply IH; [apply step_inv, I|].
  destruct (not_iterbegin o) eqn:Ho; [exact (effs_shut_stays _ _ _ _ (step_effs _ _ _ I Ho) H)|].
  destruct o; try discriminate. exact H.
Qed.

Lemma after_shutdown cfg s1 ops :
  inv cfg s1 -> shut s1 = true ->
  let s2 := fst (run cfg s1 ops) in
  shut s2 = true /\ table s2 = [] /\ tasks s2 = [] /\
  (forall c, ~ In (OTimeout c) (snd (run cfg s1 ops)) /\ ~ In (OAdd c AAdded) (snd (run cfg s1 ops))).
Proof.
  intros I1 Hs1 s2. pose proof (run_shut_stays cfg ops s1 I1 Hs1) as Hs2.
  destruct (inv_shut _ _ (run_inv cfg ops s1 I1) Hs2) as [Ht Hk].
  split; [exact Hs2|]. split; [exact Ht|]. split; [exact Hk|]. intros c.
  pose proof (run_holds cfg ops s1 [] I1 (R_nil _ _ (proj1 (inv_shut _ _ I1 Hs1)))) as H. rewrite Hs1 in H.
  destruct (holds_after_shutdown cfg _ _ H c) as [A B].
  split; intros X.
  - apply B. unfold events. apply in_flat_map. exists (OTimeout c). split; [exact X | left; reflexivity].
  - apply A. unfold events. apply in_flat_map. exists (OAdd c AAdded). split; [exact X | left; reflexivity].
Qed.

Lemma resolved_app_l c a b : resolved c a -> resolved c (a ++ b).
Proof. intros [e [H K]]. exists e. split; [apply in_or_app; auto | exact K]. Qed.
Lemma resolved_app_r c a b : resolved c b -> resolved c (a ++ b).
Proof. intros [e [H K]]. exists e. split; [apply in_or_app; auto | exact K]. Qed.

Lemma tk_in_table cfg s c x : inv cfg s -> tk_get (tasks s) c = Some x -> In c (map snd (table s)).
Proof.
  intros I H. apply in_map_iff. exists (ckey cfg c, c). split; [reflexivity|].
  exact (tbl_get_In _ _ _ (inv_task_some _ _ _ _ I H)).
Qed.

(* a timer keeps its state through a call unless the call resolves its cache *)
Lemma eff_keep cfg s s' l c x :
  inv cfg s -> eff cfg s s' l -> tk_get (tasks s) c = Some x ->
  tk_get (tasks s') c = Some x \/ resolved c l.
Proof.
  intros I [s1 _ Hk _ _ | c' d _ _ _ | c' e He _ | s1 _ _ _ _ | s1 Ht _ _ _ _] H.
  - left. rewrite Hk. exact H.
  - left. simpl. rewrite tk_get_app, H. reflexivity.
  - destruct (Nat.eqb_spec c' c) as [->|N].
    + right. exists e. split; [left; reflexivity | destruct He; auto].
    + left. simpl. rewrite tk_get_del. destruct (Nat.eqb_spec c' c); [contradiction | exact H].
  - right. eexists. split; [left; reflexivity|]. right; right. eexists; split; [reflexivity|]. eapply tk_in_table; eassumption.
  - pose proof (tk_in_table _ _ _ _ I H) as Hin. rewrite Ht in Hin. destruct Hin.
Qed.

Lemma effs_keep cfg s s' l c x :
  effs cfg s s' l -> inv cfg s -> tk_get (tasks s) c = Some x ->
  tk_get (tasks s') c = Some x \/ resolved c l.
Proof.
  intros H. induction H as [|s s1 s2 a b E _ IH]; intros I Hx; [left; exact Hx|].
  destruct (eff_keep _ _ _ _ _ _ I E Hx) as [K|K]; [|right; apply resolved_app_l, K].
  destruct (IH (eff_inv _ _ _ _ I E) K) as [K2|K2]; [left; exact K2 | right; apply resolved_app_r, K2].
Qed.

Lemma run_keep cfg ops s c x :
  inv cfg s -> forallb not_iterbegin ops = true -> tk_get (tasks s) c = Some x ->
  tk_get (tasks (fst (run cfg s ops))) c = Some x \/ resolved c (events (snd (run cfg s ops))).
Proof. intros I Hn. exact (effs_keep _ _ _ _ _ _ (run_effs cfg ops s I Hn) I). Qed.

(* a loop that leaves no runnable task behind (IterEnd reports nothing) *)
Lemma no_ready_left cfg s c :
  snd (step cfg s IterEnd) = [OIterEnd []] -> tk_get (tasks s) c <> Some TReady.
Proof.
  simpl. intros [= E] K. apply tk_get_In in K.
  assert (X : In c (map fst (filter (fun e => is_ready (snd e)) (tasks s)))).
  { apply in_map_iff. exists (c, TReady). split; [reflexivity|]. apply filter_In. auto. }
  rewrite E in X. destruct X.
Qed.

(* one loop iteration: the timer takes the step of IterBegin, then keeps its state unless its cache is resolved *)
Lemma iteration_keep cfg s c x A :
  inv cfg s -> tk_get (tasks s) c = Some x -> forallb not_iterbegin A = true ->
  tk_get (tasks (fst (run cfg s (IterBegin :: A)))) c = Some (iter_begin1 (now s) x)
  \/ resolved c (events (snd (run cfg s (IterBegin :: A)))).
Proof.
  intros I H HA. rewrite run_cons. apply (run_keep cfg A _ c _ (step_inv cfg s IterBegin I) HA).
  simpl. rewrite tk_get_map, H. reflexivity.
Qed.

Lemma resolved_run_app cfg s c a b :
  resolved c (events (snd (run cfg s a))) \/ resolved c (events (snd (run cfg (fst (run cfg s a)) b))) ->
  resolved c (events (snd (run cfg s (a ++ b)))).
Proof.
  rewrite run_app. cbn [snd]. rewrite events_app. intros [H|H]; [apply resolved_app_l | apply resolved_app_r]; exact H.
Qed.

(* passthrough with timeout 0: the cache times out in the very next iteration *)
Lemma created_zero_resolved cfg s c B :
  inv cfg s -> tk_get (tasks s) c = Some (TCreated 0) -> forallb not_iterbegin B = true ->
  let ops := IterBegin :: B in
  snd (step cfg (fst (run cfg s ops)) IterEnd) = [OIterEnd []] ->
  resolved c (events (snd (run cfg s ops))).
Proof.
  intros I H HB ops Hend. destruct (iteration_keep cfg s c _ B I H HB) as [K|K]; [|exact K].
  destruct (no_ready_left _ _ c Hend K).
Qed.

(* woken -> runs in the next iteration *)
Lemma woken_resolved cfg s c A B :
  inv cfg s -> tk_get (tasks s) c = Some TWoken ->
  forallb not_iterbegin A = true -> forallb not_iterbegin B = true ->
  let ops := A ++ IterBegin :: B in
  snd (step cfg (fst (run cfg s ops)) IterEnd) = [OIterEnd []] ->
  resolved c (events (snd (run cfg s ops))).
Proof.
  intros I H HA HB ops Hend. apply resolved_run_app.
  destruct (run_keep cfg A s c _ I HA H) as [K|K]; [right | left; exact K].
  destruct (iteration_keep cfg _ c _ B (run_inv cfg A s I) K HB) as [K2|K2]; [|exact K2].
  unfold ops in Hend. rewrite run_app in Hend. destruct (no_ready_left _ _ c Hend K2).
Qed.

(* the clock has passed the deadline of a sleeping timer: it is resolved within two iterations *)
Lemma sleeping_due_resolved cfg s c dl A B :
  inv cfg s -> tk_get (tasks s) c = Some (TSleep dl) -> dl <= now s ->
  forallb not_iterbegin A = true -> forallb not_iterbegin B = true ->
  let ops := IterBegin :: A ++ IterBegin :: B in
  snd (step cfg (fst (run cfg s ops)) IterEnd) = [OIterEnd []] ->
  resolved c (events (snd (run cfg s ops))).
Proof.
  intros I H Hdl HA HB ops Hend. apply (resolved_run_app cfg s c (IterBegin :: A)).
  destruct (iteration_keep cfg s c _ A I H HA) as [K|K]; [right | left; exact K].
  cbn [iter_begin1] in K. rewrite (proj2 (Z.leb_le _ _) Hdl) in K.
  apply (woken_resolved cfg _ c [] B (run_inv cfg _ s I) K eq_refl HB).
  change ops with ((IterBegin :: A) ++ IterBegin :: B) in Hend. rewrite run_app in Hend. exact Hend.
Qed.

(* from registration: first iteration arms the timer; once the clock has advanced by the delay,
   two more iterations resolve it *)
Lemma created_resolved cfg s c d A B D :
  inv cfg s -> tk_get (tasks s) c = Some (TCreated d) -> 0 < d ->
  forallb not_iterbegin A = true -> forallb not_iterbegin B = true -> forallb not_iterbegin D = true ->
  now s + d <= now (fst (run cfg s (IterBegin :: A))) ->
  let ops := (IterBegin :: A) ++ IterBegin :: B ++ IterBegin :: D in
  snd (step cfg (fst (run cfg s ops)) IterEnd) = [OIterEnd []] ->
  resolved c (events (snd (run cfg s ops))).
Proof.
  intros I H Hd HA HB HD Hnow ops Hend. apply resolved_run_app.
  destruct (iteration_keep cfg s c _ A I H HA) as [K|K]; [right | left; exact K].
  cbn [iter_begin1] in K. rewrite (proj2 (Z.eqb_neq d 0)), (proj2 (Z.ltb_ge d 0)) in K by lia.
  apply (sleeping_due_resolved cfg _ c _ B D (run_inv cfg _ s I) K Hnow HB HD).
  unfold ops in Hend. rewrite run_app in Hend. exact Hend.
Qed.
