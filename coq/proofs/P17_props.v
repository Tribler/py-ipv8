(* C17 - the node over whole histories: advertise split into create_credential / self_advertise / the disclosure
   (adv_cred, adv_core, adv_disclose), what one step does, the invariant of its tables and trees, consent,
   stored rows, token hand-out, and (second section) no metadata attested twice. *)
From Coq Require Import ZArith List Bool Lia.
From IPV8V Require Import lib.Lists lib.PyErr lib.Bytes model.M16_tokentree model.M17_consent spec.S17_consent
  proofs.P16_gather proofs.P16_props proofs.P17_base proofs.P17_step.
Import ListNotations.
Open Scope Z_scope.

Lemma aset_In {V} k (v : V) l k2 v2 : In (k2, v2) (aset k v l) -> In (k2, v2) l \/ v2 = v.
Proof.
  induction l as [|[k' v'] l IH]; simpl.
  - intros [H|[]]. inversion H. auto.
  - destruct (bytes_eqb k' k); simpl; intros [H|H]; auto.
    + inversion H. auto.
    + destruct (IH H); auto.
Qed.

Lemma aset_keys {V} k (v : V) l : NoDup (map fst l) -> NoDup (map fst (aset k v l)).
Proof.
  induction l as [|[k' v'] l IH]; intros N; simpl.
  - constructor; [intros []|constructor].
  - inversion N as [|? ? Nk Nl]; subst. destruct (bytes_eqb k' k) eqn:E; simpl; [constructor; assumption|].
    constructor; [|apply IH; assumption].
    intros Hin. apply Nk. clear - Hin E. induction l as [|[k2 v2] l IHl]; simpl in *.
    + destruct Hin as [H|[]]. subst. rewrite bytes_eqb_refl in E. discriminate.
    + destruct (bytes_eqb k2 k); simpl in Hin; destruct Hin as [H|H]; auto.
Qed.

Lemma nth_error_firstn_some {A} : forall n (l : list A) j x,
  nth_error (firstn n l) j = Some x -> (j < n)%nat /\ nth_error l j = Some x.
Proof.
  induction n as [|n IH]; intros l j x H.
  - destruct j; discriminate.
  - destruct l as [|y l]; [destruct j; discriminate|]. destruct j as [|j]; simpl in *.
    + split; [lia|assumption].
    + destruct (IH _ _ _ H). split; [lia|assumption].
Qed.

Lemma prefix_length {A} (a b : list A) : prefix a b -> (length a <= length b)%nat.
Proof. intros [x E]. subst. rewrite app_length. lia. Qed.

Section Props.
Variable hash : bytes -> bytes.
Variable sigverify : bytes -> bytes -> bytes -> bool.
Variable mysign : bytes -> bytes.
Variable parse : bytes -> jdoc.
Variable norm : bytes -> bytes.
Variable me : bytes.
Variable rhl rsl : nat.
Variable wide : bool.

Notation md_hash := (md_hash hash).
Notation md_verify := (md_verify sigverify).
Notation att_verify := (att_verify sigverify).
Notation already := (already me).
Notation recv_disclosure := (recv_disclosure hash sigverify mysign parse me wide).
Notation advertise := (advertise hash sigverify mysign norm me rhl rsl).
Notation step := (step hash sigverify mysign parse norm me rhl rsl wide).
Notation run := (run hash sigverify mysign parse norm me rhl rsl wide).
Notation Sound := (Sound hash sigverify).
Notation row_valid := (row_valid sigverify).
Notation mdrow_valid := (mdrow_valid sigverify).
Notation tverify := (tverify sigverify).
Notation registration := (registration norm).
Notation consent := (consent parse).
Notation opened_from := (opened_from hash sigverify mysign parse norm me rhl rsl wide).
Notation opened := (opened hash sigverify mysign parse norm me rhl rsl wide).
Notation recv_disclosure_spec := (recv_disclosure_spec hash sigverify mysign parse me wide).

Definition final (s : state) (evs : list (Z * event)) : state := fst (run s evs).
Definition trace (s : state) (evs : list (Z * event)) := snd (run s evs).

Lemma run_cons s now ev tl :
  run s ((now, ev) :: tl) =
  (final (st_of (step s now ev)) tl,
   (outs_of (step s now ev), snd (step s now ev)) :: trace (st_of (step s now ev)) tl).
Proof.
  unfold final, trace, st_of, outs_of. cbn [M17_consent.run].
  destruct (step s now ev) as [[s1 o] x]. simpl. destruct (run s1 tl) as [s2 tr]. reflexivity.
Qed.

Lemma final_cons s now ev tl : final s ((now, ev) :: tl) = final (st_of (step s now ev)) tl.
Proof. unfold final at 1. rewrite run_cons. reflexivity. Qed.

Lemma trace_cons s now ev tl :
  trace s ((now, ev) :: tl) = (outs_of (step s now ev), snd (step s now ev)) :: trace (st_of (step s now ev)) tl.
Proof. unfold trace at 1. rewrite run_cons. reflexivity. Qed.

Lemma final_app s a b : final s (a ++ b) = final (final s a) b.
Proof.
  revert s. induction a as [|[now ev] a IH]; intros s; [reflexivity|].
  simpl app. rewrite !final_cons. apply IH.
Qed.

(* the token of TokenTree.add_by_hash: it follows the token that the last entry of metadata_chain points to *)
Definition adv_tok (s : state) (h : bytes) : token :=
  let prev := match last_opt (mdchain s) with
              | None => genesis hash me
              | Some after => match find_key hash (m_tptr after) (elements (get_tree me (pseus s))) with
                              | Some tk => thash hash tk
                              | None => genesis hash me
                              end
              end in
  mkToken prev (norm h) (mysign (prev ++ norm h)) None.

(* PseudonymManager.create_credential *)
Definition adv_cred (s : state) (h json : bytes) : state * res (option (metadata * token)) :=
  let tok := adv_tok s h in
  let tr1 := append_elem hash (get_tree me (pseus s)) tok in
  let md := mkMd (thash hash tok) json (mysign (thash hash tok ++ json)) in
  match gather_top hash sigverify me tr1 tok with
  | Raise e => (set_pseus s (aset me tr1 (pseus s)), Raise e)
  | Ok (tr2, r) =>
      let s1 := set_pseus s (aset me tr2 (pseus s)) in
      match r with
      | None => (s1, Ok None)
      | Some _ => if md_verify me md then (set_dmd s1 (insert_md me md (dmd s1)), Ok (Some (md, tok)))
                  else (s1, Ok None)
      end
  end.

(* self_advertise: create_credential, then metadata_chain and token_chain; what
   request_attestation_advertisement adds (adv_disclose) is the permission and the disclosure *)
Definition adv_core (s : state) (h json : bytes) : state * res (option (metadata * token)) :=
  match adv_cred s h json with
  | (s2, Ok (Some (md, _))) =>
      match find_key hash (m_tptr md) (elements (get_tree me (pseus s2))) with
      | None => (set_chains s2 (chain s2) (mdchain s2 ++ [md]), Raise KeyError)
      | Some tk => (set_chains s2 (chain s2 ++ [tk]) (mdchain s2 ++ [md]), Ok (Some (md, tk)))
      end
  | c => c
  end.

Definition adv_disclose (p : option bytes) (jlen : nat) (c : state * res (option (metadata * token)))
  : state * list output * option exn :=
  match snd c with
  | Raise e => (fst c, [], Some e)
  | Ok None => (fst c, [], None)
  | Ok (Some (md, tk)) =>
      match p with
      | None => (fst c, [], None)
      | Some q =>
          let s4 := set_perms (fst c) (aset q (length (chain (fst c))) (perms (fst c))) in
          let tr := get_tree me (pseus (fst c)) in
          if tree_verify hash sigverify me tr tk 1000
          then (s4, [ODisclose q md (get_root_path hash sigverify me tr tk 1000)
                               (fit rhl rsl jlen (length (get_root_path hash sigverify me tr tk 1000)))], None)
          else (s4, [], Some RuntimeError)
      end
  end.

Lemma advertise_eq s p h json jlen : advertise s p h json jlen = adv_disclose p jlen (adv_core s h json).
Proof.
  unfold M17_consent.advertise. cbv zeta. set (tok := mkToken _ (norm h) _ None).
  assert (Et : tok = adv_tok s h) by reflexivity. clearbody tok. subst tok. unfold adv_core, adv_cred. cbv zeta.
  destruct (gather_top hash sigverify me (append_elem hash (get_tree me (pseus s)) (adv_tok s h)) (adv_tok s h))
    as [[tr2 [r|]]|e]; [|reflexivity..].
  destruct (M17_consent.md_verify sigverify me _); cbn [negb m_tptr]; [|reflexivity].
  cbn [pseus set_dmd set_pseus]. rewrite get_tree_aset_same.
  destruct (find_key hash (thash hash (adv_tok s h)) (elements tr2)) as [tk|]; [|reflexivity].
  destruct p as [q|]; [|reflexivity]. unfold adv_disclose.
  cbn [fst snd pseus set_chains set_dmd set_pseus]. rewrite get_tree_aset_same.
  destruct (tree_verify hash sigverify me tr2 tk 1000); reflexivity.
Qed.

Lemma adv_core_shape s h json : exists tr dm ch mc,
  fst (adv_core s h json) = mkState (known s) (aset me tr (pseus s)) dm (datt s) ch mc (perms s) /\
  grown mdrow_valid (dmd s) dm /\ prefix (chain s) ch /\
  forall md tk, snd (adv_core s h json) = Ok (Some (md, tk)) -> find_key hash (m_tptr md) (elements tr) = Some tk.
Proof.
  remember (adv_core s h json) as c eqn:E. unfold adv_core, adv_cred in E. cbv zeta in E.
  destruct (gather_top hash sigverify me _ _) as [[tr2 [r|]]|e].
  2,3: subst c; do 4 eexists; split; [reflexivity|]; split; [apply grown_refl|]; split; [apply prefix_refl|discriminate].
  destruct (M17_consent.md_verify sigverify me _) eqn:MV.
  2: subst c; do 4 eexists; split; [reflexivity|]; split; [apply grown_refl|]; split; [apply prefix_refl|discriminate].
  assert (G : grown mdrow_valid (dmd s) (insert_md me (mkMd (thash hash (adv_tok s h)) json
                                                      (mysign (thash hash (adv_tok s h) ++ json))) (dmd s))).
  { apply grown_insert. exact MV. }
  cbn [m_tptr pseus set_dmd set_pseus] in E. rewrite get_tree_aset_same in E.
  destruct (find_key hash _ (elements tr2)) as [tk|] eqn:FK; subst c; do 4 eexists; (split; [reflexivity|]); (split; [exact G|]).
  - split; [apply prefix_app|]. intros md tk' H. inversion H; subst. exact FK.
  - split; [apply prefix_refl|discriminate].
Qed.

Lemma adv_disclose_spec p jlen c :
  (st_of (adv_disclose p jlen c) = fst c \/
   exists q, p = Some q /\
     st_of (adv_disclose p jlen c) = set_perms (fst c) (aset q (length (chain (fst c))) (perms (fst c)))) /\
  (forall q x, p = Some q -> snd c = Ok (Some x) ->
     st_of (adv_disclose p jlen c) = set_perms (fst c) (aset q (length (chain (fst c))) (perms (fst c)))) /\
  (forall o, In o (outs_of (adv_disclose p jlen c)) -> exists q md tk kept,
     p = Some q /\ snd c = Ok (Some (md, tk)) /\
     o = ODisclose q md (get_root_path hash sigverify me (get_tree me (pseus (fst c))) tk 1000) kept).
Proof.
  remember (adv_disclose p jlen c) as r eqn:Er. unfold adv_disclose in Er. destruct c as [s3 c]. cbv zeta in Er.
  cbn [fst snd] in *.
  destruct c as [[[md tk]|]|e];
    [destruct p as [q|]; [destruct (tree_verify hash sigverify me (get_tree me (pseus s3)) tk 1000)|]|..];
    subst r; unfold st_of, outs_of; cbn [fst snd].
  - (* a token, a peer, the path verifies: the permission is recorded and the one output is the disclosure *)
    split; [right; exists q; split; reflexivity|].
    split; [intros q0 x Ep Ec; inversion Ep; reflexivity|].
    intros o [Ho|[]]. subst o. exists q, md, tk. eexists. split; [reflexivity|]. split; reflexivity.
  - (* the path does not verify: the permission is recorded, nothing is sent *)
    split; [right; exists q; split; reflexivity|].
    split; [intros q0 x Ep Ec; inversion Ep; reflexivity|].
    intros o [].
  - (* no peer *)
    split; [left; reflexivity|]. split; [intros q0 x Ep; discriminate Ep|]. intros o [].
  - (* no token *)
    split; [left; reflexivity|]. split; [intros q0 x _ Ec; discriminate Ec|]. intros o [].
  - (* the first part raised *)
    split; [left; reflexivity|]. split; [intros q0 x _ Ec; discriminate Ec|]. intros o [].
Qed.

Lemma advertise_shape s p h json jlen : exists tr dm ch mc pm,
  st_of (advertise s p h json jlen) = mkState (known s) (aset me tr (pseus s)) dm (datt s) ch mc pm /\
  grown mdrow_valid (dmd s) dm /\ prefix (chain s) ch /\
  (pm = perms s \/ exists q, p = Some q /\ pm = aset q (length ch) (perms s)) /\
  (forall o, In o (outs_of (advertise s p h json jlen)) ->
             exists q m toks kept, p = Some q /\ o = ODisclose q m toks kept).
Proof.
  rewrite advertise_eq. destruct (adv_core_shape s h json) as [tr [dm [ch [mc [E [G [C _]]]]]]].
  destruct (adv_disclose_spec p jlen (adv_core s h json)) as [S [_ O]].
  assert (O' : forall o, In o (outs_of (adv_disclose p jlen (adv_core s h json))) ->
               exists q m toks kept, p = Some q /\ o = ODisclose q m toks kept).
  { intros o Ho. destruct (O o Ho) as [q [md [tk [kept [Ep [_ Eo]]]]]]. eauto 6. }
  destruct S as [S|[q [Ep S]]]; rewrite S, E.
  - exists tr, dm, ch, mc, (perms s). split; [reflexivity|]. split; [exact G|]. split; [exact C|].
    split; [left; reflexivity|exact O'].
  - exists tr, dm, ch, mc, (aset q (length ch) (perms s)). split; [reflexivity|]. split; [exact G|]. split; [exact C|].
    split; [right; exists q; split; [exact Ep|reflexivity]|exact O'].
Qed.

Lemma step_out_event s now ev o :
  In o (outs_of (step s now ev)) ->
  match o with
  | OAttest p _ | OReqMissing p _ => is_disclosure ev = true /\ sender_of ev = Some p
  | OMissingResp p toks => exists kn, ev = EReqMissing p kn
  | ODisclose p _ _ _ => exists h json jlen, ev = EAdvertise (Some p) h json jlen
  end.
Proof.
  destruct ev as [h name key md|q h json jlen|q mds toks atts fail|q toks fail|q [a|]|q kn];
    cbn [M17_consent.step]; intros H; try (destruct H; fail).
  - destruct (advertise_shape s q h json jlen) as [_ [_ [_ [_ [_ [_ [_ [_ [_ O]]]]]]]]].
    destruct (O _ H) as [q0 [m [toks [kept [Eq Eo]]]]]. subst. eauto.
  - destruct (proj2 (proj2 (recv_disclosure_spec s now q mds toks atts fail)) _ H)
      as [[n Eo]|[_ [_ [m [Eo _]]]]]; subst o; auto.
  - destruct (proj2 (proj2 (recv_disclosure_spec s now q [] toks [] _)) _ H)
      as [[n Eo]|[_ [_ [m [Eo _]]]]]; subst o; auto.
  - destruct H as [H|[]]. subst o. eauto.
Qed.

Lemma step_known s now ev :
  known (st_of (step s now ev)) =
  match ev with
  | EKnown h name key md => aset (norm h) (mkEntry name now key md) (known s)
  | _ => known s
  end.
Proof.
  destruct ev as [h name key md|p h json jlen|p mds toks atts fail|p toks fail|p [a|]|p kn];
    cbn [M17_consent.step]; try reflexivity.
  - destruct (advertise_shape s p h json jlen) as [tr [dm [ch [mc [pm [E _]]]]]]. rewrite E. reflexivity.
  - exact (f_known _ _ _ _ _ (proj1 (recv_disclosure_spec s now p mds toks atts fail))).
  - exact (f_known _ _ _ _ _ (proj1 (recv_disclosure_spec s now p [] toks [] _))).
Qed.

Lemma known_registration : forall evs s h,
  alookup h (known (final s evs)) =
  match registration evs h with Some e => Some e | None => alookup h (known s) end.
Proof.
  induction evs as [|[now ev] evs IH]; intros s h; [reflexivity|].
  rewrite final_cons, IH. cbn [S17_consent.registration].
  destruct (registration evs h) as [e|]; [reflexivity|].
  rewrite step_known. destruct ev; try reflexivity.
  rewrite alookup_aset. destruct (bytes_eqb (norm h0) h); reflexivity.
Qed.

Lemma known_from_history : forall evs s h e,
  In (h, e) (known (final s evs)) ->
  In (h, e) (known s) \/ exists t h' md, In (t, EKnown h' (e_name e) (e_key e) md) evs.
Proof.
  induction evs as [|[now ev] evs IH]; intros s h e Hin; [left; exact Hin|].
  rewrite final_cons in Hin. destruct (IH _ _ _ Hin) as [H|[t [h' [md H]]]].
  - rewrite step_known in H. destruct ev; try (left; exact H).
    apply aset_In in H as [H|H]; [left; exact H|]. right. subst e. simpl. exists now, h0, md. left. reflexivity.
  - right. exists t, h', md. right. exact H.
Qed.

(* the consent table is a dict: add_known_hash keeps its keys unique *)
Definition known_keys_unique (s : state) : Prop := NoDup (map fst (known s)).

Lemma known_keys_unique_step s now ev : known_keys_unique s -> known_keys_unique (st_of (step s now ev)).
Proof.
  unfold known_keys_unique. intros WF. rewrite step_known.
  destruct ev; try exact WF. apply aset_keys. exact WF.
Qed.

Lemma known_keys_unique_init : known_keys_unique (init me).
Proof. unfold known_keys_unique. simpl. constructor. Qed.

Lemma known_keys_unique_final : forall evs s, known_keys_unique s -> known_keys_unique (final s evs).
Proof.
  induction evs as [|[now ev] evs IH]; intros s WF; [exact WF|]. rewrite final_cons. apply IH, known_keys_unique_step, WF.
Qed.

Record Inv (s : state) : Prop := {
  i_md : Forall mdrow_valid (dmd s);
  i_att : Forall row_valid (datt s);
  i_tree : forall k, k <> me -> exists P, Sound k P (get_tree k (pseus s))
}.

Lemma Inv_init : Inv (init me).
Proof.
  constructor; simpl; try constructor. intros k N. unfold get_tree. simpl.
  rewrite (bytes_eqb_neq me k); [|congruence]. exists []. apply Sound_empty.
Qed.

Lemma recv_Inv s now p mds toks atts fail :
  Inv s -> Inv (st_of (recv_disclosure s now p mds toks atts fail)).
Proof.
  intros [I1 I2 I3]. destruct (recv_disclosure_spec s now p mds toks atts fail) as [F [G _]]. constructor.
  - exact (grown_Forall _ _ _ (f_dmd _ _ _ _ _ F) I1).
  - eapply grown_Forall; [|exact I2]. eapply grown_weaken; [|exact G].
    intros x [[_ [_ V]]|[_ [_ [V _]]]]; exact V.
  - intros k N. destruct (bytes_eq_dec k p) as [Ek|Nk].
    + subst k. destruct (I3 p N) as [P S]. exact (f_sound _ _ _ _ _ F P S).
    + rewrite (f_other _ _ _ _ _ F k Nk). auto.
Qed.

Lemma step_Inv s now ev : Inv s -> Inv (st_of (step s now ev)).
Proof.
  intros I. destruct ev as [h name key md|p h json jlen|p mds toks atts fail|p toks fail|p [a|]|p kn];
    cbn [M17_consent.step]; try exact I; try (apply recv_Inv; exact I); destruct I as [I1 I2 I3].
  - constructor; assumption.
  - destruct (advertise_shape s p h json jlen) as [tr [dm [ch [mc [pm [E [G _]]]]]]]. rewrite E.
    constructor; simpl; [exact (grown_Forall _ _ _ G I1)|exact I2|].
    intros k N. rewrite get_tree_aset_other; auto.
  - constructor; simpl; [exact I1| |exact I3]. eapply grown_Forall; [|exact I2].
    eapply grown_weaken; [|apply add_att_grown]. intros x [_ [_ [_ V]]]. exact V.
Qed.

Lemma final_Inv : forall evs s, Inv s -> Inv (final s evs).
Proof.
  induction evs as [|[now ev] evs IH]; intros s I; [exact I|].
  rewrite final_cons. apply IH. apply step_Inv. assumption.
Qed.

Definition attested_with_consent (s s' : state) (now : Z) (p : bytes) (a : attestation) : Prop :=
  exists m tok e,
    a = mkAtt (md_hash m) (mysign (md_hash m)) /\
    In (p, m) (dmd s') /\ md_verify p m = true /\
    In tok (elements (get_tree p (pseus s'))) /\ thash hash tok = m_tptr m /\
    (p <> me -> rooted hash sigverify p (elements (get_tree p (pseus s'))) tok) /\
    alookup (t_chash tok) (known s) = Some e /\ consent e p now m /\
    already (datt s) (md_hash m) = false.

Lemma recv_attest_consent s now p mds toks atts fail q a :
  Inv s -> In (OAttest q a) (outs_of (recv_disclosure s now p mds toks atts fail)) ->
  q = p /\
  Forall (fun t => tverify p t = true) toks /\
  Forall (fun aa => att_verify (fst aa) (snd aa) = true) atts /\
  attested_with_consent s (st_of (recv_disclosure s now p mds toks atts fail)) now p a.
Proof.
  intros I Hin. destruct (recv_Inv s now p mds toks atts fail I) as [VM _ TS].
  destruct (proj2 (proj2 (recv_disclosure_spec s now p mds toks atts fail)) _ Hin)
    as [[n En]|[FT [FA [m [Eo [Hm [tok [e [EF [EK [Cn Al]]]]]]]]]]]; [discriminate|].
  inversion Eo; subst q a. clear Eo.
  destruct (find_key_Some hash _ _ _ EF) as [Htok Hh]. rewrite Forall_forall in VM.
  split; [reflexivity|]. split; [exact FT|]. split; [exact FA|]. exists m, tok, e.
  split; [reflexivity|]. split; [exact Hm|]. split; [exact (VM _ Hm)|]. split; [exact Htok|]. split; [exact Hh|].
  split; [|auto]. intros N. destruct (TS p N) as [P S]. eapply sound_rooted; eauto.
Qed.

Lemma attest_requires_consent s now ev p a :
  Inv s -> In (OAttest p a) (outs_of (step s now ev)) ->
  sender_of ev = Some p /\ is_disclosure ev = true /\
  Forall (fun t => tverify p t = true) (tokens_of ev) /\
  Forall (fun aa => att_verify (fst aa) (snd aa) = true) (atts_of ev) /\
  attested_with_consent s (st_of (step s now ev)) now p a.
Proof.
  intros I Hin. destruct (step_out_event _ _ _ _ Hin) as [D _].
  destruct ev as [h name key md|q h json jlen|q mds toks atts fail|q toks fail|q a0|q kn]; try discriminate D;
    cbn [M17_consent.step sender_of is_disclosure tokens_of atts_of] in *;
    destruct (recv_attest_consent _ _ _ _ _ _ _ _ _ I Hin) as [Eq [FT [FA R]]]; subst p; auto.
Qed.

Lemma stored_rows s now ev r :
  In r (datt (st_of (step s now ev))) ->
  In r (datt s) \/
  (row_valid r /\
   match ev with
   | EAttest p (Some a) => r = mkRow me p (a_mptr a) (a_sig a)
   | EDisclose p _ _ atts _ =>
       r_pk r = p /\
       (In (r_auth r, mkAtt (r_mptr r) (r_sig r)) atts \/
        (r_auth r = me /\ In (OAttest p (mkAtt (r_mptr r) (r_sig r))) (outs_of (step s now ev))))
   | EMissingResp p _ _ =>
       r_pk r = p /\ r_auth r = me /\ In (OAttest p (mkAtt (r_mptr r) (r_sig r))) (outs_of (step s now ev))
   | _ => False
   end).
Proof.
  destruct ev as [h name key md|q h json jlen|q mds toks atts fail|q toks fail|q [a0|]|q kn];
    cbn [M17_consent.step]; intros Hin; try (left; exact Hin).
  - left. destruct (advertise_shape s q h json jlen) as [tr [dm [ch [mc [pm [E _]]]]]]. rewrite E in Hin. exact Hin.
  - destruct (grown_In _ _ _ _ (proj1 (proj2 (recv_disclosure_spec s now q mds toks atts fail))) Hin)
      as [H|[[A [B C]]|[A [B [C D]]]]].
    + left. exact H.
    + right. split; [exact C|]. split; [exact A|]. left. exact B.
    + right. split; [exact C|]. split; [exact A|]. right. split; [exact B|exact D].
  - destruct (grown_In _ _ _ _ (proj1 (proj2 (recv_disclosure_spec s now q [] toks [] _))) Hin)
      as [H|[[A [B C]]|[A [B [C D]]]]].
    + left. exact H.
    + destruct B.
    + right. split; [exact C|]. split; [exact A|]. split; [exact B|exact D].
  - destruct (grown_In _ _ _ _ (add_att_grown sigverify wide me q a0 (datt s)) Hin) as [H|[A [B [C D]]]]; [auto|].
    right. split; [exact D|]. destruct r. simpl in *. subst. reflexivity.
Qed.

Lemma unknown_sender_dropped s now p mds toks atts fail :
  existsb (fun kv => bytes_eqb (e_key (snd kv)) p) (known s) = false ->
  step s now (EDisclose p mds toks atts fail) = (s, [], None) /\
  forall b, step s now (EMissingResp p toks b) = (s, [], None).
Proof.
  intros X. split; [|intros b]; cbn [M17_consent.step]; unfold M17_consent.recv_disclosure; rewrite X; reflexivity.
Qed.

Lemma unregistered_unknown pre p :
  (forall t h name md, ~ In (t, EKnown h name p md) pre) ->
  existsb (fun kv => bytes_eqb (e_key (snd kv)) p) (known (final (init me) pre)) = false.
Proof.
  intros N. destruct (existsb _ _) eqn:E; [|reflexivity]. exfalso.
  apply existsb_exists in E as [[h e] [Hin K]]. simpl in K. apply bytes_eqb_eq in K.
  destruct (known_from_history _ _ _ _ Hin) as [H|[t [h' [md H]]]]; [destruct H|].
  rewrite K in H. exact (N _ _ _ _ H).
Qed.

Lemma collect_sub : forall l idx kn len tok,
  In tok (collect rhl rsl l idx kn len) -> exists j, nth_error l j = Some tok /\ kn <= idx + Z.of_nat j.
Proof.
  induction l as [|t l IH]; intros idx kn len tok H; cbn [M17_consent.collect] in H; [destruct H|].
  destruct (kn <=? idx) eqn:K.
  - destruct (1296 <? len + tokw rhl rsl); [destruct H|].
    destruct H as [H|H].
    + subst. exists 0%nat. split; [reflexivity|lia].
    + destruct (IH _ _ _ _ H) as [j [A B]]. exists (S j). split; [exact A|lia].
  - destruct (IH _ _ _ _ H) as [j [A B]]. exists (S j). split; [exact A|lia].
Qed.

Lemma prefix_nth {A} (a b : list A) i x : prefix a b -> nth_error a i = Some x -> nth_error b i = Some x.
Proof.
  intros [y E] H. subst. rewrite nth_error_app1; [assumption|]. apply nth_error_Some. congruence.
Qed.

Lemma missing_response_within_permission s now ev p toks :
  In (OMissingResp p toks) (outs_of (step s now ev)) ->
  exists kn, ev = EReqMissing p kn /\
  forall tok, In tok toks ->
    exists i, nth_error (chain s) i = Some tok /\ kn <= Z.of_nat i /\ (i < perm_of s p)%nat.
Proof.
  intros Hin. destruct (step_out_event _ _ _ _ Hin) as [kn E]. subst ev. exists kn. split; [reflexivity|].
  destruct Hin as [H|[]]. inversion H; subst toks. clear H.
  intros tok Ht. apply collect_sub in Ht as [j [A B]].
  apply nth_error_firstn_some in A as [A1 A2]. exists j. split; [exact A2|]. split; [lia|exact A1].
Qed.

Lemma step_perm s now ev q :
  prefix (chain s) (chain (st_of (step s now ev))) /\
  (perm_of (st_of (step s now ev)) q = perm_of s q \/
   ((exists h j l, ev = EAdvertise (Some q) h j l) /\
    perm_of (st_of (step s now ev)) q = length (chain (st_of (step s now ev))))).
Proof.
  destruct ev as [h name key md|p h json jlen|p mds toks atts fail|p toks fail|p [a|]|p kn];
    cbn [M17_consent.step]; try (split; [apply prefix_refl|left; reflexivity]).
  - destruct (advertise_shape s p h json jlen) as [tr [dm [ch [mc [pm [E [_ [C [Pm _]]]]]]]]]. rewrite E.
    split; [exact C|]. unfold perm_of. simpl. destruct Pm as [Pm|[q0 [Ep Pm]]]; subst; [left; reflexivity|].
    rewrite alookup_aset. destruct (bytes_eqb q0 q) eqn:Eq; [|left; reflexivity].
    apply bytes_eqb_eq in Eq. subst. right. eauto.
  - destruct (recv_disclosure_spec s now p mds toks atts fail) as [F _]. unfold perm_of.
    rewrite (f_chain _ _ _ _ _ F), (f_perms _ _ _ _ _ F). split; [apply prefix_refl|left; reflexivity].
  - destruct (recv_disclosure_spec s now p [] toks [] (if fail then Some 0%nat else None)) as [F _]. unfold perm_of.
    rewrite (f_chain _ _ _ _ _ F), (f_perms _ _ _ _ _ F). split; [apply prefix_refl|left; reflexivity].
Qed.

Lemma opened_inv : forall evs s p cur,
  (perm_of s p <= cur)%nat -> (perm_of s p <= length (chain s))%nat ->
  (perm_of (final s evs) p <= opened_from s evs p cur)%nat /\
  (perm_of (final s evs) p <= length (chain (final s evs)))%nat.
Proof.
  induction evs as [|[now ev] evs IH]; intros s p cur H1 H2; [auto|].
  rewrite final_cons. cbn [S17_consent.opened_from].
  destruct (step_perm s now ev p) as [C Pm]. apply prefix_length in C.
  apply IH; destruct Pm as [Pm|[[h [j [l Ev]]] Pm]]; try lia.
  - rewrite Pm. destruct ev as [| [q|] ? ? ? | | | |]; try lia. destruct (bytes_eqb q p); lia.
  - subst ev. rewrite bytes_eqb_refl. lia.
Qed.

Lemma opened_snoc_advertise now q h json jlen : forall evs s cur,
  opened_from s (evs ++ [(now, EAdvertise (Some q) h json jlen)]) q cur
  = length (chain (st_of (step (final s evs) now (EAdvertise (Some q) h json jlen)))).
Proof.
  induction evs as [|[t0 e0] evs IH]; intros s cur; cbn [app S17_consent.opened_from].
  - rewrite bytes_eqb_refl. reflexivity.
  - rewrite IH, final_cons. reflexivity.
Qed.

Lemma perm_le_opened pre p : (perm_of (final (init me) pre) p <= opened pre p)%nat.
Proof. apply opened_inv; unfold perm_of; simpl; lia. Qed.

End Props.

Lemma find_some_exists {A} (f : A -> bool) l x : In x l -> f x = true -> exists y, find f l = Some y.
Proof.
  induction l as [|z l IH]; simpl; [intros []|]. intros [H|H] F.
  - subst. rewrite F. eauto.
  - destruct (f z); eauto.
Qed.

Lemma attest_ptrs_app a b : attest_ptrs (a ++ b) = attest_ptrs a ++ attest_ptrs b.
Proof. unfold attest_ptrs. apply flat_map_app. Qed.

Lemma attest_ptrs_none l : (forall o, In o l -> is_attest o = false) -> attest_ptrs l = [].
Proof.
  induction l as [|o l IH]; intros H; [reflexivity|]. simpl.
  rewrite IH; [|intros o' Ho; apply H; right; assumption].
  specialize (H o (or_introl eq_refl)). destruct o; [discriminate|reflexivity..].
Qed.

Lemma attest_ptrs_reqs peer l : only_req peer l -> attest_ptrs l = [].
Proof. intros H. apply attest_ptrs_none. intros o Ho. destruct (H o Ho) as [n E]. subst o. reflexivity. Qed.

Section NDS.
Variable hash : bytes -> bytes.
Variable sigverify : bytes -> bytes -> bytes -> bool.
Variable mysign : bytes -> bytes.
Variable parse : bytes -> jdoc.
Variable norm : bytes -> bytes.
Variable me : bytes.
Variable rhl rsl : nat.

(* the node's signing operation produces signatures that verify under its public key *)
Hypothesis mysign_ok : forall m, sigverify me m (mysign m) = true.
(* a signature string verifies under one key only (exclusive ownership) *)
Hypothesis sig_binds : forall k1 k2 m1 m2 sg,
  sigverify k1 m1 sg = true -> sigverify k2 m2 sg = true -> k1 = k2.

Notation md_hash := (md_hash hash).
Notation already := (already me).
Notation sign_loop := (sign_loop hash sigverify mysign parse me true).
Notation recv_disclosure := (recv_disclosure hash sigverify mysign parse me true).
Notation step := (step hash sigverify mysign parse norm me rhl rsl true).
Notation final := (final hash sigverify mysign parse norm me rhl rsl true).
Notation trace := (trace hash sigverify mysign parse norm me rhl rsl true).
Notation row_valid := (row_valid sigverify).

(* L: the metadata pointers attested so far; each has a row made by this node, and none repeats *)
Definition logged (d : list attrow) (L : list bytes) : Prop :=
  Forall row_valid d /\ NoDup L /\ forall h, In h L -> exists r, In r d /\ r_auth r = me /\ r_mptr r = h.

(* a row by the node blocks signing: get_authority finds a row with that signature, and its authority is
   the node because the signature verifies under one key only *)
Lemma already_of_row d h r :
  Forall row_valid d -> In r d -> r_auth r = me -> r_mptr r = h -> already d h = true.
Proof.
  intros V Hr A M. unfold M17_consent.already. apply existsb_exists. exists r. split; [assumption|].
  apply andb_true_iff. split; [subst h; apply bytes_eqb_refl|].
  unfold authority_of.
  destruct (find_some_exists (fun r0 => bytes_eqb (r_sig r0) (r_sig r)) d r Hr (bytes_eqb_refl _)) as [y Fy].
  rewrite Fy. apply find_some in Fy as [Hy Sy]. apply bytes_eqb_eq in Sy.
  rewrite Forall_forall in V.
  pose proof (V _ Hr) as V1. pose proof (V _ Hy) as V2. unfold P17_base.row_valid in *. rewrite Sy in V2.
  rewrite (sig_binds _ _ _ _ _ V2 V1), A. apply bytes_eqb_refl.
Qed.

Lemma logged_grown (P : attrow -> Prop) d d' L :
  (forall x, P x -> row_valid x) -> grown P d d' -> logged d L -> logged d' L.
Proof.
  intros PV G [V [N R]]. split; [eapply grown_Forall; [eapply grown_weaken; eauto|exact V]|]. split; [exact N|].
  intros h Hh. destruct (R h Hh) as [r [A B]]. exists r. split; [|exact B].
  apply (prefix_incl _ _ (grown_prefix _ _ _ G)). exact A.
Qed.

Lemma sign_loop_logged now pk tr mds s L :
  logged (datt s) L ->
  logged (datt (st_of (sign_loop s now pk tr mds))) (L ++ attest_ptrs (outs_of (sign_loop s now pk tr mds))).
Proof.
  intros LG.
  apply (sign_loop_rule hash sigverify mysign parse me true now pk tr mds
           (fun s' outs => logged (datt s') (L ++ attest_ptrs outs))) with (outs := []);
    [|apply incl_refl|rewrite app_nil_r; exact LG].
  clear s LG. intros s outs m _ LG SS. rewrite attest_ptrs_app, app_assoc. cbn [attest_ptrs flat_map a_mptr att_for app].
  set (L' := L ++ attest_ptrs outs) in *.
  pose proof (consented_not_already _ _ _ _ _ _ _ _ (should_sign_consented hash parse me _ _ _ _ _ SS)) as Al.
  pose proof (add_att_grown sigverify true pk me (att_for hash mysign m) (datt s)) as G.
  assert (LG' : logged (fst (add_att sigverify true pk me (att_for hash mysign m) (datt s))) L').
  { eapply logged_grown; [|exact G|exact LG]. intros x [_ [_ [_ V]]]. exact V. }
  destruct LG as [V [N R]]. destruct LG' as [V' [_ R']]. split; [exact V'|]. split.
  - apply NoDup_snoc; [exact N|]. intros Hin. destruct (R _ Hin) as [r [A [B C]]].
    rewrite (already_of_row _ _ _ V A B C) in Al. discriminate.
  - intros h Hh. apply in_app_or in Hh as [Hh|[Hh|[]]]; [auto|]. subst h.
    unfold M17_consent.add_att, M17_consent.att_verify. cbn [a_mptr a_sig att_for]. rewrite mysign_ok. cbn [fst].
    destruct (insert_att_wide_has (mkRow pk me (md_hash m) (mysign (md_hash m))) (datt s)) as [y [Hy [_ [Ay My]]]].
    exists y. auto.
Qed.

Lemma recv_logged s now p mds toks atts fail L :
  logged (datt s) L ->
  logged (datt (st_of (recv_disclosure s now p mds toks atts fail)))
         (L ++ attest_ptrs (outs_of (recv_disclosure s now p mds toks atts fail))).
Proof.
  intros LG.
  assert (LG1 : logged (datt (fst (substantiate hash sigverify true s p mds toks atts fail))) L).
  { eapply logged_grown; [|exact (proj1 (proj2 (substantiate_spec hash sigverify true s p mds toks atts fail)))|exact LG].
    intros x [_ [_ V]]. exact V. }
  pose proof (recv_disclosure_cases hash sigverify mysign parse me true s now p mds toks atts fail) as H. cbv zeta in H.
  destruct H as [E|[[reqs [RQ [E1 E2]]]|[reqs [RQ [_ [E1 E2]]]]]].
  - rewrite E. unfold st_of, outs_of. simpl. rewrite app_nil_r. exact LG.
  - rewrite E1, E2, (attest_ptrs_reqs _ _ RQ), app_nil_r. exact LG1.
  - rewrite E1, E2, attest_ptrs_app, (attest_ptrs_reqs _ _ RQ), app_nil_r. apply sign_loop_logged. exact LG1.
Qed.

Lemma step_logged s now ev L :
  logged (datt s) L ->
  logged (datt (st_of (step s now ev))) (L ++ attest_ptrs (outs_of (step s now ev))).
Proof.
  intros LG.
  destruct ev as [h name key md|q h json jlen|q mds toks atts fail|q toks fail|q [a0|]|q kn];
    cbn [M17_consent.step]; try (apply recv_logged; exact LG);
    try (unfold st_of, outs_of; simpl; rewrite app_nil_r; exact LG).
  - destruct (advertise_shape hash sigverify mysign norm me rhl rsl s q h json jlen)
      as [tr [dm [ch [mc [pm [E [_ [_ [_ O]]]]]]]]].
    rewrite E, attest_ptrs_none; [rewrite app_nil_r; exact LG|].
    intros o Ho. destruct (O o Ho) as [q0 [m [tk [kp [_ Eo]]]]]. subst o. reflexivity.
  - unfold st_of, outs_of. simpl. rewrite app_nil_r.
    eapply logged_grown; [|apply add_att_grown|exact LG]. intros x [_ [_ [_ V]]]. exact V.
Qed.

Lemma run_logged : forall evs s L,
  logged (datt s) L -> logged (datt (final s evs)) (L ++ trace_ptrs (trace s evs)).
Proof.
  induction evs as [|[now ev] evs IH]; intros s L LG.
  - simpl. rewrite app_nil_r. assumption.
  - rewrite final_cons, trace_cons. cbn [trace_ptrs flat_map fst].
    rewrite app_assoc. apply IH. apply step_logged. assumption.
Qed.

Lemma logged_init : logged (datt (init me)) [].
Proof. split; [constructor|]. split; [constructor|]. intros h []. Qed.

End NDS.
