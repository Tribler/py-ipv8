(* C13 (extension) - further general facts about the NAT state: what a send can change. *)
From Coq Require Import ZArith List Bool Lia ZifyBool.
From IPV8V Require Import model.M13_nat proofs.P13_proto proofs.P13_nat.
Import ListNotations.
Open Scope Z_scope.

Lemma filt_add_inv e0 f e : In e (filt_add e0 f) -> e = e0 \/ In e f.
Proof.
  unfold filt_add. destruct (existsb _ f); [auto|]. intros H. apply in_app_or in H.
  destruct H as [H|[H|[]]]; auto.
Qed.

(* what a site record of the network after a send is, in terms of the network before *)
Lemma site_after_send n hid dst n' oc t' : route n hid dst = (n', oc) -> In t' (sites n') ->
  In t' (sites n) \/
  exists h s, find_host n hid = Some h /\ find_site n (h_site h) = Some s /\ is_open (s_type s) = false /\
              n' = set_site n (site_after s (h_lan h) dst) /\ t' = site_after s (h_lan h) dst.
Proof.
  intros R Ht. destruct (route_cases n hid dst n' oc R) as [->|(h & s & Hh & Hs & Ho & ->)]; [left; exact Ht|].
  rewrite set_site_sites in Ht. apply in_map_iff in Ht. destruct Ht as (x & Hx & Hin).
  unfold upd in Hx. destruct (s_id x =? s_id (site_after s (h_lan h) dst)); [|left; subst; exact Hin].
  right. exists h, s. repeat (split; [assumption || reflexivity|]). symmetry. exact Hx.
Qed.
