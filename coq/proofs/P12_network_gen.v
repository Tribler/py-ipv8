(* C12y - refinement: the functions translated from network.py / peer.py (gen/G12_network.v) compute exactly
   what the hand model model/M12_network.v computes, on every reachable graph. *)
From Coq Require Import ZArith List Bool Lia Arith.
From IPV8V Require Import lib.Lists lib.PyErr model.M02_wire model.M12_network
  proofs.P12_base proofs.P12_inv proofs.P12_queries proofs.P12_snapshot
  model.M12_network_rt gen.G12_network model.M12_network_gen.
Import ListNotations.
Open Scope Z_scope.

(* unfolds the control combinators and the projections `*_vN` of the locals of every translated function (listed by
   hand: a new local in a regenerated gen/G12_network.v stays folded until it is added here) *)
Ltac gstart := cbv beta iota zeta delta [run_fn sseq sif sset sret scall sskip sbreak scont stry sfor fst snd
  forget_introduction_v0 forget_service_caches_v0 add_verified_peer_v0 add_verified_peer_v1
  discover_address_v0 discover_address_v1 discover_address_v2 discover_address_v3 discover_address_v4
  discover_services_v0 discover_services_v1 discover_services_v2 discover_services_v3
  get_peers_for_service_v0 get_peers_for_service_v1 get_peers_for_service_v2 get_peers_for_service_v3
  get_walkable_addresses_v0 get_walkable_addresses_v1 get_walkable_addresses_v2 get_walkable_addresses_v3
  get_walkable_addresses_v4 get_walkable_addresses_v5 get_walkable_addresses_v6 get_walkable_addresses_v7
  get_walkable_addresses_v8 get_verified_by_address_v0 get_verified_by_address_v1
  get_introductions_from_v0 get_introductions_from_v1 remove_by_address_v0 remove_by_address_v1 remove_by_address_v2
  remove_peer_v0 snapshot_v0 load_snapshot_v0 load_snapshot_v1 load_snapshot_v2 load_snapshot_v3 load_snapshot_v4
  is_new_style_v0].
Ltac netsimp := cbn [fst snd bind heap all_addrs verified by_key services bl_addr bl_mid ip_cache ip_cap intro_cache intro_cap
                     svc_cache svc_cap set_heap set_all set_verified set_by_key set_services set_ip_cache
                     set_intro_cache set_svc_cache].

(* a loop none of whose iterations breaks, returns or raises; I relates the elements processed so far to the state *)
Definition goes_on {R} (c : ctl R) : bool := match c with CNorm | CCont => true | _ => false end.

Lemma sfor_list_prefix {Sg L R X} (body : X -> stmt Sg L R) (I : list X -> Sg * L -> Prop) l :
  (forall done y x, In y l -> I done x -> let '(x', c) := body y x in goes_on c = true /\ I (done ++ [y]) x') ->
  forall x, I [] x -> exists x', sfor_list l body x = (x', CNorm) /\ I l x'.
Proof.
  intros H.
  enough (G : forall rest done x, incl rest l -> I done x ->
                exists x', sfor_list rest body x = (x', CNorm) /\ I (done ++ rest) x')
    by exact (fun x => G l [] x (incl_refl l)).
  induction rest as [|y rest IH]; intros done x Hl Hx; cbn [sfor_list].
  - exists x. rewrite app_nil_r. auto.
  - pose proof (H done y x (Hl y (in_eq y rest)) Hx) as H1. rewrite (app_assoc done [y] rest : done ++ y :: rest = _).
    destruct (body y x) as [x1 c]. destruct H1 as [Hc H1]. apply incl_cons_inv in Hl.
    destruct c; try discriminate Hc; apply IH; tauto.
Qed.

(* a loop that leaves the state alone until the first element passing p, and breaks there *)
Lemma sfor_list_find {Sg L R X} (body : X -> stmt Sg L R) (p : X -> bool) (hit : X -> Sg * L) x l :
  (forall y, body y x = if p y then (hit y, CBrk) else (x, CNorm)) ->
  sfor_list l body x = (match find p l with Some y => hit y | None => x end, CNorm).
Proof.
  intros HB. induction l as [|y l IH]; [reflexivity|]. cbn [sfor_list find]. rewrite HB.
  destruct (p y); [reflexivity|exact IH].
Qed.

(* sfor_list_prefix for the loop in the goal: leaves the step, the start, then the goal after the loop with
   `After : I l x'` *)
Ltac loop I := match goal with |- context [sfor_list ?l ?b ?x0] =>
  destruct (sfor_list_prefix b I l) with (x := x0) as (? & -> & After) end.

Lemma if_pair {A B} (c : bool) (a b : A) (k : B) : (if c then (a, k) else (b, k)) = (if c then a else b, k).
Proof. destruct c; reflexivity. Qed.

Lemma fold_append_filter {A} (p : A -> bool) l : forall acc,
  fold_left (fun acc y => if p y then acc ++ [y] else acc) l acc = acc ++ filter p l.
Proof.
  induction l as [|y l IH]; intros acc; simpl; [rewrite app_nil_r; reflexivity|].
  rewrite IH. destruct (p y); [rewrite <- app_assoc|]; reflexivity.
Qed.

Lemma popitem_evict {A} cap (c : list A) : c <> [] ->
  (if len_gt c cap then popitem_first c else Ok c) = Ok (evict cap c).
Proof.
  intros H. unfold evict, len_gt. destruct (Z.of_nat (length c) >? cap); [|reflexivity].
  destruct c; [contradiction|reflexivity].
Qed.

Lemma remove_first_addr_spec a v : mem_addr a v = true ->
  exists v', remove_first_addr a v = Ok v' /\ S (length v') = length v /\
             filter (fun x => negb (addr_eqb x a)) v' = filter (fun x => negb (addr_eqb x a)) v.
Proof.
  induction v as [|x v IH]; simpl; [discriminate|]. intros H.
  destruct (addr_eqb x a) eqn:E.
  - exists v. simpl. auto.
  - rewrite addr_eqb_sym, E in H. simpl in H. destruct (IH H) as (v' & E1 & E2 & E3).
    exists (x :: v'). rewrite E1. cbn [bind]. simpl. rewrite E, E3. simpl. auto.
Qed.

Lemma filter_ne_notin a v : mem_addr a v = false -> filter (fun x => negb (addr_eqb x a)) v = v.
Proof.
  induction v as [|x v IH]; simpl; [reflexivity|]. intros H. apply orb_false_iff in H as [H1 H2].
  rewrite addr_eqb_sym, H1. simpl. rewrite IH by assumption. reflexivity.
Qed.

Lemma while_remove a fuel : forall v, (length v < fuel)%nat ->
  swhile (R := unit) fuel (fun xv : unit * list addr => let v := snd xv in Ok (mem_addr a v))
         (sset (fun xv => let v := snd xv in bind (remove_first_addr a v) (fun t1_ => Ok (tt, t1_)))) (tt, v)
  = ((tt, filter (fun x => negb (addr_eqb x a)) v), CNorm).
Proof.
  induction fuel as [|f IH]; intros v Hf; [lia|]. cbn [swhile snd].
  destruct (mem_addr a v) eqn:M.
  - destruct (remove_first_addr_spec a v M) as (v' & E1 & E2 & E3). unfold sset. cbn [snd]. rewrite E1. cbn [bind].
    rewrite IH by lia. rewrite E3. reflexivity.
  - rewrite filter_ne_notin by assumption. reflexivity.
Qed.

Lemma map_values_res_ok {K V} (f : V -> res V) (g : V -> V) (d : list (K * V)) :
  (forall e, In e d -> f (snd e) = Ok (g (snd e))) ->
  map_values_res f d = Ok (map (fun e => (fst e, g (snd e))) d).
Proof.
  induction d as [|[k v] d IH]; intros H; simpl; [reflexivity|].
  pose proof (H (k, v) (or_introl eq_refl)) as E. cbn [snd] in E. rewrite E. cbn [bind snd fst]. rewrite IH; [reflexivity|].
  intros e He. apply H. right. assumption.
Qed.

Lemma longest_bound {A} (c : list (key * list A)) k l : In (k, l) c -> (length l <= longest c)%nat.
Proof.
  unfold longest. intros H.
  assert (HF := proj1 (list_max_le (map (fun e : key * list A => length (snd e)) c) (list_max (map (fun e : key * list A => length (snd e)) c))) (le_n _)).
  rewrite Forall_forall in HF. apply (HF (length l)). apply in_map_iff. exists (k, l). auto.
Qed.

Lemma g_forget_introduction_ok fuel a s : (longest (intro_cache s) < fuel)%nat ->
  g_forget_introduction fuel a s = (set_intro_cache s (forget_intro a (intro_cache s)), Ok tt).
Proof.
  intros Hf. unfold g_forget_introduction, gb_forget_introduction. gstart.
  rewrite (map_values_res_ok _ (fun v => filter (fun x => negb (addr_eqb x a)) v)).
  - cbn [bind fst]. reflexivity.
  - intros [k l] Hin. cbn [snd]. rewrite while_remove; [reflexivity|].
    pose proof (longest_bound _ k l Hin). lia.
Qed.

Lemma g_forget_service_caches_ok fuel i s :
  g_forget_service_caches fuel i s = (forget_service_caches s (pk s i), Ok tt).
Proof.
  unfold g_forget_service_caches, gb_forget_service_caches. gstart.
  loop (fun done x => x = (set_svc_cache s (fold_left (fun c y => d_del Z.eqb y c) done (svc_cache s)),
                           mkL_forget_service_caches i)).
  - intros done y x _ ->. split; [reflexivity|]. cbn [fst]. rewrite fold_left_app. reflexivity.
  - destruct s; reflexivity.
  - subst. cbn [fst]. rewrite (fold_d_del Z.eqb). reflexivity.
Qed.

Lemma g_add_verified_peer_ok fuel i s :
  g_add_verified_peer fuel i s = (add_verified_peer s i, Ok tt).
Proof.
  unfold g_add_verified_peer, gb_add_verified_peer, add_verified_peer. gstart.
  change (mem_z (pk s i) (bl_mid s) || existsb (fun x2_ => mem_addr x2_ (bl_addr s)) (pvalues s i))
    with (blacklisted s (hkey (heap s) i) (haddrs (heap s) i)).
  destruct (blacklisted s (hkey (heap s) i) (haddrs (heap s) i)); [reflexivity|].
  unfold pk. destruct (d_get Z.eqb (hkey (heap s) i) (by_key s)) as [j|]; cbn [is_some negb oget bind fst snd]; [reflexivity|].
  change (pvalues s i) with (am_values (haddrs (heap s) i)).
  destruct (existsb (fun x4_ => d_mem addr_eqb x4_ (all_addrs s)) (am_values (haddrs (heap s) i))).
  - unfold verify, in_verified. destruct (in_ver (heap s) (verified s) (hkey (heap s) i)) eqn:IV; cbn [negb]; [reflexivity|].
    cbn [fst snd]. rewrite g_forget_service_caches_ok. unfold pk, set_add_peer, peer_in, pk.
    cbn [heap set_by_key set_verified]. rewrite IV. reflexivity.
  - loop (fun done x => x = (set_all s (fold_left add_walkable done (all_addrs s)), mkL_add_verified_peer i None)).
    + intros done y x _ ->. rewrite fold_left_app. cbn [fst snd all_addrs set_all fold_left]. cbv beta delta [add_walkable d_set].
      destruct (d_mem addr_eqb y _); split; reflexivity.
    + destruct s; reflexivity.
    + subst. cbn [fst snd heap set_all verified].
      unfold verify, in_verified. cbn [heap set_all verified by_key].
      destruct (in_ver (heap s) (verified s) (hkey (heap s) i)) eqn:IV; cbn [negb]; [reflexivity|].
      cbn [fst snd]. rewrite g_forget_service_caches_ok. unfold pk, set_add_peer, peer_in, pk.
      cbn [heap set_by_key set_verified set_all verified by_key]. rewrite IV. reflexivity.
Qed.

Lemma stale_introducer_test s a :
  por (Ok (negb (d_mem addr_eqb a (all_addrs s))))
      (bind (bind (bind (d_sub addr_eqb a (all_addrs s)) (fun t4_ => Ok (w_intro t4_)))
                  (fun t5_ => Ok (okey_in t5_ (by_key s)))) (fun t6_ => Ok (negb t6_)))
  = Ok (negb (d_mem addr_eqb a (all_addrs s)) || negb (intro_verified s a)).
Proof.
  unfold por, d_sub, d_mem, intro_verified, okey_in. destruct (d_get addr_eqb a (all_addrs s)) as [w|]; cbn; [|reflexivity].
  destruct (w_intro w); reflexivity.
Qed.

Lemma g_discover_address_ok fuel i a sv ns s : (longest (intro_cache s) < fuel)%nat ->
  g_discover_address fuel i a sv ns s = (discover_address s i a sv ns, Ok tt).
Proof.
  intros Hf. unfold g_discover_address, gb_discover_address, discover_address. gstart.
  destruct (mem_addr a (bl_addr s)).
  - rewrite g_add_verified_peer_ok. reflexivity.
  - rewrite stale_introducer_test.
    destruct (negb (d_mem addr_eqb a (all_addrs s)) || negb (intro_verified s a)).
    + rewrite g_forget_introduction_ok by assumption.
      cbv beta iota zeta delta [fst snd]. unfold pk. cbn [heap set_all set_intro_cache intro_cache all_addrs].
      destruct (d_get Z.eqb (hkey (heap s) i) (forget_intro a (intro_cache s))) as [l|];
        cbn [is_some negb oget bind]; rewrite g_add_verified_peer_ok; reflexivity.
    + rewrite g_add_verified_peer_ok. reflexivity.
Qed.

Lemma popitem_first_set {K V} (eqb : K -> K -> bool) k (v : V) d :
  popitem_first (d_set eqb k v d) = Ok (tl (d_set eqb k v d)).
Proof. pose proof (d_set_nonempty eqb k v d). destruct (d_set eqb k v d); [contradiction|reflexivity]. Qed.

Lemma g_get_peers_for_service_ok fuel sid s :
  g_get_peers_for_service fuel sid s = (fst (get_peers_for_service s sid), Ok (snd (get_peers_for_service s sid))).
Proof.
  unfold g_get_peers_for_service, gb_get_peers_for_service, get_peers_for_service. gstart.
  cbn [svc_cache set_svc_cache verified heap services svc_cap].
  destruct (d_get Z.eqb sid (svc_cache s)) as [l|]; cbn [is_some negb oget bind].
  - cbv beta iota zeta delta [fst snd get_peers_for_service_v0 get_peers_for_service_v1]. netsimp.
    rewrite popitem_first_set, !(d_set_absent Z.eqb sid _ _ (d_mem_del Z.eqb Z.eqb_eq sid _)). netsimp.
      unfold evict. destruct (_ >? _); reflexivity.
  - loop (fun done x => exists d', x = (set_svc_cache s (d_del Z.eqb sid (svc_cache s)),
                                      mkL_get_peers_for_service sid (filter (has_service s sid) done) None d')).
    + intros done y x _ (d' & ->). rewrite filter_app.
      cbv beta iota zeta delta [fst snd get_peers_for_service_v0 get_peers_for_service_v1 get_peers_for_service_v2]. cbn [filter].
      change (mem_z sid (d_get_or Z.eqb (pk _ y) (services _) [])) with (has_service s sid y).
      destruct (has_service s sid y); (split; [reflexivity|]); cbn [fst]; eexists; rewrite ?app_nil_r; reflexivity.
    + eexists. reflexivity.
    + destruct After as (d' & ->).
      cbv beta iota zeta delta [fst snd get_peers_for_service_v0 get_peers_for_service_v1]. netsimp.
      rewrite popitem_first_set, !(d_set_absent Z.eqb sid _ _ (d_mem_del Z.eqb Z.eqb_eq sid _)). netsimp.
      unfold evict. destruct (_ >? _); reflexivity.
Qed.

Lemma rfk_absent h k l : in_ver h l k = false -> remove_first_key h k l = l.
Proof.
  unfold in_ver. induction l as [|j l IH]; simpl; [reflexivity|]. intros H. apply orb_false_iff in H as [H1 H2].
  rewrite H1. rewrite IH by assumption. reflexivity.
Qed.

Lemma set_union_app r : forall acc, NoDup r -> (forall x, In x r -> ~ In x acc) -> set_union acc r = acc ++ r.
Proof.
  unfold set_union. induction r as [|x r IH]; intros acc Hn Hd; simpl; [rewrite app_nil_r; reflexivity|].
  inversion Hn; subst.
  assert (M : mem_z x acc = false) by (apply mem_z_false; apply Hd; left; reflexivity). rewrite M.
  rewrite IH; [rewrite <- app_assoc; reflexivity|assumption|].
  intros y Hy Hin. apply in_app_iff in Hin as [Hin|[Hin|[]]]; [exact (Hd y (or_intror Hy) Hin)|subst; contradiction].
Qed.

Lemma set_union_nodup ss : forall acc, NoDup acc -> NoDup (set_union acc ss).
Proof.
  unfold set_union. induction ss as [|x ss IH]; intros acc H; simpl; [assumption|].
  apply IH. destruct (mem_z x acc) eqn:M; [assumption|]. apply NoDup_snoc; [assumption|]. apply mem_z_false. assumption.
Qed.

Lemma svc_set_idem ss : set_union [] (svc_set ss) = svc_set ss.
Proof.
  rewrite set_union_app; [reflexivity| |intros x _ []]. apply set_union_nodup. constructor.
Qed.

Lemma g_discover_services_ok fuel i ss s :
  g_discover_services fuel i ss s = (discover_services s i ss, Ok tt).
Proof.
  unfold g_discover_services, gb_discover_services, discover_services. gstart.
  set (k := pk s i).
  set (p := match d_get Z.eqb k (by_key s) with Some j => j | None => i end).
  match goal with |- context [sfor_list _ ?b _] => set (body := b) end.
  assert (LOOP : forall sv, exists b3,
            sfor_list ss body (set_services s sv, mkL_discover_services i ss k None)
            = ((set_svc_cache (set_services s sv) (fold_left (svc_cache_add (heap s) (svc_cap s) k p) ss (svc_cache s)),
                mkL_discover_services i ss k b3), CNorm)).
  { intros sv.
    loop (fun done x => exists b3,
            x = (set_svc_cache (set_services s sv) (fold_left (svc_cache_add (heap s) (svc_cap s) k p) done (svc_cache s)),
                 mkL_discover_services i ss k b3)).
    - intros done y x _ (b3 & ->). rewrite fold_left_app. cbn [fold_left]. set (C := fold_left _ done _).
      unfold body, svc_cache_add, remove_first_key_res.
      cbv beta iota zeta delta [fst snd discover_services_v0 discover_services_v1 discover_services_v2 discover_services_v3].
      netsimp. destruct (d_get Z.eqb y C) as [l0|]; cbn [is_some negb oget bind].
      + (* list.remove(peer) is guarded by `peer in cache`: where it is skipped remove_first_key changes nothing *)
        change (pk _ i) with k. destruct (in_ver (heap s) l0 k) eqn:IV; [|rewrite (rfk_absent _ _ _ IV)];
          cbv beta iota zeta delta [fst snd bind oget discover_services_v0 discover_services_v1 discover_services_v2 discover_services_v3];
          netsimp; rewrite !(d_set_set Z.eqb Z.eqb_eq), popitem_first_set; netsimp; unfold evict;
          destruct (_ >? _); (split; [reflexivity|]); cbn [fst]; eexists; reflexivity.
      + split; [reflexivity|]. cbn [fst]. eexists. reflexivity.
    - eexists. destruct s; reflexivity.
    - destruct After as (b3 & ->). exists b3. reflexivity. }
  unfold d_sub, d_mem, svc_of, svc_lookup. change (hkey (heap s) i) with k. fold p.
  destruct (d_get Z.eqb k (services s)) as [old|] eqn:G; cbn [negb bind]; [|rewrite svc_set_idem];
    cbv beta iota zeta delta [fst snd discover_services_v1];
    match goal with |- context [sfor_list ss body (set_services s ?sv, _)] => destruct (LOOP sv) as (b3 & ->) end; reflexivity.
Qed.

Lemma g_get_verified_by_public_key_bin_ok fuel k s :
  g_get_verified_by_public_key_bin fuel k s = (s, Ok (get_verified_by_public_key_bin s k)).
Proof. reflexivity. Qed.

Lemma g_get_services_for_peer_ok fuel k am s :
  g_get_services_for_peer fuel (k, am) s = (s, Ok (get_services_for_peer s k)).
Proof. reflexivity. Qed.

(* one equation per translated function, also for those that no operation of the model calls *)
Lemma g_is_new_style_ok fuel a s :
  g_is_new_style fuel a s = (s, Ok (match d_get addr_eqb a (all_addrs s) with Some w => w_new w | None => false end)).
Proof.
  unfold g_is_new_style, gb_is_new_style. gstart. unfold o_or.
  destruct (d_get addr_eqb a (all_addrs s)); reflexivity.
Qed.

Lemma g_register_service_provider_ok fuel sid ov s : g_register_service_provider fuel sid ov s = (s, Ok tt).
Proof. reflexivity. Qed.

Lemma g_get_introductions_from_ok fuel k am s :
  g_get_introductions_from fuel (k, am) s
  = (fst (get_introductions_from s k), Ok (snd (get_introductions_from s k))).
Proof.
  unfold g_get_introductions_from, gb_get_introductions_from, get_introductions_from. gstart.
  destruct (d_get Z.eqb k (intro_cache s)) as [l|]; cbn [is_some negb oget bind fst snd get_introductions_from_v0 get_introductions_from_v1]; [reflexivity|].
  netsimp. rewrite popitem_first_set. netsimp. unfold evict, intros_of, introduced_by.
  destruct (_ >? _); reflexivity.
Qed.

Lemma longest_forget a c : (longest (forget_intro a c) <= longest c)%nat.
Proof.
  unfold longest, forget_intro. induction c as [|[k l] c IH]; simpl; [lia|].
  pose proof (filter_len_le (fun x => negb (addr_eqb x a)) l). lia.
Qed.

Lemma longest_forgotten l : forall c, (longest (forgotten l c) <= longest c)%nat.
Proof.
  unfold forgotten. induction l as [|a l IH]; intros c; simpl; [lia|].
  pose proof (IH (forget_intro a c)). pose proof (longest_forget a c). lia.
Qed.

Lemma filter_nokey h k l : in_ver h l k = false -> filter (fun i => negb (hkey h i =? k)) l = l.
Proof.
  unfold in_ver. induction l as [|j l IH]; simpl; [reflexivity|]. intros H. apply orb_false_iff in H as [H1 H2].
  rewrite H1. simpl. rewrite IH by assumption. reflexivity.
Qed.

Lemma g_remove_peer_ok fuel k am s : (longest (intro_cache s) < fuel)%nat ->
  g_remove_peer fuel (k, am) s = (remove_peer s k am, Ok tt).
Proof.
  intros Hf. unfold g_remove_peer, gb_remove_peer, remove_peer. gstart.
  loop (fun done x => x = (set_intro_cache (set_all s (fold_left (fun all a => d_del addr_eqb a all) done (all_addrs s)))
                                           (forgotten done (intro_cache s)), mkL_remove_peer (k, am))).
  - intros done y x _ ->. gstart.
    rewrite g_forget_introduction_ok by (netsimp; pose proof (longest_forgotten done (intro_cache s)); lia).
    split; [reflexivity|]. cbn [fst]. unfold forgotten. rewrite !fold_left_app. reflexivity.
  - destruct s; reflexivity.
  - subst. cbv beta iota zeta. cbn [fst snd remove_peer_v0]. netsimp. unfold set_remove_key. netsimp.
    destruct (in_ver (heap s) (verified s) k) eqn:IV; netsimp; [|rewrite (filter_nokey _ _ _ IV)]; reflexivity.
Qed.

Lemma g_snapshot_ok fuel s : g_snapshot fuel s = (s, snapshot s).
Proof.
  unfold g_snapshot, gb_snapshot, snapshot, snapshot_records, snapshot_addrs. gstart.
  match goal with |- context [sfor_list _ ?b _] => set (body := b) end.
  change (fun i : nat => am_preferred (haddrs (heap s) i)) with (paddress s).
  set (recs := fun l => concat_res (map pack_address (filter (fun a => negb (addr_eqb a null_addr)) (map (paddress s) l)))).
  (* the loop appends the records of l to `out`, or raises where the first of them does *)
  assert (LOOP : forall l out, exists l',
            sfor_list l body (s, mkL_snapshot out)
            = ((s, l'), match recs l with Ok _ => CNorm | Raise e => CExc e end) /\
            forall b, recs l = Ok b -> l' = mkL_snapshot (out ++ b)).
  { unfold recs. induction l as [|y l IH]; intros out.
    - exists (mkL_snapshot out). cbn. split; [reflexivity|]. intros b E. inversion E. rewrite app_nil_r. reflexivity.
    - cbn [sfor_list map filter]. unfold body at 1. cbn [fst snd snapshot_v0 andb].
      destruct (negb (addr_eqb (paddress s y) null_addr)); [|apply IH].
      cbn [map concat_res]. destruct (pack_address (paddress s y)) as [r|e]; cbn [bind].
      + destruct (IH (out ++ r)) as (l' & E & HL). rewrite E. exists l'. split.
        * destruct (concat_res _); reflexivity.
        * intros b Hb. destruct (concat_res (map pack_address (filter _ (map (paddress s) l)))) as [b'|]; [|discriminate].
          inversion Hb; subst. rewrite (HL b' eq_refl). rewrite app_assoc. reflexivity.
      + exists (mkL_snapshot out). split; [reflexivity|]. intros b Hb. discriminate. }
  destruct (LOOP (verified s) []) as (l' & E & HL). rewrite E. fold (recs (verified s)).
  destruct (recs (verified s)) as [b|e]; [rewrite (HL b eq_refl)|]; reflexivity.
Qed.

Lemma removed_by_difference s a : NoDup (map (hkey (heap s)) (verified s)) ->
  set_diff_peers s (verified s) (filter (fun i => negb (owns s a i)) (verified s)) = filter (owns s a) (verified s).
Proof.
  intros ND. unfold set_diff_peers. apply filter_ext_in. intros i Hi.
  destruct (owns s a i) eqn:O.
  - apply negb_true_iff. apply in_ver_false. intros j Hj E. apply filter_In in Hj as [Hj Oj].
    assert (j = i) by (apply (NoDup_map_inj (hkey (heap s)) (verified s)); assumption). subst j. rewrite O in Oj. discriminate.
  - apply negb_false_iff. apply in_ver_true. exists i. split; [|reflexivity]. apply filter_In. rewrite O. auto.
Qed.

Lemma g_remove_by_address_ok fuel a s : Inv s -> (longest (intro_cache s) < fuel)%nat ->
  g_remove_by_address fuel a s = (remove_by_address s a, Ok tt).
Proof.
  intros HI Hf. unfold g_remove_by_address, gb_remove_by_address, remove_by_address. gstart.
  rewrite g_forget_introduction_ok by (netsimp; exact Hf). netsimp.
  set (s1 := set_intro_cache _ _).
  loop (fun done x => x = (set_services s1 (fold_left (fun d k => d_del Z.eqb k d) (map (hkey (heap s)) (filter (owns s a) done)) (services s)),
                           mkL_remove_by_address a (filter (fun i => negb (owns s a i)) done) [])).
  - intros done y x _ ->. rewrite !filter_app, map_app, fold_left_app.
    cbv beta iota zeta. cbn [fst snd filter remove_by_address_v0 remove_by_address_v1 remove_by_address_v2].
    change (mem_addr a (pvalues _ y)) with (owns s a y). destruct (owns s a y); cbn [negb map fold_left]; rewrite ?app_nil_r;
      split; reflexivity.
  - destruct s; reflexivity.
  - subst. cbn [fst snd remove_by_address_v0 remove_by_address_v1 remove_by_address_v2]. netsimp.
    change (set_diff_peers _ (verified s1)) with (set_diff_peers s (verified s)).
    rewrite (removed_by_difference s a (inv_uniq s HI)).
    match goal with |- context [sfor_list _ _ (?s2, ?l2)] =>
      loop (fun done x => x = (set_by_key s2 (fold_left (fun d k => d_del Z.eqb k d) (map (hkey (heap s)) done) (by_key s)), l2)) end.
    + intros done y x _ ->. split; [reflexivity|]. cbn [fst]. rewrite map_app, fold_left_app. reflexivity.
    + reflexivity.
    + subst. cbn [fst]. unfold s1. netsimp. rewrite !(fold_d_del Z.eqb). reflexivity.
Qed.

Lemma fold_extend {A B} (f : A -> list B) l : forall init,
  fold_left (fun acc y => acc ++ f y) l init = init ++ flat_map f l.
Proof.
  induction l as [|y l IH]; intros init; simpl; [rewrite app_nil_r; reflexivity|].
  rewrite IH, app_assoc. reflexivity.
Qed.

Ltac wproj := cbn [fst snd get_walkable_addresses_v0 get_walkable_addresses_v1 get_walkable_addresses_v2
  get_walkable_addresses_v3 get_walkable_addresses_v4 get_walkable_addresses_v5 get_walkable_addresses_v6
  get_walkable_addresses_v7 get_walkable_addresses_v8].

Lemma g_get_walkable_addresses_ok fuel so old s :
  g_get_walkable_addresses fuel so old s
  = (fst (get_walkable_addresses s so old), Ok (snd (get_walkable_addresses s so old))).
Proof.
  unfold g_get_walkable_addresses, gb_get_walkable_addresses, get_walkable_addresses. gstart.
  match goal with |- context [@sfor_list _ _ _ nat _ ?b _] => set (collect := b) end.
  assert (COLLECT : forall s1 known,
            sfor_list known collect (s1, mkL_get_walkable_addresses so old known [] [] [] None None false)
            = ((s1, mkL_get_walkable_addresses so old known (addrs_of s1 known) [] [] None None false), CNorm)).
  { intros s1 known.
    loop (fun done x => x = (s1, mkL_get_walkable_addresses so old known (addrs_of s1 done) [] [] None None false)).
    - intros done y x _ ->. split; [reflexivity|]. unfold addrs_of. rewrite flat_map_app. cbn [flat_map].
      rewrite app_nil_r. reflexivity.
    - reflexivity.
    - subst. reflexivity. }
  destruct so as [sid|]; cbn [is_some oget].
  - rewrite g_get_peers_for_service_ok.
    destruct (get_peers_for_service s sid) as [s1 known]. wproj. rewrite COLLECT. wproj.
    set (out := addrs_minus (map fst (all_addrs s1)) (addrs_of s1 known)).
    loop (fun done x => exists c6 c7 c8,
            x = (s1, mkL_get_walkable_addresses (Some sid) old known (addrs_of s1 known) out
                       (filter (walk_serves s1 sid old) done) c6 c7 c8)).
    + intros done y x Hy (c6 & c7 & c8 & ->). rewrite filter_app. cbn [filter]. wproj. unfold d_sub, walk_serves.
      apply filter_In in Hy as [Hy _]. destruct (d_get addr_eqb y (all_addrs s1)) as [w|] eqn:G;
        [|apply (d_get_None addr_eqb addr_eqb_eq) in G; contradiction].
      cbn [bind]. wproj. destruct (old && w_new w); cbn [negb andb]; wproj.
      * split; [reflexivity|]. rewrite app_nil_r. eexists. eexists. eexists. reflexivity.
      * change (omem_z (Some sid) (d_get_or_o Z.eqb (w_intro w) (services s1) []))
          with (mem_z sid (match w_intro w with Some k => svc_of s1 k | None => [] end)).
        destruct (opt_z_eqb (Some sid) (w_service w) || _); (split; [reflexivity|]); cbn [fst]; rewrite ?app_nil_r;
          eexists; eexists; eexists; reflexivity.
    + eexists. eexists. eexists. reflexivity.
    + destruct After as (c6 & c7 & c8 & ->). reflexivity.
  - wproj. rewrite COLLECT. reflexivity.
Qed.

Lemma find_hd_filter {A} (p : A -> bool) l : find p l = hd_error (filter p l).
Proof. induction l as [|x l IH]; simpl; [reflexivity|]. destruct (p x); [reflexivity|exact IH]. Qed.

Lemma find_set_iter (p : nat -> bool) hint l : find p (set_iter hint l) = choose hint (filter p l).
Proof.
  unfold set_iter, choose. destruct hint as [h|]; [|apply find_hd_filter].
  destruct (existsb (Nat.eqb h) l) eqn:E.
  - apply (existsb_eqb_In Nat.eqb Nat.eqb_eq) in E. cbn [find]. destruct (p h) eqn:P.
    + assert (E2 : existsb (Nat.eqb h) (filter p l) = true) by (apply (existsb_eqb_In Nat.eqb Nat.eqb_eq); apply filter_In; auto).
      rewrite E2. reflexivity.
    + assert (E2 : existsb (Nat.eqb h) (filter p l) = false).
      { apply existsb_false_iff. intros x Hx. apply filter_In in Hx as [_ Hx]. apply Nat.eqb_neq. intro. subst. congruence. }
      rewrite E2. rewrite find_hd_filter. f_equal. clear E E2. induction l as [|x l IH]; simpl; [reflexivity|].
      destruct (Nat.eqb x h) eqn:X; simpl.
      * apply Nat.eqb_eq in X. subst x. rewrite P. exact IH.
      * destruct (p x); simpl; rewrite IH; reflexivity.
  - assert (E2 : existsb (Nat.eqb h) (filter p l) = false).
    { apply existsb_false_iff. intros x Hx. apply filter_In in Hx as [Hx _]. apply Nat.eqb_neq. intro. subst.
      apply (existsb_eqb_In Nat.eqb Nat.eqb_eq) in Hx. congruence. }
    rewrite E2. apply find_hd_filter.
Qed.

Lemma g_get_verified_by_address_ok fuel hint a s :
  g_get_verified_by_address fuel hint a s
  = (fst (get_verified_by_address s a hint), Ok (snd (get_verified_by_address s a hint))).
Proof.
  unfold g_get_verified_by_address, gb_get_verified_by_address, get_verified_by_address. gstart.
  set (s1 := set_ip_cache s (d_del addr_eqb a (ip_cache s))).
  match goal with |- context [sfor_list _ ?b _] => set (body := b) end.
  assert (SEARCH : sfor_list (set_iter hint (verified s1)) body (s1, mkL_get_verified_by_address a None)
                   = match choose hint (filter (owns s a) (verified s)) with
                     | Some i => ((set_ip_cache s (evict (ip_cap s) (d_del addr_eqb a (ip_cache s) ++ [(a, i)])),
                                   mkL_get_verified_by_address a (Some i)), CNorm)
                     | None => ((s1, mkL_get_verified_by_address a None), CNorm)
                     end).
  { rewrite (sfor_list_find body (fun y => mem_addr a (pvalues s1 y))
               (fun y => (set_ip_cache s1 (evict (ip_cap s1) (d_set addr_eqb a y (ip_cache s1))), mkL_get_verified_by_address a (Some y)))).
    - rewrite find_set_iter.
      change (filter (fun y => mem_addr a (pvalues s1 y)) (verified s1)) with (filter (owns s a) (verified s)).
      destruct (choose hint (filter (owns s a) (verified s))) as [i|]; [|reflexivity].
      unfold s1. netsimp. rewrite (d_set_absent addr_eqb a i _ (d_mem_del addr_eqb addr_eqb_eq a _)). reflexivity.
    - intros y. unfold body. cbv beta iota zeta. cbn [fst snd get_verified_by_address_v0 get_verified_by_address_v1 oget bind].
      destruct (mem_addr a (pvalues s1 y)); [|reflexivity].
      netsimp. rewrite popitem_first_set. netsimp. unfold evict. destruct (_ >? _); reflexivity. }
  (* the two tests on a cached peer are those of ip_valid *)
  assert (VALID : forall i, (if negb (opeer_eqb (d_get Z.eqb (pk s1 i) (by_key s1)) (Some i)) then Ok true
                             else Ok (negb (mem_addr a (pvalues s1 i)))) = Ok (negb (ip_valid s a i))).
  { intro i. unfold ip_valid, pk, pvalues, s1. netsimp. change (mem_addr a (am_values (haddrs (heap s) i))) with (owns s a i).
    destruct (d_get Z.eqb (hkey (heap s) i) (by_key s)) as [j|]; cbn [opeer_eqb].
    - destruct (Nat.eqb j i).
      + destruct (owns s a i); reflexivity.
      + reflexivity.
    - reflexivity. }
  destruct (d_get addr_eqb a (ip_cache s)) as [i|]; cbn [is_some pand por bind oget];
    [rewrite VALID; destruct (ip_valid s a i)|];
    cbn [negb fst snd get_verified_by_address_v0 get_verified_by_address_v1 is_some oget bind].
  { (* cached and valid: the cached peer, moved to the end of the cache *)
    unfold s1. netsimp. rewrite popitem_first_set. netsimp.
    rewrite (d_set_absent addr_eqb a i _ (d_mem_del addr_eqb addr_eqb_eq a _)). unfold evict. destruct (_ >? _); reflexivity. }
  (* cached and not valid, or not cached: the verified set is searched *)
  all: rewrite SEARCH; destruct (choose hint (filter (owns s a) (verified s))); reflexivity.
Qed.

Lemma net_eta_all_intro s : set_intro_cache (set_all s (all_addrs s)) (intro_cache s) = s.
Proof. destruct s; reflexivity. Qed.

Lemma load_loop_fuel_indep d : forall f1 f2 off all c,
  (length d - off <= f1)%nat -> (length d - off <= f2)%nat ->
  load_loop f1 d off all c = load_loop f2 d off all c.
Proof.
  induction f1 as [|f1 IH]; intros f2 off all c H1 H2.
  - destruct f2; cbn [load_loop]; destruct (off <? length d)%nat eqn:E; try reflexivity; apply Nat.ltb_lt in E; lia.
  - destruct f2 as [|f2]; cbn [load_loop]; destruct (off <? length d)%nat eqn:E; try reflexivity.
    + apply Nat.ltb_lt in E. lia.
    + destruct (unpack_address d off) as [[a o]|e] eqn:U; [|reflexivity].
      apply unpack_address_span in U. apply Nat.ltb_lt in E. apply IH; lia.
Qed.

Lemma g_load_snapshot_ok fuel d s : (longest (intro_cache s) < fuel)%nat -> (length d < fuel)%nat ->
  g_load_snapshot fuel d s = (load_snapshot s d, Ok tt).
Proof.
  intros HF HL. unfold g_load_snapshot, gb_load_snapshot, load_snapshot. gstart.
  match goal with |- context [swhile _ ?c ?b _] => set (cond := c); set (body := b) end.
  (* the translated loop (fuel fw) and the model's (fuel fh) from the same offset: both have fuel for the bytes left *)
  assert (W : forall fw s1 off b3 b4 fh,
            (longest (intro_cache s1) < fuel)%nat -> (length d - off < fw)%nat -> (length d - off <= fh)%nat ->
            exists l', swhile fw cond body (s1, mkL_load_snapshot d (length d) off b3 b4)
                       = ((set_intro_cache (set_all s1 (fst (fst (load_loop fh d off (all_addrs s1) (intro_cache s1)))))
                                           (snd (fst (load_loop fh d off (all_addrs s1) (intro_cache s1)))), l'), CNorm)).
  { induction fw as [|f IH]; intros s1 off b3 b4 fh H1 Hw Hh; [lia|].
    cbn [swhile]. unfold cond at 1. cbn [fst snd load_snapshot_v1 load_snapshot_v2].
    destruct fh as [|fh']; cbn [load_loop].
    - assert (E : (off <? length d)%nat = false) by (apply Nat.ltb_ge; lia). rewrite E. cbn [fst snd].
      rewrite net_eta_all_intro. eexists. reflexivity.
    - destruct (off <? length d)%nat eqn:E; [|cbn [fst snd]; rewrite net_eta_all_intro; eexists; reflexivity].
      unfold body at 1. cbv beta iota zeta.
      cbn [fst snd load_snapshot_v0 load_snapshot_v1 load_snapshot_v2 load_snapshot_v3 load_snapshot_v4].
      destruct (unpack_address d off) as [[a o]|e] eqn:U;
        cbn [bind fst snd load_snapshot_v0 load_snapshot_v1 load_snapshot_v2 load_snapshot_v3 load_snapshot_v4].
      + rewrite g_forget_introduction_ok by exact H1. cbn [fst snd load_snapshot_v4].
        apply unpack_address_span in U. apply Nat.ltb_lt in E.
        destruct (IH (set_all (set_intro_cache s1 (forget_intro a (intro_cache s1))) (d_set addr_eqb a (mkWalk None None false) (all_addrs s1)))
                     o off a fh') as (l' & EQ); [netsimp; pose proof (longest_forget a (intro_cache s1)); lia|lia|lia|].
        exists l'. exact EQ.
      + rewrite Nat.leb_refl. rewrite net_eta_all_intro. eexists. reflexivity. }
  destruct (W fuel s 0%nat 0%nat null_addr (length d) HF) as (l' & E); [lia|lia|].
  rewrite E. cbn [fst]. destruct (load_loop (length d) d 0 (all_addrs s) (intro_cache s)) as [[all c] flag]. reflexivity.
Qed.

Lemma g_load_fresh_ok bs :
  g_load_snapshot (S (length bs)) bs g_init = (load_snapshot (init_net 500 500 500 [] []) bs, Ok tt).
Proof. apply g_load_snapshot_ok; cbn; lia. Qed.

Lemma fuel_of_longest s o : (longest (intro_cache s) < fuel_of s o)%nat.
Proof. unfold fuel_of. lia. Qed.

Theorem gstep_ok s o : Inv s -> gstep s o = hstep s o.
Proof.
  intros HI. unfold gstep, hstep, with_val. pose proof (fuel_of_longest s o) as HF.
  destruct o; cbn [step alloc fst snd].
  - rewrite g_add_verified_peer_ok. reflexivity.
  - rewrite g_discover_address_ok by exact HF. reflexivity.
  - rewrite g_discover_services_ok. reflexivity.
  - rewrite g_remove_peer_ok by exact HF. reflexivity.
  - rewrite g_remove_by_address_ok by assumption. reflexivity.
  - rewrite g_get_verified_by_public_key_bin_ok. reflexivity.
  - rewrite g_get_verified_by_address_ok. destruct (get_verified_by_address s a hint). reflexivity.
  - rewrite g_get_peers_for_service_ok. destruct (get_peers_for_service s s0). reflexivity.
  - rewrite g_get_services_for_peer_ok. reflexivity.
  - rewrite g_get_walkable_addresses_ok. destruct (get_walkable_addresses s s0 old). reflexivity.
  - rewrite g_get_introductions_from_ok. destruct (get_introductions_from s k). reflexivity.
  - rewrite g_snapshot_ok. reflexivity.
  - rewrite g_load_snapshot_ok; [reflexivity|exact HF|unfold fuel_of; lia].
Qed.

Theorem gen_refines_run ops : forall s, Inv s -> grun s ops = hrun s ops.
Proof.
  induction ops as [|o ops IH]; intros s HI; cbn [grun hrun]; [reflexivity|].
  rewrite (gstep_ok s o HI). unfold hstep. rewrite IH by (apply Inv_step, HI). reflexivity.
Qed.

Lemma hrun_state ops : forall s, fst (hrun s ops) = run s ops.
Proof.
  induction ops as [|o ops IH]; intros s; cbn [hrun run]; [reflexivity|]. unfold hstep.
  specialize (IH (fst (step s o))). destruct (hrun (fst (step s o)) ops) as [s2 rs]. exact IH.
Qed.

(* the state reached through the translated functions is the hand model's: every theorem about a state with Inv
   is a theorem about it *)
Theorem gen_state ops s : Inv s -> fst (grun s ops) = run s ops.
Proof. intros HI. rewrite (gen_refines_run ops s HI). apply hrun_state. Qed.

Definition pref_opt (m : addrmap) : option addr :=
  match am6 m with Some a => Some a | None => match am4 m with Some a => Some a | None => amd m end end.

Lemma am_preferred_pref m : am_preferred m = o_or (pref_opt m) null_addr.
Proof. unfold am_preferred, pref_opt, o_or. destruct (am6 m); [reflexivity|]. destruct (am4 m); [reflexivity|]. destruct (amd m); reflexivity. Qed.

Lemma g_dd_setitem_ok a d : g_dd_setitem (cls_of a) a d = (mkDD (am_put (dd_map d) a) true, Ok tt).
Proof. destruct a; reflexivity. Qed.

Lemma g_dd_update_ok m' d : g_dd_update m' d = (mkDD (am_update (dd_map d) m') true, Ok tt).
Proof. reflexivity. Qed.

Lemma g_dd_init_ok d : g_dd_init d = (mkDD am_empty true, Ok tt).
Proof. reflexivity. Qed.

Lemma g_peer_update_preferred_ok p :
  g_peer_update_preferred_address p
  = (mkPobj (mkDD (dd_map (p_addresses p)) false)
            (match pref_opt (dd_map (p_addresses p)) with Some a => Some a | None => p_address p end) (p_frozen p), Ok tt).
Proof.
  destruct p as [[[[a4|] [a6|] [ad|]] dirty] cur fr]; reflexivity.
Qed.

Record PInv (p : pobj) (m : addrmap) : Prop := {
  pi_map : dd_map (p_addresses p) = m;
  pi_frozen : p_frozen p = false;
  pi_none : pref_opt m = None -> p_address p = None;
  pi_clean : dd_dirty (p_addresses p) = false -> p_address p = pref_opt m
}.

Lemma PInv_new ao : PInv (gpeer_new ao) (hpeer_new ao).
Proof.
  unfold gpeer_new, hpeer_new. destruct ao as [a|].
  - destruct a; constructor; cbn; intros; try reflexivity; discriminate.
  - constructor; cbn; intros; try reflexivity; discriminate.
Qed.

Lemma pref_put m a : pref_opt (am_put m a) <> None.
Proof. destruct m as [[x|] [y|] [z|]], a; cbn; discriminate. Qed.

Lemma pref_update_none m m' : pref_opt (am_update m m') = None -> pref_opt m = None.
Proof. destruct m as [[x|] [y|] [z|]], m' as [[x'|] [y'|] [z'|]]; cbn; intros H; try discriminate; reflexivity. Qed.

Lemma gpeer_step_ok p m o : PInv p m ->
  snd (gpeer_step p o) = snd (hpeer_step m o) /\ PInv (fst (gpeer_step p o)) (fst (hpeer_step m o)).
Proof.
  intros [H1 H2 H3 H4]. destruct p as [[dm dirty] cur fr]. cbn [p_addresses p_address p_frozen dd_map dd_dirty] in *. subst dm fr.
  destruct o as [a|m'|]; unfold gpeer_step, hpeer_step.
  - unfold g_peer_add_address. gstart. cbn [p_frozen]. unfold scall_sub. cbn [fst snd p_addresses].
    rewrite g_dd_setitem_ok. cbn [fst snd]. rewrite g_peer_update_preferred_ok. cbn [fst snd p_addresses p_address p_frozen dd_map rmap].
    split; [reflexivity|]. pose proof (pref_put m a) as NP.
    constructor; cbn [p_addresses p_address p_frozen dd_map dd_dirty]; try reflexivity.
    + intros E. contradiction.
    + intros _. destruct (pref_opt (am_put m a)); [reflexivity|contradiction].
  - rewrite g_dd_update_ok. cbn [fst snd rmap p_addresses p_address p_frozen dd_map dd_dirty]. split; [reflexivity|].
    constructor; cbn [p_addresses p_address p_frozen dd_map dd_dirty]; try reflexivity.
    + intros E. apply H3. apply pref_update_none in E. exact E.
    + discriminate.
  - unfold g_peer_address. gstart. cbn [p_addresses dd_dirty].
    destruct dirty.
    + rewrite g_peer_update_preferred_ok. cbn [fst snd p_addresses p_address p_frozen dd_map rmap].
      rewrite am_preferred_pref. destruct (pref_opt m) as [a|] eqn:P.
      * split; [reflexivity|]. constructor; cbn [p_addresses p_address p_frozen dd_map dd_dirty]; auto.
        intros E. rewrite P in E. discriminate.
      * rewrite (H3 eq_refl). split; [reflexivity|]. constructor; cbn [p_addresses p_address p_frozen dd_map dd_dirty]; auto.
    + cbn [fst snd p_address rmap]. rewrite (H4 eq_refl). rewrite am_preferred_pref. split; [reflexivity|].
      constructor; cbn [p_addresses p_address p_frozen dd_map dd_dirty]; try reflexivity; auto.
Qed.

Theorem gpeer_run_ok ops : forall p m, PInv p m ->
  snd (gpeer_run p ops) = snd (hpeer_run m ops) /\ PInv (fst (gpeer_run p ops)) (fst (hpeer_run m ops)).
Proof.
  induction ops as [|o ops IH]; intros p m HP; cbn [gpeer_run hpeer_run]; [auto|].
  destruct (gpeer_step_ok p m o HP) as [E1 E2].
  destruct (gpeer_step p o) as [p1 r1]. destruct (hpeer_step m o) as [m1 r2]. cbn [fst snd] in *.
  destruct (IH p1 m1 E2) as [E3 E4]. destruct (gpeer_run p1 ops). destruct (hpeer_run m1 ops). cbn [fst snd] in *.
  subst. auto.
Qed.
