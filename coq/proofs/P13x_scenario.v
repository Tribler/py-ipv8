(* C13 (extension) - the scenario with an introducer that is not a public host: every configuration of the
   enlarged space passes scn_check, with blind_simple saying on which side of the boundary it lies. *)
From Coq Require Import ZArith List Bool Lia.
From IPV8V Require Import model.M13_scenario proofs.P13_sweeplib proofs.P13x_defs.
Import ListNotations.
Open Scope Z_scope.


(* the placements of the introducer in the enlarged space *)
Definition placed (bp : bplace) (pos : nat) : Prop :=
  (exists t, bp = BOwn t) \/ bp = BWithA \/ bp = BWithC pos.
Lemma placed_in bp pos : placed bp pos -> In bp (bplaces pos).
Proof. intros [[t Ht] | [Ht | Ht]]; subst bp; [destruct t | | ]; cbn; tauto. Qed.

Lemma scnx_check_true : forall bp tA tC same resp newC styleA k pos,
  placed bp pos -> (k = 1 \/ k = 3)%nat -> (pos < k)%nat ->
  scn_check (cfg_forx bp tA (mkCand tC same resp newC false false) styleA k pos) same pos (blind_simple bp tA tC same)
  = true.
Proof.
  intros bp tA tC same resp newC styleA k pos Hb Hk Hp.
  rewrite (scn_check_styles _ (cfg_forx bp tA (mkCand tC same resp false false false) false k pos))
    by (apply e_cfg_cands_for; reflexivity).
  rewrite <- scn_check_with_ok. apply (check_overx_spec all_types bools [1; 3]%nat check_allx_13);
    try apply all_types_complete; try apply bools_complete; try (apply placed_in; assumption).
  - cbn. lia.
  - apply in_seq. lia.
Qed.
