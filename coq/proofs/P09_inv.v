(* C09 - the freshness invariant of a tunnel node and the generic preservation lemmas.

   Every entry of the three tables carries evidence of why it cannot outlive its limits:
   a removal already under way that completes in time, or activity recent enough that the last
   sweep could not yet have condemned it; a circuit under construction carries its retry cache
   (whose deadlines and remaining tries are bounded from the circuit's creation time). *)
From Coq Require Import ZArith List Bool Lia.
From IPV8V Require Import gen.G09_rules model.M09_reclaim spec.S09_reclaim proofs.P09_alist.
Import ListNotations.
Open Scope Z_scope.

Section Inv.
Variable st : settings.
Hypothesis Hst : settings_ok st.

Definition scheduled (k : rkind) (cid T : Z) (s : node) : Prop :=
  (exists dd rn, In (DRemove k cid dd rn) (starts s) /\ now s + s_remove_delay st <= T)
  \/ (exists due, In (due, k, cid) (sleeping s) /\ due <= T).

Definition entry_ok (k : rkind) (cid : Z) (r : ro) (s : node) : Prop :=
  scheduled k cid (la r + B_entry st) s \/ last_sweep s <= la r + s_max_inactive st.

Definition relay_inv (s : node) : Prop :=
  forall cid r, aget cid (relays s) = Some r -> entry_ok KRelay cid (r_ro r) s.
Definition exit_inv (s : node) : Prop :=
  forall cid e, aget cid (exits s) = Some e -> entry_ok KExit cid (e_ro e) s.

Definition retry_ok (c : circuit) (rt : retry) : Prop :=
  rt_due rt <= creation (c_ro c) + s_next_hop_timeout st * (tries0 st - rt_tries rt)
  /\ 0 <= rt_tries rt + c_hops c /\ rt_tries rt < tries0 st.
Definition retries_inv (s : node) : Prop :=
  forall cid rt c, aget cid (retries s) = Some rt -> aget cid (circuits s) = Some c -> retry_ok c rt.

Definition dretry_ok (s : node) (c : circuit) (tries : Z) : Prop :=
  now s + s_next_hop_timeout st <= creation (c_ro c) + s_next_hop_timeout st * (tries0 st - tries + 1).
Definition dretries_inv (s : node) : Prop :=
  forall cid tries ini, In (DRetry cid tries ini) (starts s) ->
    1 <= tries /\ tries < tries0 st /\ forall c, aget cid (circuits s) = Some c -> dretry_ok s c tries.

(* `waived`: the ready-clause of that circuit is not required (it is re-established by the refresh
   that ends the processing of a cell) *)
Definition circ_ok (waived : option Z) (s : node) (cid : Z) (c : circuit) : Prop :=
  if c_closing c then exists due, In (due, KCirc, cid) (sleeping s) /\ due <= circuit_deadline st c
  else if c_goal c <=? c_hops c then
         (match waived with Some w => w = cid | None => False end) \/ entry_ok KCirc cid (c_ro c) s
  else ahas cid (retries s) = true \/ (exists tries ini, In (DRetry cid tries ini) (starts s))
       \/ scheduled KCirc cid (creation (c_ro c) + build_bound st (c_goal c) + s_remove_delay st) s.
Definition circ_inv (waived : option Z) (s : node) : Prop :=
  forall cid c, aget cid (circuits s) = Some c -> circ_ok waived s cid c.

Definition side_inv (s : node) : Prop :=
  last_sweep s <= now s
  /\ forall cid c, aget cid (circuits s) = Some c -> 0 <= c_hops c /\ la (c_ro c) <= now s.

Definition inv_gen (waived : option Z) (s : node) : Prop :=
  side_inv s /\ relay_inv s /\ exit_inv s /\ retries_inv s /\ dretries_inv s /\ circ_inv waived s.
Definition inv := inv_gen None.

Lemma tries0_pos : 1 <= tries0 st.
Proof.
  destruct Hst as (_ & _ & _ & Hn & Hc). unfold tries0, initial_tries.
  apply Z.div_le_lower_bound; lia.
Qed.

Lemma scheduled_mono k cid T T' s : T <= T' -> scheduled k cid T s -> scheduled k cid T' s.
Proof.
  intros HT [(dd & rn & Hin & Hle)|(due & Hin & Hle)]; [left | right].
  - exists dd, rn; split; [exact Hin | lia].
  - exists due; split; [exact Hin | lia].
Qed.

Lemma entry_ok_la k cid r r' s : la r <= la r' -> entry_ok k cid r s -> entry_ok k cid r' s.
Proof.
  intros Hla [H|H]; [left | right; lia].
  eapply scheduled_mono; [|exact H]. lia.
Qed.

Lemma B_entry_nonneg : 0 <= B_entry st.
Proof. destruct Hst as (? & ? & ? & _). unfold B_entry. lia. Qed.

Record ext (s s' : node) : Prop := mkExt {
  x_now : now s' = now s;
  x_sweep : last_sweep s' = last_sweep s;
  x_starts : forall d, In d (starts s) -> In d (starts s');
  x_dretry : forall cid tries ini, In (DRetry cid tries ini) (starts s') -> In (DRetry cid tries ini) (starts s);
  x_sleep : forall x, In x (sleeping s) -> In x (sleeping s');
  x_relays : forall cid r', aget cid (relays s') = Some r' ->
      (exists r, aget cid (relays s) = Some r /\ la (r_ro r) <= la (r_ro r')) \/ now s <= la (r_ro r');
  x_exits : forall cid e', aget cid (exits s') = Some e' ->
      (exists e, aget cid (exits s) = Some e /\ la (e_ro e) <= la (e_ro e')) \/ now s <= la (e_ro e');
  x_circuits : forall cid c', aget cid (circuits s') = Some c' ->
      exists c, aget cid (circuits s) = Some c /\ c_goal c' = c_goal c /\ c_hops c' = c_hops c
                /\ c_closing c' = c_closing c /\ creation (c_ro c') = creation (c_ro c)
                /\ la (c_ro c) <= la (c_ro c') /\ la (c_ro c') <= now s;
  x_retries : retries s' = retries s
}.

Lemma ext_refl s : side_inv s -> ext s s.
Proof.
  intros [_ Hs]. constructor; auto.
  - intros cid r' H; left; exists r'; split; [exact H | lia].
  - intros cid e' H; left; exists e'; split; [exact H | lia].
  - intros cid c' H. exists c'. destruct (Hs _ _ H). repeat split; auto; lia.
Qed.

Lemma ext_trans a b c : ext a b -> ext b c -> ext a c.
Proof.
  intros [n1 w1 s1 d1 l1 r1 e1 c1 t1] [n2 w2 s2 d2 l2 r2 e2 c2 t2]. constructor; auto.
  - exact (eq_trans n2 n1).
  - exact (eq_trans w2 w1).
  - intros cid r' H. destruct (r2 _ _ H) as [(r & Hr & Hle)|Hf]; [|right; rewrite <- n1; exact Hf].
    destruct (r1 _ _ Hr) as [(r0 & Hr0 & Hle0)|Hf]; [left | right; exact (Z.le_trans _ _ _ Hf Hle)].
    exists r0. split; [exact Hr0 | exact (Z.le_trans _ _ _ Hle0 Hle)].
  - intros cid e' H. destruct (e2 _ _ H) as [(e & He & Hle)|Hf]; [|right; rewrite <- n1; exact Hf].
    destruct (e1 _ _ He) as [(e0 & He0 & Hle0)|Hf]; [left | right; exact (Z.le_trans _ _ _ Hf Hle)].
    exists e0. split; [exact He0 | exact (Z.le_trans _ _ _ Hle0 Hle)].
  - intros cid c' H. destruct (c2 _ _ H) as (cb & Hb & G2 & H2 & K2 & C2 & L2 & M2).
    destruct (c1 _ _ Hb) as (ca & Ha & G1 & H1 & K1 & C1 & L1 & M1).
    exists ca. split; [exact Ha|]. split; [exact (eq_trans G2 G1)|]. split; [exact (eq_trans H2 H1)|].
    split; [exact (eq_trans K2 K1)|]. split; [exact (eq_trans C2 C1)|].
    split; [exact (Z.le_trans _ _ _ L1 L2) | rewrite <- n1; exact M2].
  - exact (eq_trans t2 t1).
Qed.

Lemma scheduled_incl k cid T s s' :
  now s' = now s ->
  (forall dd rn, In (DRemove k cid dd rn) (starts s) -> In (DRemove k cid dd rn) (starts s')) ->
  (forall due, In (due, k, cid) (sleeping s) -> In (due, k, cid) (sleeping s')) ->
  scheduled k cid T s -> scheduled k cid T s'.
Proof.
  intros En Hs Hsl [(dd & rn & Hin & Hle)|(due & Hin & Hle)]; [left | right].
  - exists dd, rn. split; [apply Hs; exact Hin | rewrite En; exact Hle].
  - exists due. split; [apply Hsl; exact Hin | exact Hle].
Qed.

Lemma entry_ok_incl k cid r s s' :
  now s' = now s -> last_sweep s' = last_sweep s ->
  (forall dd rn, In (DRemove k cid dd rn) (starts s) -> In (DRemove k cid dd rn) (starts s')) ->
  (forall due, In (due, k, cid) (sleeping s) -> In (due, k, cid) (sleeping s')) ->
  entry_ok k cid r s -> entry_ok k cid r s'.
Proof.
  intros En Ew Hs Hsl [H|H]; [left; revert H; apply scheduled_incl; assumption | right; rewrite Ew; exact H].
Qed.

Lemma scheduled_ext k cid T s s' : ext s s' -> scheduled k cid T s -> scheduled k cid T s'.
Proof.
  intros X. apply scheduled_incl; [exact (x_now _ _ X) | |]; intros; [apply (x_starts _ _ X) | apply (x_sleep _ _ X)]; assumption.
Qed.

Lemma entry_ok_ext k cid r s s' : ext s s' -> entry_ok k cid r s -> entry_ok k cid r s'.
Proof.
  intros X. apply entry_ok_incl; [exact (x_now _ _ X) | exact (x_sweep _ _ X) | |];
    intros; [apply (x_starts _ _ X) | apply (x_sleep _ _ X)]; assumption.
Qed.

Lemma entry_ok_fresh k cid r s : side_inv s -> now s <= la r -> entry_ok k cid r s.
Proof. intros [H _] Hl. right. destruct Hst as (? & _). lia. Qed.

Lemma circuit_deadline_mono c c' :
  c_goal c' = c_goal c -> creation (c_ro c') = creation (c_ro c) -> la (c_ro c) <= la (c_ro c') ->
  circuit_deadline st c <= circuit_deadline st c'.
Proof. intros G C L. unfold circuit_deadline. rewrite G, C. lia. Qed.

Lemma side_inv_ext s s' : side_inv s -> ext s s' -> side_inv s'.
Proof.
  intros [H1 H2] X. split; [rewrite (x_sweep _ _ X), (x_now _ _ X); exact H1|].
  intros cid c' H. destruct (x_circuits _ _ X _ _ H) as (c & Hc0 & G & Hh & K & C & L & M).
  destruct (H2 _ _ Hc0). rewrite Hh, (x_now _ _ X). split; lia.
Qed.

Lemma circ_ok_waive w s cid c : circ_ok None s cid c -> circ_ok w s cid c.
Proof.
  unfold circ_ok. destruct (c_closing c); [auto|]. destruct (c_goal c <=? c_hops c); [|auto].
  intros [[]|H]. right; exact H.
Qed.

Lemma circ_ok_carry w s s' cid c c' :
  c_goal c' = c_goal c -> c_hops c' = c_hops c -> c_closing c' = c_closing c ->
  creation (c_ro c') = creation (c_ro c) -> la (c_ro c) <= la (c_ro c') ->
  (c_closing c = false -> c_goal c <= c_hops c -> entry_ok KCirc cid (c_ro c) s -> entry_ok KCirc cid (c_ro c) s') ->
  (forall T, scheduled KCirc cid T s -> scheduled KCirc cid T s') ->
  (forall due, In (due, KCirc, cid) (sleeping s) -> In (due, KCirc, cid) (sleeping s')) ->
  (ahas cid (retries s) = true -> ahas cid (retries s') = true) ->
  (forall t i, In (DRetry cid t i) (starts s) -> In (DRetry cid t i) (starts s')) ->
  circ_ok w s cid c -> circ_ok w s' cid c'.
Proof.
  intros G Hh K C L Hent Hsch Hsl Hrt Hdr Hc. unfold circ_ok in *. rewrite K, G, Hh.
  destruct (c_closing c).
  - destruct Hc as (due & Hin & Hle). exists due. split; [apply Hsl; exact Hin|].
    exact (Z.le_trans _ _ _ Hle (circuit_deadline_mono c c' G C L)).
  - destruct (c_goal c <=? c_hops c) eqn:Erd.
    + destruct Hc as [Hw|Hc]; [left; exact Hw | right].
      eapply entry_ok_la; [exact L | apply Hent; [reflexivity | lia | exact Hc]].
    + rewrite C. destruct Hc as [Hc|[(t & i & Hin)|Hc]]; [left; apply Hrt; exact Hc | right; left | right; right; apply Hsch; exact Hc].
      exists t, i. apply Hdr; exact Hin.
Qed.

Lemma inv_ext w s s' : inv_gen w s -> ext s s' -> inv_gen w s'.
Proof.
  intros (Hside & Hrel & Hex & Hrt & Hdr & Hc) X.
  assert (Hside' : side_inv s') by (eapply side_inv_ext; eauto).
  split; [exact Hside'|]. split; [|split; [|split; [|split]]].
  - intros cid r' H. destruct (x_relays _ _ X _ _ H) as [(r & Hr & Hle)|Hf].
    + eapply entry_ok_la; [exact Hle|]. eapply entry_ok_ext; eauto.
    + apply entry_ok_fresh; [exact Hside'|]. rewrite (x_now _ _ X); exact Hf.
  - intros cid e' H. destruct (x_exits _ _ X _ _ H) as [(e & He & Hle)|Hf].
    + eapply entry_ok_la; [exact Hle|]. eapply entry_ok_ext; eauto.
    + apply entry_ok_fresh; [exact Hside'|]. rewrite (x_now _ _ X); exact Hf.
  - intros cid rt c' H1 H2. rewrite (x_retries _ _ X) in H1.
    destruct (x_circuits _ _ X _ _ H2) as (c & Hc0 & G & Hh & K & C & L & M).
    specialize (Hrt _ _ _ H1 Hc0). unfold retry_ok in *. rewrite C, Hh. exact Hrt.
  - intros cid tries ini H1. apply (x_dretry _ _ X) in H1.
    destruct (Hdr _ _ _ H1) as (D1 & D2 & D3). split; [exact D1|]. split; [exact D2|].
    intros c' H2. destruct (x_circuits _ _ X _ _ H2) as (c & Hc0 & G & Hh & K & C & L & M).
    specialize (D3 _ Hc0). unfold dretry_ok in *. rewrite C, (x_now _ _ X). exact D3.
  - intros cid c' H. destruct (x_circuits _ _ X _ _ H) as (c & Hc0 & G & Hh & K & C & L & M).
    apply (circ_ok_carry w s s' cid c c' G Hh K C L); [intros _ _; apply entry_ok_ext; exact X | | | | |].
    + intro T. apply scheduled_ext; exact X.
    + intro due. apply (x_sleep _ _ X).
    + rewrite (x_retries _ _ X). auto.
    + intros t i. apply (x_starts _ _ X).
    + exact (Hc _ _ Hc0).
Qed.

(* a waiver can always be added; it is discharged by refreshing the circuit *)
Lemma inv_waive w s : inv s -> inv_gen w s.
Proof.
  intros (H1 & H2 & H3 & H4 & H5 & H6).
  split; [exact H1|]. split; [exact H2|]. split; [exact H3|]. split; [exact H4|]. split; [exact H5|].
  intros cid c H. apply circ_ok_waive. exact (H6 _ _ H).
Qed.

Lemma hit_dec (h : option (rkind * Z)) k cid : {h = Some (k, cid)} + {h <> Some (k, cid)}.
Proof. decide equality. decide equality; [apply Z.eq_dec | decide equality]. Qed.

(* no entry appears or changes except the circuit h (if h names one), which is justified afresh; what is
   known about every other entry is still known; entries may disappear *)
Lemma inv_but w h s s' :
  inv s ->
  now s' = now s -> last_sweep s' = last_sweep s ->
  (forall k cid T, h <> Some (k, cid) -> scheduled k cid T s -> scheduled k cid T s') ->
  (forall due cid, h <> Some (KCirc, cid) -> In (due, KCirc, cid) (sleeping s) -> In (due, KCirc, cid) (sleeping s')) ->
  (forall cid t i, h <> Some (KCirc, cid) -> In (DRetry cid t i) (starts s) <-> In (DRetry cid t i) (starts s')) ->
  (forall cid, h <> Some (KCirc, cid) -> aget cid (retries s') = aget cid (retries s)) ->
  (forall cid r, aget cid (relays s') = Some r -> h <> Some (KRelay, cid) /\ aget cid (relays s) = Some r) ->
  (forall cid e, aget cid (exits s') = Some e -> h <> Some (KExit, cid) /\ aget cid (exits s) = Some e) ->
  (forall cid c, h <> Some (KCirc, cid) -> aget cid (circuits s') = Some c -> aget cid (circuits s) = Some c) ->
  (forall cid c, h = Some (KCirc, cid) -> aget cid (circuits s') = Some c ->
     0 <= c_hops c /\ la (c_ro c) <= now s /\ circ_ok w s' cid c
     /\ forall rt, aget cid (retries s') = Some rt -> retry_ok c rt) ->
  (forall cid t i, h = Some (KCirc, cid) -> In (DRetry cid t i) (starts s') ->
     1 <= t /\ t < tries0 st /\ forall c, aget cid (circuits s') = Some c -> dretry_ok s' c t) ->
  inv_gen w s'.
Proof.
  intros (Hside & Hrel & Hex & Hrt & Hdr & Hc) En Ew Hsch Hsl Hds Hro Hr He Hco Hhit Hhd.
  destruct Hside as [S1 S2].
  assert (Hent : forall k c r, h <> Some (k, c) -> entry_ok k c r s -> entry_ok k c r s').
  { intros k c r Hn [H|H]; [left; apply Hsch; assumption | right; rewrite Ew; exact H]. }
  split; [|split; [|split; [|split; [|split]]]].
  - split; [rewrite Ew, En; exact S1|]. intros c x H. rewrite En.
    destruct (hit_dec h KCirc c) as [E|E]; [|exact (S2 _ _ (Hco _ _ E H))].
    destruct (Hhit _ _ E H) as (A & B & _). split; assumption.
  - intros c r H. destruct (Hr _ _ H) as [E H']. apply Hent; [exact E | exact (Hrel _ _ H')].
  - intros c e H. destruct (He _ _ H) as [E H']. apply Hent; [exact E | exact (Hex _ _ H')].
  - intros c rt x H1 H2. destruct (hit_dec h KCirc c) as [E|E].
    + destruct (Hhit _ _ E H2) as (_ & _ & _ & A). exact (A _ H1).
    + rewrite (Hro _ E) in H1. exact (Hrt _ _ _ H1 (Hco _ _ E H2)).
  - intros c t i H. destruct (hit_dec h KCirc c) as [E|E]; [exact (Hhd _ _ _ E H)|].
    destruct (Hdr _ _ _ (proj2 (Hds _ t i E) H)) as (D1 & D2 & D3). split; [exact D1|]. split; [exact D2|].
    intros x Hx. specialize (D3 _ (Hco _ _ E Hx)). unfold dretry_ok in *. rewrite En. exact D3.
  - intros c x H. destruct (hit_dec h KCirc c) as [E|E]; [apply (Hhit _ _ E H)|].
    apply circ_ok_waive.
    apply (circ_ok_carry None s s' c x x); try reflexivity; [intros _ _; apply Hent; exact E | | | | |].
    + intro T. apply Hsch; exact E.
    + intro due. apply Hsl; exact E.
    + unfold ahas. rewrite (Hro _ E). auto.
    + intros t i. apply (Hds _ t i E).
    + exact (Hc _ _ (Hco _ _ E H)).
Qed.

End Inv.
