(* C09, path level - what one node event can do to the entries that name a given set of ids.

   `I` is the set of circuit ids of a path.  `frame touch s s'` says that s' holds no entry for an id of I
   that s did not hold, that such entries keep their routing fields, that their activity stamps are
   unchanged except for the keys in `touch` (which may be stamped with the current time), and that the
   bookkeeping which could later create such entries (request caches, deferred handler bodies) gained
   nothing that names I.  The lemmas go through the functions of M09_reclaim one by one. *)
From Coq Require Import ZArith List Bool.
From IPV8V Require Import model.M09_reclaim proofs.P09_alist.
Import ListNotations.
Open Scope Z_scope.

Section Frame.
Variable st : settings.
Variable I : Z -> bool.

Definition harmless (d : deferred) : Prop :=
  match d with
  | DCreate _ x _ | DExtend _ x _ => I x = false
  | DRetry x _ _ => I x = false
  | _ => True
  end.

Record frame (touch : Z -> Prop) (s s' : node) : Prop := mkFrame {
  f_now : now s' = now s;
  f_circ : forall x c', I x = true -> aget x (circuits s') = Some c' ->
      exists c, aget x (circuits s) = Some c
        /\ c_first c' = c_first c /\ c_goal c' = c_goal c /\ c_hops c' = c_hops c
        /\ c_unver c' = c_unver c /\ creation (c_ro c') = creation (c_ro c)
        /\ (la (c_ro c') = la (c_ro c) \/ (touch x /\ la (c_ro c') = now s))
        /\ (c_closing c = true -> c_closing c' = true)
        /\ (c_closing c = false -> c_closing c' = true ->
              In (now s + s_remove_delay st, KCirc, x) (sleeping s'));
  f_rel : forall x r', I x = true -> aget x (relays s') = Some r' ->
      exists r, aget x (relays s) = Some r /\ r_next r' = r_next r /\ r_peer r' = r_peer r
                /\ (la (r_ro r') = la (r_ro r) \/ (touch x /\ la (r_ro r') = now s));
  f_rel_out : forall x r', I x = false -> aget x (relays s') = Some r' ->
      (exists r, aget x (relays s) = Some r /\ r_next r' = r_next r) \/ I (r_next r') = false;
  f_exit : forall x e', I x = true -> aget x (exits s') = Some e' ->
      exists e, aget x (exits s) = Some e /\ e_peer e' = e_peer e
                /\ (la (e_ro e') = la (e_ro e) \/ (touch x /\ la (e_ro e') = now s));
  f_createds : forall x due, I x = true -> aget x (createds s') = Some due -> aget x (createds s) = Some due;
  f_creates : forall k cc, aget k (creates s') = Some cc ->
      aget k (creates s) = Some cc \/ (I (cc_from cc) = false /\ I (cc_to cc) = false);
  f_retries : forall x rt, I x = true -> aget x (retries s') = Some rt -> exists rt0, aget x (retries s) = Some rt0;
  f_starts : forall d, In d (starts s') ->
      In d (starts s) \/ (harmless d /\ forall x, d = DOpen x -> I x = true -> touch x /\ aget x (exits s) <> None);
  f_sleep : forall due x, I x = true -> aget x (circuits s') <> None ->
      In (due, KCirc, x) (sleeping s) -> In (due, KCirc, x) (sleeping s')
}.

Lemma frame_refl (touch : Z -> Prop) s : frame touch s s.
Proof.
  constructor; auto; intros.
  - eexists; split; [eassumption|]. repeat split; auto. congruence.
  - eexists; split; [eassumption | auto].
  - left; eexists; split; [eassumption | auto].
  - eexists; split; [eassumption | auto].
  - eauto.
Qed.

Lemma frame_trans (touch : Z -> Prop) a b c : frame touch a b -> frame touch b c -> frame touch a c.
Proof.
  intros [n1 c1 r1 o1 e1 d1 k1 t1 s1 l1] [n2 c2 r2 o2 e2 d2 k2 t2 s2 l2]. constructor.
  - congruence.
  - intros x c' Hi H. destruct (c2 _ _ Hi H) as (cb & Hb & F2 & G2 & H2 & U2 & C2 & L2 & K2 & W2).
    destruct (c1 _ _ Hi Hb) as (ca & Ha & F1 & G1 & H1 & U1 & C1 & L1 & K1 & W1).
    exists ca. split; [exact Ha|]. split; [congruence|]. split; [congruence|]. split; [congruence|].
    split; [congruence|]. split; [congruence|]. split.
    { destruct L2 as [L2|[T2 L2]]; [|right; split; [exact T2 | congruence]].
      destruct L1 as [L1|[T1 L1]]; [left; congruence | right; split; [exact T1 | congruence]]. }
    split; [auto|]. intros Ka Kc. destruct (c_closing cb) eqn:Kb.
    + apply l2; [exact Hi | congruence | apply W1; auto].
    + rewrite <- n1. apply W2; auto.
  - intros x r' Hi H. destruct (r2 _ _ Hi H) as (rb & Hb & N2 & P2 & L2).
    destruct (r1 _ _ Hi Hb) as (ra & Ha & N1 & P1 & L1).
    exists ra. split; [exact Ha|]. split; [congruence|]. split; [congruence|].
    destruct L2 as [L2|[T2 L2]]; [|right; split; [exact T2 | congruence]].
    destruct L1 as [L1|[T1 L1]]; [left; congruence | right; split; [exact T1 | congruence]].
  - intros x r' Hi H. destruct (o2 _ _ Hi H) as [(rb & Hb & N2)|N2]; [|right; exact N2].
    destruct (o1 _ _ Hi Hb) as [(ra & Ha & N1)|N1]; [left; exists ra; split; [exact Ha | congruence] | right; congruence].
  - intros x e' Hi H. destruct (e2 _ _ Hi H) as (eb & Hb & P2 & L2). destruct (e1 _ _ Hi Hb) as (ea & Ha & P1 & L1).
    exists ea. split; [exact Ha|]. split; [congruence|].
    destruct L2 as [L2|[T2 L2]]; [|right; split; [exact T2 | congruence]].
    destruct L1 as [L1|[T1 L1]]; [left; congruence | right; split; [exact T1 | congruence]].
  - intros x due Hi H. apply d1; auto.
  - intros k cc H. destruct (k2 _ _ H) as [Hb|Hb]; [apply k1; exact Hb | right; exact Hb].
  - intros x rt Hi H. destruct (t2 _ _ Hi H) as (rb & Hb). eapply t1; eauto.
  - intros d H. destruct (s2 _ H) as [Hb|[Hb Hb2]]; [apply s1; exact Hb | right; split; [exact Hb|]].
    intros x Ed Hi. destruct (Hb2 x Ed Hi) as [T Ex]. split; [exact T|].
    destruct (aget x (exits b)) as [eb|] eqn:Eb; [|congruence].
    destruct (e1 _ _ Hi Eb) as (ea & Ha & _). congruence.
  - intros due x Hi Hc Hin. apply l2; auto. apply l1; auto.
    intro Hn. destruct (aget x (circuits c)) as [c'|] eqn:E; [|congruence].
    destruct (c2 _ _ Hi E) as (cb & Hb & _). congruence.
Qed.

Lemma frame_weaken (t1 t2 : Z -> Prop) s s' : (forall x, t1 x -> t2 x) -> frame t1 s s' -> frame t2 s s'.
Proof.
  intros W [n c r o e dd k t s0 l]. constructor; auto.
  - intros x c' Hi H. destruct (c _ _ Hi H) as (c0 & H0 & A & B & C & U & Cr & L & K). exists c0.
    split; [exact H0|]. split; [exact A|]. split; [exact B|]. split; [exact C|]. split; [exact U|].
    split; [exact Cr|]. split; [|exact K].
    destruct L as [L|[T L]]; [left; exact L | right; split; auto].
  - intros x r' Hi H. destruct (r _ _ Hi H) as (r0 & H0 & N & P & L). exists r0. repeat split; auto.
    destruct L as [L|[T L]]; [left; exact L | right; split; auto].
  - intros x e' Hi H. destruct (e _ _ Hi H) as (e0 & H0 & P & L). exists e0. split; auto. split; auto.
    destruct L as [L|[T L]]; [left; exact L | right; split; auto].
  - intros d H. destruct (s0 _ H) as [H0|[H0 H1]]; [left; exact H0 | right; split; auto].
    intros x Ed Hi. destruct (H1 x Ed Hi). split; auto.
Qed.

Lemma frame_step (touch : Z -> Prop) s s1 s2 : frame touch s s1 -> frame touch s1 s2 -> frame touch s s2.
Proof. apply frame_trans. Qed.

Ltac same_fields :=
  simpl; intros;
  first [ eexists; split; [eassumption | solve [repeat split; auto; congruence]]
        | eexists; split; [eassumption | solve [auto]]
        | left; eexists; split; [eassumption | solve [auto]]
        | solve [eauto] ].

Lemma frame_set_circuit (touch : Z -> Prop) s x c1 :
  (I x = true -> exists c, aget x (circuits s) = Some c
      /\ c_first c1 = c_first c /\ c_goal c1 = c_goal c /\ c_hops c1 = c_hops c
      /\ c_unver c1 = c_unver c /\ creation (c_ro c1) = creation (c_ro c)
      /\ (la (c_ro c1) = la (c_ro c) \/ (touch x /\ la (c_ro c1) = now s))
      /\ c_closing c1 = c_closing c) ->
  frame touch s (set_circuits (aset x c1 (circuits s)) s).
Proof.
  intro Hx. constructor; try same_fields.
  - simpl. intros y c' Hi H. rewrite aget_aset in H. destruct (y =? x) eqn:E.
    + apply Z.eqb_eq in E; subst y. inversion H; subst c'.
      destruct (Hx Hi) as (c & Hc & A & B & C & U & Cr & L & K). exists c. repeat split; auto; congruence.
    + eexists; split; [exact H|]. repeat split; auto. congruence.
Qed.

Lemma frame_del_circuit (touch : Z -> Prop) s x : frame touch s (set_circuits (adel x (circuits s)) s).
Proof.
  constructor; try same_fields.
  simpl. intros y c' Hi H. rewrite aget_adel in H. destruct (y =? x); [discriminate|].
  eexists; split; [exact H|]. repeat split; auto. congruence.
Qed.

Lemma frame_set_relay (touch : Z -> Prop) s x r1 :
  (I x = true -> exists r, aget x (relays s) = Some r /\ r_next r1 = r_next r /\ r_peer r1 = r_peer r
                           /\ (la (r_ro r1) = la (r_ro r) \/ (touch x /\ la (r_ro r1) = now s))) ->
  (I x = false -> (exists r, aget x (relays s) = Some r /\ r_next r1 = r_next r) \/ I (r_next r1) = false) ->
  frame touch s (set_relays (aset x r1 (relays s)) s).
Proof.
  intros Hin Hout. constructor; try same_fields.
  - simpl. intros y r' Hi H. rewrite aget_aset in H. destruct (y =? x) eqn:E.
    + apply Z.eqb_eq in E; subst y. inversion H; subst r'. auto.
    + eexists; split; [exact H | auto].
  - simpl. intros y r' Hi H. rewrite aget_aset in H. destruct (y =? x) eqn:E.
    + apply Z.eqb_eq in E; subst y. inversion H; subst r'. auto.
    + left; eexists; split; [exact H | auto].
Qed.

Lemma frame_del_relay (touch : Z -> Prop) s x : frame touch s (set_relays (adel x (relays s)) s).
Proof.
  constructor; try same_fields.
  - simpl. intros y r' Hi H. rewrite aget_adel in H. destruct (y =? x); [discriminate|].
    eexists; split; [exact H | auto].
  - simpl. intros y r' Hi H. rewrite aget_adel in H. destruct (y =? x); [discriminate|].
    left; eexists; split; [exact H | auto].
Qed.

Lemma frame_set_exit (touch : Z -> Prop) s x e1 :
  (I x = true -> exists e, aget x (exits s) = Some e /\ e_peer e1 = e_peer e
                           /\ (la (e_ro e1) = la (e_ro e) \/ (touch x /\ la (e_ro e1) = now s))) ->
  frame touch s (set_exits (aset x e1 (exits s)) s).
Proof.
  intro Hin. constructor; try same_fields.
  simpl. intros y e' Hi H. rewrite aget_aset in H. destruct (y =? x) eqn:E.
  - apply Z.eqb_eq in E; subst y. inversion H; subst e'. auto.
  - eexists; split; [exact H | auto].
Qed.

Lemma frame_del_exit (touch : Z -> Prop) s x : frame touch s (set_exits (adel x (exits s)) s).
Proof.
  constructor; try same_fields.
  simpl. intros y e' Hi H. rewrite aget_adel in H. destruct (y =? x); [discriminate|].
  eexists; split; [exact H | auto].
Qed.

Lemma frame_del_create (touch : Z -> Prop) s k : frame touch s (set_creates (adel k (creates s)) s).
Proof.
  constructor; try same_fields.
  simpl. intros k' cc H. rewrite aget_adel in H. destruct (k' =? k); [discriminate | left; exact H].
Qed.

Lemma frame_add_create (touch : Z -> Prop) s k cc :
  I (cc_from cc) = false -> I (cc_to cc) = false -> frame touch s (set_creates (aset k cc (creates s)) s).
Proof.
  intros H1 H2. constructor; try same_fields.
  simpl. intros k' cc' H. rewrite aget_aset in H. destruct (k' =? k); [inversion H; subst; right; auto | left; exact H].
Qed.

Lemma frame_set_createds (touch : Z -> Prop) s l :
  (forall x due, I x = true -> aget x l = Some due -> aget x (createds s) = Some due) ->
  frame touch s (set_createds l s).
Proof. intro H. constructor; try same_fields; try exact H. Qed.

Lemma frame_set_last_sweep (touch : Z -> Prop) s t : frame touch s (set_last_sweep t s).
Proof. constructor; same_fields. Qed.

Lemma frame_del_retry (touch : Z -> Prop) s x : frame touch s (set_retries (adel x (retries s)) s).
Proof.
  constructor; try same_fields.
  simpl. intros y rt Hi H. rewrite aget_adel in H. destruct (y =? x); [discriminate | eauto].
Qed.

Lemma frame_add_retry (touch : Z -> Prop) s x rt : I x = false -> frame touch s (set_retries (aset x rt (retries s)) s).
Proof.
  intro Hx. constructor; try same_fields.
  simpl. intros y rt' Hi H. rewrite aget_aset in H. destruct (y =? x) eqn:E; [|eauto].
  apply Z.eqb_eq in E; subst y. congruence.
Qed.

Lemma frame_defer (touch : Z -> Prop) s d :
  harmless d -> (forall x, d = DOpen x -> I x = true -> touch x /\ aget x (exits s) <> None) -> frame touch s (defer d s).
Proof.
  intros Hd Ho. constructor; try same_fields.
  simpl. intros d' H. apply in_app_or in H. destruct H as [H|[H|[]]]; [left; exact H | subst d'; right; auto].
Qed.

Lemma frame_sub_starts (touch : Z -> Prop) s ns :
  (forall d, In d ns -> In d (starts s)) -> frame touch s (set_starts ns s).
Proof. intro Hs. constructor; try same_fields; simpl; intros d H; left; auto. Qed.

Lemma frame_more_starts (touch : Z -> Prop) s ns :
  (forall d, In d ns -> harmless d /\ forall x, d = DOpen x -> I x = true -> touch x /\ aget x (exits s) <> None) ->
  frame touch s (set_starts (starts s ++ ns) s).
Proof.
  intro Hs. constructor; try same_fields. simpl. intros d H. apply in_app_or in H.
  destruct H as [H|H]; [left; exact H | right; auto].
Qed.

Lemma frame_add_sleep (touch : Z -> Prop) s w : frame touch s (set_sleeping (sleeping s ++ [w]) s).
Proof.
  constructor; try same_fields. simpl. intros due x Hi Hc Hin. apply in_or_app; left; exact Hin.
Qed.

End Frame.
