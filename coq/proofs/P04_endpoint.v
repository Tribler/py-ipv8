(* C04: the two ends of a circuit - sending a cell (originator / exit socket), opening a received cell,
   hand-over to the cell handlers, the data handler on well-formed payloads. *)
From Coq Require Import ZArith List Bool Lia.
From IPV8V Require Import lib.PyErr lib.Bytes lib.BE model.M02_wire model.M03_recv model.M04_onion
  spec.S04_onion_spec proofs.P02_prims proofs.P02_roundtrip proofs.P04_base proofs.P04_node.
Import ListNotations.
Open Scope Z_scope.

(* Payload codec: the circuit id is the first field, re-injected by unwrap. *)
Definition tail_data : msgfmt := msg_of_list [FAddr false; FAddr false; FRaw].
Definition tail_ping : msgfmt := msg_of_list [FStruct [PU 2]].
Definition tail_test_request : msgfmt := msg_of_list [FStruct [PU 2]; FStruct [PU 2]; FRaw].
Definition tail_test_response : msgfmt := msg_of_list [FStruct [PU 2]; FRaw].

Lemma fmt_data_eq : fmt_data = MCons (FStruct [PU 4]) tail_data. Proof. reflexivity. Qed.
Lemma fmt_ping_eq : fmt_ping = MCons (FStruct [PU 4]) tail_ping. Proof. reflexivity. Qed.
Lemma fmt_test_request_eq : fmt_test_request = MCons (FStruct [PU 4]) tail_test_request. Proof. reflexivity. Qed.
Lemma fmt_test_response_eq : fmt_test_response = MCons (FStruct [PU 4]) tail_test_response. Proof. reflexivity. Qed.

Lemma cid_prim_ok cid : cid_ok cid -> prim_ok (PU 4) (VInt cid) = true.
Proof. unfold cid_ok, prim_ok, in_range. intros H. change (256 ^ Z.of_nat 4) with 4294967296. lia. Qed.

Lemma cell_payload_pack m vals rest cid :
  cid_ok cid -> pack_msg no_keys m vals = Ok rest ->
  pack_msg no_keys (MCons (FStruct [PU 4]) m) (VInt cid :: vals) = Ok (be_encode 4 cid ++ rest).
Proof.
  intros Hc Hp. rewrite pack_msg_cons. cbn [pack]. unfold penc. rewrite (cid_prim_ok cid Hc).
  cbn [negb bind]. rewrite Hp. reflexivity.
Qed.

Lemma cell_payload_unpack m vals rest cid (pfx : bytes) mid :
  wf_msg m = true -> msg_ok no_keys m vals = true -> pack_msg no_keys m vals = Ok rest ->
  cid_ok cid -> length pfx = 22%nat ->
  unpack_msg no_keys (MCons (FStruct [PU 4]) m) (pfx ++ [mid] ++ be_encode 4 cid ++ rest) 23
  = Ok (VInt cid :: vals, (23 + length (be_encode 4 cid ++ rest))%nat).
Proof.
  intros Hw Hok Hp Hc Hl.
  pose proof (msg_roundtrip_l no_keys (MCons (FStruct [PU 4]) m) (VInt cid :: vals)
                (be_encode 4 cid ++ rest) (pfx ++ [mid]) []) as R.
  rewrite app_nil_r, app_length, Hl, <- app_assoc in R. apply R.
  - destruct m as [|f m']; [reflexivity|].
    change (wf_msg (MCons (FStruct [PU 4]) (MCons f m')))
      with (wf_fmt (FStruct [PU 4]) && negb false && wf_msg (MCons f m')).
    rewrite Hw. reflexivity.
  - rewrite msg_ok_cons. cbn [val_ok]. rewrite (cid_prim_ok cid Hc), Hok. reflexivity.
  - apply cell_payload_pack; assumption.
  - right; reflexivity.
Qed.

Lemma addr_pack_ok ip_only a : addr_ok ip_only a = true -> exists bs, addr_pack ip_only a = Ok bs.
Proof.
  destruct a as [ip p|ip p|h p]; unfold addr_ok, addr_pack; intros H.
  - rewrite H. eauto.
  - rewrite H. eauto.
  - destruct ip_only; [discriminate H|]. cbn [negb andb] in H. rewrite H. eauto.
Qed.

Lemma data_packable dest org data :
  addr_ok false dest = true -> addr_ok false org = true -> bytes_okb data = true ->
  exists rest, pack_msg no_keys tail_data [VAddr dest; VAddr org; VBytes data] = Ok rest.
Proof.
  intros H1 H2 H3. destruct (addr_pack_ok false dest H1) as [b1 E1]. destruct (addr_pack_ok false org H2) as [b2 E2].
  unfold tail_data. cbn [msg_of_list]. rewrite !pack_msg_cons. cbn [pack]. rewrite E1, E2, H3.
  cbn [bind pack_msg]. eauto.
Qed.

Lemma data_msg_ok dest org data :
  addr_ok false dest = true -> addr_ok false org = true -> bytes_okb data = true ->
  msg_ok no_keys tail_data [VAddr dest; VAddr org; VBytes data] = true.
Proof. intros H1 H2 H3. unfold tail_data. cbn [msg_of_list]. rewrite !msg_ok_cons. cbn [val_ok msg_ok]. rewrite H1, H2, H3. reflexivity. Qed.

(* a datagram long enough to be an IPv8 message has a message-id byte *)
Lemma could_be_ipv8_idx22 data : could_be_ipv8 data = true -> exists m, idx data 22 = Ok m.
Proof.
  unfold could_be_ipv8, idx, blen. intros H. apply andb_true_iff in H as [H _]. apply andb_true_iff in H as [H _].
  cbn [Z.ltb Z.compare orb]. destruct (Z.of_nat (length data) <=? 22) eqn:E; [lia|].
  destruct (nth_error data (Z.to_nat 22)) as [m|] eqn:En; [eauto|]. apply nth_error_None in En. lia.
Qed.

Section Endpoint.
Variables key nonce : Type.
Variable enc : key -> dir -> nonce -> bytes -> bytes.
Variable dec : key -> dir -> bytes -> option bytes.
Notation node := (node key).
Notation on_packet := (on_packet enc dec).
Notation incoming_crypto := (incoming_crypto dec).
Notation outgoing_crypto := (outgoing_crypto enc).
Notation ep_send_cell := (ep_send_cell enc).
Notation send_cell := (send_cell enc).
Notation send_data := (send_data enc).
Notation community_on_cell_packet := (community_on_cell_packet enc).
Notation on_packet_from_circuit := (on_packet_from_circuit enc).
Notation enc_layers := (enc_layers enc).

Lemma send_cell_packed (nd : node) target cid mid m vals rest ns :
  cid_ok cid -> pack_msg no_keys m vals = Ok rest -> (mid <? 0) || (255 <? mid) = false ->
  send_cell nd target cid mid (MCons (FStruct [PU 4]) m) vals ns
  = ep_send_cell nd target (mkCell cid (mid :: rest) (NO_CRYPTO mid) false) ns.
Proof.
  intros Hc Hp Hm. unfold M04_onion.send_cell. rewrite (cell_payload_pack m vals rest cid Hc Hp). cbn [bind].
  rewrite Hm, skipn_len_app by (rewrite be_encode_length; reflexivity). reflexivity.
Qed.

Definition bump (ci : circuit key) : circuit key :=
  mkCircuit (c_goal ci) (c_ctype ci) (c_hops ci) (c_unverified ci) (c_hs ci) (c_closing ci) (c_early ci + 1).

(* the originator: all hop layers, first hop outermost *)
Lemma origin_send (nd : node) target cid ci ks m0 rest e0 ns :
  assoc cid (n_circuits nd) = Some ci -> c_hs ci = None -> map h_keys (c_hops ci) = map Some ks ->
  let early := (m0 =? 4) || (c_early ci <? n_max_early nd) in
  ep_send_cell nd target (mkCell cid (m0 :: rest) false e0) ns
  = Ok (set_circuits nd (upd cid (if early then bump ci else ci) (n_circuits nd)),
        [Send target (cell_to_bin (n_prefix nd)
                        (mkCell cid (enc_layers FORWARD ks (drawn ns (length ks)) (m0 :: rest)) false early))]).
Proof.
  intros Ha Hh Hk early. unfold M04_onion.ep_send_cell. cbn [cl_cid cl_msg cl_plain]. rewrite Ha.
  rewrite idx_head. cbn [bind]. fold early. fold (bump ci).
  unfold M04_onion.outgoing_crypto. cbn [cl_cid n_circuits set_circuits]. rewrite assoc_upd_same.
  assert (Hh' : c_hs (if early then bump ci else ci) = None) by (destruct early; exact Hh).
  assert (Hk' : c_hops (if early then bump ci else ci) = c_hops ci) by (destruct early; reflexivity).
  rewrite Hh', Hk'. unfold encrypt_cell. cbn [cl_plain cl_msg].
  rewrite (encrypt_hops_layers key nonce enc FORWARD (c_hops ci) ks ns (m0 :: rest) Hk).
  cbn [bind catch_crypto set_msg cl_cid cl_plain cl_early n_prefix set_circuits]. reflexivity.
Qed.

(* hidden-service circuits: the end-to-end layer goes on first (innermost) *)
Lemma origin_send_hs (nd : node) target cid ci ks hk m0 rest e0 ns :
  assoc cid (n_circuits nd) = Some ci -> c_hs ci = Some hk -> c_hops ci <> [] ->
  map h_keys (c_hops ci) = map Some ks ->
  let early := (m0 =? 4) || (c_early ci <? n_max_early nd) in
  ep_send_cell nd target (mkCell cid (m0 :: rest) false e0) ns
  = Ok (set_circuits nd (upd cid (if early then bump ci else ci) (n_circuits nd)),
        [Send target (cell_to_bin (n_prefix nd)
                        (mkCell cid (enc_layers FORWARD ks (drawn (shift ns) (length ks))
                                       (enc hk (hs_out_dir (c_ctype ci)) (ns O) (m0 :: rest))) false early))]).
Proof.
  intros Ha Hh Hn Hk early. destruct (nonempty_cons (c_hops ci) Hn) as (h0 & htl & Hne).
  unfold M04_onion.ep_send_cell. cbn [cl_cid cl_msg cl_plain]. rewrite Ha.
  rewrite idx_head. cbn [bind]. fold early. fold (bump ci).
  unfold M04_onion.outgoing_crypto. cbn [cl_cid n_circuits set_circuits]. rewrite assoc_upd_same.
  assert (Hh' : c_hs (if early then bump ci else ci) = Some hk) by (destruct early; exact Hh).
  assert (Hk' : c_hops (if early then bump ci else ci) = c_hops ci) by (destruct early; reflexivity).
  assert (Ht' : c_ctype (if early then bump ci else ci) = c_ctype ci) by (destruct early; reflexivity).
  rewrite Hh'. unfold circuit_hop. rewrite Hk', Ht', Hne. cbn [bind].
  unfold encrypt_cell. cbn [cl_plain cl_msg rev app encrypt_hops h_keys bind set_msg].
  change (rev htl ++ [h0]) with (rev (h0 :: htl)). rewrite <- Hne.
  rewrite (encrypt_hops_layers key nonce enc FORWARD (c_hops ci) ks (shift ns) _ Hk).
  cbn [bind catch_crypto set_msg cl_cid cl_plain cl_early n_prefix set_circuits]. reflexivity.
Qed.

(* an exit socket answers with one BACKWARD layer *)
Lemma exit_send (nd : node) target cid es k msg e0 ns :
  assoc cid (n_circuits nd) = None -> assoc cid (n_exits nd) = Some es -> h_keys (es_hop es) = Some k ->
  ep_send_cell nd target (mkCell cid msg false e0) ns
  = Ok (nd, [Send target (cell_to_bin (n_prefix nd) (mkCell cid (enc k BACKWARD (ns O) msg) false e0))]).
Proof.
  intros Hc He Hk. unfold M04_onion.ep_send_cell. cbn [cl_cid]. rewrite Hc. cbn [bind].
  unfold M04_onion.outgoing_crypto. cbn [cl_cid]. rewrite Hc, He.
  unfold encrypt_cell. cbn [cl_plain cl_msg rev app encrypt_hops]. rewrite Hk.
  cbn [bind catch_crypto set_msg cl_cid cl_plain cl_early]. reflexivity.
Qed.

(* An id that is no relay id: incoming_crypto opens the cell.  What does not open is dropped; what opens goes to
   the community unless the relay_early rules forbid. *)
Lemma endpoint_drops (nd : node) src c rnd ns :
  length (n_prefix nd) = 22%nat -> cid_ok (cl_cid c) -> assoc (cl_cid c) (n_relays nd) = None ->
  incoming_crypto nd c = Ok None ->
  on_packet nd src (cell_to_bin (n_prefix nd) c) rnd ns = Ok (nd, []).
Proof.
  intros Hp Hc Hr Hi. rewrite on_packet_cell by assumption. unfold process_cell_c, has. rewrite Hr, Hi. reflexivity.
Qed.

Lemma endpoint_opens (nd : node) src c cid m0 rest early rnd ns :
  length (n_prefix nd) = 22%nat -> cid_ok (cl_cid c) -> assoc (cl_cid c) (n_relays nd) = None ->
  incoming_crypto nd c = Ok (Some (mkCell cid (m0 :: rest) false early)) ->
  0 < n_max_early nd -> (early = false -> m0 <> 4) ->
  on_packet nd src (cell_to_bin (n_prefix nd) c) rnd ns
  = community_on_cell_packet nd src (cell_to_bin (n_prefix nd) (mkCell cid (m0 :: rest) false early)) rnd ns.
Proof.
  intros Hp Hc Hr Hi Hm H4. rewrite on_packet_cell by assumption. unfold process_cell_c, has. rewrite Hr, Hi.
  cbn [bind cl_msg length Nat.eqb cl_early cl_plain andb]. rewrite idx_head. cbn [bind].
  destruct ((negb early && (m0 =? 4)) || (n_max_early nd <=? 0)) eqn:E; [|reflexivity].
  destruct early; cbn [negb andb orb] in E; [lia | specialize (H4 eq_refl); lia].
Qed.

Lemma incoming_crypto_exit (nd : node) c es :
  assoc (cl_cid c) (n_exits nd) = Some es ->
  incoming_crypto nd c = catch_crypto (decrypt_cell dec c FORWARD [es_hop es]).
Proof.
  intros He. unfold M04_onion.incoming_crypto. rewrite He. destruct (assoc (cl_cid c) (n_circuits nd)); reflexivity.
Qed.

Lemma incoming_crypto_origin (nd : node) c ci :
  assoc (cl_cid c) (n_exits nd) = None -> assoc (cl_cid c) (n_circuits nd) = Some ci ->
  incoming_crypto nd c
  = catch_crypto (do c1 <- decrypt_cell dec c BACKWARD (c_hops ci);
                  match c_hs ci with
                  | Some hk => do h0 <- circuit_hop ci;
                               decrypt_cell dec c1 (hs_in_dir (c_ctype ci)) [mkHop (h_pk h0) (h_addr h0) (Some hk)]
                  | None => Ok c1
                  end).
Proof. intros He Ha. unfold M04_onion.incoming_crypto. rewrite He, Ha. reflexivity. Qed.

Lemma exit_opens (nd : node) src cid es k m0 rest early n rnd ns :
  aead_correct enc dec -> length (n_prefix nd) = 22%nat -> cid_ok cid ->
  assoc cid (n_relays nd) = None -> assoc cid (n_exits nd) = Some es -> h_keys (es_hop es) = Some k ->
  0 < n_max_early nd -> (early = false -> m0 <> 4) ->
  on_packet nd src (cell_to_bin (n_prefix nd) (mkCell cid (enc k FORWARD n (m0 :: rest)) false early)) rnd ns
  = community_on_cell_packet nd src (cell_to_bin (n_prefix nd) (mkCell cid (m0 :: rest) false early)) rnd ns.
Proof.
  intros C Hp Hc Hr He Hk Hm H4. apply endpoint_opens; try assumption.
  erewrite incoming_crypto_exit by exact He. unfold decrypt_cell. cbn [cl_plain cl_msg decrypt_hops]. rewrite Hk, C. reflexivity.
Qed.

Lemma exit_drops (nd : node) src cid es k body early rnd ns :
  length (n_prefix nd) = 22%nat -> cid_ok cid ->
  assoc cid (n_relays nd) = None -> assoc cid (n_exits nd) = Some es -> h_keys (es_hop es) = Some k ->
  dec k FORWARD body = None ->
  on_packet nd src (cell_to_bin (n_prefix nd) (mkCell cid body false early)) rnd ns = Ok (nd, []).
Proof.
  intros Hp Hc Hr He Hk Hn. apply endpoint_drops; try assumption.
  erewrite incoming_crypto_exit by exact He. unfold decrypt_cell. cbn [cl_plain cl_msg decrypt_hops]. rewrite Hk, Hn. reflexivity.
Qed.

(* the originator opens all layers, first hop first *)
Lemma origin_opens (nd : node) src cid ci ks nl m0 rest early rnd ns :
  aead_correct enc dec -> length (n_prefix nd) = 22%nat -> cid_ok cid ->
  assoc cid (n_relays nd) = None -> assoc cid (n_exits nd) = None ->
  assoc cid (n_circuits nd) = Some ci -> c_hs ci = None ->
  map h_keys (c_hops ci) = map Some ks -> length nl = length ks ->
  0 < n_max_early nd -> (early = false -> m0 <> 4) ->
  on_packet nd src (cell_to_bin (n_prefix nd) (mkCell cid (enc_layers BACKWARD ks nl (m0 :: rest)) false early)) rnd ns
  = community_on_cell_packet nd src (cell_to_bin (n_prefix nd) (mkCell cid (m0 :: rest) false early)) rnd ns.
Proof.
  intros C Hp Hc Hr He Ha Hh Hk Hl Hm H4. apply endpoint_opens; try assumption.
  erewrite incoming_crypto_origin by eassumption. rewrite Hh. unfold decrypt_cell. cbn [cl_plain cl_msg].
  rewrite (decrypt_hops_layers key nonce enc dec BACKWARD (c_hops ci) ks nl _ C Hk Hl). reflexivity.
Qed.

(* ... and then the end-to-end layer, if the circuit has one *)
Lemma origin_opens_hs (nd : node) src cid ci ks nl hk n m0 rest early rnd ns :
  aead_correct enc dec -> length (n_prefix nd) = 22%nat -> cid_ok cid ->
  assoc cid (n_relays nd) = None -> assoc cid (n_exits nd) = None ->
  assoc cid (n_circuits nd) = Some ci -> c_hs ci = Some hk -> c_hops ci <> [] ->
  map h_keys (c_hops ci) = map Some ks -> length nl = length ks ->
  0 < n_max_early nd -> (early = false -> m0 <> 4) ->
  on_packet nd src (cell_to_bin (n_prefix nd)
       (mkCell cid (enc_layers BACKWARD ks nl (enc hk (hs_in_dir (c_ctype ci)) n (m0 :: rest))) false early)) rnd ns
  = community_on_cell_packet nd src (cell_to_bin (n_prefix nd) (mkCell cid (m0 :: rest) false early)) rnd ns.
Proof.
  intros C Hp Hc Hr He Ha Hh Hn Hk Hl Hm H4. destruct (nonempty_cons (c_hops ci) Hn) as (h0 & htl & Hne).
  apply endpoint_opens; try assumption.
  erewrite incoming_crypto_origin by eassumption. rewrite Hh. unfold decrypt_cell at 1. cbn [cl_plain cl_msg].
  rewrite (decrypt_hops_layers key nonce enc dec BACKWARD (c_hops ci) ks nl _ C Hk Hl).
  unfold circuit_hop. rewrite Hne. unfold decrypt_cell. cbn [bind set_msg cl_plain cl_msg decrypt_hops h_keys].
  rewrite C. reflexivity.
Qed.

(* a body that does not open under the circuit's keys is dropped, state untouched *)
Lemma origin_drops (nd : node) src cid ci body early rnd ns :
  length (n_prefix nd) = 22%nat -> cid_ok cid ->
  assoc cid (n_relays nd) = None -> assoc cid (n_exits nd) = None ->
  assoc cid (n_circuits nd) = Some ci ->
  decrypt_hops dec BACKWARD (c_hops ci) body = Raise CryptoError ->
  on_packet nd src (cell_to_bin (n_prefix nd) (mkCell cid body false early)) rnd ns = Ok (nd, []).
Proof.
  intros Hp Hc Hr He Ha Hd. apply endpoint_drops; try assumption.
  erewrite incoming_crypto_origin by eassumption. unfold decrypt_cell. cbn [cl_plain cl_msg]. rewrite Hd. reflexivity.
Qed.

(* cells for ids the node does not know *)
Lemma unknown_circuit_dropped (nd : node) src cid body early rnd ns :
  length (n_prefix nd) = 22%nat -> cid_ok cid ->
  assoc cid (n_relays nd) = None -> assoc cid (n_exits nd) = None -> assoc cid (n_circuits nd) = None ->
  on_packet nd src (cell_to_bin (n_prefix nd) (mkCell cid body false early)) rnd ns = Ok (nd, []).
Proof.
  intros Hp Hc Hr He Ha. apply endpoint_drops; try assumption.
  unfold M04_onion.incoming_crypto. cbn [cl_cid cl_plain]. rewrite He, Ha. reflexivity.
Qed.

(* on_cell and unwrap of a cell whose plaintext flag passes the create / created check *)
Lemma community_cell_any (nd : node) src cid m0 rest pl early rnd ns :
  length (n_prefix nd) = 22%nat -> cid_ok cid -> (pl = true -> NO_CRYPTO m0 = true) ->
  community_on_cell_packet nd src (cell_to_bin (n_prefix nd) (mkCell cid (m0 :: rest) pl early)) rnd ns
  = try_catch (on_packet_from_circuit nd src (n_prefix nd ++ [m0] ++ be_encode 4 cid ++ rest) cid rnd ns)
              (fun _ => Ok (nd, [])).
Proof.
  intros Hp Hc Hn. unfold M04_onion.community_on_cell_packet.
  rewrite cell_to_bin_prefix by exact Hp. rewrite bytes_eqb_refl. cbn [negb orb].
  pose proof (cell_to_bin_blen (n_prefix nd) (mkCell cid (m0 :: rest) pl early) Hp) as Hl.
  pose proof (blen_nonneg (m0 :: rest)) as Hnn. cbn [cl_msg] in Hl.
  destruct (blen (cell_to_bin (n_prefix nd) (mkCell cid (m0 :: rest) pl early)) <? 23) eqn:E; [lia|].
  unfold M04_onion.on_cell. rewrite from_bin_to_bin by assumption. cbn [bind cl_plain cl_cid cl_msg].
  assert (Hs : (if pl then do m <- idx (m0 :: rest) 0; Ok (negb (NO_CRYPTO m)) else Ok false) = Ok false).
  { destruct pl; [|reflexivity]. rewrite idx_head. cbn [bind]. rewrite (Hn eq_refl). reflexivity. }
  rewrite Hs. cbn [bind]. unfold unwrap. cbn [cl_cid cl_msg].
  destruct Hc as [H0 H1]. apply Z.ltb_ge in H0. apply Z.leb_gt in H1.
  rewrite H0, H1, slice_head1, slice_tail1. reflexivity.
Qed.

Lemma community_cell (nd : node) src cid m0 rest early rnd ns :
  length (n_prefix nd) = 22%nat -> cid_ok cid ->
  community_on_cell_packet nd src (cell_to_bin (n_prefix nd) (mkCell cid (m0 :: rest) false early)) rnd ns
  = try_catch (on_packet_from_circuit nd src (n_prefix nd ++ [m0] ++ be_encode 4 cid ++ rest) cid rnd ns)
              (fun _ => Ok (nd, [])).
Proof. intros Hp Hc. apply community_cell_any; [exact Hp | exact Hc | discriminate]. Qed.

(* a cell message as the handler of its first byte sees it *)
Lemma cell_dispatch (nd : node) src cid m0 rest pl early rnd ns :
  length (n_prefix nd) = 22%nat -> cid_ok cid -> (pl = true -> NO_CRYPTO m0 = true) ->
  let data := n_prefix nd ++ [m0] ++ be_encode 4 cid ++ rest in
  community_on_cell_packet nd src (cell_to_bin (n_prefix nd) (mkCell cid (m0 :: rest) pl early)) rnd ns
  = try_catch
      (if negb (existsb (Z.eqb m0) (n_handlers nd)) then Ok (nd, [])
       else try_catch
         (if m0 =? 1 then on_data nd src data
          else if m0 =? 6 then on_ping enc nd src data ns
          else if m0 =? 7 then on_pong nd src data
          else if m0 =? 19 then on_test_request enc nd src data cid rnd ns
          else if m0 =? 20 then on_test_response nd src data cid
          else Ok (nd, [Control m0 src cid data]))
         (fun _ => Ok (nd, [])))
      (fun _ => Ok (nd, [])).
Proof.
  intros Hp Hc Hn data. rewrite community_cell_any by assumption. unfold data, M04_onion.on_packet_from_circuit.
  rewrite slice_upto by (rewrite Hp; reflexivity). rewrite bytes_eqb_refl. cbn [negb app].
  rewrite idx_at_offset by (rewrite Hp; reflexivity). reflexivity.
Qed.

Lemma on_data_decode (nd : node) cid dest org data rest :
  length (n_prefix nd) = 22%nat -> cid_ok cid ->
  addr_ok false dest = true -> addr_ok false org = true -> bytes_okb data = true ->
  pack_msg no_keys tail_data [VAddr dest; VAddr org; VBytes data] = Ok rest ->
  unpack_msg no_keys fmt_data (n_prefix nd ++ [1] ++ be_encode 4 cid ++ rest) 23
  = Ok ([VInt cid; VAddr dest; VAddr org; VBytes data], (23 + length (be_encode 4 cid ++ rest))%nat).
Proof.
  intros Hp Hc H1 H2 H3 Hpk. rewrite fmt_data_eq.
  apply cell_payload_unpack; auto. apply data_msg_ok; assumption.
Qed.

Lemma on_data_exit (nd : node) src cid dest org data rest es :
  length (n_prefix nd) = 22%nat -> cid_ok cid ->
  addr_ok false dest = true -> addr_ok false org = true -> bytes_okb data = true ->
  pack_msg no_keys tail_data [VAddr dest; VAddr org; VBytes data] = Ok rest ->
  assoc cid (n_circuits nd) = None -> assoc cid (n_exits nd) = Some es -> is_null dest = false ->
  (es_enabled es = true \/ ip_eqb src (h_addr (es_hop es)) = true) ->
  on_data nd src (n_prefix nd ++ [1] ++ be_encode 4 cid ++ rest)
  = Ok (enabled_node nd cid es, [ExitSendto cid data dest]).
Proof.
  intros Hp Hc H1 H2 H3 Hpk Hci Hes Hnn Hen. unfold M04_onion.on_data.
  rewrite (on_data_decode nd cid dest org data rest) by assumption. cbn [bind].
  rewrite Hci, Hnn. cbn [negb]. unfold exit_data, enabled_node. rewrite Hes.
  destruct (es_enabled es); [reflexivity|]. destruct Hen as [Hen|Hen]; [discriminate|]. rewrite Hen. reflexivity.
Qed.

(* data that came back: attributed to the origin the exit observed, under this circuit's id *)
Lemma on_data_origin (nd : node) src cid dest org data rest ci h0 :
  length (n_prefix nd) = 22%nat -> cid_ok cid ->
  addr_ok false dest = true -> addr_ok false org = true -> bytes_okb data = true ->
  pack_msg no_keys tail_data [VAddr dest; VAddr org; VBytes data] = Ok rest ->
  assoc cid (n_circuits nd) = Some ci -> circuit_hop ci = Ok h0 -> h_addr h0 = src ->
  on_data nd src (n_prefix nd ++ [1] ++ be_encode 4 cid ++ rest)
  = Ok (nd,
        if could_be_ipv8 data && negb (is_e2e (c_ctype ci)) then
          if bytes_eqb (n_prefix nd) (slice data None (Some 22)) then
            match idx data 22 with
            | Ok m => if existsb (Z.eqb m) (n_data_ids nd) then [Reinject org data cid] else []
            | Raise _ => []
            end
          else if n_tunnel_ep nd then [NotifyOther org data] else []
        else [RawData cid org data]).
Proof.
  intros Hp Hc H1 H2 H3 Hpk Hci Hh Ha. unfold M04_onion.on_data.
  rewrite (on_data_decode nd cid dest org data rest) by assumption. cbn [bind].
  rewrite Hci, Hh. cbn [bind]. rewrite Ha, addr_eqb_refl.
  destruct (could_be_ipv8 data && negb (is_e2e (c_ctype ci))) eqn:Ecb; [|reflexivity].
  destruct (bytes_eqb (n_prefix nd) (slice data None (Some 22))).
  - destruct (could_be_ipv8_idx22 data) as [m Em]; [apply andb_true_iff in Ecb; apply Ecb|].
    rewrite Em. cbn [bind]. destruct (existsb (Z.eqb m) (n_data_ids nd)); reflexivity.
  - destruct (n_tunnel_ep nd); reflexivity.
Qed.

End Endpoint.
