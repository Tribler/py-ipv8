(* C08: the term-algebra instance satisfies every hypothesis the proofs use (so they are jointly satisfiable),
   with a concrete derivability relation for the secrecy statement; and a concrete two-hop run. *)
From Coq Require Import ZArith List Bool Lia.
From IPV8V Require Import lib.PyErr model.M08_handshake model.M08_toy spec.S08_knowledge proofs.P08_base.
Import ListNotations.
Open Scope Z_scope.

Lemma tpk_eqb_eq a b : tpk_eqb a b = true -> a = b.
Proof. destruct a, b; cbn; intros H; try discriminate; apply Z.eqb_eq in H; congruence. Qed.
Lemma tsec_eqb_eq a b : tsec_eqb a b = true -> a = b.
Proof.
  destruct a, b; cbn; intros H; try discriminate; apply andb_true_iff in H; destruct H as [H1 H2];
    apply Z.eqb_eq in H1; apply Z.eqb_eq in H2; congruence.
Qed.
Lemma tpk_eqb_refl a : tpk_eqb a a = true.
Proof. destruct a; cbn; apply Z.eqb_refl. Qed.
Lemma tsec_eqb_refl a : tsec_eqb a a = true.
Proof. destruct a; cbn; rewrite !Z.eqb_refl; reflexivity. Qed.

Lemma toy_tag_eqb_true : forall a b, tag_eqb Toy a b = true -> a = b.
Proof.
  cbn. intros a b. destruct a, b; cbn; intros H; try discriminate.
  - apply andb_true_iff in H. destruct H as [H1 H2]. apply tsec_eqb_eq in H1. apply tpk_eqb_eq in H2. congruence.
  - apply Z.eqb_eq in H. congruence.
Qed.
Lemma toy_tag_eqb_refl : forall a, tag_eqb Toy a a = true.
Proof. cbn. intros a. destruct a; cbn; [rewrite tsec_eqb_refl, tpk_eqb_refl; reflexivity|apply Z.eqb_refl]. Qed.
Lemma toy_mac_inj : forall s p s' p', mac Toy s p = mac Toy s' p' -> s = s' /\ p = p'.
Proof. cbn. intros s p s' p' H. inversion H. auto. Qed.
Lemma toy_dh_comm : forall a b, dh Toy a (pub Toy b) = dh Toy b (pub Toy a).
Proof. cbn. intros a b. rewrite Z.min_comm, Z.max_comm. reflexivity. Qed.
Lemma toy_dh_inj : forall a a' P s, dh Toy a P = Some s -> dh Toy a' P = Some s -> a = a'.
Proof.
  cbn. intros a a' P s. destruct P as [b|j|j]; cbn; intros H1 H2; try discriminate.
  - rewrite <- H2 in H1. inversion H1. lia.
  - rewrite <- H2 in H1. inversion H1. reflexivity.
Qed.
Lemma toy_pub_inj : forall a b, pub Toy a = pub Toy b -> a = b.
Proof. cbn. intros a b H. inversion H. reflexivity. Qed.
Lemma toy_cdec_cenc : forall k l, cdec Toy k (cenc_of Toy k l) = Ok l.
Proof. cbn. intros [s1 s2] l. cbn. rewrite !tsec_eqb_refl. reflexivity. Qed.

Lemma toy_dh_hidden : forall (A : list Z) a P s, dh Toy a P = Some s -> tcan_sec A s ->
  In a A \/ exists b, P = pub Toy b /\ In b A.
Proof.
  cbn. intros A a P s H CS. destruct CS as [a' p' s I H'].
  destruct P as [b|j|j]; cbn in H; try discriminate; inversion H; subst s; clear H.
  - destruct p' as [b'|j'|j']; cbn in H'; try discriminate. inversion H' as [[E1 E2]].
    assert (a' = a \/ a' = b) as [->| ->] by lia; [left; auto|right; exists b; auto].
  - destruct p' as [b'|j'|j']; cbn in H'; try discriminate. inversion H'; subst. left; auto.
Qed.
Lemma toy_kdf_hidden : forall (A : list Z) s1 s2, tcan_key A (kdf Toy s1 s2) -> tcan_sec A s1 /\ tcan_sec A s2.
Proof. cbn. intros A s1 s2 H. inversion H; subst. auto. Qed.

Lemma toy_messages_as_sent :
  acts (step tO0 (EvNewCircuit 7 2 None [mkPeer 1 11] 6 (orc 100 500 [] 0 0))) = [Send 11 (@MCreate Toy 7 500 0 (TPub 100))]
  /\ acts (handle (blank 1) 10 (@MCreate Toy 7 500 0 (TPub 100)) (orc 101 0 [mkPeer 2 12; mkPeer 2 12] 0 0)) = [Send 10 created1]
  /\ acts (handle tO1 11 created1 (orc 102 501 [] 0 0)) = [Send 11 (@MExtend Toy 7 501 2 (TPub 102) 0)]
  /\ acts (handle tA1 10 (@MExtend Toy 7 501 2 (TPub 102) 0) (orc 0 0 [] 8 600)) = [Send 12 (@MCreate Toy 8 600 1 (TPub 102))]
  /\ acts (handle (blank 2) 11 (@MCreate Toy 8 600 1 (TPub 102)) (orc 103 0 [] 0 0)) = [Send 11 created2]
  /\ acts (handle tA2 12 created2 (orc 0 0 [] 0 0)) = [RmExit 7; Send 10 extended2].
Proof. repeat split. Qed.

Lemma toy_final_state :
  hops_of tO3 7 = Some [mkHop (C := Toy) (mkPeer 1 11) (Some (TKdf (TDH 100 101) (TDH 1 100))) (Some 100);
                        mkHop (C := Toy) (mkPeer 2 0) (Some (TKdf (TDH 102 103) (TDH 2 102))) (Some 102)]
  /\ node_keys tA3 7 = Some (TKdf (TDH 100 101) (TDH 1 100))
  /\ node_keys tB1 8 = Some (TKdf (TDH 102 103) (TDH 2 102))
  /\ n_retry tO3 = [].
Proof. repeat split. Qed.

Lemma toy_subst_eph_accepted :
  hops_of (st (handle tO1 11 subst_eph (orc 102 501 [] 0 0))) 7
  = Some [mkHop (C := Toy) (mkPeer 1 11) (Some (TKdf (TDH 66 100) (TDH 1 100))) (Some 100)]
  /\ ~ tcan_key [66; 2; 3] (TKdf (TDH 66 100) (TDH 1 100)).
Proof.
  split; [reflexivity|].
  intros H. apply (toy_kdf_hidden [66; 2; 3]) in H. destruct H as [_ H].
  destruct (toy_dh_hidden [66; 2; 3] 1 (TPub 100) (TDH 1 100) eq_refl H) as [I|(b & E & I)].
  - cbn in I. lia.
  - inversion E; subst. cbn in I. lia.
Qed.
