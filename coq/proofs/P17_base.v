(* C17 - basic lemmas: dicts, tables that only grow, the pieces of substantiate. *)
From Coq Require Import ZArith List Bool.
From IPV8V Require Import lib.PyErr lib.Bytes model.M16_tokentree model.M17_consent
  proofs.P16_gather proofs.P16_props.
Import ListNotations.
Open Scope Z_scope.

Lemma alookup_aset {V} k k2 (v : V) l :
  alookup k2 (aset k v l) = if bytes_eqb k k2 then Some v else alookup k2 l.
Proof.
  induction l as [|[k' v'] l IH]; simpl; [reflexivity|].
  destruct (bytes_eqb k' k) eqn:E; simpl.
  - apply bytes_eqb_eq in E. subst k'. destruct (bytes_eqb k k2); reflexivity.
  - rewrite IH. destruct (bytes_eqb k' k2) eqn:E2; [|reflexivity].
    apply bytes_eqb_eq in E2. subst k'. rewrite bytes_eqb_sym, E. reflexivity.
Qed.

Lemma alookup_aset_same {V} k (v : V) l : alookup k (aset k v l) = Some v.
Proof. rewrite alookup_aset, bytes_eqb_refl. reflexivity. Qed.

Lemma alookup_aset_other {V} k k2 (v : V) l : k <> k2 -> alookup k2 (aset k v l) = alookup k2 l.
Proof. intros N. rewrite alookup_aset, (bytes_eqb_neq _ _ N). reflexivity. Qed.

Lemma alookup_In {V} k (v : V) l : alookup k l = Some v -> exists k', In (k', v) l /\ k' = k.
Proof.
  induction l as [|[k' v'] l IH]; simpl; [discriminate|].
  destruct (bytes_eqb k' k) eqn:E; intros H.
  - inversion H; subst. apply bytes_eqb_eq in E. eauto.
  - destruct (IH H) as [k2 [A B]]. eauto.
Qed.

Lemma get_tree_aset_same k tr ps : get_tree k (aset k tr ps) = tr.
Proof. unfold get_tree. rewrite alookup_aset_same. reflexivity. Qed.

Lemma get_tree_aset_other k k2 tr ps : k <> k2 -> get_tree k2 (aset k tr ps) = get_tree k2 ps.
Proof. intros N. unfold get_tree. rewrite alookup_aset_other; auto. Qed.

Definition prefix {A} (a b : list A) : Prop := exists x, b = a ++ x.

(* tables only grow at the end, by rows satisfying P: this one fact gives the prefix, the preservation of row-wise validity and
   the description of the new rows *)
Definition grown {A} (P : A -> Prop) (d d' : list A) : Prop := exists x, d' = d ++ x /\ Forall P x.

Lemma prefix_refl {A} (a : list A) : prefix a a.
Proof. exists []. rewrite app_nil_r. reflexivity. Qed.

Lemma prefix_trans {A} (a b c : list A) : prefix a b -> prefix b c -> prefix a c.
Proof. intros [x E1] [y E2]. exists (x ++ y). subst. rewrite app_assoc. reflexivity. Qed.

Lemma prefix_incl {A} (a b : list A) : prefix a b -> incl a b.
Proof. intros [x E] y Hy. subst. apply in_or_app. auto. Qed.

Lemma prefix_app {A} (a x : list A) : prefix a (a ++ x).
Proof. exists x. reflexivity. Qed.

Lemma grown_refl {A} (P : A -> Prop) d : grown P d d.
Proof. exists []. rewrite app_nil_r. auto. Qed.

Lemma grown_trans {A} (P : A -> Prop) a b c : grown P a b -> grown P b c -> grown P a c.
Proof.
  intros [x [E1 F1]] [y [E2 F2]]. exists (x ++ y). subst. rewrite app_assoc. split; [reflexivity|].
  apply Forall_app. auto.
Qed.

Lemma grown_weaken {A} (P Q : A -> Prop) d d' : (forall x, P x -> Q x) -> grown P d d' -> grown Q d d'.
Proof. intros H [x [E F]]. exists x. split; [exact E|]. eapply Forall_impl; eauto. Qed.

Lemma grown_prefix {A} (P : A -> Prop) d d' : grown P d d' -> prefix d d'.
Proof. intros [x [E _]]. exists x. exact E. Qed.

Lemma grown_In {A} (P : A -> Prop) d d' x : grown P d d' -> In x d' -> In x d \/ P x.
Proof.
  intros [y [E F]] H. subst. apply in_app_or in H as [H|H]; [left; exact H|right].
  rewrite Forall_forall in F. auto.
Qed.

Lemma grown_Forall {A} (P : A -> Prop) d d' : grown P d d' -> Forall P d -> Forall P d'.
Proof. intros [x [E F]] H. subst. apply Forall_app. auto. Qed.

Lemma grown_insert {A} (P : A -> Prop) (b : bool) d r : P r -> grown P d (if b then d else d ++ [r]).
Proof. intros H. destruct b; [apply grown_refl|]. exists [r]. auto. Qed.

Lemma fold_left_grown {A B} (P : A -> Prop) (f : list A -> B -> list A) :
  (forall d b, grown P d (f d b)) -> forall l d, grown P d (fold_left f l d).
Proof.
  intros H. induction l as [|b l IH]; intros d; simpl; [apply grown_refl|].
  eapply grown_trans; [apply H|apply IH].
Qed.

Lemma insert_att_wide_has r d :
  exists x, In x (insert_att true r d) /\ r_pk x = r_pk r /\ r_auth x = r_auth r /\ r_mptr x = r_mptr r.
Proof.
  unfold insert_att. destruct (existsb (att_conflict true r) d) eqn:E.
  - apply existsb_exists in E as [x [Hx C]]. unfold att_conflict in C.
    apply andb_true_iff in C as [C C3]. apply andb_true_iff in C as [C1 C2].
    apply bytes_eqb_eq in C1, C2, C3. exists x. auto.
  - exists r. split; [apply in_or_app; right; left; reflexivity|auto].
Qed.

Section Base.
Variable hash : bytes -> bytes.
Variable sigverify : bytes -> bytes -> bytes -> bool.
Variable wide : bool.

Notation md_verify := (md_verify sigverify).
Notation att_verify := (att_verify sigverify).
Notation add_metadata := (add_metadata sigverify).
Notation add_att := (add_att sigverify wide).
Notation add_atts := (add_atts sigverify wide).
Notation gather_list := (gather_list hash sigverify).

Definition row_valid (r : attrow) : Prop := sigverify (r_auth r) (r_mptr r) (r_sig r) = true.
Definition mdrow_valid (r : bytes * metadata) : Prop := md_verify (fst r) (snd r) = true.

Lemma add_att_grown subj auth a d :
  grown (fun x => r_pk x = subj /\ r_auth x = auth /\ mkAtt (r_mptr x) (r_sig x) = a /\ row_valid x)
        d (fst (add_att subj auth a d)).
Proof.
  unfold M17_consent.add_att. destruct (att_verify auth a) eqn:E; simpl; [|apply grown_refl].
  apply grown_insert. destruct a. auto.
Qed.

Lemma add_att_flag subj auth a d : snd (add_att subj auth a d) = att_verify auth a.
Proof. unfold M17_consent.add_att. destruct (att_verify auth a); reflexivity. Qed.

Lemma add_atts_cons subj aa atts d c :
  add_atts subj (aa :: atts) d c =
  add_atts subj atts (fst (add_att subj (fst aa) (snd aa) d)) (c && snd (add_att subj (fst aa) (snd aa) d)).
Proof. unfold M17_consent.add_atts. simpl. destruct (add_att subj (fst aa) (snd aa) d). reflexivity. Qed.

Definition carried (subj : bytes) (atts : list (bytes * attestation)) (r : attrow) : Prop :=
  r_pk r = subj /\ In (r_auth r, mkAtt (r_mptr r) (r_sig r)) atts /\ row_valid r.

Lemma add_atts_grown subj : forall atts d c, grown (carried subj atts) d (fst (add_atts subj atts d c)).
Proof.
  induction atts as [|aa atts IH]; intros d c; [apply grown_refl|]. rewrite add_atts_cons.
  eapply grown_trans; (eapply grown_weaken; [|first [apply add_att_grown|apply IH]]).
  - intros x [A [B [C D]]]. split; [exact A|]. split; [|exact D]. left. rewrite B, C. destruct aa. reflexivity.
  - intros x [A [B C]]. split; [exact A|]. split; [right; exact B|exact C].
Qed.

Lemma add_atts_true_verifies subj : forall atts d c,
  snd (add_atts subj atts d c) = true -> c = true /\ Forall (fun aa => att_verify (fst aa) (snd aa) = true) atts.
Proof.
  induction atts as [|aa atts IH]; intros d c H; [auto|]. rewrite add_atts_cons in H.
  apply IH in H as [H F]. apply andb_true_iff in H as [H1 H2]. rewrite add_att_flag in H2. auto.
Qed.

Lemma add_metadata_grown pk d m : grown mdrow_valid d (add_metadata pk m d).
Proof.
  unfold M17_consent.add_metadata. destruct (md_verify pk m) eqn:E; [|apply grown_refl].
  apply grown_insert. exact E.
Qed.

Lemma gather_some_verifies pk f tr t tr' r :
  gather hash sigverify pk f tr t = Ok (tr', Some r) -> tverify sigverify pk t = true.
Proof.
  destruct f as [|f]; cbn [gather]; [discriminate|].
  destruct (tverify sigverify pk t); cbn [negb]; [reflexivity|]. intros H. inversion H.
Qed.

Lemma gather_list_true_verifies pk : forall toks tr c tr' c',
  gather_list pk tr toks c = Ok (tr', c') -> c' = true ->
  c = true /\ Forall (fun t => tverify sigverify pk t = true) toks.
Proof.
  induction toks as [|t toks IH]; intros tr c tr' c' E Hc; cbn [M17_consent.gather_list] in E.
  - inversion E; subst. auto.
  - destruct (gather_top hash sigverify pk tr t) as [[tr1 r]|e] eqn:G; [|discriminate].
    destruct (IH _ _ _ _ E Hc) as [A B]. apply andb_true_iff in A as [A1 A2]. split; [assumption|].
    constructor; [|assumption]. destruct r as [r|]; [|discriminate].
    unfold gather_top in G. eapply gather_some_verifies. exact G.
Qed.

Lemma gather_list_sound pk : forall toks tr c tr' c' P,
  Sound hash sigverify pk P tr -> gather_list pk tr toks c = Ok (tr', c') ->
  exists P', Sound hash sigverify pk P' tr'.
Proof.
  induction toks as [|t toks IH]; intros tr c tr' c' P S E; cbn [M17_consent.gather_list] in E.
  - inversion E; subst. eauto.
  - destruct (gather_top hash sigverify pk tr t) as [[tr1 r]|e] eqn:G; [|discriminate].
    assert (S1 : Sound hash sigverify pk (t :: P) tr) by (eapply Sound_mono; [|exact S]; apply incl_tl, incl_refl).
    destruct (gather_top_spec hash sigverify pk (t :: P) tr t S1 (gpre_of_In sigverify pk (t :: P) t (or_introl eq_refl)))
      as [tr2 [r2 [E2 [S2 _]]]].
    rewrite G in E2. inversion E2; subst. eapply IH; eauto.
Qed.

Lemma sound_rooted pk P tr e :
  Sound hash sigverify pk P tr -> In e (elements tr) -> rooted hash sigverify pk (elements tr) e.
Proof.
  intros [S1 S2 _ _ _] He. apply in_split in He as [e1 [e2 Ee]].
  eapply verify_loop_rooted. eapply verify_elements; eauto.
  eapply Forall_impl; [|exact S1]. simpl. tauto.
Qed.

End Base.
