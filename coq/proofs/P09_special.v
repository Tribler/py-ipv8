(* C09 - what the timing assumption gives, and the invariant when time passes, when a task that is
   neither a removal nor a retry leaves the queue, and over the sweep. *)
From Coq Require Import ZArith List Bool Lia.
From IPV8V Require Import gen.G09_rules model.M09_reclaim spec.S09_reclaim proofs.P09_alist proofs.P09_sweep
  proofs.P09_inv.
Import ListNotations.
Open Scope Z_scope.

Section Special.
Variable st : settings.

(* what `on_time` guarantees at the moment an event is processed *)
Definition tfacts (s : node) : Prop :=
  now s - last_sweep s <= s_sweep st
  /\ (forall x, In x (sleeping s) -> now s <= fst (fst x))
  /\ (forall cid rt, aget cid (retries s) = Some rt -> now s <= rt_due rt).

Lemma on_time_facts s t :
  on_time st s t = true ->
  now s <= t /\ (now s = t \/ starts s = []) /\ tfacts (set_now t s).
Proof.
  unfold on_time. intro H. destruct (andb_prop _ _ H) as [Ha H5]. destruct (andb_prop _ _ Ha) as [Hb H4].
  destruct (andb_prop _ _ Hb) as [Hc H3]. destruct (andb_prop _ _ Hc) as [H1 H2].
  apply Z.leb_le in H1, H2. rewrite forallb_forall in H3, H4.
  split; [exact H1|]. split.
  - apply orb_true_iff in H5. destruct H5 as [H5|H5]; [left; apply Z.eqb_eq; exact H5|].
    right; destruct (starts s); [reflexivity|discriminate].
  - split; [exact H2|]. split.
    + intros x Hin. apply Z.leb_le. exact (H3 _ Hin).
    + intros cid rt Hg. apply Z.leb_le. exact (H4 _ (aget_in _ _ _ Hg)).
Qed.

Lemma scheduled_set_now k cid T s t :
  (now s = t \/ starts s = []) -> scheduled st k cid T s -> scheduled st k cid T (set_now t s).
Proof.
  intros Ht [(dd & rn & Hin & Hle)|(due & Hin & Hle)]; [left | right].
  - exists dd, rn. simpl. split; [exact Hin|]. destruct Ht as [Ht|Ht]; [lia | rewrite Ht in Hin; destruct Hin].
  - exists due. simpl. auto.
Qed.

Lemma entry_ok_set_now k cid r s t :
  (now s = t \/ starts s = []) -> entry_ok st k cid r s -> entry_ok st k cid r (set_now t s).
Proof. intros Ht [H|H]; [left; apply scheduled_set_now; assumption | right; exact H]. Qed.

Lemma inv_set_now w s t :
  now s <= t -> (now s = t \/ starts s = []) -> inv_gen st w s -> inv_gen st w (set_now t s).
Proof.
  intros Hle Ht (Hside & Hrel & Hex & Hrt & Hdr & Hc).
  split; [|split; [|split; [|split; [|split]]]].
  - destruct Hside as [H1 H2]. split; simpl; [lia|]. intros cid c H. destruct (H2 _ _ H). split; lia.
  - intros cid r H. apply entry_ok_set_now; [exact Ht|]. apply Hrel; exact H.
  - intros cid e H. apply entry_ok_set_now; [exact Ht|]. apply Hex; exact H.
  - exact Hrt.
  - intros cid tries ini H. simpl in H. destruct (Hdr _ _ _ H) as (D1 & D2 & D3).
    split; [exact D1|]. split; [exact D2|]. intros c Hc'. specialize (D3 _ Hc'). unfold dretry_ok in *. simpl.
    destruct Ht as [Ht|Ht]; [lia | rewrite Ht in H; destruct H].
  - intros cid c H. apply (circ_ok_carry st w s (set_now t s) cid c c); try reflexivity; auto.
    + intros _ _. apply entry_ok_set_now; exact Ht.
    + intro T. apply scheduled_set_now; exact Ht.
Qed.

Definition relevant (d : deferred) : Prop :=
  match d with DRemove _ _ _ _ | DRetry _ _ _ => True | _ => False end.

Lemma inv_drop_start s i d :
  nth_error (starts s) i = Some d -> ~ relevant d -> inv st s ->
  inv st (set_starts (remove_nth i (starts s)) s).
Proof.
  intros Hn Hd Hi.
  assert (Hk : forall x, relevant x -> In x (starts s) <-> In x (remove_nth i (starts s))).
  { intros x R. split; [|apply in_remove_nth]. intro Hin. eapply in_remove_nth_other; eauto.
    intro E; subst; contradiction. }
  apply (inv_but st None None s); auto; try discriminate.
  - intros k cid T _. apply scheduled_incl; [reflexivity | | auto]. intros dd rn. apply Hk. exact I.
  - intros cid t i0 _. apply Hk. exact I.
  - intros cid r H. split; [discriminate | exact H].
  - intros cid e H. split; [discriminate | exact H].
Qed.

(* evidence by a recent stamp is measured against the new sweep time: where it no longer holds the
   inactivity rule has just fired and a removal task is in the queue *)
Lemma sweep_entry_ok k cid r s :
  now s - last_sweep s <= s_sweep st ->
  (la r + s_max_inactive st < now s -> In (DRemove k cid 0 false) (sweep_spec st s)) ->
  entry_ok st k cid r s -> entry_ok st k cid r (sweep st s).
Proof.
  intros Ht Hrule [H|H].
  - left. revert H. apply scheduled_incl; [reflexivity | | auto].
    intros dd rn Hin. rewrite starts_sweep. apply in_or_app; left; exact Hin.
  - destruct (Z_lt_le_dec (la r + s_max_inactive st) (now s)) as [Hlt|Hge]; [|right; simpl; lia].
    left; left. exists 0, false. split; [rewrite starts_sweep; apply in_or_app; right; exact (Hrule Hlt)|].
    unfold B_entry. simpl. lia.
Qed.

Lemma inv_sweep s :
  now s - last_sweep s <= s_sweep st -> inv st s -> inv st (sweep st s).
Proof.
  intros Ht (Hside & Hrel & Hex & Hrt & Hdr & Hc).
  assert (Hs : forall x, In x (starts s) -> In x (starts (sweep st s))).
  { intros x H. rewrite starts_sweep. apply in_or_app; left; exact H. }
  assert (Hin : forall la0, la0 + s_max_inactive st < now s -> (la0 + s_max_inactive st <? now s) = true) by (intros; lia).
  split; [|split; [|split; [|split; [|split]]]].
  - destruct Hside as [H1 H2]. split; [simpl; lia | exact H2].
  - intros cid r H. apply sweep_entry_ok; [exact Ht | | exact (Hrel _ _ H)].
    intro Hlt. apply (sweep_spec_in st s KRelay). exists r, false.
    split; [apply aget_in; exact H|]. split; [|split; reflexivity].
    unfold relay_verdict, inactive. rewrite (Hin _ Hlt). reflexivity.
  - intros cid e H. apply sweep_entry_ok; [exact Ht | | exact (Hex _ _ H)].
    intro Hlt. apply (sweep_spec_in st s KExit). exists e, false.
    split; [apply aget_in; exact H|]. split; [|split; reflexivity].
    unfold exit_verdict, inactive. rewrite (Hin _ Hlt). reflexivity.
  - exact Hrt.
  - intros cid tries ini H. rewrite starts_sweep in H. apply in_app_or in H. destruct H as [H|H]; [exact (Hdr _ _ _ H)|].
    apply in_sweep_spec_remove in H. destruct H as (k & c' & dd & H); discriminate.
  - intros cid c H. apply (circ_ok_carry st None s (sweep st s) cid c c); try reflexivity; auto.
    + intros Ecl Erd. apply sweep_entry_ok; [exact Ht|].
      intro Hlt. apply (sweep_spec_in st s KCirc). exists c, false.
      split; [apply aget_in; exact H|]. split; [|split; reflexivity].
      unfold circuit_verdict, c_ready, inactive. rewrite Ecl, (Hin _ Hlt).
      destruct (c_goal c <=? c_hops c) eqn:E; [reflexivity | lia].
    + intro T. apply scheduled_incl; [reflexivity | | auto]. intros dd rn. apply Hs.
Qed.

End Special.
