(* C19 - lemmas about the logical database content (no store, no crash): statements, version row,
   schema script, well-formed configuration, the effect of insert calls. *)
From Coq Require Import ZArith List Bool.
From IPV8V Require Import lib.Lists lib.Bytes model.M19_crash spec.S19_durable.
Import ListNotations.
Open Scope Z_scope.

Lemma apply_stmt_fail d q : fst (apply_stmt d q) <> SOk -> snd (apply_stmt d q) = d.
Proof.
  destruct q as [td|ig t r|t c v]; cbn [apply_stmt].
  - destruct (find_table d (t_id td)); cbn; congruence.
  - destruct (find_table d t); [|reflexivity].
    destruct (has_key d t (t_pk t0) (key_of (t_pk t0) r)); [reflexivity|]. cbn. congruence.
  - destruct (find_table d t); cbn; congruence.
Qed.

Lemma find_table_some d t td : find_table d t = Some td -> In td (d_tables d) /\ t_id td = t.
Proof.
  unfold find_table. intros H. apply find_some in H as [H1 H2]. apply Z.eqb_eq in H2. auto.
Qed.

Lemma find_table_none d t : find_table d t = None -> forall td, In td (d_tables d) -> t_id td <> t.
Proof.
  unfold find_table. intros H td Hin E. apply (find_none _ _ H) in Hin. apply Z.eqb_neq in Hin. auto.
Qed.

Lemma find_table_in d td : In td (d_tables d) -> exists td', find_table d (t_id td) = Some td'.
Proof.
  intros H. destruct (find_table d (t_id td)) eqn:E; [eauto|].
  exfalso. exact (find_table_none _ _ E _ H eq_refl).
Qed.

(* the data rows: everything but the option table *)
Definition is_data (tr : Z * row) : bool := negb (fst tr =? T_OPTION).
Definition data_rows (d : dstate) : list (Z * row) := filter is_data (d_rows d).

Lemma in_data_rows d t r : t <> T_OPTION -> (In (t, r) (data_rows d) <-> In (t, r) (d_rows d)).
Proof.
  intros Ht. unfold data_rows. rewrite filter_In. unfold is_data. cbn [fst].
  apply Z.eqb_neq in Ht. rewrite Ht. cbn. tauto.
Qed.

Definition is_version (tr : Z * row) : bool := del_match T_OPTION 0 K_VERSION tr.

Lemma version_row_app_data d t r tabs :
  t <> T_OPTION -> version_row (mkD tabs (d_rows d ++ [(t, r)])) = version_row d.
Proof.
  intros Ht. unfold version_row. cbn [d_rows]. rewrite find_app. cbn [find].
  unfold del_match at 2. cbn [fst]. apply Z.eqb_neq in Ht. rewrite Ht.
  destruct (find _ (d_rows d)); reflexivity.
Qed.

Lemma version_row_tables d tabs : version_row (mkD tabs (d_rows d)) = version_row d.
Proof. reflexivity. Qed.

Lemma find_filter_negb {A} (p : A -> bool) l : find p (filter (fun x => negb (p x)) l) = None.
Proof.
  induction l as [|x l IH]; cbn; [reflexivity|].
  destruct (p x) eqn:E; cbn; [exact IH|]. rewrite E. exact IH.
Qed.

(* deleting the version row leaves the data rows alone *)
Lemma data_rows_delete_version d :
  filter is_data (filter (fun tr => negb (del_match T_OPTION 0 K_VERSION tr)) (d_rows d)) = data_rows d.
Proof.
  unfold data_rows. induction (d_rows d) as [|[t r] l IH]; cbn [filter]; [reflexivity|].
  unfold del_match at 1, is_data at 2. cbn [fst snd]. destruct (t =? T_OPTION) eqn:E; cbn [andb negb].
  - destruct (nth 0 r (-1) =? K_VERSION); cbn [negb filter]; [exact IH|].
    unfold is_data at 1. cbn [fst]. rewrite E. exact IH.
  - cbn [filter]. unfold is_data at 1. cbn [fst]. rewrite E. cbn [negb]. f_equal. exact IH.
Qed.

Lemma data_rows_app_option rows r :
  filter is_data (rows ++ [(T_OPTION, r)]) = filter is_data rows.
Proof. rewrite filter_app. cbn. rewrite app_nil_r. reflexivity. Qed.

Lemma data_rows_app_data rows t r : t <> T_OPTION ->
  filter is_data (rows ++ [(t, r)]) = filter is_data rows ++ [(t, r)].
Proof.
  intros Ht. rewrite filter_app. cbn. unfold is_data. cbn [fst]. apply Z.eqb_neq in Ht. rewrite Ht. reflexivity.
Qed.

Lemma script_split_eq sc : forall tds rest, script_split sc = (tds, rest) -> sc = map SCreate tds ++ rest.
Proof.
  induction sc as [|q sc IH]; cbn [script_split]; intros tds rest E.
  - injection E as <- <-. reflexivity.
  - destruct q as [td|ig t r|t c v]; try (injection E as <- <-; reflexivity).
    destruct (script_split sc) as [a b] eqn:Es. injection E as <- <-.
    cbn [map app]. f_equal. apply IH. reflexivity.
Qed.

Lemma nodup_z_NoDup l : nodup_z l = true -> NoDup l.
Proof.
  induction l as [|x l IH]; cbn [nodup_z]; intros H; [constructor|].
  apply andb_true_iff in H as [H1 H2]. constructor; [|apply IH; exact H2].
  intros Hin. apply negb_true_iff in H1.
  assert (existsb (Z.eqb x) l = true).
  { apply existsb_exists. exists x. split; [exact Hin|apply Z.eqb_refl]. }
  congruence.
Qed.

Lemma insert_okb_shape ops : insert_okb ops = true -> exists ig t, ops = [OExec ig t; OCommit] /\ t <> T_OPTION.
Proof.
  unfold insert_okb. destruct ops as [|[ig t| |] [|[| |] [|? ?]]]; try discriminate.
  intros H. apply negb_true_iff, Z.eqb_neq in H. eauto.
Qed.

Record cfg_wf (cfg : dbcfg) : Prop := {
  w_check : cfg_check cfg =
            [OScript (map SCreate (schema_tables cfg)
                      ++ [SDelete T_OPTION 0 K_VERSION; SInsert false T_OPTION [K_VERSION; cfg_latest cfg]]);
             OCommit];
  w_nodup : NoDup (map t_id (schema_tables cfg));
  w_option : exists td, In td (schema_tables cfg) /\ t_id td = T_OPTION /\ t_pk td = [O];
  w_inserts : forall fn ops, nth_error (cfg_inserts cfg) fn = Some ops ->
              exists ig t td, ops = [OExec ig t; OCommit] /\ t <> T_OPTION /\
                              In td (schema_tables cfg) /\ t_id td = t
}.

Lemma cfg_okb_wf cfg : cfg_okb cfg = true -> cfg_wf cfg.
Proof.
  unfold cfg_okb. intros H.
  destruct (cfg_check cfg) as [|o1 [|o2 [|o3 l]]] eqn:Ec; try discriminate.
  - destruct o1; discriminate.
  - destruct o1 as [| sc |]; try discriminate. destruct o2; try discriminate.
    apply andb_true_iff in H as [H H3]. apply andb_true_iff in H as [H1 H2].
    unfold script_okb in H1. destruct (script_split sc) as [tds rest] eqn:Es.
    apply andb_true_iff in H1 as [H1 Hn]. apply andb_true_iff in H1 as [Hr Ho].
    assert (Est : schema_tables cfg = tds).
    { unfold schema_tables. rewrite Ec, Es. reflexivity. }
    destruct rest as [|q1 [|q2 [|q3 rest]]]; try discriminate.
    { destruct q1; discriminate. }
    2:{ destruct q1; try discriminate. destruct q2; try discriminate. destruct ignore; try discriminate.
        destruct r as [|? [|? [|? ?]]]; discriminate. }
    destruct q1 as [|?|t c v]; try discriminate. destruct q2 as [|ig t2 r|]; try discriminate.
    destruct ig; try discriminate. destruct r as [|k [|v2 [|? ?]]]; try discriminate.
    apply andb_true_iff in Hr as [Hr A6]. apply andb_true_iff in Hr as [Hr A5].
    apply andb_true_iff in Hr as [Hr A4]. apply andb_true_iff in Hr as [Hr A3].
    apply andb_true_iff in Hr as [A1 A2].
    apply Z.eqb_eq in A1, A3, A4, A5, A6. apply Nat.eqb_eq in A2. subst t c v t2 k v2.
    constructor.
    + rewrite Est, Ec. rewrite (script_split_eq _ _ _ Es) at 1. reflexivity.
    + rewrite Est. apply nodup_z_NoDup. exact Hn.
    + rewrite Est. apply existsb_exists in Ho as [td [Hin Htd]]. apply andb_true_iff in Htd as [A B].
      apply Z.eqb_eq in A. exists td. split; [exact Hin|]. split; [exact A|].
      unfold pk_is_first in B. destruct (t_pk td) as [|[|?] [|? ?]]; try discriminate. reflexivity.
    + intros fn ops Hnth. apply nth_error_In in Hnth.
      rewrite forallb_forall in H2, H3. specialize (H2 _ Hnth). specialize (H3 _ Hnth).
      destruct (insert_okb_shape _ H2) as [ig [t [-> Nt]]].
      apply existsb_exists in H3 as [td [Hin Htd]]. apply Z.eqb_eq in Htd. cbn [fst] in Hin.
      exists ig, t, td. rewrite Est. auto.
  - destruct o1; try discriminate. destruct o2; discriminate.
Qed.

(* tables of the schema are found under their own definition on a valid disk *)
Lemma valid_find cfg d t td td' :
  cfg_wf cfg -> incl (d_tables d) (schema_tables cfg) ->
  find_table d t = Some td -> In td' (schema_tables cfg) -> t_id td' = t -> td = td'.
Proof.
  intros W I F Hin Hid. apply find_table_some in F as [F1 F2].
  apply (NoDup_map_inj t_id (schema_tables cfg)); [apply (w_nodup _ W)|apply I; exact F1|exact Hin|congruence].
Qed.

(* pure reading of run_script: intermediate contents, final content, outcome *)
Fixpoint script_pure (d : dstate) (sc : list stmt) : list dstate * dstate * outcome :=
  match sc with
  | [] => ([], d, Done)
  | q :: tl =>
      match sres_err (fst (apply_stmt d q)) with
      | Some e => ([], snd (apply_stmt d q), Raised e)
      | None => let '(ds, d2, o) := script_pure (snd (apply_stmt d q)) tl in
                (snd (apply_stmt d q) :: ds, d2, o)
      end
  end.

Lemma script_pure_app d a b :
  script_pure d (a ++ b) =
  let '(ds1, d1, o1) := script_pure d a in
  match o1 with
  | Raised e => (ds1, d1, o1)
  | Done => let '(ds2, d2, o2) := script_pure d1 b in (ds1 ++ ds2, d2, o2)
  end.
Proof.
  revert d. induction a as [|q a IH]; intros d; cbn [app script_pure].
  - destruct (script_pure d b) as [[ds2 d2] o2]. reflexivity.
  - destruct (sres_err (fst (apply_stmt d q))); [reflexivity|].
    rewrite IH. destruct (script_pure (snd (apply_stmt d q)) a) as [[ds1 d1] o1].
    destruct o1; [|reflexivity]. destruct (script_pure d1 b) as [[ds2 d2] o2]. reflexivity.
Qed.

(* the CREATE TABLE IF NOT EXISTS prefix: rows untouched, tables stay inside the schema, all created *)
Lemma creates_pure cfg : forall tds d,
  incl tds (schema_tables cfg) -> incl (d_tables d) (schema_tables cfg) ->
  exists ds d',
    script_pure d (map SCreate tds) = (ds, d', Done) /\
    Forall (fun x => d_rows x = d_rows d /\ incl (d_tables x) (schema_tables cfg)) ds /\
    d_rows d' = d_rows d /\ incl (d_tables d') (schema_tables cfg) /\
    (forall td, In td (d_tables d) -> In td (d_tables d')) /\
    (forall td, In td tds -> exists td', find_table d' (t_id td) = Some td').
Proof.
  induction tds as [|td tds IH]; intros d I1 I2; cbn [map script_pure].
  - exists [], d. repeat split; auto. intros td [].
  - assert (Itd : In td (schema_tables cfg)) by (apply I1; left; reflexivity).
    assert (Itl : incl tds (schema_tables cfg)) by (intros x Hx; apply I1; right; exact Hx).
    cbn [apply_stmt]. destruct (find_table d (t_id td)) as [td0|] eqn:Ef; cbn [fst snd sres_err].
    + destruct (IH d Itl I2) as [ds [d' [E [F [R [T [K C]]]]]]]. rewrite E.
      exists (d :: ds), d'. split; [reflexivity|]. split; [constructor; auto|].
      split; [exact R|]. split; [exact T|]. split; [exact K|].
      intros x [Hx|Hx]; [|apply C; exact Hx]. subst x.
      apply find_table_some in Ef as [Ef1 <-]. exact (find_table_in _ _ (K _ Ef1)).
    + set (d1 := mkD (d_tables d ++ [td]) (d_rows d)).
      assert (I3 : incl (d_tables d1) (schema_tables cfg)).
      { unfold d1. cbn [d_tables]. intros x Hx. apply in_app_or in Hx as [Hx|[Hx|[]]]; [apply I2; exact Hx|subst; exact Itd]. }
      destruct (IH d1 Itl I3) as [ds [d' [E [F [R [T [K C]]]]]]]. rewrite E.
      exists (d1 :: ds), d'. split; [reflexivity|]. split.
      { constructor; [split; [reflexivity|exact I3]|]. exact F. }
      split; [exact R|]. split; [exact T|]. split.
      { intros x Hx. apply K. unfold d1. cbn [d_tables]. apply in_or_app. left. exact Hx. }
      intros x [Hx|Hx]; [|apply C; exact Hx]. subst x.
      apply find_table_in, K. unfold d1. cbn [d_tables]. apply in_or_app. right. left. reflexivity.
Qed.

Record opened (cfg : dbcfg) (d0 d' : dstate) : Prop := {
  o_version : version_row d' = Some (cfg_latest cfg);
  o_tables : incl (d_tables d') (schema_tables cfg);
  o_found : forall td, In td (schema_tables cfg) -> find_table d' (t_id td) = Some td;
  o_data : data_rows d' = data_rows d0
}.

(* DELETE of the version row, INSERT of the current one, on a content whose option table is keyed on its first
   column: both succeed, the data rows stay, in between there is no version row *)
Lemma version_tail_pure latest d1 otd :
  find_table d1 T_OPTION = Some otd -> t_pk otd = [O] ->
  let d2 := mkD (d_tables d1) (filter (fun tr => negb (del_match T_OPTION 0 K_VERSION tr)) (d_rows d1)) in
  let d3 := mkD (d_tables d1) (d_rows d2 ++ [(T_OPTION, [K_VERSION; latest])]) in
  script_pure d1 [SDelete T_OPTION 0 K_VERSION; SInsert false T_OPTION [K_VERSION; latest]] = ([d2; d3], d3, Done) /\
  version_row d2 = None /\ version_row d3 = Some latest /\
  data_rows d2 = data_rows d1 /\ data_rows d3 = data_rows d1.
Proof.
  intros Efo Hopk d2 d3.
  assert (Hk : has_key d2 T_OPTION [O] (key_of [O] [K_VERSION; latest]) = false).
  { (* no row of the option table has the key of the version row any more *)
    unfold has_key, d2. cbn [d_rows]. induction (d_rows d1) as [|[t r] rows IH]; cbn [filter existsb]; [reflexivity|].
    destruct (del_match T_OPTION 0 K_VERSION (t, r)) eqn:E; cbn [negb]; [exact IH|].
    cbn [existsb]. rewrite IH, orb_false_r.
    unfold row_has_key, del_match in *. cbn [fst snd key_of map nth] in *.
    destruct (t =? T_OPTION); [|reflexivity]. cbn [andb bytes_eqb] in *. rewrite E. reflexivity. }
  assert (D2 : data_rows d2 = data_rows d1) by apply data_rows_delete_version.
  split; [|split; [|split; [|split; [exact D2|]]]].
  - cbn [script_pure apply_stmt]. rewrite Efo. cbn [fst snd sres_err]. fold d2.
    change (find_table d2 T_OPTION) with (find_table d1 T_OPTION). rewrite Efo, Hopk, Hk. reflexivity.
  - unfold version_row, d2. cbn [d_rows]. rewrite find_filter_negb. reflexivity.
  - unfold version_row, d3. cbn [d_rows]. rewrite find_app. cbn [find]. unfold d2. cbn [d_rows].
    rewrite find_filter_negb. reflexivity.
  - unfold d3, data_rows at 1. cbn [d_rows]. rewrite data_rows_app_option. exact D2.
Qed.

(* the whole schema script, from any valid disk: it succeeds; every intermediate content is a valid disk
   with the same data rows; the result has every table, the current version row and the same data rows *)
Lemma schema_script_pure cfg d :
  cfg_wf cfg -> valid_disk cfg d ->
  exists ds d',
    script_pure d (map SCreate (schema_tables cfg)
                   ++ [SDelete T_OPTION 0 K_VERSION; SInsert false T_OPTION [K_VERSION; cfg_latest cfg]])
    = (ds, d', Done) /\
    Forall (fun x => valid_disk cfg x /\ data_rows x = data_rows d) ds /\
    opened cfg d d'.
Proof.
  intros W [V1 V2].
  destruct (creates_pure cfg (schema_tables cfg) d (incl_refl _) V2) as [ds1 [d1 [E1 [F1 [R1 [T1 [K1 C1]]]]]]].
  rewrite script_pure_app, E1.
  destruct (w_option _ W) as [otd [Hotd [Hoid Hopk]]].
  destruct (C1 _ Hotd) as [otd' Efo]. rewrite Hoid in Efo.
  assert (otd' = otd) by (eapply valid_find; eauto). subst otd'.
  destruct (version_tail_pure (cfg_latest cfg) d1 otd Efo Hopk) as [E2 [Vn2 [Vn3 [D2 D3]]]].
  rewrite E2. eexists _, _. split; [reflexivity|].
  assert (D1 : data_rows d1 = data_rows d) by (unfold data_rows; rewrite R1; reflexivity).
  rewrite D1 in D2, D3.
  split.
  - apply Forall_app. split.
    + eapply Forall_impl; [|exact F1]. cbn. intros x [Rx Tx]. split.
      * split; [|exact Tx]. unfold version_row in *. rewrite Rx. exact V1.
      * unfold data_rows. rewrite Rx. reflexivity.
    + constructor; [|constructor; [|constructor]].
      * split; [split; [left; exact Vn2|exact T1]|exact D2].
      * split; [split; [right; exact Vn3|exact T1]|exact D3].
  - constructor; [exact Vn3|exact T1| |exact D3].
    intros td Htd. destruct (C1 _ Htd) as [td' Ef].
    assert (td' = td) by (eapply valid_find; eauto). subst td'. exact Ef.
Qed.

(* the logical effect of insert calls (spec/S19_durable.v), call by call *)
Lemma effect_app cfg : forall a b d, effect cfg d (a ++ b) = effect cfg (effect cfg d a) b.
Proof.
  induction a as [|c a IH]; intros b d; cbn [app effect]; [reflexivity|].
  destruct (call_stmt cfg c); apply IH.
Qed.

Lemma effect_cons cfg d c l : effect cfg d (c :: l) = effect cfg (effect cfg d [c]) l.
Proof. exact (effect_app cfg [c] l d). Qed.

Lemma effect_one cfg d c :
  effect cfg d [c] = match call_stmt cfg c with Some q => snd (apply_stmt d q) | None => d end.
Proof. cbn [effect]. destruct (call_stmt cfg c); reflexivity. Qed.

Lemma returned_one cfg d c :
  returned cfg d [c] = match call_stmt cfg c with
                       | Some q => match fst (apply_stmt d q) with SOk => [c] | _ => [] end
                       | None => []
                       end.
Proof. cbn [returned]. destruct (call_stmt cfg c); [apply app_nil_r|reflexivity]. Qed.

Lemma returned_cons cfg d c l :
  returned cfg d (c :: l) = returned cfg d [c] ++ returned cfg (effect cfg d [c]) l.
Proof.
  cbn [returned effect]. destruct (call_stmt cfg c); [|reflexivity].
  rewrite app_nil_r. reflexivity.
Qed.

Lemma returned_one_incl cfg d c : incl (returned cfg d [c]) [c].
Proof.
  rewrite returned_one. destruct (call_stmt cfg c) as [q|]; [|intros x []].
  destruct (fst (apply_stmt d q)); auto using incl_refl; intros x [].
Qed.
