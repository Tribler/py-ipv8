(* C12 - the property lemmas: every query agrees with the graph, queries change nothing, removed
   peers are gone and can come back, blacklists are respected. *)
From Coq Require Import ZArith List Bool.
From IPV8V Require Import lib.Lists model.M02_wire model.M12_network spec.S12_graph proofs.P12_base proofs.P12_inv.
Import ListNotations.
Open Scope Z_scope.

Definition peer_at (n : net) (i : nat) : nat * obj := (i, hget (heap n) i).

Lemma abs_ids n f : map p_id (filter f (g_peers (abs n))) = filter (fun i => f (peer_at n i)) (verified n).
Proof.
  unfold abs. cbn [g_peers]. change (fun i => (i, hget (heap n) i)) with (peer_at n).
  rewrite filter_map_comm, map_map. unfold p_id, peer_at. cbn. apply map_id.
Qed.

Lemma abs_taken n f : taken (abs n) f = addrs_of n (filter (fun i => f (peer_at n i)) (verified n)).
Proof.
  unfold taken, abs, addrs_of. cbn [g_peers]. change (fun i => (i, hget (heap n) i)) with (peer_at n).
  rewrite filter_map_comm, flat_map_map. reflexivity.
Qed.

Lemma absent_key_iff n k : absent_key (abs n) k <-> forall i, In i (verified n) -> hkey (heap n) i <> k.
Proof.
  unfold absent_key, abs. cbn [g_peers]. split.
  - intros H i Hi. apply (H (i, hget (heap n) i)). apply in_map_iff. exists i. auto.
  - intros H p Hp. apply in_map_iff in Hp as (i & E & Hi). subst p. exact (H i Hi).
Qed.

Lemma unused_addr_iff n a : unused_addr (abs n) a <-> forall i, In i (verified n) -> owns n a i = false.
Proof.
  unfold unused_addr, abs, owns. cbn [g_peers]. split.
  - intros H i Hi. apply mem_addr_false. apply (H (i, hget (heap n) i)). apply in_map_iff. exists i. auto.
  - intros H p Hp. apply in_map_iff in Hp as (i & E & Hi). subst p. apply mem_addr_false. exact (H i Hi).
Qed.

Lemma by_key_agrees n k : Inv n -> get_verified_by_public_key_bin n k = spec_by_key (abs n) k.
Proof.
  intros H. unfold get_verified_by_public_key_bin, spec_by_key, abs. cbn [g_peers].
  rewrite (inv_idx n H). rewrite find_map. unfold p_key. cbn [fst snd].
  change (fun x : nat => fst (hget (heap n) x) =? k) with (fun i : nat => hkey (heap n) i =? k).
  destruct (find (fun i : nat => hkey (heap n) i =? k) (verified n)); reflexivity.
Qed.

Lemma gvba_snd n a hint : snd (get_verified_by_address n a hint) = ip_pick n a hint.
Proof. rewrite get_verified_by_address_eq. reflexivity. Qed.

Lemma choose_spec hint l :
  match choose hint l with Some i => In i l | None => l = [] end.
Proof.
  unfold choose.
  assert (Hh : match hd_error l with Some i => In i l | None => l = [] end).
  { destruct l; simpl; auto. }
  destruct hint as [h|]; [|exact Hh].
  destruct (existsb (Nat.eqb h) l) eqn:E; [|exact Hh].
  apply existsb_exists in E as (x & Hx & Ex). apply Nat.eqb_eq in Ex. subst. assumption.
Qed.

Lemma gvba_result n a hint : Inv n ->
  match snd (get_verified_by_address n a hint) with
  | Some i => In i (filter (owns n a) (verified n))
  | None => filter (owns n a) (verified n) = []
  end.
Proof.
  intros H. rewrite gvba_snd. unfold ip_pick.
  destruct (d_get addr_eqb a (ip_cache n)) as [i|]; [|apply choose_spec].
  destruct (ip_valid n a i) eqn:V; [|apply choose_spec].
  unfold ip_valid in V. pose proof (by_key_unique_owner n (hkey (heap n) i) H) as S.
  destruct (d_get Z.eqb (hkey (heap n) i) (by_key n)) as [j|]; [|discriminate].
  apply andb_true_iff in V as [V1 V2]. apply Nat.eqb_eq in V1. subst j. apply filter_In. split; [apply S|exact V2].
Qed.

Lemma by_address_agrees n a hint : Inv n ->
  match snd (get_verified_by_address n a hint) with
  | Some i => In i (spec_owners (abs n) a)
  | None => spec_owners (abs n) a = []
  end.
Proof.
  intros H. unfold spec_owners. rewrite abs_ids.
  change (fun i => mem_addr a (p_addrs (peer_at n i))) with (owns n a). apply gvba_result. assumption.
Qed.

Lemma peers_for_service_agrees n s i : Inv n ->
  In i (snd (get_peers_for_service n s)) <-> In i (spec_peers_for_service (abs n) s).
Proof.
  intros H. rewrite (gpfs_result n s H). unfold spec_peers_for_service. rewrite abs_ids.
  change (fun i0 => serves_peer (abs n) s (peer_at n i0)) with (has_service n s). rewrite filter_In. reflexivity.
Qed.

Lemma addrs_of_ext n l1 l2 a : (forall j, In j l1 <-> In j l2) -> In a (addrs_of n l1) <-> In a (addrs_of n l2).
Proof.
  intros E. unfold addrs_of. rewrite !in_flat_map. split; intros (j & Hj & Ha); exists j; split; try assumption; apply E; assumption.
Qed.

Lemma mem_addr_ext a l1 l2 : (In a l1 <-> In a l2) -> mem_addr a l1 = mem_addr a l2.
Proof.
  intros E. destruct (mem_addr a l2) eqn:M.
  - apply mem_addr_In. apply E. apply mem_addr_In. assumption.
  - apply mem_addr_false. intro Hc. apply E in Hc. apply mem_addr_In in Hc. congruence.
Qed.

Lemma walkable_agrees n so old a : Inv n ->
  In a (snd (get_walkable_addresses n so old)) <-> In a (spec_walkable (abs n) so old).
Proof.
  intros H. unfold get_walkable_addresses, spec_walkable. destruct so as [s|].
  - pose proof (gpfs_result n s H) as R. rewrite get_peers_for_service_eq in *. cbn [fst snd] in *.
    set (known := gpfs_out n s) in *.
    rewrite abs_taken. change (fun i => serves_peer (abs n) s (peer_at n i)) with (has_service n s).
    rewrite !filter_In. cbn [all_addrs set_svc_cache g_addrs abs].
    assert (EM : mem_addr a (addrs_of n known) = mem_addr a (addrs_of n (filter (has_service n s) (verified n)))).
    { apply mem_addr_ext. apply addrs_of_ext. intros j. rewrite R, filter_In. reflexivity. }
    change (addrs_of _ known) with (addrs_of n known). change (walk_serves _ s old a) with (serves_addr (abs n) s old a).
    rewrite EM. rewrite andb_true_iff. tauto.
  - cbn [snd]. rewrite abs_taken. rewrite filter_true. reflexivity.
Qed.

Lemma introductions_agree n k a : Inv n ->
  In a (snd (get_introductions_from n k)) <-> In a (spec_introductions (abs n) k).
Proof.
  intros H. unfold get_introductions_from, spec_introductions.
  destruct (d_get Z.eqb k (intro_cache n)) as [l|] eqn:G; cbn [snd].
  - apply (d_get_In Z.eqb Z.eqb_eq) in G. exact (inv_intro n H k l G a).
  - reflexivity.
Qed.

Lemma snapshot_addrs_agree n : snapshot_addrs n = spec_snapshot_addrs (abs n).
Proof. unfold snapshot_addrs, spec_snapshot_addrs, abs. cbn [g_peers]. rewrite map_map. reflexivity. Qed.

Theorem answers_agree_inv n : Inv n -> answers_agree n.
Proof.
  intros H. unfold answers_agree. cbv zeta. repeat split.
  - intros k. apply by_key_agrees. assumption.
  - intros a hint. apply by_address_agrees. assumption.
  - apply peers_for_service_agrees. assumption.
  - apply peers_for_service_agrees. assumption.
  - apply walkable_agrees. assumption.
  - apply walkable_agrees. assumption.
  - apply introductions_agree. assumption.
  - apply introductions_agree. assumption.
  - rewrite snapshot_addrs_agree. auto.
  - rewrite snapshot_addrs_agree. auto.
Qed.

Lemma abs_gvba n a hint : abs (fst (get_verified_by_address n a hint)) = abs n.
Proof. rewrite get_verified_by_address_eq. reflexivity. Qed.

Lemma abs_gpfs n s : abs (fst (get_peers_for_service n s)) = abs n.
Proof. reflexivity. Qed.

Lemma abs_walkable n so old : abs (fst (get_walkable_addresses n so old)) = abs n.
Proof. destruct so; reflexivity. Qed.

Lemma abs_intros n k : abs (fst (get_introductions_from n k)) = abs n.
Proof. unfold get_introductions_from. destruct (d_get Z.eqb k (intro_cache n)); reflexivity. Qed.

Theorem abs_query n o : is_query o = true -> abs (fst (step n o)) = abs n.
Proof.
  destruct o; cbn [is_query]; try discriminate; intros _; cbn [step]; try reflexivity.
  - pose proof (abs_gvba n a hint) as E. destruct (get_verified_by_address n a hint). exact E.
  - pose proof (abs_walkable n s old) as E. destruct (get_walkable_addresses n s old). exact E.
  - pose proof (abs_intros n k) as E. destruct (get_introductions_from n k). exact E.
Qed.

Lemma run_app l1 : forall n l2, run n (l1 ++ l2) = run (run n l1) l2.
Proof. induction l1 as [|o l1 IH]; intros n l2; simpl; [reflexivity|]. apply IH. Qed.

Lemma abs_run_queries qs : forall n, all_queries qs -> abs (run n qs) = abs n.
Proof.
  unfold all_queries. induction qs as [|q qs IH]; intros n H; simpl in *; [reflexivity|].
  apply andb_true_iff in H as [H1 H2]. rewrite IH by assumption. apply abs_query. assumption.
Qed.

Lemma never_returned_absent n k : Inv n -> absent_key (abs n) k -> never_returned n k.
Proof.
  intros H A0. pose proof (proj1 (absent_key_iff n k) A0) as A. unfold never_returned. split; [|split].
  - unfold get_verified_by_public_key_bin. pose proof (by_key_unique_owner n k H) as S.
    destruct (d_get Z.eqb k (by_key n)) as [j|]; [|reflexivity]. destruct S as (S1 & S2 & _). destruct (A j S1 S2).
  - intros a hint i E. pose proof (gvba_result n a hint H) as R. rewrite E in R.
    apply filter_In in R as [R _]. auto.
  - intros s i Hi. apply (gpfs_result n s H) in Hi as [Hi _]. auto.
Qed.

Lemma absent_after_remove_peer n k am : absent_key (abs (remove_peer n k am)) k.
Proof.
  apply absent_key_iff. unfold remove_peer. cbn. intros i Hi. apply filter_In in Hi as [_ Hi].
  apply negb_true_iff in Hi. apply Z.eqb_neq. assumption.
Qed.

Theorem removed_peer_gone_from_inv n0 k am qs :
  Inv n0 -> all_queries qs ->
  let n := run n0 (RemovePeer k am :: qs) in
  absent_key (abs n) k /\ never_returned n k.
Proof.
  intros H0 Hq n.
  assert (A : absent_key (abs n) k).
  { unfold n. simpl. rewrite abs_run_queries by assumption. apply absent_after_remove_peer. }
  split; [assumption|]. apply never_returned_absent; [apply Inv_run; assumption|assumption].
Qed.

Lemma after_remove_by_address n a : Inv n ->
  let n1 := remove_by_address n a in
  unused_addr (abs n1) a /\
  forall i, In i (verified n) -> owns n a i = true -> absent_key (abs n1) (hkey (heap n) i).
Proof.
  intros H n1. split.
  - apply unused_addr_iff. unfold n1, remove_by_address. cbn. intros i Hi. apply filter_In in Hi as [_ Hi].
    apply negb_true_iff in Hi. exact Hi.
  - intros i Hi Oi. apply absent_key_iff. unfold n1, remove_by_address. cbn. intros j Hj Ej.
    apply filter_In in Hj as [Hj Oj]. apply negb_true_iff in Oj.
    assert (j = i) by (apply (NoDup_map_inj (hkey (heap n)) (verified n)); [exact (inv_uniq n H)|assumption|assumption|assumption]).
    subst j. congruence.
Qed.

Theorem removed_by_address_gone_from_inv n0 a qs :
  Inv n0 -> all_queries qs ->
  let n := run n0 (RemoveByAddress a :: qs) in
  unused_addr (abs n) a /\
  (forall hint, snd (get_verified_by_address n a hint) = None) /\
  (forall i, In i (verified n0) -> owns n0 a i = true ->
             absent_key (abs n) (hkey (heap n0) i) /\ never_returned n (hkey (heap n0) i)).
Proof.
  intros H0 Hq n.
  assert (HN : Inv n) by (unfold n; apply Inv_run; assumption).
  assert (EA : abs n = abs (remove_by_address n0 a)).
  { unfold n. simpl. apply abs_run_queries. assumption. }
  destruct (after_remove_by_address n0 a H0) as [U A].
  split; [rewrite EA; assumption|]. split.
  - intros hint. pose proof (gvba_result n a hint HN) as R.
    destruct (snd (get_verified_by_address n a hint)) as [i|]; [|reflexivity].
    apply filter_In in R as [R1 R2]. rewrite <- EA in U. rewrite (proj1 (unused_addr_iff n a) U i R1) in R2. discriminate.
  - intros i Hi Oi. assert (Ai : absent_key (abs n) (hkey (heap n0) i)) by (rewrite EA; apply A; assumption).
    split; [assumption|]. apply never_returned_absent; assumption.
Qed.

Lemma readd n k am :
  Inv n -> absent_key (abs n) k -> blacklisted n k am = false ->
  let n' := fst (step n (AddVerified k am)) in
  let i := length (heap n) in
  get_verified_by_public_key_bin n' k = Some i /\ hget (heap n') i = (k, am) /\ In i (verified n').
Proof.
  intros H A0 B. pose proof (proj1 (absent_key_iff n k) A0) as A. cbn [step]. unfold alloc. cbn zeta.
  set (i := length (heap n)). set (n1 := set_heap n (heap n ++ [(k, am)])). cbn [fst].
  assert (Ek : hkey (heap n1) i = k) by (unfold n1, i, hkey; cbn [heap set_heap]; rewrite hget_app_new; reflexivity).
  assert (Ea : haddrs (heap n1) i = am) by (unfold n1, i, haddrs; cbn [heap set_heap]; rewrite hget_app_new; reflexivity).
  assert (Eo : forall j, In j (verified n) -> hkey (heap n1) j = hkey (heap n) j).
  { intros j Hj. unfold n1, hkey. cbn [heap set_heap]. rewrite hget_app_lt by (exact (inv_ids n H j Hj)). reflexivity. }
  unfold add_verified_peer. rewrite Ek, Ea.
  change (blacklisted n1 k am) with (blacklisted n k am). rewrite B.
  change (by_key n1) with (by_key n). pose proof (by_key_unique_owner n k H) as S.
  destruct (d_get Z.eqb k (by_key n)) as [j|]; [destruct S as (S1 & S2 & _); destruct (A j S1 S2)|].
  assert (V : forall n2, heap n2 = heap n1 -> verified n2 = verified n -> by_key n2 = by_key n ->
              get_verified_by_public_key_bin (verify n2 i) k = Some i /\
              hget (heap (verify n2 i)) i = (k, am) /\ In i (verified (verify n2 i))).
  { intros n2 E1 E2 E3. unfold verify. rewrite E1, Ek.
    assert (IV : in_verified n2 k = false).
    { unfold in_verified. apply in_ver_false. rewrite E1, E2. intros j Hj. rewrite Eo by assumption. auto. }
    rewrite IV. unfold get_verified_by_public_key_bin, forget_service_caches. cbn.
    rewrite (d_get_set Z.eqb Z.eqb_eq), Z.eqb_refl. split; [reflexivity|]. split.
    - change (nth i (heap n2) null_obj) with (hget (heap n2) i). rewrite E1. unfold n1, i. cbn [heap set_heap].
      apply hget_app_new.
    - rewrite E2. apply in_app_iff. right. left. reflexivity. }
  destruct (existsb (fun a => d_mem addr_eqb a (all_addrs n1)) (am_values am)); apply V; reflexivity.
Qed.

Definition blp (n : net) : list addr * list key := (bl_addr n, bl_mid n).

Lemma blp_verify n i : blp (verify n i) = blp n.
Proof. unfold verify. destruct (in_verified n (hkey (heap n) i)); reflexivity. Qed.

Lemma blp_add_verified_peer n i : blp (add_verified_peer n i) = blp n.
Proof.
  unfold add_verified_peer. destruct (blacklisted _ _ _); [reflexivity|].
  destruct (d_get _ _ _); [reflexivity|]. destruct (existsb _ _); rewrite blp_verify; reflexivity.
Qed.

Lemma blp_discover_address n i a s ns : blp (discover_address n i a s ns) = blp n.
Proof.
  unfold discover_address. destruct (mem_addr a (bl_addr n)); [apply blp_add_verified_peer|].
  destruct (negb _ || negb _); rewrite blp_add_verified_peer; reflexivity.
Qed.

Lemma blp_step n o : blp (fst (step n o)) = blp n.
Proof.
  destruct o; cbn [step]; try reflexivity.
  - unfold alloc. cbn [fst]. rewrite blp_add_verified_peer. reflexivity.
  - unfold alloc. cbn [fst]. rewrite blp_discover_address. reflexivity.
  - rewrite get_verified_by_address_eq. reflexivity.
  - destruct s; reflexivity.
  - unfold get_introductions_from. destruct (d_get Z.eqb k (intro_cache n)); reflexivity.
  - unfold load_snapshot. destruct (load_loop _ _ _ _ _) as [[? ?] ?]. reflexivity.
Qed.

Lemma blp_run ops : forall n, blp (run n ops) = blp n.
Proof. induction ops as [|o ops IH]; intros n; simpl; [reflexivity|]. rewrite IH. apply blp_step. Qed.

Theorem blacklist_inv n p : Inv n -> In p (g_peers (abs n)) ->
  ~ In (p_key p) (bl_mid n) /\ forall a, In a (p_addrs p) -> ~ In a (bl_addr n).
Proof.
  intros H Hp. unfold abs in Hp. cbn [g_peers] in Hp. apply in_map_iff in Hp as (i & E & Hi). subst p.
  pose proof (inv_bl n H i Hi) as B. unfold blacklisted in B.
  apply orb_false_iff in B as [B1 B2]. unfold p_key, p_addrs. cbn [fst snd]. split.
  - apply mem_z_false. exact B1.
  - intros a Ha. apply mem_addr_false. exact (proj1 (existsb_false_iff _ _) B2 a Ha).
Qed.
