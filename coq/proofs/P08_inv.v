(* C08: the retry cache of a first-hop create never outlives the acceptance of that hop (fix 233b9c9): in every reachable state a retry cache belongs to a circuit that is not closing, and
   one whose retry function is send_initial_create belongs to a circuit without hops.  Hence the create of a
   retry is always the handshake of position 1. *)
From Coq Require Import ZArith List.
From IPV8V Require Import model.M08_handshake proofs.P08_base proofs.P08_origin.
Import ListNotations.
Open Scope Z_scope.

Section Inv.
Variable C : crypto.
Implicit Types (n : @node C) (c : @circuit C).

Definition retry_inv n : Prop :=
  forall cid r c, aget cid (n_retry n) = Some r -> aget cid (n_circ n) = Some c ->
    c_closing c = false /\ (r_initial r = true -> c_hops c = []).

Lemma inv_pop n n' cid :
  retry_inv n -> n_circ n' = n_circ n -> n_retry n' = adel cid (n_retry n) -> retry_inv n'.
Proof.
  intros I EC ER k r c R G. rewrite ER, aget_adel in R. destruct (k =? cid); [discriminate|].
  rewrite EC in G. eapply I; eauto.
Qed.

Lemma inv_pop_set n n' cid c1 :
  retry_inv n -> n_circ n' = aset cid c1 (n_circ n) -> n_retry n' = adel cid (n_retry n) -> retry_inv n'.
Proof.
  intros I EC ER k r c R G. rewrite ER, aget_adel in R. destruct (k =? cid) eqn:E; [discriminate|].
  rewrite EC, aget_aset, E in G. eapply I; eauto.
Qed.

Lemma inv_same n n' : retry_inv n -> n_circ n' = n_circ n -> n_retry n' = n_retry n -> retry_inv n'.
Proof. intros I EC ER k r c R G. rewrite ER in R. rewrite EC in G. eapply I; eauto. Qed.

Lemma armed_inv n cid c u r :
  retry_inv n -> c_closing c = false -> (r_initial r = true -> c_hops c = []) -> retry_inv (armed n cid c u r).
Proof.
  intros I CL HO k r' c' R G. unfold armed in R, G. cbn [n_retry n_circ set_retry set_circ] in R, G.
  rewrite aget_aset in R. rewrite aget_aset in G.
  destruct (k =? cid) eqn:E.
  - inversion R; subst. inversion G; subst. auto.
  - rewrite aget_adel, E in R. eapply I; eauto.
Qed.

Lemma sic_inv n cid cands tries o :
  retry_inv n ->
  (forall c, aget cid (n_circ n) = Some c -> c_closing c = false /\ c_hops c = []) ->
  retry_inv (st (send_initial_create n cid cands tries o)).
Proof.
  intros I H. destruct (sic_cases n cid cands tries o) as [E|[E|(c & f & alt & G & _ & E)]]; rewrite E.
  - exact I.
  - eapply inv_pop; eauto; reflexivity.
  - destruct (H c G) as [CL HO]. apply armed_inv; auto.
Qed.

Lemma sext_inv n cid cands tries o :
  retry_inv n ->
  (forall c, aget cid (n_circ n) = Some c -> c_closing c = false) ->
  retry_inv (st (send_extend n cid cands tries o)).
Proof.
  intros I H. destruct (sext_cases n cid cands tries o) as [[e E]|[E|(c & t & alt & fa & ad & G & E)]]; rewrite E.
  - exact I.
  - eapply inv_same; eauto; reflexivity.
  - apply armed_inv; auto. intros K; discriminate.
Qed.

Lemma cstate_closing c : cstate c = Closing -> c_closing c = true.
Proof. unfold cstate. destruct (c_closing c); auto. destruct (zlen (c_hops c) <? c_goal c); discriminate. Qed.
Lemma cstate_open c : cstate c <> Closing -> c_closing c = false.
Proof. unfold cstate. destruct (c_closing c); auto. intros K; exfalso; apply K; reflexivity. Qed.

(* After a hop was appended to circuit cid (new record c1, still carrying the old closing flag) the invariant holds
   again once the retry entry of cid is gone - or at once if there is none, which is the case for a closing circuit. *)
Lemma after_accept_inv n cid c c1 o r :
  retry_inv n -> aget cid (n_circ n) = Some c -> c_closing c1 = c_closing c ->
  after_accept C (set_circ n (aset cid c1 (n_circ n))) c1 cid o r -> retry_inv (st r).
Proof.
  intros I G CL T. set (n1 := set_circ n (aset cid c1 (n_circ n))) in *.
  destruct T as [e S|OP|OP|cs tries OP].
  - assert (N : aget cid (n_retry n1) = None).
    { destruct S as [CS|N]; [|exact N]. destruct (aget cid (n_retry n1)) as [r0|] eqn:R; [|reflexivity].
      apply cstate_closing in CS. destruct (I cid r0 c R G) as [CL' _]. congruence. }
    intros k r0 c' R G'. cbn [st fst n1 n_circ set_circ] in G'. rewrite aget_aset in G'.
    destruct (k =? cid) eqn:E; [apply Z.eqb_eq in E; subst k; cbn [st fst] in R; congruence|]. eapply I; eauto.
  - apply (inv_pop_set n _ cid c1 I); reflexivity.
  - apply (inv_pop_set n _ cid c1 I); reflexivity.
  - apply sext_inv; [apply (inv_pop_set n _ cid c1 I); reflexivity|]. intros c' G'. cbn [n1 n_circ set_circ set_retry] in G'.
    rewrite aget_aset_same in G'. inversion G'; subst c'. apply cstate_open. exact OP.
Qed.

Lemma ours_inv n cid Y au ce o : retry_inv n -> retry_inv (st (ours n cid Y au ce o)).
Proof.
  intros I. destruct (ours_spec C n cid Y au ce o) as [[[e ->] _]|(c & h & G & _ & T)]; [exact I|].
  exact (after_accept_inv n cid c (with_hops_unv c (c_hops c ++ [h]) None) o _ I G eq_refl T).
Qed.

Lemma handle_inv n src m o : retry_inv n -> retry_inv (st (handle n src m o)).
Proof.
  intros I. destruct m as [k0 i npk X|k0 i Y au ce|k0 i npk X ad|k0 i Y au ce].
  - cbn [handle]. destruct (on_create_cases n src k0 i npk X o) as [[e ->]|(s1 & s2 & _ & _ & ->)]; exact I.
  - destruct (answer_cases C n src (MCreated k0 i Y au ce) o k0 i Y au ce eq_refl)
      as [(q & _ & _ & E1 & E2)|[_ [->|(r & _ & _ & ->)]]]; [eapply inv_same; eauto|exact I|apply ours_inv; exact I].
  - cbn [handle]. destruct (on_extend_cases n src k0 i npk X ad o) as [[e ->]|(pv & cd & _ & ->)]; exact I.
  - destruct (answer_cases C n src (MExtended k0 i Y au ce) o k0 i Y au ce eq_refl)
      as [(q & _ & _ & E1 & E2)|[_ [->|(r & _ & _ & ->)]]]; [eapply inv_same; eauto|exact I|apply ours_inv; exact I].
Qed.

Lemma retry_timeout_inv n cid o : retry_inv n -> retry_inv (st (retry_timeout n cid o)).
Proof.
  intros I. destruct (retry_timeout_cases n cid o) as [E|(rt & R & H)]; [rewrite E; exact I|].
  assert (I1 : retry_inv (set_retry n (adel cid (n_retry n)))) by (eapply inv_pop; eauto; reflexivity).
  destruct H as [E|[E|(c & G & CL & [[RI E]|[_ E]])]]; rewrite E.
  - exact I1.
  - eapply inv_same; eauto; reflexivity.
  - apply sic_inv; [exact I1|]. intros c' G'. cbn [n_circ set_retry] in G'. rewrite G in G'. inversion G'; subst c'.
    split; [exact CL|]. exact (proj2 (I cid rt c R G) RI).
  - apply sext_inv; [exact I1|]. intros c' G'. cbn [n_circ set_retry] in G'. congruence.
Qed.

Lemma step_inv n e : retry_inv n -> retry_inv (st (step n e)).
Proof.
  intros I. destruct e as [cid goal re firsts tries o|src m o|cid o|cid|cid|cid]; cbn [step].
  - destruct (ahas cid (n_circ n)) eqn:HAS; [exact I|]. apply ahas_false in HAS.
    apply sic_inv.
    + intros k r c R G. cbn [n_circ n_retry set_circ] in *. rewrite aget_aset in G. destruct (k =? cid) eqn:E.
      * inversion G; subst c. cbn. auto.
      * eapply I; eauto.
    + intros c G. cbn [n_circ set_circ] in G. rewrite aget_aset_same in G. inversion G; subst. cbn. auto.
  - apply handle_inv. exact I.
  - apply retry_timeout_inv. exact I.
  - cbn. unfold run_remove.
    match goal with |- context [aget cid (n_circ ?n1)] => destruct (aget cid (n_circ n1)) as [c|] eqn:G end.
    + eapply inv_pop_set; eauto; reflexivity.
    + eapply inv_pop; eauto; reflexivity.
  - intros k r c R G. cbn [st done fst n_retry n_circ set_circ] in *. rewrite aget_adel in G.
    destruct (k =? cid); [discriminate|]. eapply I; eauto.
  - eapply inv_same; eauto; reflexivity.
Qed.

End Inv.
