(* C09 - the two halves of a remove_* task and the invariant. *)
From Coq Require Import ZArith List Bool Lia.
From IPV8V Require Import gen.G09_rules model.M09_reclaim spec.S09_reclaim proofs.P09_alist
  proofs.P09_inv proofs.P09_special.
Import ListNotations.
Open Scope Z_scope.

Section Remove.
Variable st : settings.
Hypothesis Hst : settings_ok st.

Lemma finish_remove_spec s k cid :
  let s' := fst (finish_remove s k cid) in
  now s' = now s /\ last_sweep s' = last_sweep s /\ sleeping s' = sleeping s /\ retries s' = retries s
  /\ (forall x, relevant x -> In x (starts s') <-> In x (starts s))
  /\ (forall c x, aget c (circuits s') = Some x -> Some (k, cid) <> Some (KCirc, c) /\ aget c (circuits s) = Some x)
  /\ (forall c x, aget c (relays s') = Some x -> Some (k, cid) <> Some (KRelay, c) /\ aget c (relays s) = Some x)
  /\ (forall c x, aget c (exits s') = Some x -> Some (k, cid) <> Some (KExit, c) /\ aget c (exits s) = Some x).
Proof.
  assert (D : forall A (l : list (Z * A)) (k' : rkind) c x, aget c (adel cid l) = Some x ->
            Some (k', cid) <> Some (k', c) /\ aget c l = Some x).
  { intros A l k' c x H. rewrite aget_adel in H. destruct (c =? cid) eqn:E; [discriminate|].
    split; [intro E'; inversion E'; lia | exact H]. }
  assert (N : forall (k' k'' : rkind) (c : Z) (P : Prop), k' <> k'' -> P -> Some (k', cid) <> Some (k'', c) /\ P).
  { intros k' k'' c P Hk HP. split; [intro E; inversion E; subst; apply Hk; reflexivity | exact HP]. }
  assert (F : forall (f : deferred -> bool) l, (forall x, relevant x -> f x = true) ->
            forall x, relevant x -> In x (filter f l) <-> In x l).
  { intros f l Hf x R. rewrite filter_In, (Hf x R). tauto. }
  destruct k; cbn [finish_remove fst]; [| |destruct (aget cid (exits s)) as [e|] eqn:Ee; cbn [fst]];
    do 4 (split; [reflexivity|]).
  - split; [intros; reflexivity|]. split; [apply D|]. split; intros c x H; (apply N; [discriminate | exact H]).
  - split; [intros; reflexivity|]. split; [|split; [apply D|]]; intros c x H; (apply N; [discriminate | exact H]).
  - split; [apply F; intros [] R; try reflexivity; destruct R|].
    split; [|split; [|apply D]]; intros c x H; (apply N; [discriminate | exact H]).
  - split; [intros; reflexivity|]. split; [|split]; intros c x H; try (apply N; [discriminate | exact H]).
    split; [intro E; inversion E; subst; congruence | exact H].
Qed.

(* a state in which only the evidence about (k, cid) may have been lost; deleting the entry repairs it *)
Record predel (k : rkind) (cid : Z) (s s0 : node) : Prop := mkPredel {
  p_now : now s0 = now s;
  p_sweep : last_sweep s0 = last_sweep s;
  p_starts : forall x, relevant x -> In x (starts s) ->
                       (forall dd rn, x <> DRemove k cid dd rn) -> In x (starts s0);
  p_starts' : forall x, relevant x -> In x (starts s0) -> In x (starts s);
  p_sleep : forall due k' cid', In (due, k', cid') (sleeping s) -> Some (k, cid) <> Some (k', cid') ->
                                In (due, k', cid') (sleeping s0);
  p_circ : forall c x, aget c (circuits s0) = Some x -> Some (k, cid) = Some (KCirc, c) \/ aget c (circuits s) = Some x;
  p_rel : relays s0 = relays s;
  p_exit : exits s0 = exits s;
  p_retries : forall c, Some (k, cid) = Some (KCirc, c) \/ aget c (retries s0) = aget c (retries s)
}.

Lemma finish_predel w k cid s s0 :
  predel k cid s s0 -> inv st s -> inv_gen st w (fst (finish_remove s0 k cid)).
Proof.
  intros [n sw s1 s1' l c r e t] Hi.
  destruct (finish_remove_spec s0 k cid) as (Fn & Fw & Fl & Ft & Fs & Fc & Fr & Fe).
  apply (inv_but st w (Some (k, cid)) s).
  - exact Hi.
  - exact (eq_trans Fn n).
  - exact (eq_trans Fw sw).
  - intros k' cid' T Hne. apply scheduled_incl; [exact (eq_trans Fn n) | |].
    + intros dd rn Hin. apply Fs; [exact I|]. apply s1; [exact I | exact Hin|].
      intros dd' rn' E. inversion E; subst. apply Hne; reflexivity.
    + intros due Hin. rewrite Fl. apply l; assumption.
  - intros due cid' Hne Hin. rewrite Fl. apply l; assumption.
  - intros cid' t0 i _. split; intro Hin.
    + apply (Fs (DRetry cid' t0 i) I). apply s1; [exact I | exact Hin | discriminate].
    + apply s1'; [exact I|]. apply (Fs (DRetry cid' t0 i) I). exact Hin.
  - intros cid' Hne. rewrite Ft. destruct (t cid') as [E|E]; [contradiction | exact E].
  - intros cid' x H. destruct (Fr _ _ H) as [Hne H']. rewrite r in H'. auto.
  - intros cid' x H. destruct (Fe _ _ H) as [Hne H']. rewrite e in H'. auto.
  - intros cid' x Hne H. destruct (Fc _ _ H) as [_ H']. destruct (c _ _ H') as [E|E]; [contradiction | exact E].
  - intros cid' x E H. destruct (Fc _ _ H) as [Hne _]. contradiction.
  - intros cid' t0 i E H. apply Fs in H; [|exact I]. apply s1' in H; [|exact I].
    destruct Hi as (_ & _ & _ & _ & Hdr & _). destruct (Hdr _ _ _ H) as (D1 & D2 & _).
    split; [exact D1|]. split; [exact D2|]. intros x Hx. destruct (Fc _ _ Hx) as [Hne _]. contradiction.
Qed.

Lemma inv_wake w s i due k cid :
  nth_error (sleeping s) i = Some (due, k, cid) -> inv st s ->
  inv_gen st w (fst (finish_remove (set_sleeping (remove_nth i (sleeping s)) s) k cid)).
Proof.
  intros Hn Hi. apply (finish_predel w k cid s); [|exact Hi].
  constructor; simpl; auto.
  intros due' k' cid' Hin Hne. eapply in_remove_nth_other; eauto.
  intro E; inversion E; subst. apply Hne; reflexivity.
Qed.

Lemma mul_le_nht a b : a <= b -> s_next_hop_timeout st * a <= s_next_hop_timeout st * b.
Proof. intro H. destruct Hst as (_ & _ & _ & Hn & _). apply Z.mul_le_mono_nonneg_l; lia. Qed.

Lemma retry_due_bound c rt :
  retry_ok st c rt -> c_hops c < c_goal c ->
  rt_due rt <= creation (c_ro c) + build_bound st (c_goal c).
Proof.
  intros (H1 & H2 & H3) Hh. unfold build_bound.
  pose proof (mul_le_nht (tries0 st - rt_tries rt) (tries0 st + c_goal c - 1)). lia.
Qed.

Lemma dretry_bound s c tries :
  dretry_ok st s c tries -> 1 <= tries -> 0 <= c_hops c -> c_hops c < c_goal c ->
  now s <= creation (c_ro c) + build_bound st (c_goal c).
Proof.
  unfold dretry_ok, build_bound. intros H1 H2 H3 H4.
  pose proof (mul_le_nht (tries0 st - tries + 1) (tries0 st + c_goal c - 1)).
  destruct Hst as (_ & _ & _ & Hn & _). lia.
Qed.

(* a non-closing circuit that satisfies its clause is, at any properly timed moment, within the part
   of its deadline that precedes the removal delay *)
Lemma open_circuit_within s cid c :
  tfacts st s -> side_inv s -> retries_inv st s -> dretries_inv st s ->
  aget cid (circuits s) = Some c -> c_closing c = false -> circ_ok st None s cid c ->
  now s + s_remove_delay st <= circuit_deadline st c
  \/ exists due, In (due, KCirc, cid) (sleeping s) /\ due <= circuit_deadline st c.
Proof.
  intros (T1 & _ & T3) [S1 S2] Hrt Hdr Hc Hcl Hok. unfold circ_ok in Hok. rewrite Hcl in Hok.
  destruct (S2 _ _ Hc) as [Hh Hla]. clear S2. unfold circuit_deadline.
  destruct Hst as (Hmi & Hsw & Hd & Hn & Hct).
  destruct (c_goal c <=? c_hops c) eqn:Erd.
  - destruct Hok as [[]|[[(dd & rn & Hin & Hle)|(due & Hin & Hle)]|Hls]].
    + left. unfold B_entry in Hle. lia.
    + right. exists due. split; [exact Hin|]. unfold B_entry in Hle. lia.
    + left. lia.
  - apply Z.leb_gt in Erd.
    destruct Hok as [Hr|[(tries & ini & Hin)|[(dd & rn & Hin & Hle)|(due & Hin & Hle)]]].
    + apply ahas_aget in Hr. destruct Hr as (rt & Hr).
      pose proof (retry_due_bound c rt (Hrt _ _ _ Hr Hc) Erd). specialize (T3 _ _ Hr). left. lia.
    + destruct (Hdr _ _ _ Hin) as (D1 & D2 & D3).
      pose proof (dretry_bound s c tries (D3 _ Hc) D1 Hh Erd). left. lia.
    + left. lia.
    + right. exists due. split; [exact Hin | lia].
Qed.

Lemma scheduled_started s s' i k cid dd rn k' cid' T :
  nth_error (starts s) i = Some (DRemove k cid dd rn) ->
  now s' = now s -> starts s' = remove_nth i (starts s) ->
  (forall x, In x (sleeping s) -> In x (sleeping s')) ->
  In (now s + s_remove_delay st, k, cid) (sleeping s') ->
  scheduled st k' cid' T s -> scheduled st k' cid' T s'.
Proof.
  intros Hn En Es Hsl Hnew [(dd' & rn' & Hin & Hle)|(due & Hin & Hle)].
  - destruct (hit_dec (Some (k, cid)) k' cid') as [E|E].
    + inversion E; subst. right. exists (now s + s_remove_delay st). split; [exact Hnew | exact Hle].
    + left. exists dd', rn'. rewrite Es, En. split; [|exact Hle]. eapply in_remove_nth_other; eauto.
      intro E'. inversion E'; subst. apply E; reflexivity.
  - right. exists due. auto.
Qed.

Lemma inv_run_remove s i k cid dd rn :
  nth_error (starts s) i = Some (DRemove k cid dd rn) -> tfacts st s -> inv st s ->
  inv st (fst (start_remove st (set_starts (remove_nth i (starts s)) s) k cid dd rn)).
Proof.
  intros Hn Tf Hi.
  set (s0 := set_starts (remove_nth i (starts s)) s).
  assert (Hk : forall x, relevant x -> In x (starts s) -> (forall dd' rn', x <> DRemove k cid dd' rn') -> In x (starts s0)).
  { intros x R Hin Hne. simpl. eapply in_remove_nth_other; eauto. }
  assert (Hk' : forall x, In x (starts s0) -> In x (starts s)) by (intro x; apply in_remove_nth).
  assert (Hdr0 : forall c t i0, In (DRetry c t i0) (starts s) <-> In (DRetry c t i0) (starts s0)).
  { intros c t i0. split; [intro H; apply Hk; [exact I | exact H | discriminate] | apply Hk']. }
  (* when the task goes to sleep, what it promised as a queued task it promises as a sleeper *)
  assert (Hsch : forall s', now s' = now s -> starts s' = starts s0 ->
            sleeping s' = sleeping s ++ [(now s + s_remove_delay st, k, cid)] ->
            forall k' cid' T, scheduled st k' cid' T s -> scheduled st k' cid' T s').
  { intros s' E1 E2 E3 k' cid' T. eapply scheduled_started; eauto; rewrite E3.
    - intros x H; apply in_or_app; left; exact H.
    - apply in_or_app; right; left; reflexivity. }
  assert (Hsleep : k <> KCirc ->
            inv st (set_sleeping (sleeping s0 ++ [(now s0 + s_remove_delay st, k, cid)]) s0)).
  { intro Hkc. apply (inv_but st None None s); auto; try discriminate.
    - intros due c _ H. simpl. apply in_or_app; left; exact H.
    - intros c r H. split; [discriminate | exact H].
    - intros c e H. split; [discriminate | exact H]. }
  unfold start_remove. fold s0. destruct k.
  2,3: cbn [fst snd]; (destruct (negb rn || (0 <? s_remove_delay st)); [apply Hsleep; discriminate|]);
       rewrite fst_let2; apply (finish_predel None _ _ s); [constructor; simpl; auto | exact Hi].
  pose proof Hi as (Hside & _ & _ & Hrt & Hdr & Hc). destruct Hside as [S1 S2].
  assert (Hne : forall c, Some (KCirc, cid) <> Some (KCirc, c) -> (c =? cid) = false).
  { intros c H. destruct (c =? cid) eqn:E; [|reflexivity]. apply Z.eqb_eq in E; subst. destruct H; reflexivity. }
  assert (Hhd : forall s', starts s' = starts s0 -> now s' = now s ->
            (forall x, aget cid (circuits s') = Some x ->
               exists c, aget cid (circuits s) = Some c /\ creation (c_ro c) = creation (c_ro x)) ->
            forall c t i0, Some (KCirc, cid) = Some (KCirc, c) -> In (DRetry c t i0) (starts s') ->
            1 <= t /\ t < tries0 st /\ forall x, aget c (circuits s') = Some x -> dretry_ok st s' x t).
  { intros s' E1 E2 E3 c t i0 E H. inversion E; subst c. rewrite E1 in H. apply Hk' in H.
    destruct (Hdr _ _ _ H) as (D1 & D2 & D3). split; [exact D1|]. split; [exact D2|].
    intros x Hx. destruct (E3 _ Hx) as (c0 & Hc0 & Ecr). specialize (D3 _ Hc0).
    unfold dretry_ok in *. rewrite E2, <- Ecr. exact D3. }
  set (s0r := set_retries (adel cid (retries s0)) s0).
  destruct (aget cid (circuits s0r)) as [c|] eqn:Ec; simpl in Ec.
  - set (c1 := mkCirc (c_ro c) (c_goal c) (c_hops c) true (c_unver c) (c_first c) (c_early c)).
    set (s1 := set_circuits (aset cid c1 (circuits s0r)) s0r).
    cbn [fst snd]. destruct (negb rn || (0 <? s_remove_delay st)).
    + apply (inv_but st None (Some (KCirc, cid)) s); auto.
      * intros due c0 _ H. simpl. apply in_or_app; left; exact H.
      * intros c0 H. simpl. rewrite aget_adel, (Hne _ H). reflexivity.
      * intros c0 r H. split; [discriminate | exact H].
      * intros c0 e H. split; [discriminate | exact H].
      * intros c0 x H H'. simpl in H'. rewrite aget_aset, (Hne _ H) in H'. exact H'.
      * intros c0 x E H. inversion E; subst c0. simpl in H. rewrite aget_aset, Z.eqb_refl in H. inversion H; subst x.
        destruct (S2 _ _ Ec) as [Hh Hla]. split; [exact Hh|]. split; [exact Hla|]. split.
        -- unfold circ_ok. simpl c_closing. cbv iota. change (circuit_deadline st c1) with (circuit_deadline st c).
           specialize (Hc _ _ Ec). destruct (c_closing c) eqn:Ecl.
           ++ unfold circ_ok in Hc. rewrite Ecl in Hc. destruct Hc as (due & Hin & Hle).
              exists due. split; [simpl; apply in_or_app; left; exact Hin | exact Hle].
           ++ destruct (open_circuit_within s cid c Tf (conj S1 S2) Hrt Hdr Ec Ecl Hc) as [Hw|(due & Hin & Hle)].
              ** exists (now s + s_remove_delay st). split; [simpl; apply in_or_app; right; left; reflexivity | exact Hw].
              ** exists due. split; [simpl; apply in_or_app; left; exact Hin | exact Hle].
        -- intros rt Hr. simpl in Hr. rewrite aget_adel, Z.eqb_refl in Hr. discriminate.
      * apply Hhd; try reflexivity. intros x Hx. simpl in Hx. rewrite aget_aset, Z.eqb_refl in Hx. inversion Hx; subst x.
        exists c. auto.
    + rewrite fst_let2. apply (finish_predel None _ _ s); [|exact Hi]. constructor; simpl; auto.
      * intros c0 x H. rewrite aget_aset in H. destruct (c0 =? cid) eqn:E; [left | right; exact H].
        apply Z.eqb_eq in E; subst; reflexivity.
      * intros c0. rewrite aget_adel. destruct (c0 =? cid) eqn:E; [left | right; reflexivity].
        apply Z.eqb_eq in E; subst; reflexivity.
  - apply (inv_but st None (Some (KCirc, cid)) s); auto.
    + intros k' cid' T Hn0. apply scheduled_incl; [reflexivity | | auto].
      intros dd' rn' H. apply Hk; [exact I | exact H|]. intros dd'' rn'' E. inversion E; subst.
      apply Hn0; reflexivity.
    + intros c0 H. simpl. rewrite aget_adel, (Hne _ H). reflexivity.
    + intros c0 r H. split; [discriminate | exact H].
    + intros c0 e H. split; [discriminate | exact H].
    + intros c0 x E H. inversion E; subst c0. simpl in H. congruence.
    + apply Hhd; try reflexivity. intros x Hx. simpl in Hx. congruence.
Qed.

End Remove.
