(* The generated TunnelEndpoint (gen/G07_tunnel_ep.v) computes exactly what the hand model M07_tunnel_ep computes.
   Proofs are by evaluation of the generated terms (cbn) along the case analysis of the hand model, so that
   renamed locals, reordered independent statements and equivalent tests do not disturb them. *)
From Coq Require Import ZArith List Bool Lia.
From IPV8V Require Import lib.PyErr lib.Bytes gen.G07_consts model.M07_tunnel_ep model.M07_tunnel_ep_rt
  gen.G07_tunnel_ep model.M07_tunnel_ep_gen proofs.P07_tunnel_ep.
Import ListNotations.
Open Scope Z_scope.
Open Scope m_scope.

(* find_circuits as a specification: exactly the circuits meeting every given criterion, in dict order *)
Definition fc_ok (ctype : option Z) (state : option cstate) (fl : option (list Z)) (hops : option Z) (c : circ) : bool :=
  match state with None => true | Some s => cstate_eqb (state_of c) s end
  && match ctype with None => true | Some t => c_ctype c =? t end
  && match fl with None => true | Some f => zsubset f (exit_flags c) end
  && match hops with None => true | Some h => h =? c_goal c end.

Lemma find_circuits_spec cs ctype state fl hops :
  g_find_circuits cs ctype state fl hops = filter (fc_ok ctype state fl hops) cs.
Proof.
  unfold g_find_circuits. apply filter_ext. intros c. unfold fc_ok. rewrite !andb_assoc. reflexivity.
Qed.

Lemma bytes_prefix_pfx p : bytes_prefix PREFIX_LEN p = pfx_of p.
Proof. unfold bytes_prefix, pfx_of. apply slice_prefix. discriminate. Qed.

Lemma mseq_run {A} (m : M unit) (k : M A) g :
  (m ;;; k) g = match m g with Ok (_, g1) => k g1 | Raise e => Raise e end.
Proof. reflexivity. Qed.

Definition with_queue (e : ep) (q : list (addr * bytes)) : ep :=
  mkEp (e_hops e) (e_tc e) (e_settings e) q (e_qmax e).

(* the flush loop: a body that pops one element and records f of it empties the queue in order *)
Lemma mwhile_flush (body : M unit) (f : addr * bytes -> out) :
  (forall x tl e w outs d, e_queue e = x :: tl ->
     body (mkGS e w outs d) = Ok (tt, mkGS (with_queue e tl) w (outs ++ [f x]) d)) ->
  forall q fuel e w outs d, e_queue e = q -> (length q < fuel)%nat ->
    mwhile fuel queue_nonempty body (mkGS e w outs d)
    = Ok (tt, mkGS (with_queue e []) w (outs ++ map f q) d).
Proof.
  intros Hb q. induction q as [|x tl IH]; intros fuel e w outs d Hq Hf.
  - destruct fuel as [|fuel]; [inversion Hf|]. cbn [mwhile]. unfold mbind, queue_nonempty. cbn [g_ep].
    rewrite Hq. cbn [map]. rewrite app_nil_r. unfold mret, with_queue. destruct e; cbn in *. subst. reflexivity.
  - destruct fuel as [|fuel]; [inversion Hf|]. cbn [mwhile]. unfold mbind at 1. unfold queue_nonempty at 1. cbn [g_ep].
    rewrite Hq. unfold mseq, mbind. rewrite (Hb x tl e w outs d Hq).
    rewrite (IH fuel (with_queue e tl) w (outs ++ [f x]) d); [|reflexivity|cbn [length] in Hf; lia].
    cbn [map]. rewrite <- app_assoc. reflexivity.
Qed.

Lemma deque_append_enqueue q x :
  deque_append (Some SEND_QUEUE_MAXLEN) q x = fst (enqueue q x).
Proof.
  pose proof send_queue_maxlen_pos as Hp. unfold deque_append, enqueue.
  destruct (Z.of_nat (length q) <? SEND_QUEUE_MAXLEN) eqn:E; [reflexivity|].
  destruct (SEND_QUEUE_MAXLEN <=? 0) eqn:E0; [lia|].
  destruct q as [|[ea ep_] tl]; reflexivity.
Qed.

Lemma calls_enqueue q x : calls (snd (enqueue q x)) = [].
Proof.
  unfold enqueue. destruct (Z.of_nat (length q) <? SEND_QUEUE_MAXLEN); [reflexivity|].
  destruct q as [|[ea ep_] tl]; reflexivity.
Qed.

Lemma calls_map_tunnel c q : calls (map (tunnel_out c) q) = map (tunnel_out c) q.
Proof. induction q as [|x q IH]; [reflexivity|]. cbn [map calls filter tunnel_out is_call]. f_equal. exact IH. Qed.

Lemma is_some_attached (b : bool) : is_some (if b then Some TheCommunity else None) = b.
Proof. destruct b; reflexivity. Qed.

Arguments mwhile : simpl never.
Arguments g_find_circuits : simpl never.
Arguments deque_append : simpl never.
Arguments enqueue : simpl never.
Arguments calls : simpl never.
Arguments dict_get : simpl never.
Arguments dict_set : simpl never.
Arguments filter : simpl never.

Lemma to_st_of s : to_st (ep_of s) (w_of s) = s.
Proof. unfold to_st, ep_of, w_of. cbn. rewrite is_some_attached. destruct s; reflexivity. Qed.

(* the lookup send() asks for: DATA circuits, any state, exit flags containing EXIT_IPV8, goal_hops = hops *)
Lemma find_send h cs : g_find_circuits cs (Some 0) None (Some [4]) (Some h) = filter (matches h) cs.
Proof.
  rewrite find_circuits_spec. apply filter_ext. intros c. unfold fc_ok, matches, zsubset. cbn [forallb].
  rewrite andb_true_r. reflexivity.
Qed.

Lemma calls_cons o l : calls (o :: l) = if is_call o then o :: calls l else calls l.
Proof. reflexivity. Qed.

(* the branches of send() that end in queue_append: name the enqueue result, then evaluate both sides *)
Ltac fin_append s a p Eat :=
  rewrite deque_append_enqueue;
  let Hc := fresh "Hc" in
  pose proof (calls_enqueue (queue s) (a, p)) as Hc;
  destruct (enqueue (queue s) (a, p)) as [q o]; cbn [fst snd] in *;
  unfold to_st, set_queue, add_circuit, w_of; cbn; rewrite ?Eat, ?calls_cons, ?Hc; cbn; reflexivity.

Lemma send_refines s a p nh :
  exec (g_send (model_rt nh) (fuel_for s) a p) s = Ok (fst (send s a p nh), calls (snd (send s a p nh))).
Proof.
  unfold exec, g_send, send, anon_on, switch.
  change 22 with PREFIX_LEN. rewrite bytes_prefix_pfx.
  cbn.
  destruct (match dict_get (settings s) _ with Some b => b | None => false end); cbn.
  2:{ fold (ep_of s). fold (w_of s). rewrite to_st_of. reflexivity. }
  destruct (attached s) eqn:Eat; cbn; rewrite ?Eat; cbn.
  2:{ fold (ep_of s). fold (w_of s). rewrite to_st_of. reflexivity. }
  rewrite find_send.
  destruct (filter (matches (hops_cfg s)) (circuits s)) as [|c tl]; cbn.
  - destruct nh as [h|]; cbn; fin_append s a p Eat.
  - unfold is_ready. destruct (state_of c); cbn; [|rewrite ?Eat; fin_append s a p Eat|rewrite ?Eat; fin_append s a p Eat].
    (* READY: this packet, then the flush loop *)
    rewrite mseq_run.
    erewrite mwhile_flush with (f := tunnel_out c) (q := queue s).
    + cbn. unfold to_st, set_queue. cbn. rewrite Eat, calls_cons, calls_map_tunnel. reflexivity.
    + intros [xa xp] tl0 e w outs d Hq. unfold mbind, mseq, queue_popleft. cbn [g_ep]. rewrite Hq. reflexivity.
    + reflexivity.
    + unfold fuel_for. lia.
Qed.

(* the operations without a loop or a lookup: both sides evaluate *)
Ltac fin_simple s :=
  unfold exec; cbn; unfold to_st, w_of; cbn; rewrite ?is_some_attached; reflexivity.

Lemma step_refines s o : step_gen s o = Ok (fst (step s o), calls (snd (step s o))).
Proof.
  destruct o as [a p nh|pfx b|pfx|h| |pfx an|pfx|g ct uh|k h|k|k]; cbn [step_gen step].
  - apply send_refines.
  - fin_simple s.
  - fin_simple s.
  - fin_simple s.
  - fin_simple s.
  - destruct an; [fin_simple s|reflexivity].
  - fin_simple s.
  - reflexivity.
  - reflexivity.
  - reflexivity.
  - reflexivity.
Qed.

Lemma step_gen_inv s o s' outs : step_gen s o = Ok (s', outs) -> s' = fst (step s o) /\ outs = calls (snd (step s o)).
Proof. rewrite step_refines. intros H. inversion H. split; reflexivity. Qed.

Lemma in_calls o l : In o (calls l) -> In o l.
Proof. unfold calls. intros H. apply filter_In in H as [H _]. exact H. Qed.

Lemma calls_forall (P : out -> Prop) l : Forall P l -> Forall P (calls l).
Proof. rewrite !Forall_forall. intros H x Hx. apply H, in_calls, Hx. Qed.

Lemma raw_in_calls a p l : In (Raw a p) l -> In (Raw a p) (calls l).
Proof. intros H. unfold calls. apply filter_In. split; [exact H|reflexivity]. Qed.

(* a history of the generated code is the hand model's trace, seen through `calls` *)
Definition record_of (e : event) : list out * Z * Z :=
  (calls (ev_outs e), Z.of_nat (length (queue (ev_post e))), Z.of_nat (length (circuits (ev_post e)))).

Lemma run_gen_trace ops : forall s, run_gen s ops = Ok (map record_of (trace s ops), final s ops).
Proof.
  induction ops as [|o tl IH]; intros s; cbn [run_gen trace final]; [reflexivity|].
  rewrite step_refines, IH. unfold record_of at 2, ev_post.
  destruct (step s o) as [s1 outs] eqn:E. cbn [map ev_pre ev_op ev_outs fst snd]. rewrite E. reflexivity.
Qed.

Lemma notify_cons l ls ft :
  notify (l :: ls) ft = if Bool.eqb (anonymize_of l) ft then fst l :: notify ls ft else notify ls ft.
Proof. unfold notify. change (filter ?f (l :: ls)) with (if f l then l :: filter f ls else filter f ls).
  destruct (Bool.eqb (anonymize_of l) ft); reflexivity. Qed.

Lemma mfor_filter (ft : bool) (body : listener -> M unit) :
  (forall l e w o d, body l (mkGS e w o d)
                     = Ok (tt, mkGS e w o (if Bool.eqb (anonymize_of l) ft then d ++ [fst l] else d))) ->
  forall ls e w o d, mfor ls body (mkGS e w o d) = Ok (tt, mkGS e w o (d ++ notify ls ft)).
Proof.
  intros Hb ls. induction ls as [|l ls IH]; intros e w o d; cbn [mfor].
  - unfold mret, notify. cbn. rewrite app_nil_r. reflexivity.
  - unfold mseq, mbind. rewrite Hb. rewrite IH. rewrite notify_cons.
    destruct (Bool.eqb (anonymize_of l) ft); [rewrite <- app_assoc|]; reflexivity.
Qed.

