(* C09, path level, circuits under construction - every network step of a building run preserves the family
   invariant; the reclamation bound for circuits that never become ready. *)
From Coq Require Import ZArith List Bool Lia.
From IPV8V Require Import model.M09_reclaim model.M09_network spec.S09_reclaim proofs.P09_alist
  proofs.P09_inv proofs.P09_special proofs.P09_remove
  proofs.P09_network_main proofs.P09_network_binv proofs.P09_network_bstep.
Import ListNotations.
Open Scope Z_scope.

Section Budget.
Variable st : settings.
Hypothesis Hst : settings_ok st.

(* while an own circuit is neither closing nor ready, every properly timed event of the node happens within
   next_hop_timeout * (tries + goal - 1) + remove_tunnel_delay of its creation (this is the sharper half of the
   argument behind C09 circuit_bounded_reclaim) *)
Lemma building_time s t x c :
  inv st s -> on_time st s t = true -> aget x (circuits s) = Some c -> c_closing c = false ->
  c_hops c < c_goal c -> t <= creation (c_ro c) + build_bound st (c_goal c) + s_remove_delay st.
Proof.
  intros Hi Hon Hg Hcl Hlt. pose proof Hi as (Hside & _ & _ & Hrt & Hdr & Hc).
  pose proof Hon as Hon'. apply on_time_facts in Hon'. destruct Hon' as (Hle & Hor & (T1 & T2 & T3)).
  simpl in T1, T2, T3. destruct Hst as (Hmi & Hsw & Hd & Hn & Hct). destruct Hside as [_ S2].
  destruct (S2 _ _ Hg) as [Hh _].
  specialize (Hc _ _ Hg). unfold circ_ok in Hc. rewrite Hcl in Hc.
  assert (E : (c_goal c <=? c_hops c) = false) by lia. rewrite E in Hc.
  destruct Hc as [Hr|[(tries & ini & Hin)|[(dd & rn & Hin & Hle')|(due & Hin & Hle')]]].
  - apply ahas_aget in Hr. destruct Hr as (rt & Hr).
    pose proof (retry_due_bound st Hst c rt (Hrt _ _ _ Hr Hg) Hlt). specialize (T3 _ _ Hr). lia.
  - destruct (Hdr _ _ _ Hin) as (D1 & D2 & D3).
    pose proof (dretry_bound st Hst s c tries (D3 _ Hg) D1 Hh Hlt).
    destruct Hor as [Hor|Hor]; [lia | rewrite Hor in Hin; destruct Hin].
  - destruct Hor as [Hor|Hor]; [lia | rewrite Hor in Hin; destruct Hin].
  - specialize (T2 _ Hin). simpl in T2. lia.
Qed.

End Budget.

Section BMain.
Variable st : settings.
Variable D : Z.
Variable F : family.
Variable O x0 : Z.
Variable h : nat.
Variable tq : Z.
Hypothesis Hst : settings_ok st.
Hypothesis HD : 0 <= D.
Hypothesis Hwf : fam_ok_b F O x0 h = true.

Notation I := (IF F).
Notation ngoodF := (ngoodF st D F O x0 h tq).
Notation mgoodF := (mgoodF D F h tq).
Notation wgoodF := (wgoodF st D F O x0 h tq).
Notation node_ok := (node_ok st D F O x0 h tq).
Notation alive0 := (alive0 x0).
Notation TmaxB := (TmaxB D h tq).

Lemma alive_early n s t :
  ngoodF n s -> inv st s -> on_time st s t = true -> alive0 (set_now t s) -> t <= tq.
Proof.
  intros G Hi Hon (c & Hc & Hcl). simpl in Hc.
  assert (Ix : I x0 = true).
  { destruct (fam_root F O x0 h Hwf) as (i0 & H0 & _). apply IF_some. eauto. }
  destruct (b_circ G _ _ Ix Hc) as (_ & _ & _ & _ & _ & [(K & _)|(_ & Hlt & Hcr)]); [congruence|].
  pose proof (building_time st Hst s t x0 c Hi Hon Hc Hcl Hlt). lia.
Qed.

Lemma bevent_good w n t e inherit :
  wgoodF w ->
  (forall s, aget n (nodes w) = Some s -> on_time st s t = true) ->
  (forall s, aget n (nodes w) = Some s -> ngoodF n (set_now t s) -> node_ok n t inherit (step_at st (set_now t s) e)) ->
  wgoodF (node_event st w n t e inherit).
Proof.
  intros W Hon Hok. apply (net_good_event st ngoodF mgoodF); [exact (fun _ _ _ _ _ => Logic.I) | exact W|].
  intros s En. apply (Hok s En).
  apply ngoodF_set_now; [apply Hon; exact En | apply (proj1 W); exact En].
Qed.

Lemma node_event_at w n t e inh s :
  aget n (nodes w) = Some s -> aget n (nodes (node_event st w n t e inh)) = Some (fst (step st s (t, e))).
Proof. intro H. unfold node_event. rewrite H. simpl. rewrite aget_aset, Z.eqb_refl. reflexivity. Qed.

Lemma bnstep_good w tl :
  wgoodF w -> winv st w -> bstep_ok st D F O x0 tq w tl = true -> wgoodF (nstep st w tl).
Proof.
  intros W Wi Hok. destruct tl as [t l]. unfold bstep_ok in Hok.
  repeat (apply andb_true_iff in Hok; destruct Hok as [Hok ?]).
  rename Hok into Htime, H into Hun, H0 into Hev, H1 into Hty, H2 into Hlife.
  unfold step_timely, step_within, step_typed, step_events_ok in *. simpl fst in *. simpl snd in *.
  unfold nstep in *. simpl fst in *. simpl snd in *.
  destruct l as [i keep plain len cr ls|i|n e].
  - (* a message is delivered *)
    simpl in Htime, Hev. destruct (nth_error (flight w) i) as [m|] eqn:En; [|exact W].
    assert (Hm : mgoodF m) by (apply (proj2 W); eapply nth_error_In; eauto).
    pose proof (net_good_take ngoodF mgoodF w i keep W) as W1.
    destruct m as [src dst cid early mid sent|src dst cid reason sent].
    + apply bevent_good; [exact W1 | |].
      { intros s Hs. rewrite take_msg_nodes in Hs. rewrite Hs in Htime. exact Htime. }
      intros s Hs G0. rewrite take_msg_nodes in Hs. rewrite Hs in Htime, Hev.
      apply andb_true_iff in Hev. destruct Hev as [Hid _].
      assert (Hal : alive0 (set_now t s) -> t <= tq).
      { apply (alive_early dst s t); [apply (proj1 W); exact Hs | exact (Wi _ _ Hs) | exact Htime]. }
      destruct (aget cid F) as [ix|] eqn:Hx.
      * apply (family_cell_ok st D F O x0 h tq HD Hwf dst (set_now t s) src cid plain early len cr ls t mid sent ix);
          auto.
        -- apply Z.leb_le. exact Hlife.
        -- intros Hnr m Hc. subst cr. exact (typed_unrelayed w dst cid s mid m Hs Hnr Hty).
        -- intros EO c' Hc'. subst dst. unfold unready_b in Hun.
           rewrite (node_event_at (take_msg w i keep) O t _ mid s) in Hun by (rewrite take_msg_nodes; exact Hs).
           change (step st s (t, ERecvCell src cid plain early len cr ls))
             with (recv_cell st (set_now t s) src cid plain early len cr ls) in Hun.
           rewrite Hc' in Hun. apply orb_true_iff in Hun. destruct Hun as [K|K]; [left; exact K | right; apply Z.ltb_lt; exact K].
      * apply (nonfamily_cell_ok st D F O x0 h tq Hwf); auto. apply IF_none. exact Hx.
    + apply bevent_good; [exact W1 | |].
      { intros s Hs. rewrite take_msg_nodes in Hs. rewrite Hs in Htime. exact Htime. }
      intros s Hs G0. rewrite take_msg_nodes in Hs. rewrite Hs in Htime.
      apply (framed_event_ok st D F O x0 h tq Hwf); auto; try exact Logic.I.
      apply (alive_early dst s t); [apply (proj1 W); exact Hs | exact (Wi _ _ Hs) | exact Htime].
  - exact (net_good_drop ngoodF mgoodF w i W).
  - apply bevent_good; [exact W | |].
    { intros s Hs. simpl in Htime. rewrite Hs in Htime. exact Htime. }
    intros s Hs G0. simpl in Htime, Hev. rewrite Hs in Htime, Hev.
    apply andb_true_iff in Hev. destruct Hev as [Hid Hq].
    assert (Hal : alive0 (set_now t s) -> t <= tq).
    { apply (alive_early n s t); [apply (proj1 W); exact Hs | exact (Wi _ _ Hs) | exact Htime]. }
    apply (local_event_ok st D F O x0 h tq HD Hwf); auto.
Qed.

Lemma bstep_ok_timely w tl : bstep_ok st D F O x0 tq w tl = true -> step_timely st w tl = true.
Proof. unfold bstep_ok. intro H. repeat (apply andb_true_iff in H; destruct H as [H ?]). exact H. Qed.

Lemma brun_good tr : forall w,
  wgoodF w -> winv st w -> brun_ok st D F O x0 tq w tr = true -> wgoodF (nrun st w tr) /\ winv st (nrun st w tr).
Proof.
  induction tr as [|tl rest IH]; intros w W Wi H; [split; assumption|].
  simpl in H. apply andb_true_iff in H. destruct H as [H1 H2]. simpl. apply IH; [| |exact H2].
  - apply bnstep_good; assumption.
  - apply (nstep_inv st Hst); [exact Wi | eapply bstep_ok_timely; eauto].
Qed.

Lemma breclaimed_node w T n s x :
  wgoodF w -> winv st w -> aget n (nodes w) = Some s -> on_time st s T = true ->
  tq + B_path st D h < T -> I x = true -> holds_id s x = false.
Proof.
  intros [Wn _] Wi Hg Hon HT Hi. pose proof (Wn _ _ Hg) as G. pose proof (Wi _ _ Hg) as Iv.
  unfold B_path in HT. pose proof Hst as (Hmi & Hsw & Hdl & _). pose proof (TmaxB_ge D F O x0 h tq HD Hwf) as TG.
  pose proof Hi as Hi'. apply IF_some in Hi'. destruct Hi' as (ix & Hx).
  apply (expired st Hst s T x TmaxB Iv Hon); [unfold P09_network_binv.TmaxB, B_entry; lia | |intros r Er|intros e Ee].
  - intros c Ec. destruct (b_circ G _ _ Hi Ec) as (_ & _ & _ & _ & _ & [(_ & due & Hin & Hle)|(Hcl & Hlt & Hcr)]).
    + exists due. split; [exact Hin | unfold P09_network_binv.TmaxB in TG; lia].
    + pose proof (building_time st Hst s T x c Iv Hon Ec Hcl Hlt). unfold P09_network_binv.TmaxB in TG. lia.
  - exact (proj1 (b_rel G _ _ _ Hx Er)).
  - exact (proj2 (proj2 (b_exit G _ _ _ Hx Ee))).
Qed.

End BMain.

