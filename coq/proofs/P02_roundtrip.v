(* pack/unpack round trip for every well-formed format, at any offset, with any surrounding bytes. *)
From Coq Require Import ZArith List Bool Lia.
From IPV8V Require Import lib.Lists lib.PyErr lib.Bytes lib.BE model.M02_wire proofs.P02_prims.
Import ListNotations.
Open Scope Z_scope.

Scheme fmt_mut := Induction for fmt Sort Prop
  with msgfmt_mut := Induction for msgfmt Sort Prop.
Combined Scheme fmt_msg_ind from fmt_mut, msgfmt_mut.

Section RT.
Variable key_ok : bytes -> bool.
Notation pack := (pack key_ok).
Notation unpack := (unpack key_ok).
Notation pack_msg := (pack_msg key_ok).
Notation unpack_msg := (unpack_msg key_ok).
Notation val_ok := (val_ok key_ok).
Notation msg_ok := (msg_ok key_ok).

Definition RTf (f : fmt) : Prop :=
  wf_fmt f = true -> forall v bs pre suf,
  val_ok f v = true -> pack f v = Ok bs -> (greedy f = false \/ suf = []) ->
  unpack f (pre ++ bs ++ suf) (length pre) = Ok (v, (length pre + length bs)%nat).

Definition RTm (m : msgfmt) : Prop :=
  wf_msg m = true -> forall vs bs pre suf,
  msg_ok m vs = true -> pack_msg m vs = Ok bs -> (msg_greedy m = false \/ suf = []) ->
  unpack_msg m (pre ++ bs ++ suf) (length pre) = Ok (vs, (length pre + length bs)%nat).

Lemma lw_range lw : lw_ok lw = true -> (0 < lw)%nat.
Proof. intros H. destruct lw; [discriminate H|apply Nat.lt_0_succ]. Qed.

Lemma rt_struct ps : RTf (FStruct ps).
Proof.
  intros Hwf v bs pre suf Hok Hp _. cbn [wf_fmt] in Hwf. apply andb_true_iff in Hwf as [Hne Hps].
  cbn [M02_wire.unpack].
  assert (Hgen : forall vs, struct_enc ps vs = Ok bs ->
     take (struct_size ps) (length pre) (pre ++ bs ++ suf) = Ok bs /\ struct_dec ps bs = vs /\ length bs = struct_size ps).
  { intros vs E. destruct (struct_roundtrip ps vs bs Hps E) as [L D]. split; [|split; assumption].
    apply take_here. exact L. }
  destruct ps as [|p [|p2 ps]]; [discriminate Hne| |].
  - (* single primitive *)
    cbn [M02_wire.pack] in Hp.
    assert (E : struct_enc [p] [v] = Ok bs).
    { cbn [struct_enc]. rewrite Hp. cbn [bind]. rewrite app_nil_r. reflexivity. }
    destruct (Hgen [v] E) as (T & D & L). rewrite T. cbn [bind]. rewrite D, L. reflexivity.
  - cbn [M02_wire.pack] in Hp. destruct v; try discriminate Hp.
    destruct (Hgen l Hp) as (T & D & L). rewrite T. cbn [bind]. rewrite D, L.
    pose proof (struct_enc_arity _ _ _ Hp) as Hlen.
    destruct l as [|v1 [|v2 l]]; try discriminate Hlen. reflexivity.
Qed.

Lemma be_decode_single z : be_decode [z] = z.
Proof. unfold be_decode. simpl. lia. Qed.

Lemma rt_bits : RTf FBits.
Proof.
  intros _ v bs pre suf Hok Hp _. cbn [M02_wire.val_ok] in Hok. destruct v; try discriminate Hok.
  apply andb_true_iff in Hok as [Hl Hb]. apply Nat.eqb_eq in Hl.
  cbn [M02_wire.pack] in Hp. rewrite Hl in Hp. cbn [Nat.eqb] in Hp.
  destruct (bits_enc l 128) as [z|] eqn:E; cbn [bind] in Hp; [|discriminate]. apply Ok_inj in Hp; subst bs.
  destruct (bits_roundtrip l z Hl Hb E) as [Hz Hm].
  cbn [M02_wire.unpack]. rewrite (take_here 1 pre [z] suf eq_refl). cbn [bind].
  rewrite be_decode_single. rewrite Hm. reflexivity.
Qed.

Lemma rt_raw : RTf FRaw.
Proof.
  intros _ v bs pre suf Hok Hp Hg. destruct Hg as [Hg|Hg]; [discriminate Hg|]. subst suf.
  cbn [M02_wire.pack] in Hp. destruct v; try discriminate Hp. destruct (bytes_okb b); [|discriminate].
  apply Ok_inj in Hp; subst bs. cbn [M02_wire.unpack]. rewrite app_nil_r. rewrite skipn_app_exact.
  rewrite app_length. reflexivity.
Qed.

Lemma varlen_rt lw base b bs pre suf :
  (0 < base)%nat -> (length b mod base = 0)%nat ->
  varlen_pack lw base b = Ok bs ->
  varlen_unpack lw base (pre ++ bs ++ suf) (length pre) = Ok (b, (length pre + length bs)%nat).
Proof.
  intros Hbase Hmod Hp. unfold varlen_pack in Hp.
  destruct (base =? 0)%nat eqn:Eb; [apply Nat.eqb_eq in Eb; lia|].
  destruct (in_range 0 (256 ^ Z.of_nat lw) (Z.of_nat (length b / base)) && bytes_okb b) eqn:Er; [|discriminate].
  apply Ok_inj in Hp; subst bs. apply andb_true_iff in Er as [Er _]. unfold in_range in Er.
  unfold varlen_unpack. rewrite <- app_assoc.
  rewrite (take_here lw pre _ (b ++ suf) (be_encode_length lw _)). cbn [bind].
  rewrite be_decode_encode by lia. rewrite Nat2Z.id.
  assert (Hlen : (length b / base * base = length b)%nat).
  { pose proof (Nat.div_mod (length b) base ltac:(lia)). lia. }
  rewrite Hlen. rewrite !app_length, be_encode_length.
  destruct (length pre + lw + length b <=? length pre + (lw + (length b + length suf)))%nat eqn:E.
  2:{ apply Nat.leb_gt in E. lia. }
  rewrite (app_assoc pre (be_encode lw _)).
  rewrite skipn_len_app by (rewrite app_length, be_encode_length; reflexivity).
  rewrite firstn_app_exact. f_equal. f_equal. lia.
Qed.

Lemma rt_varlen lw base utf8 : RTf (FVarLen lw base utf8).
Proof.
  intros Hwf v bs pre suf Hok Hp _. cbn [wf_fmt] in Hwf. apply andb_true_iff in Hwf as [_ Hbase].
  apply Nat.ltb_lt in Hbase.
  cbn [M02_wire.val_ok] in Hok. cbn [M02_wire.pack] in Hp. cbn [M02_wire.unpack].
  destruct v; try discriminate Hok; destruct utf8; try discriminate Hok.
  - repeat (apply andb_true_iff in Hok as [Hok ?]).
    rewrite (varlen_rt lw base b bs pre suf Hbase) by (try assumption; apply Nat.eqb_eq; assumption).
    reflexivity.
  - apply andb_true_iff in Hok as [Hok Hu]. repeat (apply andb_true_iff in Hok as [Hok ?]).
    rewrite Hu in Hp.
    rewrite (varlen_rt lw base b bs pre suf Hbase) by (try assumption; apply Nat.eqb_eq; assumption).
    cbn [bind]. rewrite Hu. reflexivity.
Qed.

Lemma port_decode_encode port : in_range 0 65536 port = true -> be_decode (be_encode 2 port) = port.
Proof. intros H. unfold in_range in H. apply be_decode_encode. change (256 ^ Z.of_nat 2) with 65536. lia. Qed.

Lemma rt_ipv4 : RTf FIPv4.
Proof.
  intros _ v bs pre suf Hok Hp _. cbn [M02_wire.val_ok] in Hok.
  destruct v as [| | | | |a| | | |]; try discriminate Hok. destruct a as [ip port| |]; try discriminate Hok.
  cbn [M02_wire.pack] in Hp. cbn [addr_ok] in Hok. rewrite Hok in Hp. apply Ok_inj in Hp; subst bs.
  apply andb_true_iff in Hok as [Hok Hport]. apply andb_true_iff in Hok as [Hl _]. apply Nat.eqb_eq in Hl.
  cbn [M02_wire.unpack].
  rewrite (take_here 6 pre (ip ++ be_encode 2 port) suf) by (rewrite app_length, be_encode_length; lia).
  cbn [bind]. rewrite firstn_len_app by (symmetry; exact Hl). rewrite skipn_len_app by (symmetry; exact Hl).
  rewrite port_decode_encode by exact Hport. rewrite app_length, be_encode_length. do 3 f_equal. lia.
Qed.

(* the two fixed-size address forms: a tag byte, n address bytes, the port *)
Lemma ip_rt (mk : bytes -> Z -> addr) tag n ip port pre suf :
  (length ip =? n)%nat && bytes_okb ip && in_range 0 65536 port = true ->
  take 1 (length pre) (pre ++ (tag :: ip ++ be_encode 2 port) ++ suf) = Ok [tag] /\
  (do b <- take (n + 2) (length pre + 1) (pre ++ (tag :: ip ++ be_encode 2 port) ++ suf);
   Ok (mk (firstn n b) (be_decode (skipn n b)), (length pre + (n + 3))%nat))
  = Ok (mk ip port, (length pre + length (tag :: ip ++ be_encode 2 port))%nat).
Proof.
  intros Hok. apply andb_true_iff in Hok as [Hok Hport]. apply andb_true_iff in Hok as [Hl _]. apply Nat.eqb_eq in Hl.
  change (pre ++ (tag :: ip ++ be_encode 2 port) ++ suf) with (pre ++ [tag] ++ (ip ++ be_encode 2 port) ++ suf).
  split; [exact (take_here 1 pre [tag] _ eq_refl)|].
  rewrite (take_at (n + 2) 1 pre [tag] (ip ++ be_encode 2 port) suf eq_refl) by (rewrite app_length, be_encode_length; lia).
  cbn [bind]. rewrite firstn_len_app by (symmetry; exact Hl). rewrite skipn_len_app by (symmetry; exact Hl).
  rewrite port_decode_encode by exact Hport. cbn [length]. rewrite app_length, be_encode_length. do 2 f_equal. lia.
Qed.

Lemma addr_rt ip_only a bs pre suf :
  addr_ok ip_only a = true -> addr_pack ip_only a = Ok bs ->
  addr_unpack ip_only (pre ++ bs ++ suf) (length pre) = Ok (a, (length pre + length bs)%nat).
Proof.
  intros Hok Hp. destruct a as [ip port|ip port|host port]; cbn [addr_ok] in Hok; cbn [addr_pack] in Hp.
  - rewrite Hok in Hp. apply Ok_inj in Hp; subst bs. destruct (ip_rt A4 1 4 ip port pre suf Hok) as [T E].
    unfold addr_unpack. rewrite T. exact E.
  - rewrite Hok in Hp. apply Ok_inj in Hp; subst bs. destruct (ip_rt A6 3 16 ip port pre suf Hok) as [T E].
    unfold addr_unpack. rewrite T. exact E.
  - destruct ip_only; [discriminate Hok|]. cbn [negb andb] in Hok. rewrite Hok in Hp. apply Ok_inj in Hp; subst bs.
    apply andb_true_iff in Hok as [Hok Hport]. apply andb_true_iff in Hok as [Hok Hu].
    apply andb_true_iff in Hok as [Hlen _].
    unfold addr_unpack.
    set (L := be_encode 2 (Z.of_nat (length host))).
    change (pre ++ (2 :: L ++ host ++ be_encode 2 port) ++ suf)
      with (pre ++ [2] ++ (L ++ host ++ be_encode 2 port) ++ suf).
    rewrite (take_here 1 pre [2] _ eq_refl). cbn [bind]. rewrite be_decode_single. cbn [Z.eqb Pos.eqb negb andb].
    assert (HL : length L = 2%nat) by apply be_encode_length.
    assert (HdL : Z.to_nat (be_decode L) = length host).
    { unfold L. rewrite be_decode_encode by (change (256 ^ Z.of_nat 2) with 65536; lia). apply Nat2Z.id. }
    replace (pre ++ [2] ++ (L ++ host ++ be_encode 2 port) ++ suf)
      with (pre ++ [2] ++ L ++ (host ++ be_encode 2 port ++ suf)) by (rewrite <- !app_assoc; reflexivity).
    rewrite (take_at 2 1 pre [2] L _ eq_refl HL). cbn [bind]. rewrite !HdL.
    replace (pre ++ [2] ++ L ++ host ++ be_encode 2 port ++ suf)
      with ((pre ++ [2] ++ L) ++ host ++ be_encode 2 port ++ suf) by (rewrite <- !app_assoc; reflexivity).
    replace (length pre + 3)%nat with (length (pre ++ [2] ++ L)) by (rewrite !app_length, HL; simpl; lia).
    rewrite skipn_app_exact. rewrite firstn_app_exact. rewrite Hu. cbn [negb].
    replace (length (pre ++ [2%Z] ++ L) + length host)%nat with (length ((pre ++ [2] ++ L) ++ host))
      by (rewrite app_length; reflexivity).
    replace ((pre ++ [2] ++ L) ++ host ++ be_encode 2 port ++ suf)
      with (((pre ++ [2] ++ L) ++ host) ++ be_encode 2 port ++ suf) by (rewrite <- !app_assoc; reflexivity).
    rewrite (take_here 2 _ (be_encode 2 port) suf (be_encode_length 2 port)). cbn [bind].
    rewrite port_decode_encode by exact Hport. do 2 f_equal.
    cbn [length]. rewrite !app_length, HL, be_encode_length. simpl. lia.
Qed.

Lemma rt_addr ip_only : RTf (FAddr ip_only).
Proof.
  intros _ v bs pre suf Hok Hp _. cbn [M02_wire.val_ok] in Hok. destruct v; try discriminate Hok.
  cbn [M02_wire.pack] in Hp. cbn [M02_wire.unpack]. rewrite (addr_rt ip_only a bs pre suf Hok Hp). reflexivity.
Qed.

(* a list of VInt values and its integers *)
Fixpoint ints_of (vs : list val) : option (list Z) :=
  match vs with
  | [] => Some []
  | VInt z :: tl => match ints_of tl with Some zs => Some (z :: zs) | None => None end
  | _ => None
  end.

Lemma val_eqb_vint_list a : forall b, (forall x, In x a -> exists z, x = VInt z) ->
  val_eqb (VList a) (VList b) = true -> a = b.
Proof.
  induction a as [|x a IH]; intros [|y b] Hin H; cbn in H; try discriminate; [reflexivity|].
  apply andb_true_iff in H as [H1 H2].
  destruct (Hin x (or_introl eq_refl)) as [z ->]. destruct y; try discriminate H1.
  cbn in H1. apply Z.eqb_eq in H1. subst. f_equal. apply IH.
  - intros x' Hx'. apply Hin. right. exact Hx'.
  - cbn. exact H2.
Qed.

Lemma flags_or_ints vs z : flags_or vs = Ok z -> forall x, In x vs -> exists y, x = VInt y.
Proof.
  revert z; induction vs as [|v vs IH]; intros z H x Hin; [destruct Hin|].
  cbn [flags_or] in H. destruct v; try discriminate H. destruct (z0 <? 0); [discriminate|].
  destruct (flags_or vs) eqn:E; cbn [bind] in H; [|discriminate].
  destruct Hin as [<-|Hin]; [eauto|]. eapply IH; eauto.
Qed.

Lemma rt_flags w : RTf (FFlags w).
Proof.
  intros Hwf v bs pre suf Hok Hp _. cbn [M02_wire.val_ok] in Hok. destruct v; try discriminate Hok.
  cbn [M02_wire.pack] in Hp. destruct (flags_or l) as [z|] eqn:E; cbn [bind] in Hp; [|discriminate].
  destruct (in_range 0 (256 ^ Z.of_nat w) z) eqn:Er; [|discriminate]. apply Ok_inj in Hp; subst bs.
  apply val_eqb_vint_list in Hok; [|eapply flags_or_ints; exact E].
  cbn [M02_wire.unpack]. rewrite (take_here w pre _ suf (be_encode_length w z)). cbn [bind].
  unfold in_range in Er. rewrite be_decode_encode by lia. rewrite <- Hok. rewrite be_encode_length. reflexivity.
Qed.

Lemma forallb_prim_concat e vs : forall body, concat_res (map (aenc e) vs) = Ok body -> True.
Proof. trivial. Qed.

Lemma rt_array e lw : RTf (FArray e lw).
Proof.
  intros Hwf v bs pre suf Hok Hp _. cbn [wf_fmt] in Hwf. apply andb_true_iff in Hwf as [Hlw He].
  cbn [M02_wire.val_ok] in Hok. destruct v; try discriminate Hok. apply andb_true_iff in Hok as [Hn _].
  cbn [M02_wire.pack] in Hp. destruct (in_range 0 (256 ^ Z.of_nat lw) (Z.of_nat (length l))) eqn:Er; [|discriminate].
  destruct (concat_res (map (aenc e) l)) as [body|] eqn:Eb; cbn [bind] in Hp; [|discriminate].
  apply Ok_inj in Hp; subst bs.
  destruct (array_roundtrip e He l body Eb) as [Lb Db].
  cbn [M02_wire.unpack]. rewrite <- app_assoc.
  rewrite (take_here lw pre _ (body ++ suf) (le_encode_length lw _)). cbn [bind].
  unfold in_range in Er. rewrite le_roundtrip by lia. cbv zeta. rewrite Nat2Z.id.
  rewrite !app_length, le_encode_length.
  destruct (length pre + lw + length l * psize e <=? length pre + (lw + (length body + length suf)))%nat eqn:E.
  2:{ apply Nat.leb_gt in E. lia. }
  rewrite (app_assoc pre (le_encode lw _)).
  rewrite skipn_len_app by (rewrite app_length, le_encode_length; reflexivity).
  rewrite <- Lb. rewrite firstn_app_exact. rewrite Db. do 2 f_equal. lia.
Qed.

Lemma rt_node : RTf FNode.
Proof.
  intros _ v bs pre suf Hok Hp _. cbn [M02_wire.val_ok] in Hok. destruct v; try discriminate Hok.
  apply andb_true_iff in Hok as [Hok Hlen]. apply andb_true_iff in Hok as [Hok Hkb].
  apply andb_true_iff in Hok as [Ha Hk].
  cbn [M02_wire.pack] in Hp. destruct (addr_pack true a) as [x|] eqn:Ex; cbn [bind] in Hp; [|discriminate].
  rewrite Hk in Hp. destruct (varlen_pack 2 1 key) as [y|] eqn:Ey; cbn [bind] in Hp; [|discriminate].
  apply Ok_inj in Hp; subst bs. cbn [M02_wire.unpack]. rewrite <- app_assoc.
  rewrite (addr_rt true a x pre (y ++ suf) Ha Ex). cbn [bind].
  rewrite (app_assoc pre x), <- (app_length pre x).
  rewrite (varlen_rt 2 1 key y (pre ++ x) suf ltac:(lia) (Nat.mod_1_r _) Ey). cbn [bind].
  rewrite Hk. rewrite !app_length. do 2 f_equal. lia.
Qed.

Lemma rt_list_body f (IH : RTf f) : wf_fmt f = true -> greedy f = false ->
  forall vs body pre suf,
  forallb (val_ok f) vs = true -> concat_res (map (pack f) vs) = Ok body ->
  unpack_n (unpack f) (length vs) (pre ++ body ++ suf) (length pre) = Ok (vs, (length pre + length body)%nat).
Proof.
  intros Hwf Hg. induction vs as [|v vs IHvs]; intros body pre suf Hok Hb; cbn [map concat_res] in Hb.
  - inversion Hb; subst. cbn [unpack_n length]. rewrite Nat.add_0_r. reflexivity.
  - cbn [forallb] in Hok. apply andb_true_iff in Hok as [Hv Hvs].
    destruct (pack f v) as [a|] eqn:Ea; cbn [bind] in Hb; [|discriminate].
    destruct (concat_res (map (pack f) vs)) as [b|] eqn:Eb; cbn [bind] in Hb; [|discriminate].
    inversion Hb; subst. cbn [length unpack_n]. rewrite <- app_assoc.
    rewrite (IH Hwf v a pre (b ++ suf) Hv Ea (or_introl Hg)). cbn [bind].
    rewrite (app_assoc pre a), <- (app_length pre a).
    rewrite (IHvs b (pre ++ a) suf Hvs eq_refl). cbn [bind]. rewrite !app_length, Nat.add_assoc. reflexivity.
Qed.

Lemma rt_listof lw f : RTf f -> RTf (FListOf lw f).
Proof.
  intros IH Hwf v bs pre suf Hok Hp _. cbn [wf_fmt] in Hwf.
  apply andb_true_iff in Hwf as [Hwf Hng]. apply andb_true_iff in Hwf as [Hlw Hwff].
  assert (Hg : greedy f = false) by (destruct f; try reflexivity; discriminate Hng).
  cbn [M02_wire.val_ok] in Hok. destruct v; try discriminate Hok. apply andb_true_iff in Hok as [Hn Hvs].
  cbn [M02_wire.pack] in Hp. destruct (in_range 0 (256 ^ Z.of_nat lw) (Z.of_nat (length l))) eqn:Er; [|discriminate].
  destruct (concat_res (map (pack f) l)) as [body|] eqn:Eb; cbn [bind] in Hp; [|discriminate]. apply Ok_inj in Hp; subst bs.
  cbn [M02_wire.unpack]. rewrite <- app_assoc.
  rewrite (take_here lw pre _ (body ++ suf) (be_encode_length lw _)). cbn [bind].
  unfold in_range in Er. rewrite be_decode_encode by lia. rewrite Nat2Z.id.
  rewrite (app_assoc pre (be_encode lw _)).
  replace (length pre + lw)%nat with (length (pre ++ be_encode lw (Z.of_nat (length l))))
    by (rewrite app_length, be_encode_length; reflexivity).
  rewrite (rt_list_body f IH Hwff Hg l body _ suf Hvs Eb). cbn [bind].
  rewrite !app_length, be_encode_length, Nat.add_assoc. reflexivity.
Qed.

Lemma val_ok_nested m v :
  val_ok (FNested m) v =
  match v with
  | VMsg vs => msg_ok m vs && match pack_msg m vs with Ok b => Z.of_nat (length b) <? 65536 | _ => false end
  | _ => false
  end.
Proof. reflexivity. Qed.

Lemma pack_nested m v :
  pack (FNested m) v =
  match v with
  | VMsg vs => do body <- pack_msg m vs;
               if Z.of_nat (length body) <? 65536
               then Ok (be_encode 2 (Z.of_nat (length body)) ++ body) else Raise StructError
  | _ => Raise TypeError
  end.
Proof. reflexivity. Qed.

Lemma unpack_nested m data off :
  unpack (FNested m) data off =
  (do l <- take 2 off data;
   let size := Z.to_nat (be_decode l) in
   if (off + 2 + size <=? length data)%nat then
     do (vs, _) <- unpack_msg m (firstn size (skipn (off + 2) data)) 0;
     Ok (VMsg vs, (off + 2 + size)%nat)
   else Raise PackError).
Proof. reflexivity. Qed.

Lemma rt_nested m : RTm m -> RTf (FNested m).
Proof.
  intros IH Hwf v bs pre suf Hok Hp _. cbn [wf_fmt] in Hwf.
  rewrite val_ok_nested in Hok. destruct v; try discriminate Hok. apply andb_true_iff in Hok as [Hvs Hlen].
  rewrite pack_nested in Hp. destruct (pack_msg m l) as [body|] eqn:Eb; cbn [bind] in Hp; [|discriminate].
  rewrite Hlen in Hp. apply Ok_inj in Hp; subst bs.
  rewrite unpack_nested. rewrite <- app_assoc.
  rewrite (take_here 2 pre _ (body ++ suf) (be_encode_length 2 _)). cbn [bind].
  rewrite be_decode_encode by (change (256 ^ Z.of_nat 2) with 65536; lia). cbv zeta. rewrite Nat2Z.id.
  rewrite !app_length, be_encode_length.
  destruct (length pre + 2 + length body <=? length pre + (2 + (length body + length suf)))%nat eqn:E.
  2:{ apply Nat.leb_gt in E. lia. }
  rewrite (app_assoc pre (be_encode 2 _)).
  rewrite skipn_len_app by (rewrite app_length, be_encode_length; reflexivity).
  rewrite firstn_app_exact.
  pose proof (IH Hwf l body [] [] Hvs Eb (or_intror eq_refl)) as H. cbn [app length] in H.
  rewrite app_nil_r in H. rewrite H. cbn [bind]. do 2 f_equal. lia.
Qed.

Lemma rt_mnil : RTm MNil.
Proof.
  intros _ vs bs pre suf Hok Hp _. destruct vs; [|discriminate Hok]. cbn in Hp. apply Ok_inj in Hp; subst bs.
  cbn [M02_wire.unpack_msg length]. rewrite Nat.add_0_r. reflexivity.
Qed.

Lemma msg_ok_cons f m v vs : msg_ok (MCons f m) (v :: vs) = val_ok f v && msg_ok m vs.
Proof. reflexivity. Qed.
Lemma pack_msg_cons f m v vs :
  pack_msg (MCons f m) (v :: vs) = (do a <- pack f v; do b <- pack_msg m vs; Ok (a ++ b)).
Proof. reflexivity. Qed.
Lemma unpack_msg_cons f m data off :
  unpack_msg (MCons f m) data off =
  (do (v, o1) <- unpack f data off; do (vs, o2) <- unpack_msg m data o1; Ok (v :: vs, o2)).
Proof. reflexivity. Qed.

Lemma rt_mcons f m : RTf f -> RTm m -> RTm (MCons f m).
Proof.
  intros IHf IHm Hwf vs bs pre suf Hok Hp Hg.
  destruct vs as [|v vs]; [discriminate Hok|]. rewrite msg_ok_cons in Hok. apply andb_true_iff in Hok as [Hv Hvs].
  rewrite pack_msg_cons in Hp. destruct (pack f v) as [a|] eqn:Ea; cbn [bind] in Hp; [|discriminate].
  destruct (pack_msg m vs) as [b|] eqn:Eb; cbn [bind] in Hp; [|discriminate]. apply Ok_inj in Hp; subst bs.
  rewrite unpack_msg_cons. rewrite <- app_assoc.
  assert (Hwf' : wf_fmt f = true /\ wf_msg m = true /\ (m = MNil \/ greedy f = false)).
  { cbn [wf_msg] in Hwf. destruct m as [|f2 m2].
    - split; [exact Hwf|]. split; [reflexivity|left; reflexivity].
    - apply andb_true_iff in Hwf as [Hwf Hm]. apply andb_true_iff in Hwf as [Hf Hng].
      split; [exact Hf|]. split; [exact Hm|]. right. destruct f; try reflexivity; discriminate Hng. }
  destruct Hwf' as (Hf & Hm & Hlast).
  assert (Hgf : greedy f = false \/ b ++ suf = []).
  { destruct Hlast as [->|Hgf]; [|left; exact Hgf].
    destruct vs; [|discriminate Hvs]. cbn in Eb. inversion Eb; subst. cbn [app].
    cbn [msg_greedy] in Hg. destruct Hg as [Hg|Hg]; [left; exact Hg|right; exact Hg]. }
  rewrite (IHf Hf v a pre (b ++ suf) Hv Ea Hgf). cbn [bind].
  rewrite (app_assoc pre a), <- (app_length pre a).
  assert (Hgm : msg_greedy m = false \/ suf = []).
  { destruct Hg as [Hg|Hg]; [|right; exact Hg]. left. cbn [msg_greedy] in Hg.
    destruct m; [reflexivity|exact Hg]. }
  rewrite (IHm Hm vs b (pre ++ a) suf Hvs Eb Hgm). cbn [bind]. rewrite !app_length, Nat.add_assoc. reflexivity.
Qed.

Lemma roundtrip_all : (forall f, RTf f) /\ (forall m, RTm m).
Proof.
  apply fmt_msg_ind.
  - exact rt_struct.
  - exact rt_bits.
  - exact rt_raw.
  - exact rt_varlen.
  - exact rt_ipv4.
  - exact rt_addr.
  - exact rt_flags.
  - exact rt_array.
  - exact rt_node.
  - exact rt_listof.
  - exact rt_nested.
  - exact rt_mnil.
  - intros f Hf m Hm. exact (rt_mcons f m Hf Hm).
Qed.

Lemma pack_unpack_fmt_l f v bs pre suf :
  wf_fmt f = true -> val_ok f v = true -> pack f v = Ok bs -> (greedy f = false \/ suf = []) ->
  unpack f (pre ++ bs ++ suf) (length pre) = Ok (v, (length pre + length bs)%nat).
Proof. intros Hwf. apply (proj1 roundtrip_all f Hwf). Qed.

Lemma msg_roundtrip_l m vs bs pre suf :
  wf_msg m = true -> msg_ok m vs = true -> pack_msg m vs = Ok bs -> (msg_greedy m = false \/ suf = []) ->
  unpack_msg m (pre ++ bs ++ suf) (length pre) = Ok (vs, (length pre + length bs)%nat).
Proof. intros Hwf. apply (proj2 roundtrip_all m Hwf). Qed.

End RT.
