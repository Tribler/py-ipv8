(* Class-level round trip of the old-style payload classes: the translated glue (gen/G02_oldstyle.v) composed
   with the format-level round trip of P02_roundtrip. *)
From Coq Require Import String.
From Coq Require Import ZArith List Bool Lia ZifyBool.
From IPV8V Require Import lib.PyErr lib.Bytes lib.BE model.M02_wire model.M02_oldstyle gen.G02_registry
  gen.G02_oldstyle spec.S02_oldstyle proofs.P02_prims proofs.P02_roundtrip proofs.P02_shipped.
Import ListNotations.
Open Scope Z_scope.

Lemma val_ok_key k1 k2 f v : simple_fmt f = true -> val_ok k1 f v = val_ok k2 f v.
Proof. destruct f; intros H; try discriminate H; reflexivity. Qed.

Lemma pack_key k1 k2 f v : simple_fmt f = true -> pack k1 f v = pack k2 f v.
Proof. destruct f; intros H; try discriminate H; reflexivity. Qed.

Lemma bits_enc_defined vs : forall w, forallb is_bit vs = true -> exists z, bits_enc vs w = Ok z.
Proof.
  induction vs as [|v vs IH]; intros w H; cbn [forallb] in H.
  - exists 0. reflexivity.
  - apply andb_true_iff in H as [H1 H2]. destruct (IH (w / 2) H2) as [z Ez].
    destruct v; try discriminate H1. cbn [bits_enc truthy bind]. rewrite Ez. cbn [bind]. eauto.
Qed.

Lemma pack_defined_simple k f v :
  wf_fmt f = true -> simple_fmt f = true -> val_ok k f v = true -> exists bs, pack k f v = Ok bs.
Proof.
  intros Hwf Hs Hok. destruct f; try discriminate Hs.
  - (* struct *)
    cbn [wf_fmt] in Hwf. apply andb_true_iff in Hwf as [Hne _].
    destruct ps as [|p [|p2 ps]]; [discriminate Hne| |].
    + cbn [val_ok] in Hok. cbn [pack]. apply penc_defined. exact Hok.
    + cbn [val_ok] in Hok. destruct v; try discriminate Hok. cbn [pack]. apply struct_enc_defined. exact Hok.
  - (* bits *)
    cbn [val_ok] in Hok. destruct v; try discriminate Hok. apply andb_true_iff in Hok as [Hl Hb].
    cbn [pack]. rewrite Hl. destruct (bits_enc_defined l 128 Hb) as [z Ez]. rewrite Ez. cbn [bind]. eauto.
  - (* raw *)
    cbn [val_ok] in Hok. destruct v; try discriminate Hok. cbn [pack]. rewrite Hok. eauto.
  - (* varlen *)
    cbn [wf_fmt] in Hwf. apply andb_true_iff in Hwf as [_ Hbase]. apply Nat.ltb_lt in Hbase.
    cbn [val_ok] in Hok. cbn [pack].
    assert (G : forall b, (0 <? base)%nat && (length b mod base =? 0)%nat && bytes_okb b
                          && (Z.of_nat (length b / base) <? 256 ^ Z.of_nat lw) = true ->
                          exists bs, varlen_pack lw base b = Ok bs).
    { intros b H. repeat (apply andb_true_iff in H as [H ?]). unfold varlen_pack.
      destruct (base =? 0)%nat eqn:E; [apply Nat.eqb_eq in E; lia|].
      unfold in_range. replace (0 <=? Z.of_nat (length b / base)) with true by lia.
      rewrite H0, H1. cbn [andb]. eauto. }
    destruct v; try discriminate Hok; destruct utf8; try discriminate Hok.
    + apply G. exact Hok.
    + apply andb_true_iff in Hok as [Hok Hu]. rewrite Hu. apply G. exact Hok.
  - (* ipv4 *)
    cbn [val_ok] in Hok. destruct v as [| | | | |a| | | |]; try discriminate Hok.
    destruct a; try discriminate Hok. cbn [pack]. cbn [addr_ok] in Hok. rewrite Hok. eauto.
Qed.

Lemma wf_msg_cons f fs : wf_msg (msg_of_list (f :: fs)) = true -> wf_fmt f = true /\ wf_msg (msg_of_list fs) = true.
Proof.
  cbn [msg_of_list wf_msg]. destruct (msg_of_list fs) eqn:E.
  - intros H. split; [exact H|reflexivity].
  - intros H. apply andb_true_iff in H as [H1 H2]. apply andb_true_iff in H1 as [H1 _]. split; assumption.
Qed.

Lemma pack_msg_defined_simple k fs : forall vs,
  wf_msg (msg_of_list fs) = true -> forallb simple_fmt fs = true -> msg_ok k (msg_of_list fs) vs = true ->
  exists bs, pack_msg k (msg_of_list fs) vs = Ok bs.
Proof.
  induction fs as [|f fs IH]; intros vs Hwf Hs Hok.
  - destruct vs; [|discriminate Hok]. exists []. reflexivity.
  - destruct vs as [|v vs]; [discriminate Hok|]. cbn [msg_of_list] in Hok |- *. rewrite msg_ok_cons in Hok.
    apply andb_true_iff in Hok as [Hv Hvs]. cbn [forallb] in Hs. apply andb_true_iff in Hs as [Hsf Hss].
    destruct (wf_msg_cons f fs Hwf) as [Hwf1 Hwf2].
    destruct (pack_defined_simple k f v Hwf1 Hsf Hv) as [a Ea]. destruct (IH vs Hwf2 Hss Hvs) as [b Eb].
    exists (a ++ b). rewrite pack_msg_cons, Ea, Eb. reflexivity.
Qed.

(* `bits` only transports truth values *)
Lemma truthy_bitnorm v : truthy (bitnorm v) = truthy v.
Proof. unfold bitnorm. destruct (truthy v) as [b|e] eqn:E; [|exact E]. destruct b; reflexivity. Qed.

Lemma bits_enc_norm vs : forall w, bits_enc (map bitnorm vs) w = bits_enc vs w.
Proof.
  induction vs as [|v vs IH]; intros w; [reflexivity|]. cbn [map bits_enc]. rewrite truthy_bitnorm, IH. reflexivity.
Qed.

Lemma pack_msg_image k fs : forall vs,
  pack_msg k (msg_of_list fs) (wire_image fs vs) = pack_msg k (msg_of_list fs) vs.
Proof.
  induction fs as [|f fs IH]; intros vs; [destruct vs; reflexivity|].
  destruct vs as [|v vs]; [destruct f; reflexivity|].
  assert (G : pack_msg k (msg_of_list (f :: fs)) (v :: wire_image fs vs) = pack_msg k (msg_of_list (f :: fs)) (v :: vs)).
  { cbn [msg_of_list]. rewrite !pack_msg_cons, IH. reflexivity. }
  destruct f; try exact G. destruct v; try exact G.
  cbn [wire_image msg_of_list]. rewrite !pack_msg_cons, IH. cbn [pack]. rewrite map_length, bits_enc_norm. reflexivity.
Qed.

Lemma mapM_ok_length {A B} (f : A -> res B) : forall l r, mapM f l = Ok r -> length r = length l.
Proof.
  induction l as [|x l IH]; intros r H; cbn [mapM] in H.
  - inversion H. reflexivity.
  - destruct (f x); cbn [bind] in H; [|discriminate]. destruct (mapM f l) eqn:E; cbn [bind] in H; [|discriminate].
    inversion H. cbn [length]. f_equal. apply IH. reflexivity.
Qed.

Section Compose.
Variable key_ok : bytes -> bool.

(* glue facts + format-level round trip = class-level round trip on the wire *)
Lemma compose_roundtrip (c : oldcls) fs x pl vs bs y (pre suf : bytes) :
  mapM (find_fmt REG) (oc_formats c) = Ok fs ->
  wf_msg (msg_of_list fs) = true ->
  oc_to_pack c x = Ok pl -> map fst pl = oc_formats c -> entry_vals fs pl = Ok vs ->
  msg_ok key_ok (msg_of_list fs) (wire_image fs vs) = true ->
  oc_from_unpack c (unpack_args fs (wire_image fs vs)) = Ok y ->
  encode_obj REG key_ok (oc_to_pack c) x = Ok bs ->
  (msg_greedy (msg_of_list fs) = false \/ suf = []) ->
  decode_obj REG key_ok (oc_formats c) (oc_from_unpack c) (pre ++ bs ++ suf) (length pre)
    = Ok (y, (length pre + length bs)%nat).
Proof.
  intros Hfs Hwf Htp Hn Hev Hok Hfu Henc Hg.
  unfold encode_obj in Henc. rewrite Htp in Henc. cbn [bind] in Henc. rewrite Hn, Hfs in Henc. cbn [bind] in Henc.
  rewrite Hev in Henc. cbn [bind] in Henc. rewrite <- pack_msg_image in Henc.
  unfold decode_obj. rewrite Hfs. cbn [bind].
  rewrite (msg_roundtrip_l key_ok _ _ _ pre suf Hwf Hok Henc Hg). cbn [bind]. rewrite Hfu. reflexivity.
Qed.

Lemma compose_defined (c : oldcls) fs x pl vs :
  mapM (find_fmt REG) (oc_formats c) = Ok fs ->
  wf_msg (msg_of_list fs) = true -> forallb simple_fmt fs = true ->
  oc_to_pack c x = Ok pl -> map fst pl = oc_formats c -> entry_vals fs pl = Ok vs ->
  msg_ok key_ok (msg_of_list fs) (wire_image fs vs) = true ->
  exists bs, encode_obj REG key_ok (oc_to_pack c) x = Ok bs.
Proof.
  intros Hfs Hwf Hs Htp Hn Hev Hok.
  destruct (pack_msg_defined_simple key_ok fs _ Hwf Hs Hok) as [bs Hbs]. rewrite pack_msg_image in Hbs.
  exists bs. unfold encode_obj. rewrite Htp. cbn [bind]. rewrite Hn, Hfs. cbn [bind]. rewrite Hev. exact Hbs.
Qed.
End Compose.

(* what has to be shown per class *)
Definition glue_ok (c : oldcls) (spec : fspec) : Prop :=
  forall x, legal (oc_short c) spec x = true ->
  exists pl vs,
    oc_to_pack c x = Ok pl /\ map fst pl = oc_formats c /\ entry_vals (class_fmts c) pl = Ok vs /\
    (forall key_ok, msg_ok key_ok (msg_of_list (class_fmts c)) (wire_image (class_fmts c) vs) = true) /\
    oc_from_unpack c (unpack_args (class_fmts c) (wire_image (class_fmts c) vs)) = Ok (canon_obj spec x).


Lemma fields_ok_cons n k s a : fields_ok ((n, k) :: s) a = true ->
  exists v a', a = (n, v) :: a' /\ kind_ok k v = true /\ fields_ok s a' = true.
Proof.
  destruct a as [|[m v] a']; cbn [fields_ok]; [discriminate|]. intros H.
  apply andb_true_iff in H as [H H3]. apply andb_true_iff in H as [H1 H2]. apply String.eqb_eq in H1. subst m.
  exists v, a'. auto.
Qed.
Lemma fields_ok_nil a : fields_ok [] a = true -> a = [].
Proof. destruct a; [reflexivity|discriminate]. Qed.

(* to show P of every legal instance: show it of the class name with, under the attribute names of the
   specification, arbitrary values of the right kinds *)
Fixpoint with_vals (ks : list kind) (P : list val -> Prop) : Prop :=
  match ks with
  | [] => P []
  | k :: ks' => forall v, kind_ok k v = true -> with_vals ks' (fun vs => P (v :: vs))
  end.
Lemma fields_ind spec : forall P : list (string * val) -> Prop,
  with_vals (map snd spec) (fun vs => P (combine (map fst spec) vs)) -> forall a, fields_ok spec a = true -> P a.
Proof.
  induction spec as [|[n k] spec IH]; intros P W a H.
  - apply fields_ok_nil in H. subst. exact W.
  - apply fields_ok_cons in H as (v & a' & -> & Hk & H). exact (IH (fun a => P ((n, v) :: a)) (W v Hk) a' H).
Qed.
Lemma legal_ind short spec (P : obj -> Prop) :
  with_vals (map snd spec) (fun vs => P (short, combine (map fst spec) vs)) -> forall x, legal short spec x = true -> P x.
Proof.
  intros W [cn a] H. unfold legal in H. cbn [fst snd] in H. apply andb_true_iff in H as [Hc H].
  apply String.eqb_eq in Hc. subst cn. exact (fields_ind spec (fun a => P (short, a)) W a H).
Qed.

Lemma uint_inv w v : kind_ok (KUInt w) v = true -> exists z, v = VInt z /\ 0 <= z < 256 ^ Z.of_nat w.
Proof.
  cbn [kind_ok]. destruct v; cbn [prim_ok]; try discriminate. unfold in_range. intros H. exists z. split; [reflexivity|lia].
Qed.
Lemma flag_inv v : flag_ok v = true -> v = VInt 0 \/ v = VInt 1 \/ v = VBool false \/ v = VBool true.
Proof.
  destruct v; cbn [flag_ok]; try discriminate.
  - intros H. apply orb_true_iff in H as [H|H]; apply Z.eqb_eq in H; subst; auto.
  - destruct b; auto.
Qed.
Lemma bitnorm_VInt z : bitnorm (VInt z) = VInt (if z =? 0 then 0 else 1).
Proof. unfold bitnorm. cbn [truthy]. destruct (z =? 0); reflexivity. Qed.
(* a flag only matters through what `bits` transports of it *)
Lemma flag_bitnorm v : flag_ok v = true -> bitnorm v = VInt (flag_z v) /\ is_bit (VInt (flag_z v)) = true.
Proof. intros H. destruct (flag_inv v H) as [ -> | [ -> | [ -> | -> ] ] ]; split; reflexivity. Qed.
Lemma conn_inv v : kind_ok KConn v = true -> v = VStr conn_unknown \/ v = VStr conn_public \/ v = VStr conn_symmetric.
Proof.
  cbn [kind_ok]. destruct v; try discriminate. intros H.
  apply orb_true_iff in H as [H|H]; [apply orb_true_iff in H as [H|H]|]; apply bytes_eqb_eq in H; subst; auto.
Qed.
Lemma true_inv v : kind_ok KTrue v = true -> v = VInt 1 \/ v = VBool true.
Proof.
  cbn [kind_ok]. destruct v; try discriminate.
  - destruct z as [|p|p]; try discriminate. destruct p; try discriminate. auto.
  - destruct b; try discriminate. auto.
Qed.
Lemma true_bitnorm v : kind_ok KTrue v = true -> bitnorm v = VInt 1.
Proof. intros H. destruct (true_inv v H) as [ -> | -> ]; reflexivity. Qed.

(* decode_connection_type undoes encode_connection_type, through two `bits` positions *)
Lemma conn_roundtrip v : kind_ok KConn v = true ->
  exists b0 b1, pyf_encode_connection_type v = Ok (VTuple [b0; b1]) /\
                is_bit (bitnorm b0) = true /\ is_bit (bitnorm b1) = true /\
                pyf_decode_connection_type (bitnorm b0) (bitnorm b1) = Ok v.
Proof.
  intros H. destruct (conn_inv v H) as [ -> | [ -> | -> ] ]; do 2 eexists; (split; [reflexivity|]); repeat split.
Qed.

(* lists of fixed-size items (SimilarityRequestPayload / SimilarityResponsePayload).  vbytes_list, flat, overlap_list and
   overlap_encs are `map` / `concat` under names of their own so that `norm` below can leave them folded. *)
Definition vbytes_list (bl : list bytes) : list val := map VBytes bl.
Definition flat (bl : list bytes) : bytes := concat bl.
Definition overlap_item (e : bytes * Z) : val := VTuple [VBytes (fst e); VInt (snd e)].
Definition overlap_list (ol : list (bytes * Z)) : list val := map overlap_item ol.
Definition overlap_enc (e : bytes * Z) : bytes := fst e ++ be_encode 4 (snd e).
Definition overlap_legal (e : bytes * Z) : Prop := length (fst e) = 20%nat /\ bytes_okb (fst e) = true /\ 0 <= snd e < 256 ^ 4.

Lemma chunks_inv n counted v : kind_ok (KChunks n counted) v = true ->
  exists bl, v = VList (vbytes_list bl) /\ Forall (fun b => length b = n /\ bytes_okb b = true) bl /\
             (counted = true -> Z.of_nat (length bl) < 65536).
Proof.
  cbn [kind_ok]. destruct v; try discriminate. intros H. apply andb_true_iff in H as [H Hc].
  assert (G : exists bl, l = vbytes_list bl /\ Forall (fun b => length b = n /\ bytes_okb b = true) bl).
  { clear Hc. induction l as [|v l IH]; [exists []; split; [reflexivity|constructor]|].
    cbn [forallb] in H. apply andb_true_iff in H as [H1 H2]. destruct (IH H2) as (bl & -> & F).
    destruct v; try discriminate H1. cbn [chunk_ok] in H1. apply andb_true_iff in H1 as [Hl Ho].
    apply Nat.eqb_eq in Hl. exists (b :: bl). split; [reflexivity|]. constructor; auto. }
  destruct G as (bl & -> & F). exists bl. split; [reflexivity|]. split; [exact F|].
  intros ->. cbn [negb orb] in Hc. unfold vbytes_list in Hc. rewrite map_length in Hc. lia.
Qed.

Lemma overlap_ok_inv v : overlap_ok v = true -> exists e, v = overlap_item e /\ overlap_legal e.
Proof.
  unfold overlap_ok.
  destruct v; cbn; try discriminate. destruct l as [|v1 l]; cbn; try discriminate.
  destruct v1; cbn; try discriminate. destruct l as [|v2 l]; cbn; try discriminate.
  destruct v2; cbn; try discriminate. destruct l; cbn; try discriminate.
  intros H. apply andb_true_iff in H as [H Hr]. apply andb_true_iff in H as [Hl Ho].
  apply Nat.eqb_eq in Hl. unfold in_range in Hr.
  exists (b, z). split; [reflexivity|]. unfold overlap_legal. cbn [fst snd]. repeat split; auto; lia.
Qed.

Lemma overlap_inv v : kind_ok KOverlap v = true -> exists ol, v = VList (overlap_list ol) /\ Forall overlap_legal ol.
Proof.
  cbn [kind_ok]. destruct v; try discriminate. intros H.
  induction l as [|v l IH]; [exists []; split; [reflexivity|constructor]|].
  cbn [forallb] in H. apply andb_true_iff in H as [H1 H2]. destruct (IH H2) as (ol & E & F).
  injection E as ->. destruct (overlap_ok_inv v H1) as (e & -> & L).
  exists (e :: ol). split; [reflexivity|]. constructor; assumption.
Qed.

Lemma intercalate_nil l : intercalate [] l = concat l.
Proof.
  induction l as [|x l IH]; [reflexivity|]. cbn [intercalate concat]. destruct l as [|y l].
  - cbn [concat]. rewrite app_nil_r. reflexivity.
  - rewrite IH. reflexivity.
Qed.

Lemma mapM_bytes_of bl : mapM bytes_of (vbytes_list bl) = Ok bl.
Proof. induction bl as [|b bl IH]; [reflexivity|]. cbn [vbytes_list map mapM bytes_of bind]. fold (vbytes_list bl). rewrite IH. reflexivity. Qed.

Lemma py_join_vbytes bl : py_join (VBytes []) (VList (vbytes_list bl)) = Ok (VBytes (flat bl)).
Proof. unfold py_join. cbn [py_iter bind]. rewrite mapM_bytes_of. cbn [bind]. rewrite intercalate_nil. reflexivity. Qed.

Lemma flat_cons b bl : flat (b :: bl) = b ++ flat bl.
Proof. reflexivity. Qed.

Lemma flat_length w bl : Forall (fun b => length b = w) bl -> length (flat bl) = (w * length bl)%nat.
Proof.
  induction 1 as [|b bl Hb _ IH]; [cbn; lia|]. rewrite flat_cons, app_length, IH, Hb. cbn [length]. lia.
Qed.

Lemma bytes_okb_app a b : bytes_okb (a ++ b) = bytes_okb a && bytes_okb b.
Proof. unfold bytes_okb. apply forallb_app. Qed.

Lemma flat_okb bl : Forall (fun b => bytes_okb b = true) bl -> bytes_okb (flat bl) = true.
Proof.
  induction 1 as [|b bl Hb _ IH]; [reflexivity|]. rewrite flat_cons, bytes_okb_app, Hb, IH. reflexivity.
Qed.

Lemma lslice_mid {A} (pre c post : list A) (k1 k2 : nat) i j :
  (k1 <= k2 <= length c)%nat -> i = Z.of_nat (length pre) + Z.of_nat k1 -> j = Z.of_nat (length pre) + Z.of_nat k2 ->
  lslice (pre ++ c ++ post) (Some i) (Some j) = firstn (k2 - k1) (skipn k1 c).
Proof.
  intros Hk -> ->. unfold lslice, clamp. rewrite !app_length.
  set (n := Z.of_nat (length pre + (length c + length post))).
  assert (Hn : n = Z.of_nat (length pre) + Z.of_nat (length c) + Z.of_nat (length post)) by (unfold n; lia).
  destruct (Z.of_nat (length pre) + Z.of_nat k1 <? 0) eqn:E1; [lia|]. rewrite E1.
  destruct (Z.of_nat (length pre) + Z.of_nat k2 <? 0) eqn:E2; [lia|]. rewrite E2.
  destruct (n <? Z.of_nat (length pre) + Z.of_nat k1) eqn:E3; [lia|].
  destruct (n <? Z.of_nat (length pre) + Z.of_nat k2) eqn:E4; [lia|].
  replace (Z.to_nat (Z.of_nat (length pre) + Z.of_nat k2 - (Z.of_nat (length pre) + Z.of_nat k1))) with (k2 - k1)%nat by lia.
  replace (Z.to_nat (Z.of_nat (length pre) + Z.of_nat k1)) with (length pre + k1)%nat by lia.
  rewrite skipn_app_plus. rewrite skipn_app. rewrite firstn_app.
  replace (k2 - k1 - length (skipn k1 c))%nat with 0%nat by (rewrite skipn_length; lia).
  cbn [firstn]. rewrite app_nil_r. reflexivity.
Qed.

(* a comprehension over range(0, len(B), w) that reads B in chunks of w *)
Lemma mapM_chunks (w : nat) (f : val -> res val) (g : bytes -> val) (B : bytes) :
  (forall pre c post, B = pre ++ c ++ post -> length c = w -> f (VInt (Z.of_nat (length pre))) = Ok (g c)) ->
  forall cs pre0, Forall (fun c => length c = w) cs -> B = pre0 ++ flat cs ->
  mapM f (map (fun k => VInt (Z.of_nat (length pre0) + Z.of_nat k * Z.of_nat w)) (seq 0 (length cs))) = Ok (map g cs).
Proof.
  intros Hf. induction cs as [|c cs IH]; intros pre0 F HB; [reflexivity|].
  inversion F as [|? ? Hc F']; subst. cbn [length seq map mapM].
  replace (Z.of_nat (length pre0) + Z.of_nat 0 * Z.of_nat (length c)) with (Z.of_nat (length pre0)) by lia.
  unfold flat in Hf. cbn [concat] in Hf. rewrite (Hf pre0 c (concat cs) eq_refl eq_refl). cbn [bind].
  rewrite <- seq_shift, map_map.
  specialize (IH (pre0 ++ c) F'). unfold flat in IH. rewrite <- app_assoc in IH. specialize (IH eq_refl).
  erewrite map_ext; [rewrite IH; reflexivity|].
  intros k. cbn beta. rewrite app_length. f_equal. lia.
Qed.

Lemma range_list_chunks (w n : nat) : (0 < w)%nat ->
  range_list 0 (Z.of_nat (w * n)) (Z.of_nat w) = map (fun k => VInt (Z.of_nat 0 + Z.of_nat k * Z.of_nat w)) (seq 0 n).
Proof.
  intros Hw. unfold range_list. replace (0 <? Z.of_nat w) with true by lia.
  replace ((Z.of_nat (w * n) - 0 + Z.of_nat w - 1) / Z.of_nat w) with (Z.of_nat n).
  2:{ apply Z.div_unique with (r := Z.of_nat w - 1); [left; lia|nia]. }
  rewrite Nat2Z.id. apply map_ext. intros k. f_equal.
Qed.

Lemma comp_chunks (w : nat) (f : val -> res val) (g : bytes -> val) cs : (0 < w)%nat ->
  Forall (fun c => length c = w) cs ->
  (forall pre c post, flat cs = pre ++ c ++ post -> length c = w -> f (VInt (Z.of_nat (length pre))) = Ok (g c)) ->
  bind (bind (py_len (VBytes (flat cs))) (fun t => py_range [VInt 0; t; VInt (Z.of_nat w)])) (fun t => py_listcomp f t)
  = Ok (VList (map g cs)).
Proof.
  intros Hw F Hf. cbn [py_len bind]. unfold blen. rewrite (flat_length w cs F).
  unfold py_range. cbn [all_ints as_int]. replace (Z.of_nat w =? 0) with false by lia.
  rewrite range_list_chunks by exact Hw. cbn [bind]. unfold py_listcomp. cbn [py_iter bind].
  pose proof (mapM_chunks w f g (flat cs) Hf cs [] F eq_refl) as E. cbn [length] in E. rewrite E. reflexivity.
Qed.

Lemma listcomp_map {A} (f : val -> res val) (h g : A -> val) l :
  Forall (fun a => f (h a) = Ok (g a)) l -> py_listcomp f (VList (map h l)) = Ok (VList (map g l)).
Proof.
  intros F. unfold py_listcomp. cbn [py_iter bind].
  assert (E : mapM f (map h l) = Ok (map g l)).
  { induction F as [|a l Ha _ IH]; [reflexivity|]. cbn [map mapM]. rewrite Ha, IH. reflexivity. }
  rewrite E. reflexivity.
Qed.

(* preference_list[i:i + 20] for i in range(0, len(preference_list), 20) *)
Lemma slice_comp_ok (comp : val -> res val) bl :
  (forall B, comp (VBytes B) =
     bind (bind (py_len (VBytes B)) (fun t => py_range [VInt 0; t; VInt 20]))
          (fun t => py_listcomp (fun i => bind (py_add i (VInt 20)) (fun j => py_slice (VBytes B) (Some i) (Some j))) t)) ->
  Forall (fun b => length b = 20%nat /\ bytes_okb b = true) bl ->
  comp (VBytes (flat bl)) = Ok (VList (vbytes_list bl)).
Proof.
  intros Hc F. rewrite Hc.
  apply (comp_chunks 20 _ VBytes bl); [lia| |].
  - eapply Forall_impl; [|exact F]. intros b [H _]. exact H.
  - intros pre c post HB Hl. cbn [py_add as_int bind]. rewrite HB. cbn [py_slice opt_int as_int bind].
    rewrite (lslice_mid pre c post 0 20) by lia. cbn [skipn Nat.sub]. rewrite <- Hl, firstn_all. reflexivity.
Qed.

Lemma SimReq_comp1 bl : Forall (fun b => length b = 20%nat /\ bytes_okb b = true) bl ->
  SimilarityRequestPayload__from_unpack_list__comp1 (VBytes (flat bl)) = Ok (VList (vbytes_list bl)).
Proof. apply slice_comp_ok. intros B. reflexivity. Qed.
Lemma SimResp_comp1 bl : Forall (fun b => length b = 20%nat /\ bytes_okb b = true) bl ->
  SimilarityResponsePayload__from_unpack_list__comp1 (VBytes (flat bl)) = Ok (VList (vbytes_list bl)).
Proof. apply slice_comp_ok. intros B. reflexivity. Qed.

Definition overlap_encs (ol : list (bytes * Z)) : list bytes := map overlap_enc ol.

Lemma spack_overlap e : overlap_legal e ->
  py_struct_pack [PBytes 20; PU 4] [VBytes (fst e); VInt (snd e)] = Ok (VBytes (overlap_enc e)).
Proof.
  intros (Hl & _ & Hr). unfold py_struct_pack. cbn [spack spack1 as_int bind]. unfold in_range.
  replace ((0 <=? snd e) && (snd e <? 256 ^ Z.of_nat 4)) with true by (change (Z.of_nat 4) with 4; lia).
  cbn [bind]. rewrite <- Hl at 1. rewrite firstn_all, Hl. cbn [Nat.sub repeat]. rewrite !app_nil_r. reflexivity.
Qed.

Lemma SimResp_pack_comp z pl ol : Forall overlap_legal ol ->
  SimilarityResponsePayload__to_pack_list__comp1
    ("SimilarityResponsePayload"%string,
     [("identifier"%string, z); ("preference_list"%string, pl); ("tb_overlap"%string, VList (overlap_list ol))])
  = Ok (VList (vbytes_list (overlap_encs ol))).
Proof.
  intros F. unfold SimilarityResponsePayload__to_pack_list__comp1.
  change (get_attr _ "tb_overlap"%string) with (Ok (VList (overlap_list ol))). cbn [bind].
  unfold overlap_list, vbytes_list, overlap_encs. rewrite map_map.
  apply (listcomp_map _ overlap_item (fun e => VBytes (overlap_enc e))).
  eapply Forall_impl; [|exact F]. intros e L. cbn [overlap_item py_iter bind]. apply spack_overlap. exact L.
Qed.

Definition overlap_dec (c : bytes) : val :=
  VTuple [VBytes (firstn 20 c); VInt (be_decode (firstn 4 (firstn (24 - 20) (skipn 20 c))))].

Lemma overlap_dec_enc e : overlap_legal e -> overlap_dec (overlap_enc e) = overlap_item e.
Proof.
  intros (Hl & _ & Hr). unfold overlap_dec, overlap_enc, overlap_item.
  rewrite firstn_len_app by (symmetry; exact Hl). rewrite skipn_len_app by (symmetry; exact Hl).
  change (24 - 20)%nat with 4%nat. rewrite !firstn_all2 by (rewrite ?firstn_length, be_encode_length; lia).
  rewrite be_decode_encode by (change (Z.of_nat 4) with 4; lia). reflexivity.
Qed.

Lemma overlap_enc_length e : overlap_legal e -> length (overlap_enc e) = 24%nat.
Proof. intros (Hl & _). unfold overlap_enc. rewrite app_length, be_encode_length, Hl. reflexivity. Qed.

Lemma SimResp_comp2 ol : Forall overlap_legal ol ->
  SimilarityResponsePayload__from_unpack_list__comp2 (VBytes (flat (overlap_encs ol))) = Ok (VList (overlap_list ol)).
Proof.
  intros F. unfold SimilarityResponsePayload__from_unpack_list__comp2, overlap_encs.
  replace (overlap_list ol) with (map overlap_dec (map overlap_enc ol)).
  2:{ unfold overlap_list. rewrite map_map. apply map_ext_Forall. eapply Forall_impl; [|exact F]. apply overlap_dec_enc. }
  apply (comp_chunks 24 _ overlap_dec); [lia| |].
  - apply Forall_map. eapply Forall_impl; [|exact F]. apply overlap_enc_length.
  - intros pre c post HB Hl. rewrite HB. cbn [py_add as_int bind py_slice opt_int].
    rewrite (lslice_mid pre c post 0 20 (Z.of_nat (length pre)) (Z.of_nat (length pre) + 20)) by lia.
    rewrite (lslice_mid pre c post 20 24 (Z.of_nat (length pre) + 20) (Z.of_nat (length pre) + 24)) by lia.
    change (20 - 0)%nat with 20%nat. change (24 - 20)%nat with 4%nat. change (skipn 0 c) with c.
    unfold py_struct_unpack.
    replace (length (firstn 4 (skipn 20 c)) =? struct_size [PU 4])%nat with true.
    2:{ symmetry. apply Nat.eqb_eq. rewrite firstn_length, skipn_length, Hl. reflexivity. }
    reflexivity.
Qed.


Lemma raw_ok_chunks n bl : Forall (fun b => length b = n /\ bytes_okb b = true) bl ->
  val_ok nokey FRaw (VBytes (flat bl)) = true.
Proof. intros F. cbn [val_ok]. apply flat_okb. eapply Forall_impl; [|exact F]. intros b [_ H]. exact H. Qed.

Lemma varlen_ok_chunks bl : Forall (fun b => length b = 20%nat /\ bytes_okb b = true) bl ->
  Z.of_nat (length bl) < 65536 -> val_ok nokey (FVarLen 2 20 false) (VBytes (flat bl)) = true.
Proof.
  intros F Hc. cbn [val_ok].
  assert (L : length (flat bl) = (20 * length bl)%nat).
  { apply flat_length. eapply Forall_impl; [|exact F]. intros b [H _]. exact H. }
  rewrite L. replace (20 * length bl)%nat with (length bl * 20)%nat by lia.
  rewrite Nat.mod_mul, Nat.div_mul by lia.
  rewrite (raw_ok_chunks 20 bl F : bytes_okb (flat bl) = true).
  change (256 ^ Z.of_nat 2) with 65536. cbn [Nat.ltb Nat.leb Nat.eqb andb]. lia.
Qed.

Lemma raw_ok_overlap ol : Forall overlap_legal ol -> val_ok nokey FRaw (VBytes (flat (overlap_encs ol))) = true.
Proof.
  intros F. cbn [val_ok]. apply flat_okb. unfold overlap_encs. apply Forall_map.
  eapply Forall_impl; [|exact F]. intros e (_ & Ho & _). unfold overlap_enc.
  rewrite bytes_okb_app, Ho. apply bytes_ok_okb. apply be_encode_bytes_ok.
Qed.

(* Symbolic evaluation of one class.
   What evaluation needs of a value of each kind: a constructor form, or equations about the operations that `norm`
   leaves alone.  Flags and the connection type only travel through `bits`, so they need no case split. *)
Definition kind_facts (k : kind) (v : val) : Prop :=
  match k with
  | KAddr4 => val_ok nokey FIPv4 v = true
  | KFlag | KBoolFlag => bitnorm v = VInt (flag_z v) /\ is_bit (VInt (flag_z v)) = true
  | KTrue => bitnorm v = VInt 1
  | KConn =>
      exists b0 b1, pyf_encode_connection_type v = Ok (VTuple [b0; b1]) /\
                    is_bit (bitnorm b0) = true /\ is_bit (bitnorm b1) = true /\
                    pyf_decode_connection_type (bitnorm b0) (bitnorm b1) = Ok v
  | KUInt w =>
      exists z, v = VInt z /\ prim_ok (PU w) (VInt z) = true /\ match w with 2%nat => z mod 65536 = z | _ => True end
  | KBytesN n => prim_ok (PBytes n) v = true
  | KRaw => val_ok nokey FRaw v = true
  | KVarBytes lw => val_ok nokey (FVarLen lw 1 false) v = true
  | KChunks n counted =>
      if (n =? 20)%nat then
        exists bl, v = VList (vbytes_list bl) /\
          val_ok nokey FRaw (VBytes (flat bl)) = true /\
          (if counted then val_ok nokey (FVarLen 2 20 false) (VBytes (flat bl)) = true else True) /\
          SimilarityRequestPayload__from_unpack_list__comp1 (VBytes (flat bl)) = Ok (VList (vbytes_list bl)) /\
          SimilarityResponsePayload__from_unpack_list__comp1 (VBytes (flat bl)) = Ok (VList (vbytes_list bl))
      else True
  | KOverlap =>
      exists ol, v = VList (overlap_list ol) /\ Forall overlap_legal ol /\
        val_ok nokey FRaw (VBytes (flat (overlap_encs ol))) = true /\
        SimilarityResponsePayload__from_unpack_list__comp2 (VBytes (flat (overlap_encs ol))) = Ok (VList (overlap_list ol))
  end.

Lemma kind_facts_ok k v : kind_ok k v = true -> kind_facts k v.
Proof.
  intros H. destruct k; try exact H.
  - exact (flag_bitnorm v H).
  - exact (flag_bitnorm v H).
  - exact (true_bitnorm v H).
  - exact (conn_roundtrip v H).
  - destruct (uint_inv w v H) as (z & -> & Hz). exists z. split; [reflexivity|]. split; [exact H|].
    destruct w as [|[|[|w]]]; try exact I. apply Z.mod_small. exact Hz.
  - cbn [kind_facts]. destruct (n =? 20)%nat eqn:E; [apply Nat.eqb_eq in E; subst n|exact I].
    destruct (chunks_inv _ _ _ H) as (bl & -> & F & Hc). exists bl.
    split; [reflexivity|]. split; [exact (raw_ok_chunks _ _ F)|]. split; [|split; [exact (SimReq_comp1 bl F)|exact (SimResp_comp1 bl F)]].
    destruct counted; [exact (varlen_ok_chunks bl F (Hc eq_refl))|exact I].
  - destruct (overlap_inv v H) as (ol & -> & F). exists ol. split; [reflexivity|]. split; [exact F|].
    split; [exact (raw_ok_overlap ol F)|exact (SimResp_comp2 ol F)].
Qed.

Ltac norm :=
  lazy -[Z.modulo Z.pow in_range bytes_okb addr_ok bitnorm is_bit flag_z py_join flat vbytes_list overlap_list overlap_encs
         pyf_encode_connection_type pyf_decode_connection_type
         SimilarityRequestPayload__from_unpack_list__comp1 SimilarityResponsePayload__from_unpack_list__comp1
         SimilarityResponsePayload__from_unpack_list__comp2 SimilarityResponsePayload__to_pack_list__comp1].
Ltac norm_in H :=
  lazy -[Z.modulo Z.pow in_range bytes_okb addr_ok bitnorm is_bit flag_z py_join flat vbytes_list overlap_list overlap_encs
         pyf_encode_connection_type pyf_decode_connection_type
         SimilarityRequestPayload__from_unpack_list__comp1 SimilarityResponsePayload__from_unpack_list__comp1
         SimilarityResponsePayload__from_unpack_list__comp2 SimilarityResponsePayload__to_pack_list__comp1] in H.

(* a legal instance, as its attribute values with the facts of their kinds, legality facts in the form `norm` gives them *)
Ltac start_class :=
  unfold glue_ok; apply legal_ind; cbn [with_vals map snd]; intros;
  repeat match goal with H : kind_ok _ _ = true |- _ => apply kind_facts_ok in H; cbn [kind_facts Nat.eqb] in H end;
  repeat match goal with H : exists _, _ |- _ => destruct H as [? H] | H : _ /\ _ |- _ => destruct H as [? H] end;
  subst;
  repeat match goal with
         | H : prim_ok _ _ = true |- _ => norm_in H
         | H : val_ok _ _ _ = true |- _ => norm_in H
         end.
(* rewriting with the equations of the context: those about opaque operations while evaluating, the legality facts at the end *)
Ltac hyp_rw := repeat match goal with H : _ = ?r |- _ => lazymatch r with true => fail | _ => rewrite H end end.
Ltac true_rw := repeat match goal with H : _ = true |- _ => rewrite H end.
Ltac list_rw :=
  rewrite ?bitnorm_VInt, ?py_join_vbytes;
  try match goal with
      | H : Forall _ ?l |- context [SimilarityResponsePayload__to_pack_list__comp1 (_, [(_, ?z); (_, ?p); (_, VList (overlap_list ?l))])] =>
          rewrite (SimResp_pack_comp z p l H)
      end.
Ltac steps := norm; repeat (progress (hyp_rw; list_rw); norm).
Ltac glue_by_evaluation :=
  start_class; do 2 eexists;
  (split; [steps; reflexivity|]); (split; [reflexivity|]); (split; [steps; reflexivity|]);
  (split; [intros key_ok; steps; true_rw; reflexivity|]);
  steps; reflexivity.

Lemma oldstyle_glue_l c spec :
  In c oldstyle_table -> spec_of (oc_name c) oldstyle_specs = Some spec -> glue_ok c spec.
Proof.
  intros H Hs. unfold oldstyle_table in H.
  repeat (destruct H as [<-|H];
          [first [vm_compute in Hs; injection Hs as <-; glue_by_evaluation
                 |match goal with |- glue_ok ?c _ => let n := eval cbn in (oc_short c) in fail 3 "no round trip by evaluation:" n end]|]).
  destruct H.
Qed.

Fixpoint assoc_fmts (n : string) (l : list (string * list fmt)) : option (list fmt) :=
  match l with
  | [] => None
  | (k, fs) :: tl => if String.eqb k n then Some fs else assoc_fmts n tl
  end.
Lemma assoc_fmts_In n l fs : assoc_fmts n l = Some fs -> In (n, fs) l.
Proof.
  induction l as [|[k f] l IH]; cbn [assoc_fmts]; [discriminate|]. destruct (String.eqb k n) eqn:E.
  - intros H. injection H as ->. apply String.eqb_eq in E. subst. left. reflexivity.
  - intros H. right. apply IH. exact H.
Qed.

Lemma table_facts c : In c oldstyle_table ->
  assoc_fmts (oc_name c) msgdefs = Some (class_fmts c) /\
  mapM (find_fmt REG) (oc_formats c) = Ok (class_fmts c) /\
  forallb simple_fmt (class_fmts c) = true /\
  exists spec, spec_of (oc_name c) oldstyle_specs = Some spec.
Proof.
  intros H. unfold oldstyle_table in H.
  repeat (destruct H as [<-|H]; [vm_compute; repeat split; eauto|]). destruct H.
Qed.

Lemma table_wf c : In c oldstyle_table -> wf_msg (msg_of_list (class_fmts c)) = true.
Proof.
  intros H. destruct (table_facts c H) as (Ha & _). eapply shipped_wf_l. apply assoc_fmts_In. exact Ha.
Qed.

Lemma spec_for_some c spec : spec_of (oc_name c) oldstyle_specs = Some spec -> spec_for c = spec.
Proof. intros H. unfold spec_for. rewrite H. reflexivity. Qed.

Lemma class_roundtrips_l c : In c oldstyle_table -> class_roundtrips c.
Proof.
  intros Hin key_ok x bs pre suf Hl Henc Hg. destruct (table_facts c Hin) as (_ & Hfs & _ & spec & Hs).
  rewrite (spec_for_some c spec Hs) in *.
  destruct (oldstyle_glue_l c spec Hin Hs x Hl) as (pl & vs & Htp & Hn & Hev & Hok & Hfu).
  exact (compose_roundtrip key_ok c (class_fmts c) x pl vs bs _ pre suf Hfs (table_wf c Hin) Htp Hn Hev (Hok key_ok) Hfu Henc Hg).
Qed.

Lemma py_eq_list_refl l : Forall (fun v => py_eq v v = Ok true) l ->
  py_eq (VList l) (VList l) = Ok true /\ py_eq (VTuple l) (VTuple l) = Ok true.
Proof.
  induction 1 as [|v l Hv _ [IH1 IH2]]; [split; reflexivity|].
  split; cbn [py_eq] in *; rewrite Hv; cbn [bind]; assumption.
Qed.

Lemma kind_canon_pyeq k v : kind_ok k v = true -> py_eq (canon k v) v = Ok true.
Proof.
  intros H. destruct k; cbn [canon].
  - cbn [kind_ok val_ok] in H. destruct v as [| | | | |a| | | |]; try discriminate H. cbn [py_eq]. rewrite addr_eqb_refl. reflexivity.
  - destruct (flag_inv v H) as [ -> | [ -> | [ -> | -> ] ] ]; reflexivity.
  - destruct (flag_inv v H) as [ -> | [ -> | [ -> | -> ] ] ]; reflexivity.
  - destruct (true_inv v H) as [ -> | -> ]; reflexivity.
  - destruct (conn_inv v H) as [ -> | [ -> | -> ] ]; reflexivity.
  - destruct (uint_inv _ _ H) as (z & -> & _). cbn [py_eq]. rewrite Z.eqb_refl. reflexivity.
  - cbn [kind_ok] in H. destruct v; try discriminate H. cbn [py_eq]. rewrite bytes_eqb_refl. reflexivity.
  - cbn [kind_ok val_ok] in H. destruct v; try discriminate H. cbn [py_eq]. rewrite bytes_eqb_refl. reflexivity.
  - cbn [kind_ok val_ok] in H. destruct v; try discriminate H. cbn [py_eq]. rewrite bytes_eqb_refl. reflexivity.
  - destruct (chunks_inv _ _ _ H) as (bl & -> & _ & _). apply py_eq_list_refl. unfold vbytes_list.
    apply Forall_map. apply Forall_forall. intros b _. cbn [py_eq]. rewrite bytes_eqb_refl. reflexivity.
  - destruct (overlap_inv _ H) as (ol & -> & _). apply py_eq_list_refl. unfold overlap_list.
    apply Forall_map. apply Forall_forall. intros e _. unfold overlap_item. apply py_eq_list_refl.
    repeat constructor; cbn [py_eq]; rewrite ?bytes_eqb_refl, ?Z.eqb_refl; reflexivity.
Qed.

(* the canonical representatives - flags held as they are handed back - are legal and fixed *)
Lemma kind_canon_ok k v : kind_ok k v = true -> kind_ok k (canon k v) = true /\ canon k (canon k v) = canon k v.
Proof.
  intros H. destruct k; cbn [canon]; try (split; [exact H|reflexivity]).
  - destruct (flag_inv v H) as [ -> | [ -> | [ -> | -> ] ] ]; split; reflexivity.
  - destruct (flag_inv v H) as [ -> | [ -> | [ -> | -> ] ] ]; split; reflexivity.
  - split; reflexivity.
Qed.

Lemma fields_canon spec : forall a, fields_ok spec a = true ->
  attrs_pyeq (canon_fields spec a) a = Ok true /\ fields_ok spec (canon_fields spec a) = true /\
  canon_fields spec (canon_fields spec a) = canon_fields spec a.
Proof.
  induction spec as [|[n k] spec IH]; intros a H.
  - apply fields_ok_nil in H. subst. repeat split.
  - apply fields_ok_cons in H as (v & a' & -> & Hk & H). destruct (IH a' H) as (E1 & E2 & E3).
    destruct (kind_canon_ok k v Hk) as [K1 K2]. cbn [canon_fields attrs_pyeq fields_ok].
    rewrite String.eqb_refl, (kind_canon_pyeq k v Hk), K1, K2, E2, E3. cbn [bind]. auto.
Qed.
