(* C18 - bit-pair profiles: the honest round reconstructs binary_relativity, the true value scores
   1 - 2^-n, every other profile scores 0. *)
From Coq Require Import ZArith List Bool Lia ZifyBool QArith Qpower Permutation.
From IPV8V Require Import lib.PyErr model.M18_hom model.M18_bitpairs spec.S18_bgn proofs.P18_hom.
Import ListNotations.
Open Scope Z_scope.

Definition is_bit (x : Z) : Prop := x = 0 \/ x = 1.

Lemma pos_bits_bit p : forall acc, Forall is_bit acc -> Forall is_bit (pos_bits p acc).
Proof.
  induction p as [q IH|q IH|]; intros acc Hacc; cbn [pos_bits].
  - apply IH. constructor; [right; reflexivity|exact Hacc].
  - apply IH. constructor; [left; reflexivity|exact Hacc].
  - constructor; [right; reflexivity|exact Hacc].
Qed.

Lemma bits_bit v b A : bits v b = Ok A -> Forall is_bit A.
Proof.
  unfold bits, bin_digits. destruct v as [|p|p]; cbn [bind]; intros H; inversion H; subst; clear H.
  - unfold pad_bits. apply Forall_app. split; [apply Forall_forall; intros x Hx; apply repeat_spec in Hx; left; exact Hx|].
    constructor; [left; reflexivity|constructor].
  - unfold pad_bits. apply Forall_app. split; [apply Forall_forall; intros x Hx; apply repeat_spec in Hx; left; exact Hx|].
    apply pos_bits_bit. constructor.
Qed.

Lemma nth_bit A i : Forall is_bit A -> is_bit (nth i A 0).
Proof.
  intros H. destruct (nth_in_or_default i A 0) as [Hin| ->]; [|left; reflexivity].
  rewrite Forall_forall in H. exact (H _ Hin).
Qed.

Lemma pair_class_range A j : Forall is_bit A -> 0 <= pair_class A j <= 2.
Proof.
  intros H. unfold pair_class. destruct (nth_bit A (2 * j) H), (nth_bit A (2 * j + 1) H); lia.
Qed.

Definition cnt (cs : list Z) (k : Z) : Z := Z.of_nat (count_occ Z.eq_dec cs k).

Lemma tally_from_counts cs : forall m, Forall (fun c => 0 <= c <= 3) cs ->
  tally_from m cs = Ok (MkRM (r0 m + cnt cs 0) (r1 m + cnt cs 1) (r2 m + cnt cs 2) (r3 m + cnt cs 3)).
Proof.
  unfold tally_from, cnt. induction cs as [|c cs IH]; intros m H.
  - cbn. destruct m; cbn. repeat rewrite Z.add_0_r. reflexivity.
  - inversion H as [|? ? Hc Hcs]; subst. cbn [fold_left bind].
    assert (Hc' : c = 0 \/ c = 1 \/ c = 2 \/ c = 3) by lia.
    destruct Hc' as [->|[->|[->| ->]]]; cbn [rm_incr Z.eqb Pos.eqb]; rewrite IH by exact Hcs;
      cbn [r0 r1 r2 r3 count_occ]; f_equal;
      repeat match goal with |- context [Z.eq_dec ?a ?b] => destruct (Z.eq_dec a b); try lia end;
      f_equal; lia.
Qed.

(* the aggregate that counts the classes in cs *)
Definition profile_of (cs : list Z) : relmap := MkRM (cnt cs 0) (cnt cs 1) (cnt cs 2) (cnt cs 3).

Lemma rget_profile_of cs k :
  rget (profile_of cs) k = cnt cs (if k =? 0 then 0 else if k =? 1 then 1 else if k =? 2 then 2 else 3).
Proof. unfold rget, profile_of; cbn [r0 r1 r2 r3]. destruct (k =? 0), (k =? 1), (k =? 2); reflexivity. Qed.

Lemma tally_counts cs : Forall (fun c => 0 <= c <= 3) cs -> tally cs = Ok (profile_of cs).
Proof. intros H. unfold tally. rewrite tally_from_counts by exact H. reflexivity. Qed.

Lemma cnt_perm cs cs' k : Permutation cs cs' -> cnt cs k = cnt cs' k.
Proof. intros H. unfold cnt. f_equal. apply Permutation_count_occ. exact H. Qed.

Lemma cnt_app_le cs cs' k : cnt cs k <= cnt (cs ++ cs') k.
Proof. unfold cnt. rewrite count_occ_app. lia. Qed.

Lemma cnt_nonneg cs k : 0 <= cnt cs k.
Proof. unfold cnt. lia. Qed.

Lemma cnt_total cs : Forall (fun c => 0 <= c <= 2) cs ->
  cnt cs 0 + cnt cs 1 + cnt cs 2 = Z.of_nat (length cs) /\ cnt cs 3 = 0.
Proof.
  unfold cnt. induction 1 as [|c cs Hc _ IH]; [cbn; lia|].
  cbn [count_occ length].
  repeat match goal with |- context [Z.eq_dec ?a ?b] => destruct (Z.eq_dec a b); try lia end.
Qed.

Lemma classes_range A order : Forall is_bit A -> Forall (fun c => 0 <= c <= 2) (map (pair_class A) order).
Proof.
  intros H. apply Forall_forall. intros c Hc. apply in_map_iff in Hc as (j & <- & _). apply pair_class_range. exact H.
Qed.

Lemma profile_of_perm cs cs' : Permutation cs cs' -> profile_of cs = profile_of cs'.
Proof. intros H. unfold profile_of. f_equal; apply cnt_perm; exact H. Qed.

(* counting the classes of bit pairs: no class 3, as many as pairs asked *)
Lemma profile_of_classes A order : Forall is_bit A ->
  let o := profile_of (map (pair_class A) order) in
  tally (map (pair_class A) order) = Ok o /\ r3 o = 0 /\ rm_total o = Z.of_nat (length order) /\ forall k, 0 <= rget o k.
Proof.
  intros H. pose proof (classes_range A order H) as Hr. cbv zeta. split.
  - apply tally_counts. revert Hr. apply Forall_impl. intros; lia.
  - destruct (cnt_total _ Hr) as [Ht Ht3]. rewrite map_length in Ht.
    split; [exact Ht3|]. split; [unfold rm_total, profile_of; cbn [r0 r1 r2 r3]; lia|].
    intros k. rewrite rget_profile_of. apply cnt_nonneg.
Qed.

Lemma binary_relativity_eq v bs A : bits v bs = Ok A ->
  binary_relativity v bs = Ok (profile_of (map (pair_class A) (seq 0 (npairs bs)))).
Proof.
  intros HA. unfold binary_relativity. rewrite HA. cbn [bind].
  apply profile_of_classes. exact (bits_bit _ _ _ HA).
Qed.

Lemma rget_0 m : rget m 0 = r0 m. Proof. reflexivity. Qed.
Lemma rget_1 m : rget m 1 = r1 m. Proof. reflexivity. Qed.
Lemma rget_2 m : rget m 2 = r2 m. Proof. reflexivity. Qed.
Lemma rget_3 m : rget m 3 = r3 m. Proof. reflexivity. Qed.

Lemma match_loop_self e ks : forall acc, (match_loop ks e e acc == acc)%Q.
Proof.
  induction ks as [|k ks IH]; intros acc; cbn [match_loop]; [reflexivity|].
  rewrite Z.ltb_irrefl. destruct ((rget e k =? 0) || (rget e k =? 0)) eqn:E; [apply IH|].
  rewrite IH. assert (Hnz : rget e k <> 0) by lia.
  unfold Qdiv. rewrite Qmult_inv_r; [apply Qmult_1_r|].
  intros H. apply Hnz. unfold Qeq, inject_Z in H. cbn in H. lia.
Qed.

Lemma half_pow_lt_1 n : 0 < n -> (Qpower (1 # 2) n < 1)%Q.
Proof.
  intros Hn. change (1 # 2)%Q with (/ 2)%Q. rewrite Qinv_power.
  assert (H1 : (1 < 2 ^ n)%Q) by (apply Qpower_1_lt; [reflexivity|exact Hn]).
  assert (H0 : (0 < 2 ^ n)%Q) by (apply Qpower_0_lt; reflexivity).
  assert (Hp1 : (0 < 1)%Q) by reflexivity.
  exact (proj1 (Qinv_lt_contravar 1 (2 ^ n) Hp1 H0) H1).
Qed.

Lemma true_value_score_l e : (certainty e e == 1 - Qpower (1 # 2) (rm_total e))%Q.
Proof. unfold certainty. unfold relativity_match. rewrite match_loop_self. apply Qmult_1_l. Qed.

(* a candidate whose expected count is exceeded in some class is ruled out *)
Lemma match_loop_exceeded e o ks : forall acc, (exists k, In k ks /\ rget e k < rget o k) -> match_loop ks e o acc = 0%Q.
Proof.
  induction ks as [|k ks IH]; intros acc (k' & Hin & Hlt); [contradiction|]. cbn [match_loop].
  destruct (rget e k <? rget o k) eqn:E; [reflexivity|]. destruct Hin as [->|Hin]; [lia|].
  destruct ((rget e k =? 0) || (rget o k =? 0)); apply IH; exists k'; auto.
Qed.

Lemma relativity_match_exceeded e o : (exists k, 0 <= k <= 3 /\ rget e k < rget o k) -> relativity_match e o = 0%Q.
Proof. intros (k & Hk & Hlt). apply match_loop_exceeded. exists k. split; [cbn [In]; lia|exact Hlt]. Qed.

(* two different profiles of the same number of pairs: some class of the first is exceeded *)
Lemma other_profile_exceeded e o : r3 e = 0 -> r3 o = 0 -> rm_total e = rm_total o -> e <> o ->
  exists k, 0 <= k <= 3 /\ rget e k < rget o k.
Proof.
  intros He3 Ho3 Ht Hne. unfold rm_total in Ht.
  destruct (Z_lt_dec (r0 e) (r0 o)); [exists 0; rewrite !rget_0; lia|].
  destruct (Z_lt_dec (r1 e) (r1 o)); [exists 1; rewrite !rget_1; lia|].
  destruct (Z_lt_dec (r2 e) (r2 o)); [exists 2; rewrite !rget_2; lia|].
  exfalso. apply Hne. destruct e, o; cbn in *. f_equal; lia.
Qed.

Lemma other_profile_zero_l e o : r3 e = 0 -> r3 o = 0 -> rm_total e = rm_total o -> e <> o ->
  (certainty e o == 0)%Q.
Proof.
  intros H1 H2 H3 H4. unfold certainty. rewrite (relativity_match_exceeded e o (other_profile_exceeded e o H1 H2 H3 H4)).
  apply Qmult_0_l.
Qed.

(* partial rounds: as long as no class is exceeded the match is the product of observed/expected
   over the classes seen so far, and is positive *)
Lemma match_loop_pos e o ks : (forall k, 0 <= rget o k <= rget e k) ->
  forall acc, (0 < acc)%Q -> (0 < match_loop ks e o acc)%Q.
Proof.
  intros Hle. induction ks as [|k ks IH]; intros acc Hacc; cbn [match_loop]; [exact Hacc|].
  pose proof (Hle k) as Hk. destruct (rget e k <? rget o k) eqn:E; [lia|].
  destruct ((rget e k =? 0) || (rget o k =? 0)) eqn:E2; [apply IH; exact Hacc|].
  apply IH. apply Qmult_lt_0_compat; [exact Hacc|].
  apply Qlt_shift_div_l; unfold Qlt, inject_Z; cbn; lia.
Qed.

Lemma partial_round_positive_l e o : (forall k, 0 <= rget o k <= rget e k) -> 0 < rm_total o ->
  (0 < certainty e o)%Q.
Proof.
  intros Hle Hn. unfold certainty. apply Qmult_lt_0_compat.
  - apply match_loop_pos; [exact Hle|reflexivity].
  - pose proof (half_pow_lt_1 _ Hn) as H. apply (Qplus_lt_l _ _ (Qpower (1 # 2) (rm_total o))). ring_simplify. exact H.
Qed.

Lemma binary_relativity_shape v bs e : binary_relativity v bs = Ok e ->
  r3 e = 0 /\ rm_total e = Z.of_nat (npairs bs).
Proof.
  unfold binary_relativity. destruct (bits v bs) as [A|] eqn:HA; [|discriminate]. cbn [bind].
  destruct (profile_of_classes A (seq 0 (npairs bs)) (bits_bit _ _ _ HA)) as (Ht & H3 & Hn & _).
  rewrite Ht, seq_length in *. intros [= <-]. split; assumption.
Qed.

Section Round.
  Variable G : Type.
  Variable gmul : G -> G -> G.
  Variable gone : G.
  Variable ginv : G -> G.
  Variable geqb : G -> G -> bool.
  Variable g h : G.
  Variable t1 t2 P : Z.
  Hypothesis key : bgn_keypair G gmul gone ginv geqb g h t1 t2 P.

  Lemma pair_response_class bit_a bit_b r : is_bit bit_a -> is_bit bit_b ->
    pair_response G gmul gone ginv geqb g h t1 P bit_a bit_b r = bit_a + bit_b.
  Proof.
    intros Ha Hb. unfold pair_response, attest_pair, challenge_of.
    destruct key as ((A & C & O & I) & _ & t2_big & _ & _ & _ & P_pos & n_divides).
    rewrite !(encode_mul_l G gmul gone ginv A C O I).
    rewrite (challenge_response_spec_w G gmul gone ginv geqb g h t1 t2 P key).
    set (M := bit_a + ra r + (bit_b + rb r) + (P - (ra r + rb r) mod (P + 1) + 1) + 0).
    assert (HM : M mod t2 = bit_a + bit_b).
    { destruct n_divides as [q Hq].
      pose proof (Z.div_mod (ra r + rb r) (P + 1) ltac:(lia)) as Hdm.
      replace M with (bit_a + bit_b + ((ra r + rb r) / (P + 1) + 1) * q * t1 * t2).
      - rewrite Z_mod_plus_full. apply Z.mod_small. destruct Ha, Hb; lia.
      - unfold M. remember ((ra r + rb r) / (P + 1)) as d. remember ((ra r + rb r) mod (P + 1)) as rr.
        clear Heqd Heqrr. nia. }
    rewrite HM. destruct Ha as [-> | ->], Hb as [-> | ->]; reflexivity.
  Qed.

  Lemma honest_run_classes A rand order : Forall is_bit A ->
    honest_run G gmul gone ginv geqb g h t1 P A rand order = Ok (profile_of (map (pair_class A) order)).
  Proof.
    intros HA. rewrite <- (proj1 (profile_of_classes A order HA)). unfold honest_run. f_equal. apply map_ext. intros j.
    apply pair_response_class; apply nth_bit; exact HA.
  Qed.

  Lemma profile_exact_l v bitspace A rand order : bits v bitspace = Ok A ->
    Permutation order (seq 0 (npairs bitspace)) ->
    honest_run G gmul gone ginv geqb g h t1 P A rand order = binary_relativity v bitspace.
  Proof.
    intros HA Hperm. rewrite (binary_relativity_eq _ _ _ HA), (honest_run_classes _ _ _ (bits_bit _ _ _ HA)).
    f_equal. apply profile_of_perm, Permutation_map. exact Hperm.
  Qed.

  (* all subsets, in any order: the aggregate after the answers to `order`, when `order ++ rest` is a
     permutation of all pairs, counts exactly the classes asked, never exceeds the true profile, and
     its total is the number of answers *)
  Lemma profile_partial_l v bitspace A rand order rest e : bits v bitspace = Ok A ->
    Permutation (order ++ rest) (seq 0 (npairs bitspace)) ->
    binary_relativity v bitspace = Ok e ->
    exists o, honest_run G gmul gone ginv geqb g h t1 P A rand order = Ok o /\
      (forall k, 0 <= rget o k <= rget e k) /\ rm_total o = Z.of_nat (length order) /\ r3 o = 0 /\ r3 e = 0 /\
      rm_total e = Z.of_nat (npairs bitspace).
  Proof.
    intros HA Hperm He. pose proof (bits_bit _ _ _ HA) as Hb.
    destruct (binary_relativity_shape _ _ _ He) as [He3 Hen].
    rewrite (binary_relativity_eq _ _ _ HA) in He. injection He as <-.
    destruct (profile_of_classes A order Hb) as (_ & Ho3 & Hon & Hpos).
    eexists. split; [apply honest_run_classes; exact Hb|].
    split; [|repeat split; assumption].
    (* class by class, the answers so far are among all the pairs *)
    intros k. split; [apply Hpos|].
    rewrite <- (profile_of_perm _ _ (Permutation_map (pair_class A) Hperm)), map_app.
    rewrite !rget_profile_of. apply cnt_app_le.
  Qed.

  (* After the n answers of an honest prover, in any order and whatever the randomness, the verifier
     holds exactly the profile of the attested value; the attested value scores 1 - 2^-n and every
     value whose profile differs scores 0. *)
  Lemma honest_round_scores_l v bs A rand order : bits v bs = Ok A ->
    Permutation order (seq 0 (npairs bs)) ->
    exists e, honest_run G gmul gone ginv geqb g h t1 P A rand order = Ok e /\
      binary_relativity v bs = Ok e /\
      (certainty e e == 1 - Qpower (1 # 2) (Z.of_nat (npairs bs)))%Q /\
      forall v' e', binary_relativity v' bs = Ok e' -> e' <> e -> (certainty e' e == 0)%Q.
  Proof.
    intros HA Hperm. pose proof (binary_relativity_eq _ _ _ HA) as He.
    eexists. split; [rewrite <- He; apply profile_exact_l; assumption|]. split; [exact He|].
    destruct (binary_relativity_shape _ _ _ He) as [H3 Ht].
    split; [rewrite <- Ht; apply true_value_score_l|].
    intros v' e' He' Hne. destruct (binary_relativity_shape _ _ _ He') as [H3' Ht'].
    apply other_profile_zero_l; [exact H3'|exact H3|lia|exact Hne].
  Qed.
End Round.
