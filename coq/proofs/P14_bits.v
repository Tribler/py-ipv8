(* C14 - lemmas on bit-list identifiers: prefixes, integer value, XOR distance. *)
From Coq Require Import ZArith List Bool Arith Lia.
From IPV8V Require Import model.M14_routing.
Import ListNotations.
Open Scope Z_scope.

Lemma NoDup_app_disj {B} (l1 l2 : list B) :
  NoDup l1 -> NoDup l2 -> (forall x, In x l1 -> ~ In x l2) -> NoDup (l1 ++ l2).
Proof.
  induction l1 as [|a l1 IH]; intros N1 N2 D; cbn; [exact N2|].
  inversion N1; subst. constructor.
  - rewrite in_app_iff. intros [H|H]; [contradiction|]. apply (D a); [left; reflexivity | exact H].
  - apply IH; auto. intros x Hx. apply D. right. exact Hx.
Qed.

Lemma snoc_app {B} (p : list B) x k : (p ++ [x]) ++ k = p ++ x :: k.
Proof. rewrite <- app_assoc. reflexivity. Qed.

Lemma bits_eqb_eq a b : bits_eqb a b = true <-> a = b.
Proof.
  revert b; induction a as [|x a IH]; intros [|y b]; cbn; split; intro H;
    try reflexivity; try discriminate.
  - apply andb_true_iff in H as [H1 H2]. apply eqb_prop in H1. apply IH in H2. congruence.
  - inversion H; subst. rewrite eqb_reflx. cbn. apply IH. reflexivity.
Qed.

Lemma bits_eqb_refl a : bits_eqb a a = true.
Proof. apply bits_eqb_eq. reflexivity. Qed.

Lemma bits_eqb_neq a b : bits_eqb a b = false <-> a <> b.
Proof. rewrite <- bits_eqb_eq. symmetry. apply not_true_iff_false. Qed.

Lemma bits_eqb_sym a b : bits_eqb a b = bits_eqb b a.
Proof. apply eq_true_iff_eq. rewrite !bits_eqb_eq. split; congruence. Qed.

Lemma starts_with_iff p l : starts_with p l = true <-> exists s, l = p ++ s.
Proof.
  revert l; induction p as [|x p IH]; intros l; cbn.
  - split; [intros _; exists l; reflexivity | reflexivity].
  - destruct l as [|y l].
    + split; [discriminate | intros [s H]; discriminate].
    + split.
      * intros H. apply andb_true_iff in H as [H1 H2]. apply eqb_prop in H1. apply IH in H2 as [s Hs].
        exists s. subst. reflexivity.
      * intros [s H]. inversion H; subst. rewrite eqb_reflx. cbn. apply IH. exists s. reflexivity.
Qed.

Lemma starts_with_app p s : starts_with p (p ++ s) = true.
Proof. apply starts_with_iff. exists s. reflexivity. Qed.

Lemma starts_with_refl p : starts_with p p = true.
Proof. apply starts_with_iff. exists []. symmetry. apply app_nil_r. Qed.

Lemma starts_with_nil l : starts_with [] l = true.
Proof. reflexivity. Qed.

(* a prefix of a prefix *)
Lemma starts_with_app_l p q l : starts_with (p ++ q) l = true -> starts_with p l = true.
Proof.
  intros H. apply starts_with_iff in H as [s Hs]. apply starts_with_iff.
  exists (q ++ s). rewrite Hs. symmetry. apply app_assoc.
Qed.

Lemma starts_with_trans p q l : starts_with p q = true -> starts_with q l = true -> starts_with p l = true.
Proof.
  intros H1 H2. apply starts_with_iff in H1 as [s Hs]. subst q. eapply starts_with_app_l. exact H2.
Qed.

Lemma starts_with_app_cancel_l p q s : starts_with (p ++ q) (p ++ s) = starts_with q s.
Proof. induction p as [|x p IH]; cbn; [reflexivity|]. rewrite eqb_reflx. cbn. exact IH. Qed.

Lemma starts_with_length p l : starts_with p l = true -> (length p <= length l)%nat.
Proof. intros H. apply starts_with_iff in H as [s Hs]. subst. rewrite app_length. lia. Qed.

Lemma starts_with_same_length p l : starts_with p l = true -> length p = length l -> p = l.
Proof.
  intros H L. apply starts_with_iff in H as [s Hs]. subst l. rewrite app_length in L.
  destruct s; [symmetry; apply app_nil_r | cbn in L; lia].
Qed.

(* the bit after a prefix *)
Lemma starts_with_snoc p x s :
  starts_with (p ++ [x]) (p ++ s) = match s with [] => false | y :: _ => Bool.eqb x y end.
Proof. rewrite starts_with_app_cancel_l. destruct s; cbn; [reflexivity | apply andb_true_r]. Qed.

Lemma starts_with_snoc_neg p x l :
  starts_with (p ++ [x]) l = true -> starts_with (p ++ [negb x]) l = false.
Proof.
  intros H. apply starts_with_iff in H as [s ->]. rewrite <- app_assoc, starts_with_snoc. destruct x; reflexivity.
Qed.

Lemma starts_with_next_bit p l :
  starts_with p l = true -> (length p < length l)%nat ->
  starts_with (p ++ [true]) l = negb (starts_with (p ++ [false]) l).
Proof.
  intros H L. apply starts_with_iff in H as [s ->]. rewrite !starts_with_snoc.
  destruct s as [|[] s]; try reflexivity. rewrite app_nil_r in L. lia.
Qed.

(* two prefixes of the same list are comparable *)
Lemma starts_with_comparable p q l :
  starts_with p l = true -> starts_with q l = true -> (length p <= length q)%nat -> starts_with p q = true.
Proof.
  revert q l; induction p as [|x p IH]; intros q l Hp Hq L; [reflexivity|].
  destruct q as [|y q]; [cbn in L; lia|]. destruct l as [|z l]; [discriminate|].
  cbn in *. apply andb_true_iff in Hp as [H1 H2]. apply andb_true_iff in Hq as [H3 H4].
  apply eqb_prop in H1, H3. subst. rewrite eqb_reflx. cbn. eapply IH; eauto. lia.
Qed.

Lemma starts_with_firstn i p : starts_with (firstn i p) p = true.
Proof. apply starts_with_iff. exists (skipn i p). symmetry. apply firstn_skipn. Qed.

Lemma starts_with_firstn_mono i j (p : bits) : (i <= j)%nat -> starts_with (firstn i p) (firstn j p) = true.
Proof.
  intros L. apply (starts_with_comparable _ _ p); try apply starts_with_firstn. rewrite !firstn_length. lia.
Qed.

Fixpoint bval (l : bits) : Z :=
  match l with [] => 0 | b :: t => Z.b2z b * 2 ^ Z.of_nat (length t) + bval t end.

Lemma bitsZ_acc_spec l : forall acc, bitsZ_acc l acc = acc * 2 ^ Z.of_nat (length l) + bval l.
Proof.
  induction l as [|b t IH]; intros acc; cbn [bitsZ_acc bval length].
  - cbn. lia.
  - rewrite IH. rewrite Nat2Z.inj_succ, Z.pow_succ_r by lia. ring.
Qed.

Lemma bitsZ_bval l : bitsZ l = bval l.
Proof. unfold bitsZ. rewrite bitsZ_acc_spec. lia. Qed.

Lemma bval_range l : 0 <= bval l < 2 ^ Z.of_nat (length l).
Proof.
  induction l as [|b t IH]; cbn [bval length].
  - cbn. lia.
  - rewrite Nat2Z.inj_succ, Z.pow_succ_r by lia. destruct b; cbn [Z.b2z]; lia.
Qed.

Lemma bval_inj a : forall b, length a = length b -> bval a = bval b -> a = b.
Proof.
  induction a as [|x a IH]; intros [|y b] L E; try reflexivity; try discriminate.
  cbn [length] in L. injection L as L. cbn [bval] in E. rewrite L in E.
  pose proof (bval_range a) as Ra. pose proof (bval_range b) as Rb. rewrite L in Ra.
  destruct x, y; cbn [Z.b2z] in E; try lia; f_equal; apply IH; auto; lia.
Qed.

Lemma bval_snoc l b : bval (l ++ [b]) = 2 * bval l + Z.b2z b.
Proof.
  induction l as [|c l IH]; cbn [app bval length]; [cbn; lia|].
  rewrite IH, app_length, Nat.add_1_r, Nat2Z.inj_succ, Z.pow_succ_r by lia. ring.
Qed.

Fixpoint xorl (a b : bits) : bits :=
  match a, b with x :: a', y :: b' => xorb x y :: xorl a' b' | _, _ => [] end.

Lemma xorl_length a : forall b, length a = length b -> length (xorl a b) = length a.
Proof. induction a; intros [|y b] L; cbn in *; try lia. f_equal. apply IHa. lia. Qed.

Lemma lxor_step x y p q :
  Z.lxor (2 * x + Z.b2z p) (2 * y + Z.b2z q) = 2 * Z.lxor x y + Z.b2z (xorb p q).
Proof.
  apply Z.bits_inj'. intros n Hn.
  rewrite Z.lxor_spec.
  destruct (Z.eq_dec n 0) as [->|Hz].
  - rewrite !Z.testbit_0_r. reflexivity.
  - replace n with (Z.succ (n - 1)) by lia.
    rewrite !Z.testbit_succ_r by lia. rewrite Z.lxor_spec. reflexivity.
Qed.

Lemma lxor_acc a : forall b x y, length a = length b ->
  Z.lxor (bitsZ_acc a x) (bitsZ_acc b y) = bitsZ_acc (xorl a b) (Z.lxor x y).
Proof.
  induction a as [|p a IH]; intros [|q b] x y L; try discriminate; cbn [bitsZ_acc xorl].
  - reflexivity.
  - rewrite IH by (cbn in L; lia). rewrite lxor_step. reflexivity.
Qed.

(* the code's integer XOR is the bitwise XOR of the two bit strings *)
Lemma dist_xorl a b : length a = length b -> dist a b = bval (xorl a b).
Proof.
  intros L. unfold dist, bitsZ. rewrite lxor_acc by exact L. rewrite Z.lxor_0_l.
  fold (bitsZ (xorl a b)). apply bitsZ_bval.
Qed.

Lemma dist_range a t : length a = length t -> 0 <= dist a t < 2 ^ Z.of_nat (length t).
Proof. intros L. rewrite dist_xorl, <- L, <- (xorl_length a t L) by exact L. apply bval_range. Qed.

Lemma lxor_cancel_r x y t : Z.lxor x t = Z.lxor y t -> x = y.
Proof.
  intros E. rewrite <- (Z.lxor_0_r x), <- (Z.lxor_0_r y), <- (Z.lxor_nilpotent t), <- !Z.lxor_assoc, E. reflexivity.
Qed.

Lemma dist_inj t a b : length a = length t -> length b = length t -> dist a t = dist b t -> a = b.
Proof.
  intros La Lb E. apply bval_inj; [congruence|]. rewrite <- !bitsZ_bval. exact (lxor_cancel_r _ _ _ E).
Qed.

Lemma dist_nonneg a t : length a = length t -> 0 <= dist a t.
Proof. intros L. apply dist_range. exact L. Qed.

(* an identifier inside the sub-tree of a prefix of the target is strictly
   closer to the target than any identifier outside that sub-tree *)
Lemma xor_order_by_common_prefix p : forall t a b,
  starts_with p t = true -> starts_with p a = true -> starts_with p b = false ->
  length a = length t -> length b = length t ->
  dist a t < dist b t.
Proof.
  induction p as [|x p IH]; intros [|z t] [|u a] [|v b] Ht Ha Hb La Lb; try discriminate.
  cbn [starts_with] in Ht, Ha, Hb. apply andb_true_iff in Ht as [T1 T2]. apply andb_true_iff in Ha as [A1 A2].
  apply eqb_prop in T1, A1. subst z u. injection La as La. injection Lb as Lb.
  (* the leading bit of the distance is 0 for a; for b it is 1 unless b also starts with x *)
  rewrite !dist_xorl by (cbn [length]; congruence). cbn [xorl bval].
  rewrite !xorl_length, La, Lb, <- !dist_xorl by assumption.
  pose proof (dist_range a t La). pose proof (dist_range b t Lb).
  destruct x, v; cbn [Bool.eqb andb xorb Z.b2z] in Hb |- *; try lia;
    specialize (IH t a b T2 A2 Hb La Lb); lia.
Qed.

Lemma Z_to_bits_acc_length w : forall z acc, length (Z_to_bits_acc w z acc) = (w + length acc)%nat.
Proof. induction w; intros z acc; cbn; [reflexivity|]. rewrite IHw. cbn. lia. Qed.

Lemma Z_to_bits_length w z : length (Z_to_bits w z) = w.
Proof. unfold Z_to_bits. rewrite Z_to_bits_acc_length. cbn. lia. Qed.

Lemma Z_to_bits_acc_app w : forall z acc, Z_to_bits_acc w z acc = Z_to_bits_acc w z [] ++ acc.
Proof.
  induction w; intros z acc; cbn; [reflexivity|].
  rewrite IHw. rewrite (IHw _ [Z.odd z]). rewrite <- app_assoc. reflexivity.
Qed.

(* round trip: the w-bit rendering of z has value z, and a bit string is the rendering of its value *)
Lemma bval_Z_to_bits w : forall z, 0 <= z < 2 ^ Z.of_nat w -> bval (Z_to_bits w z) = z.
Proof.
  unfold Z_to_bits. induction w; intros z Hz.
  - cbn in *. lia.
  - cbn [Z_to_bits_acc]. rewrite Z_to_bits_acc_app, bval_snoc.
    rewrite Nat2Z.inj_succ, Z.pow_succ_r in Hz by lia. pose proof (Z.div2_odd z) as D.
    rewrite IHw; [lia|]. destruct (Z.odd z); cbn [Z.b2z] in D; lia.
Qed.

Lemma Z_to_bits_bval l : Z_to_bits (length l) (bval l) = l.
Proof.
  apply bval_inj.
  - apply Z_to_bits_length.
  - apply bval_Z_to_bits. apply bval_range.
Qed.
