(* C15 extension - the generated definitions (gen/G15_handlers.v) compute what the hand model computes: vocabulary
   facts, the data functions of storage.py, the value codec, post_process_values, tokens, rate limit. *)
From Coq Require Import ZArith List Bool Lia ZifyBool.
From IPV8V Require Import lib.PyErr lib.Bytes gen.G15_consts model.M15_dht_store model.M15_py gen.G15_handlers
  proofs.P15_storage proofs.P15_codec.
Import ListNotations.
Open Scope Z_scope.

Lemma dget_sget s k : py_dget bytes_eqb [] s k = sget s k.
Proof. induction s as [|[k' l] s IH]; cbn [py_dget sget]; [reflexivity|]. destruct (bytes_eqb k' k); auto. Qed.

Lemma dset_sset s k l : py_dset bytes_eqb s k l = sset s k l.
Proof. induction s as [|[k' l'] s IH]; cbn [py_dset sset]; [reflexivity|]. destruct (bytes_eqb k' k); [reflexivity|]. rewrite IH. reflexivity. Qed.

Lemma py_len_nonneg {A} (l : list A) : 0 <= py_len l.
Proof. unfold py_len. lia. Qed.

Lemma py_nth_nat {A} (l : list A) n x : nth_error l n = Some x -> py_nth l (Z.of_nat n) = Ok x.
Proof.
  intros H. unfold py_nth. cbv zeta. assert (n < length l)%nat by (apply nth_error_Some; congruence).
  unfold py_len. replace (Z.of_nat n <? 0) with false by lia.
  replace ((Z.of_nat n <? 0) || (Z.of_nat (length l) <=? Z.of_nat n)) with false by lia.
  rewrite Nat2Z.id, H. reflexivity.
Qed.

Lemma py_pop_at_nat {A} (l : list A) n : (n < length l)%nat -> py_pop_at l (Z.of_nat n) = Ok (remove_nth n l).
Proof.
  intros H. unfold py_pop_at, py_len. cbv zeta. replace (Z.of_nat n <? 0) with false by lia.
  replace ((Z.of_nat n <? 0) || (Z.of_nat (length l) <=? Z.of_nat n)) with false by lia.
  rewrite Nat2Z.id. reflexivity.
Qed.

Lemma py_insert_front {A} (l : list A) x : py_insert l 0 x = x :: l.
Proof.
  unfold py_insert, clamp. cbv zeta. pose proof (py_len_nonneg l).
  replace (0 <? 0) with false by lia. replace (py_len l <? 0) with false by lia. reflexivity.
Qed.

(* the 0/1-keyed stable sort is the partition of the hand model *)
Lemma sort_insert_01 (key : value -> Z) x a b :
  (forall y, In y a -> key y = 0) -> (forall y, In y b -> key y = 1) -> key x = 1 ->
  py_sort_insert key x (a ++ b) = a ++ x :: b.
Proof.
  intros Ha Hb Hx. induction a as [|y a IH]; cbn [app py_sort_insert].
  - destruct b as [|z b]; [reflexivity|]. cbn [py_sort_insert]. rewrite Hx, (Hb z) by (left; reflexivity). reflexivity.
  - rewrite Hx, (Ha y) by (left; reflexivity). cbn. f_equal. apply IH. intros z Hz. apply Ha. right. exact Hz.
Qed.

Lemma sort_by_sort_key key l :
  py_sort_by (fun v => if bytes_eqb (v_id v) key then 1 else 0) l = sort_key key l.
Proof.
  set (kf := fun v : value => if bytes_eqb (v_id v) key then 1 else 0).
  unfold sort_key. induction l as [|x l IH]; [reflexivity|].
  unfold py_sort_by in *. cbn [fold_right filter]. rewrite IH.
  destruct (bytes_eqb (v_id x) key) eqn:E; cbn [negb app].
  - apply sort_insert_01.
    + intros y Hy. apply filter_In in Hy as [_ Hy]. unfold kf. destruct (bytes_eqb (v_id y) key); [discriminate | reflexivity].
    + intros y Hy. apply filter_In in Hy as [_ Hy]. unfold kf. rewrite Hy. reflexivity.
    + unfold kf. rewrite E. reflexivity.
  - destruct (filter (fun v => negb (bytes_eqb (v_id v) key)) l ++ filter (fun v => bytes_eqb (v_id v) key) l) as [|z r] eqn:Er;
      [reflexivity|].
    cbn [py_sort_insert]. unfold kf at 1. rewrite E. destruct (kf z) eqn:Ez; unfold kf in Ez;
      destruct (bytes_eqb (v_id z) key); try discriminate; reflexivity.
Qed.

Lemma g_value_expired_ok now v : g_value_expired now v = expired now v.
Proof. unfold g_value_expired, g_value_age, expired. rewrite Z.gtb_ltb. reflexivity. Qed.

Lemma py_index_index_of l x : forall i,
  py_index_from g_value_eq l x i =
  match index_of (v_id x) l with Some n => Ok (i + Z.of_nat n) | None => Raise ValueError end.
Proof.
  induction l as [|y l IH]; intros i; cbn [py_index_from index_of]; [reflexivity|].
  change (g_value_eq y x) with (bytes_eqb (v_id y) (v_id x)). destruct (bytes_eqb (v_id y) (v_id x)); [f_equal; lia|].
  rewrite IH. destruct (index_of (v_id x) l); cbn [option_map]; [f_equal; lia | reflexivity].
Qed.

Lemma g_put_ok hash now s key data id ma ver :
  g_put hash now s key data id ma ver = Ok (put hash s now key data id ma ver).
Proof.
  unfold g_put, M15_dht_store.put. cbv zeta.
  change (py_or_bytes id (hash data)) with (eff_id hash id data). fold (eff_id hash id data).
  set (id_ := eff_id hash id data).
  set (nv := mkV id_ data now ma ver).
  rewrite !dget_sget. unfold py_index. rewrite py_index_index_of. cbn [v_id nv].
  change (v_id nv) with id_.
  pose proof (index_of_split id_ (sget s key)) as Hi.
  destruct (index_of id_ (sget s key)) as [n|]; cbn [bind try_catch].
  - destruct Hi as (a & old & b & _ & _ & _ & Hn & _). rewrite Z.add_0_l, (py_nth_nat _ _ _ Hn), Hn. cbn [bind].
    cbn [v_version nv]. change (v_version nv) with ver.
    rewrite Z.geb_leb. destruct (v_version old <=? ver); cbn [bind try_catch]; [|reflexivity].
    rewrite py_pop_at_nat by (apply nth_error_Some; congruence). cbn [bind try_catch].
    rewrite ?dset_sset, ?dget_sget, ?sget_sset, ?bytes_eqb_refl, ?sset_sset, ?py_insert_front, ?sort_by_sort_key. reflexivity.
  - cbn [exn_eqb]. cbn [bind].
    rewrite ?dset_sset, ?dget_sget, ?sget_sset, ?bytes_eqb_refl, ?sset_sset, ?py_insert_front, ?sort_by_sort_key. reflexivity.
Qed.

(* with bounds that are not negative the clamping changes nothing: firstn and skipn saturate by themselves *)
Lemma py_lslice_nonneg {A} (l : list A) a hi :
  0 <= a -> 0 <= hi ->
  py_lslice l (Some a) (Some hi) = firstn (Z.to_nat (hi - a)) (skipn (Z.to_nat a) l).
Proof.
  intros Ha Hb. unfold py_lslice. cbv zeta. pose proof (py_len_nonneg l) as Hl. rewrite !clamp_nonneg by assumption.
  unfold py_len in *. destruct (Z.le_gt_cases a (Z.of_nat (length l))) as [Hal|Hal].
  - rewrite (Z.min_l a) by exact Hal. destruct (Z.le_gt_cases hi (Z.of_nat (length l))) as [Hbl|Hbl].
    + rewrite Z.min_l by exact Hbl. reflexivity.
    + rewrite Z.min_r, !firstn_all2 by (rewrite ?skipn_length; lia). reflexivity.
  - rewrite !(skipn_all2 l), !firstn_nil by lia. reflexivity.
Qed.

Lemma py_lslice_from {A} (l : list A) a : 0 <= a -> py_lslice l (Some a) None = skipn (Z.to_nat a) l.
Proof.
  intros Ha. unfold py_lslice. cbv zeta. pose proof (py_len_nonneg l) as Hl. rewrite clamp_nonneg by assumption.
  unfold py_len in *. destruct (Z.le_gt_cases a (Z.of_nat (length l))) as [Hal|Hal].
  - rewrite Z.min_l by exact Hal. apply firstn_all2. rewrite skipn_length. lia.
  - rewrite !(skipn_all2 l) by lia. apply firstn_nil.
Qed.

Lemma dhas_false_sget s k : py_dhas bytes_eqb s k = false -> sget s k = [].
Proof.
  induction s as [|[k' l] s IH]; cbn [py_dhas sget]; [reflexivity|]. destruct (bytes_eqb k' k); [discriminate | exact IH].
Qed.

Lemma g_get_ok s key start limit :
  0 <= start -> (forall n, limit = Some n -> 0 <= n) ->
  g_get s key start limit = Ok (get s key (Z.to_nat start) limit).
Proof.
  intros Hs Hl. unfold g_get, get. cbv zeta. f_equal. rewrite dget_sget.
  destruct (py_dhas bytes_eqb s key) eqn:Eh.
  - destruct limit as [n|].
    + specialize (Hl n eq_refl). unfold py_truthy_Z. destruct (n =? 0) eqn:En; cbn [negb].
      * rewrite py_lslice_nonneg by lia. replace (Z.to_nat (n - start)) with 0%nat by lia. reflexivity.
      * rewrite py_lslice_nonneg, Z.add_simpl_l by lia. reflexivity.
    + rewrite py_lslice_from by lia. reflexivity.
  - rewrite (dhas_false_sget _ _ Eh). destruct limit as [n|]; [destruct (n =? 0)|]; rewrite ?skipn_nil, ?firstn_nil; reflexivity.
Qed.

Definition cl_inner (now : Z) (key : bytes) :=
  fun (s_ : storage) (x_ : Z * value) =>
    let items := s_ in let '(index, value) := x_ in
    if g_value_expired now value
    then bind (bind (py_pop_at (py_dget bytes_eqb [] items key) index)
                    (fun l1_ => Ok (py_dset bytes_eqb items key l1_)))
              (fun items => Ok (items, false))
    else Ok (items, false).
Definition cl_outer (now : Z) :=
  fun (s_ : storage) (x_ : bytes) =>
    let items := s_ in let key := x_ in
    bind (py_for (cl_inner now key) (rev (py_enumerate (py_dget bytes_eqb [] items key))) items)
         (fun items => Ok (items, false)).

Lemma enumerate_from_app {A} (p q : list A) i :
  py_enumerate_from i (p ++ q) = py_enumerate_from i p ++ py_enumerate_from (i + Z.of_nat (length p)) q.
Proof.
  revert i; induction p as [|x p IH]; intros i; cbn [app py_enumerate_from length].
  - f_equal. lia.
  - rewrite IH. replace (i + Z.of_nat (S (length p))) with (i + 1 + Z.of_nat (length p)) by lia. reflexivity.
Qed.

Lemma remove_nth_middle {A} (p : list A) x f : remove_nth (length p) (p ++ x :: f) = p ++ f.
Proof. induction p as [|y p IH]; cbn; [reflexivity|]. rewrite IH. reflexivity. Qed.

Lemma clean_inner_ok now key : forall p items f,
  In key (map fst items) -> sget items key = p ++ f ->
  py_for (cl_inner now key) (rev (py_enumerate_from 0 p)) items
  = Ok (sset items key (filter (fun v => negb (expired now v)) p ++ f)).
Proof.
  induction p as [|x p IH] using rev_ind; intros items f Hin Hs.
  - cbn [app] in Hs. cbn [py_enumerate_from rev py_for filter app]. rewrite <- Hs.
    rewrite sset_same_present by exact Hin. reflexivity.
  - rewrite enumerate_from_app, rev_app_distr. cbn [py_enumerate_from rev app py_for].
    unfold cl_inner at 1. cbv zeta. rewrite g_value_expired_ok.
    rewrite filter_app. cbn [filter]. rewrite Z.add_0_l.
    destruct (expired now x) eqn:Ex; cbn [negb bind].
    + rewrite dget_sget, Hs, <- app_assoc. cbn [app].
      rewrite py_pop_at_nat by (rewrite app_length; cbn; lia). cbn [bind].
      rewrite remove_nth_middle, dset_sset.
      rewrite IH with (f := f).
      * rewrite sset_sset, app_nil_r. reflexivity.
      * rewrite sset_keys_present by exact Hin. exact Hin.
      * rewrite sget_sset, bytes_eqb_refl. reflexivity.
    + rewrite IH with (f := x :: f).
      * rewrite <- app_assoc. reflexivity.
      * exact Hin.
      * rewrite Hs, <- app_assoc. reflexivity.
Qed.

Lemma clean_outer_ok now : forall todo done,
  NoDup (map fst (done ++ todo)) ->
  py_for (cl_outer now) (map fst todo) (done ++ todo) = Ok (done ++ clean now todo).
Proof.
  induction todo as [|[k l] t IH]; intros done Hnd; [reflexivity|].
  cbn [map fst py_for]. unfold cl_outer at 1. cbv zeta.
  assert (Hfresh : ~ In k (map fst done)).
  { rewrite map_app in Hnd. cbn [map fst] in Hnd. apply NoDup_remove_2 in Hnd. intro F. apply Hnd. apply in_or_app. left. exact F. }
  rewrite dget_sget, sget_app_fresh by exact Hfresh.
  unfold py_enumerate. rewrite (clean_inner_ok now k l (done ++ (k, l) :: t) []).
  - cbn [bind]. rewrite app_nil_r, sset_app_fresh by exact Hfresh.
    replace (done ++ (k, filter (fun v => negb (expired now v)) l) :: t)
      with ((done ++ [(k, filter (fun v => negb (expired now v)) l)]) ++ t) by (rewrite <- app_assoc; reflexivity).
    rewrite IH.
    + rewrite <- app_assoc. reflexivity.
    + rewrite <- app_assoc. cbn [app]. rewrite map_app in *. cbn [map fst] in *. exact Hnd.
  - rewrite map_app. cbn [map fst]. apply in_or_app. right. left. reflexivity.
  - rewrite sget_app_fresh by exact Hfresh. rewrite app_nil_r. reflexivity.
Qed.

Lemma g_clean_ok now s : NoDup (map fst s) -> g_clean now s = Ok (clean now s).
Proof.
  intros H. pose proof (clean_outer_ok now s [] H) as E. cbn [app] in E.
  change (g_clean now s) with (bind (py_for (cl_outer now) (map fst s) s) (fun items => Ok items)). rewrite E. reflexivity.
Qed.

(* a loop computes g if g unfolds the way the loop does, on the elements that can occur *)
Lemma py_for_ext {S A} (P : A -> Prop) (body : S -> A -> res (S * bool)) (g : list A -> S -> res S) :
  (forall s, g [] s = Ok s) ->
  (forall x tl s, P x -> g (x :: tl) s = bind (body s x) (fun '(s', brk) => if brk then Ok s' else g tl s')) ->
  forall l s, Forall P l -> py_for body l s = g l s.
Proof.
  intros H0 Hs. induction l as [|x l IH]; intros s Hl; cbn [py_for]; [symmetry; apply H0|].
  apply Forall_cons_iff in Hl as [Hx Hl]. rewrite Hs by exact Hx.
  destruct (body s x) as [[s' brk]|e]; cbn [bind]; [|reflexivity]. destruct brk; [reflexivity | apply IH, Hl].
Qed.

Section Codec.
Variable hash : bytes -> bytes.
Variable verify : bytes -> bytes -> bytes -> bool.
Variable siglen : bytes -> res nat.

Lemma g_unpack_signed_ok value :
  match g_unpack_SignedStrPayload value 1 with Ok (p, _) => Ok p | Raise e => Raise e end = unpack_signed value.
Proof.
  unfold g_unpack_SignedStrPayload, unpack_signed.
  destruct (varlenH_at value 1) as [[d o1]|e]; cbn [bind]; [|reflexivity].
  destruct (u32_at value o1) as [[ver o2]|e]; cbn [bind]; [|reflexivity].
  destruct (varlenH_at value o2) as [[pk o3]|e]; cbn [bind]; reflexivity.
Qed.

Lemma g_unserialize_ok value : g_unserialize_value verify siglen value = unserialize verify siglen value.
Proof.
  unfold g_unserialize_value, M15_dht_store.unserialize.
  destruct value as [|t tl]; [reflexivity|].
  change (idx (t :: tl) 0) with (Ok t : res Z). cbn [bind].
  destruct (t =? DHT_ENTRY_STR); [reflexivity|].
  destruct (t =? DHT_ENTRY_STR_SIGNED); [|reflexivity].
  rewrite <- g_unpack_signed_ok.
  destruct (g_unpack_SignedStrPayload (t :: tl) 1) as [[[[d ver] pk] o]|e]; cbn [bind fst snd]; [|reflexivity].
  destruct (siglen pk) as [n|e]; cbn [bind]; [|reflexivity].
  destruct (verify pk _ _); reflexivity.
Qed.

Lemma g_add_value_ok now s key value ma :
  g_add_value hash verify siglen now s key value ma = add_value hash verify siglen s now key value ma.
Proof.
  unfold g_add_value, M15_dht_store.add_value. rewrite g_unserialize_ok.
  destruct (unserialize verify siglen value) as [[[[d pk] ver]|]|e]; cbn [bind]; [| reflexivity | reflexivity].
  rewrite g_put_ok. cbn [bind]. destruct pk as [[|x r]|]; reflexivity.
Qed.

Lemma dd_append_py d k x : py_dset okey_eq d k (py_append (py_dget okey_eq [] d k) x) = dd_append d k x.
Proof.
  induction d as [|[k' l] d IH]; cbn [py_dset py_dget dd_append]; [reflexivity|].
  change (okey_eq k' k) with (okey_eqb k' k). destruct (okey_eqb k' k); [reflexivity|]. f_equal. exact IH.
Qed.

Lemma max_from_max_by_version l : forall best, py_max_from Z.ltb (fun t : Z * bytes => fst t) best l = max_by_version best l.
Proof. induction l as [|x l IH]; intros best; cbn [py_max_from max_by_version]; [reflexivity|]. rewrite !IH. reflexivity. Qed.

(* max() raises on an empty sequence: no list of the dict is empty *)
Definition nonempty_lists (d : udict) : Prop := Forall (fun e => snd e <> []) d.

Lemma dd_append_nonempty d k x : nonempty_lists d -> nonempty_lists (dd_append d k x).
Proof.
  induction d as [|[k' l] d IH]; cbn [dd_append]; intros H; [repeat constructor; discriminate|].
  apply Forall_cons_iff in H as [Hl Hd].
  destruct (okey_eqb k' k); constructor; [destruct l; discriminate | exact Hd | exact Hl | apply IH, Hd].
Qed.

Lemma unpack_values_nonempty vals : forall d d', nonempty_lists d -> unpack_values verify siglen vals d = Ok d' -> nonempty_lists d'.
Proof.
  induction vals as [|v vals IH]; intros d d' Hd H; cbn [M15_dht_store.unpack_values] in H; [inversion H; subst; exact Hd|].
  destruct (unserialize verify siglen v) as [[[[data pk] ver]|]|e]; cbn [bind] in H; [| eapply IH; eauto | discriminate].
  eapply IH; [|exact H]. apply dd_append_nonempty. exact Hd.
Qed.

Lemma dget_dlook d k : py_dget okey_eq [] d k = dlook d k.
Proof. induction d as [|[k' l] d IH]; cbn [py_dget dlook]; [reflexivity|]. rewrite IH. reflexivity. Qed.

(* the first loop is unpack_values, the second collects signed_results; what remains is the unsigned entry *)
Lemma g_post_process_ok values : g_post_process_values verify siglen values = post_process verify siglen values.
Proof.
  unfold g_post_process_values, M15_dht_store.post_process. cbv zeta.
  rewrite (py_for_ext (fun _ => True) _ (unpack_values verify siglen)); [|reflexivity| |apply Forall_forall; auto].
  2:{ intros v tl d _. cbn [M15_dht_store.unpack_values]. rewrite g_unserialize_ok.
      destruct (unserialize verify siglen v) as [[[[data pk] ver]|]|e]; cbn [bind]; rewrite ?dd_append_py; reflexivity. }
  destruct (unpack_values verify siglen values []) as [d|e] eqn:Eu; cbn [bind]; [|reflexivity].
  rewrite (py_for_ext (fun e => snd e <> []) _ (fun d acc => Ok (acc ++ signed_results d))).
  - cbn [bind app]. rewrite dget_dlook, <- unsigned_results_dlook; [reflexivity|].
    apply (unpack_values_nodup verify siglen values [] d (NoDup_nil _) Eu).
  - intros acc. rewrite app_nil_r. reflexivity.
  - intros [k l] tl acc Hne. rewrite signed_results_cons.
    destruct k as [pk|]; cbn [py_is_none negb bind]; [|reflexivity].
    destruct l as [|x t]; [contradiction Hne; reflexivity|].
    cbn [py_max_by bind]. rewrite max_from_max_by_version. unfold py_append. rewrite <- app_assoc. reflexivity.
  - apply (unpack_values_nonempty values [] d); [constructor | exact Eu].
Qed.

End Codec.

Lemma g_check_token_ok hash enc st rq token :
  g_check_token hash (ident hash enc rq) (secrets st) token = check_token hash enc st rq token.
Proof. reflexivity. Qed.

Lemma py_nth_last {A} (l : list A) d : l <> [] -> py_nth l (-1) = Ok (last l d).
Proof.
  intros H. destruct (exists_last H) as [a [x ->]]. rewrite last_last. unfold py_nth, py_len. cbv zeta.
  rewrite app_length. cbn [length].
  replace (-1 <? 0) with true by reflexivity.
  replace ((-1 + Z.of_nat (length a + 1) <? 0) || (Z.of_nat (length a + 1) <=? -1 + Z.of_nat (length a + 1))) with false by lia.
  replace (Z.to_nat (-1 + Z.of_nat (length a + 1))) with (length a) by lia.
  rewrite nth_error_app2 by lia. rewrite Nat.sub_diag. reflexivity.
Qed.

Lemma g_generate_token_ok hash enc st rq :
  secrets st <> [] -> g_generate_token hash (ident hash enc rq) (secrets st) = Ok (generate_token hash enc st rq).
Proof.
  intros H. unfold g_generate_token. pose proof (py_nth_last (secrets st) [] H) as E.
  cbn [Z.opp] in *. rewrite E. reflexivity.
Qed.

Lemma g_generate_token_empty hash i : g_generate_token hash i [] = Raise IndexError.
Proof. reflexivity. Qed.

(* Node.blocked: the deque is full and its oldest entry is less than NODE_LIMIT_INTERVAL old *)
Definition blocked (now : Z) (lq : list Z) : bool :=
  (g_last_queries_maxlen <=? py_len lq) && (match lq with [] => false | t :: _ => now - t <? NODE_LIMIT_INTERVAL end).

Lemma g_node_blocked_ok now lq : 1 <= g_last_queries_maxlen -> g_node_blocked now lq = Ok (blocked now lq).
Proof.
  intros H. unfold g_node_blocked, blocked.
  destruct (py_len lq <? g_last_queries_maxlen) eqn:E.
  - replace (g_last_queries_maxlen <=? py_len lq) with false by lia. reflexivity.
  - replace (g_last_queries_maxlen <=? py_len lq) with true by lia.
    destruct lq as [|t tl]; [unfold py_len in E; cbn in E; lia|]. reflexivity.
Qed.
