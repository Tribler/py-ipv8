(* C14 - Bucket.add / Bucket.split keep a bucket valid: every node is owned by the bucket's prefix,
   identifiers are unique, the capacity is never exceeded; Bucket.split loses no node: the two halves are
   the order-preserving partition of the bucket's nodes by their next identifier bit. *)
From Coq Require Import ZArith List Bool Arith Lia.
From IPV8V Require Import lib.Lists model.M14_routing proofs.P14_bits.
Import ListNotations.

Lemma find_node_some i ns n : find_node i ns = Some n -> In n ns /\ nid n = i.
Proof.
  induction ns as [|m ns IH]; cbn; [discriminate|].
  destruct (bits_eqb (nid m) i) eqn:E.
  - intros H. injection H as <-. apply bits_eqb_eq in E. auto.
  - intros H. apply IH in H as [H1 H2]. auto.
Qed.

Lemma find_node_none i ns : find_node i ns = None -> ~ In i (map nid ns).
Proof.
  induction ns as [|m ns IH]; cbn; [tauto|].
  destruct (bits_eqb (nid m) i) eqn:E; [discriminate|].
  intros H [H1|H1]; [|exact (IH H H1)]. apply bits_eqb_neq in E. contradiction.
Qed.

Lemma has_id_true i ns : has_id i ns = true <-> In i (map nid ns).
Proof.
  unfold has_id. destruct (find_node i ns) as [n|] eqn:F.
  - apply find_node_some in F as [H1 H2]. split; [|reflexivity]. intros _. rewrite <- H2. apply in_map. exact H1.
  - apply find_node_none in F. split; [discriminate | contradiction].
Qed.

Lemma has_id_false i ns : has_id i ns = false <-> ~ In i (map nid ns).
Proof. rewrite <- has_id_true. symmetry. apply not_true_iff_false. Qed.

Lemma remove_first_incl f ns n : In n (remove_first f ns) -> In n ns.
Proof.
  induction ns as [|m ns IH]; cbn; [tauto|]. destruct (f m); [auto|].
  intros [H|H]; [left; exact H | right; exact (IH H)].
Qed.

Lemma remove_first_length f ns : (length (remove_first f ns) <= length ns)%nat.
Proof. induction ns as [|m ns IH]; cbn; [lia|]. destruct (f m); cbn; lia. Qed.

Lemma remove_first_ids_incl f ns i : In i (map nid (remove_first f ns)) -> In i (map nid ns).
Proof.
  rewrite !in_map_iff. intros (n & E & H). exists n. split; [exact E|]. eapply remove_first_incl; eauto.
Qed.

Lemma remove_first_NoDup f ns : NoDup (map nid ns) -> NoDup (map nid (remove_first f ns)).
Proof.
  induction ns as [|m ns IH]; cbn; [auto|]. intros N. inversion N; subst.
  destruct (f m); [assumption|]. cbn. constructor; [|auto].
  intros H. apply remove_first_ids_incl in H. contradiction.
Qed.

Lemma remove_first_Forall (P : node -> Prop) f ns : Forall P ns -> Forall P (remove_first f ns).
Proof.
  intros F. apply Forall_forall. intros n H. apply remove_first_incl in H.
  rewrite Forall_forall in F. auto.
Qed.

Lemma set_addr_ids i a ns : map nid (set_addr i a ns) = map nid ns.
Proof.
  unfold set_addr. rewrite map_map. apply map_ext. intros m. destruct (bits_eqb (nid m) i); reflexivity.
Qed.

Lemma set_status_ids i r f ns : map nid (set_status i r f ns) = map nid ns.
Proof.
  unfold set_status. rewrite map_map. apply map_ext. intros m. destruct (bits_eqb (nid m) i); reflexivity.
Qed.

Lemma Forall_ids (P : bits -> Prop) ns : Forall (fun n => P (nid n)) ns <-> Forall P (map nid ns).
Proof. rewrite Forall_map. reflexivity. Qed.

Section BucketFacts.
Variable W : nat.
Variable cap : nat.

(* a valid bucket stored under key p *)
Definition bucket_ok (p : bits) (b : bucket) : Prop :=
  bprefix b = p /\ (length p <= W)%nat /\ (length (bnodes b) <= cap)%nat /\
  NoDup (map nid (bnodes b)) /\
  Forall (fun i => length i = W /\ starts_with p i = true) (map nid (bnodes b)).

Lemma bucket_ok_prefix p b : bucket_ok p b -> bprefix b = p.
Proof. intros H. apply H. Qed.

Lemma bucket_ok_len p b : bucket_ok p b -> (length p <= W)%nat.
Proof. intros H. apply H. Qed.

Lemma bucket_ok_cap p b : bucket_ok p b -> (length (bnodes b) <= cap)%nat.
Proof. intros H. apply H. Qed.

Lemma bucket_ok_NoDup p b : bucket_ok p b -> NoDup (map nid (bnodes b)).
Proof. intros H. apply H. Qed.

Lemma bucket_ok_id p b : bucket_ok p b -> forall i, In i (map nid (bnodes b)) -> length i = W /\ starts_with p i = true.
Proof. intros (_ & _ & _ & _ & F). apply Forall_forall, F. Qed.

Lemma bucket_ok_intro q ns :
  (length q <= W)%nat -> (length ns <= cap)%nat -> NoDup (map nid ns) ->
  (forall n, In n ns -> length (nid n) = W /\ starts_with q (nid n) = true) -> bucket_ok q (mkBucket q ns).
Proof. intros L C N F. repeat split; try assumption. apply Forall_map, Forall_forall. exact F. Qed.

Lemma bucket_ok_empty p : (length p <= W)%nat -> bucket_ok p (mkBucket p []).
Proof. intros L. apply bucket_ok_intro; [exact L | apply Nat.le_0_l | constructor | intros n []]. Qed.

(* nodes whose identifiers are some of b's, each once, form a valid bucket under the same key *)
Lemma bucket_ok_part p b ns :
  bucket_ok p b -> (length ns <= length (bnodes b))%nat -> NoDup (map nid ns) ->
  incl (map nid ns) (map nid (bnodes b)) -> bucket_ok p (mkBucket (bprefix b) ns).
Proof.
  intros OK Len N I. pose proof OK as (<- & L & C & _). apply bucket_ok_intro; try assumption; [lia|].
  intros n Hn. apply (bucket_ok_id _ b OK), I, in_map, Hn.
Qed.

Lemma bucket_ok_same_ids p b ns :
  bucket_ok p b -> map nid ns = map nid (bnodes b) -> bucket_ok p (mkBucket (bprefix b) ns).
Proof.
  intros OK E. apply bucket_ok_part; [exact OK | | rewrite E; apply OK | rewrite E; apply incl_refl].
  rewrite <- (map_length nid ns), E, map_length. apply le_n.
Qed.

(* the nodes of a valid bucket selected by f, under any key q that all of them carry *)
Lemma bucket_ok_filter p b q f :
  bucket_ok p b -> (length q <= W)%nat ->
  (forall n, In n (bnodes b) -> f n = true -> starts_with q (nid n) = true) ->
  bucket_ok q (mkBucket q (filter f (bnodes b))).
Proof.
  intros OK Lq H. pose proof OK as (_ & _ & C & N & _). apply bucket_ok_intro; [exact Lq | | apply NoDup_map_filter, N |].
  - pose proof (filter_len_le f (bnodes b)). lia.
  - intros n Hn. apply filter_In in Hn as [Hn Fn]. split; [|auto]. apply (bucket_ok_id p b OK), in_map, Hn.
Qed.

Lemma drop_bad_ok p b : bucket_ok p b -> bucket_ok p (drop_bad b).
Proof.
  intros OK. pose proof OK as (<- & L & _). apply (bucket_ok_filter (bprefix b) b); [exact OK | exact L |].
  intros n Hn _. apply (bucket_ok_id _ b OK), in_map, Hn.
Qed.

(* ---- Bucket.add: the eviction step on a new identifier, and the three outcomes *)
Definition evict (n : node) (ns : list node) : list node :=
  if (cap <=? length ns)%nat then remove_first (slow n) (remove_first is_bad ns) else ns.

Lemma evict_ids_incl n ns : incl (map nid (evict n ns)) (map nid ns).
Proof.
  unfold evict. destruct (cap <=? length ns)%nat; [|apply incl_refl].
  intros i H. do 2 apply remove_first_ids_incl in H. exact H.
Qed.

Lemma evict_NoDup n ns : NoDup (map nid ns) -> NoDup (map nid (evict n ns)).
Proof.
  unfold evict. destruct (cap <=? length ns)%nat; [|auto]. intros N. apply remove_first_NoDup, remove_first_NoDup, N.
Qed.

Lemma evict_length n ns : (length (evict n ns) <= length ns)%nat.
Proof.
  unfold evict. destruct (cap <=? length ns)%nat; [|apply le_n].
  pose proof (remove_first_length (slow n) (remove_first is_bad ns)). pose proof (remove_first_length is_bad ns). lia.
Qed.

Lemma evict_full n ns :
  (cap <= length ns)%nat -> evict n ns = remove_first (slow n) (remove_first is_bad ns).
Proof. intros L. unfold evict. destruct (Nat.leb_spec cap (length ns)); [reflexivity | lia]. Qed.

Lemma evict_room n ns : (length ns < cap)%nat -> evict n ns = ns.
Proof. intros L. unfold evict. destruct (Nat.leb_spec cap (length ns)); [lia | reflexivity]. Qed.

Lemma badd_foreign b n : owns b (nid n) = false -> badd cap b n = (b, false).
Proof. intros O. unfold badd. rewrite O. reflexivity. Qed.

Lemma badd_known b n :
  owns b (nid n) = true -> has_id (nid n) (bnodes b) = true ->
  badd cap b n = (mkBucket (bprefix b) (set_addr (nid n) (naddr n) (bnodes b)), true).
Proof. intros O H. unfold badd. rewrite O, H. reflexivity. Qed.

Lemma badd_new b n :
  owns b (nid n) = true -> has_id (nid n) (bnodes b) = false ->
  badd cap b n = if (length (evict n (bnodes b)) <? cap)%nat
                 then (mkBucket (bprefix b) (evict n (bnodes b) ++ [n]), true)
                 else (mkBucket (bprefix b) (evict n (bnodes b)), false).
Proof. intros O H. unfold badd. rewrite O, H. reflexivity. Qed.

Lemma badd_ok p b n :
  bucket_ok p b -> length (nid n) = W -> bucket_ok p (fst (badd cap b n)).
Proof.
  intros OK Ln. destruct (owns b (nid n)) eqn:O; [|rewrite badd_foreign by exact O; exact OK].
  destruct (has_id (nid n) (bnodes b)) eqn:Hid.
  - rewrite badd_known by assumption. apply bucket_ok_same_ids; [exact OK | apply set_addr_ids].
  - rewrite badd_new by assumption. pose proof (evict_length n (bnodes b)) as Le.
    destruct (Nat.ltb_spec (length (evict n (bnodes b))) cap) as [Lt|Ge]; cbn [fst].
    + pose proof OK as (<- & L & C & N & _). apply bucket_ok_intro; [exact L | rewrite app_length; cbn; lia | |].
      * rewrite map_app. apply NoDup_snoc; [apply evict_NoDup, N|].
        intros Hi. apply has_id_false in Hid. apply Hid, (evict_ids_incl n), Hi.
      * intros m Hm. apply in_app_iff in Hm as [Hm|[<-|[]]]; [|split; [exact Ln | exact O]].
        apply (bucket_ok_id _ b OK), (evict_ids_incl n), in_map, Hm.
    + apply bucket_ok_part; [exact OK | exact Le | apply evict_NoDup, OK | apply evict_ids_incl].
Qed.

(* a refused node that was owned leaves the bucket full *)
Lemma badd_refused b n b' :
  badd cap b n = (b', false) -> owns b (nid n) = true -> (cap <= length (bnodes b'))%nat.
Proof.
  intros H O. destruct (has_id (nid n) (bnodes b)) eqn:Hid; [rewrite badd_known in H by assumption; discriminate|].
  rewrite badd_new in H by assumption.
  destruct (Nat.ltb_spec (length (evict n (bnodes b))) cap) as [|Ge]; [discriminate|]. injection H as <-. exact Ge.
Qed.

(* the identifiers of the bucket after Bucket.add *)
Lemma badd_ids b n i :
  In i (map nid (bnodes (fst (badd cap b n)))) -> In i (map nid (bnodes b)) \/ i = nid n.
Proof.
  destruct (owns b (nid n)) eqn:O; [|rewrite badd_foreign by exact O; auto].
  destruct (has_id (nid n) (bnodes b)) eqn:Hid.
  - rewrite badd_known by assumption. cbn [fst bnodes]. rewrite set_addr_ids. auto.
  - rewrite badd_new by assumption. destruct (_ <? _)%nat; cbn [fst bnodes].
    + rewrite map_app, in_app_iff. intros [Hi|[<-|[]]]; [left; apply (evict_ids_incl n), Hi | auto].
    + intros Hi. left. apply (evict_ids_incl n), Hi.
Qed.

(* at full depth a bucket can hold one identifier only, so Bucket.add cannot refuse *)
Lemma badd_full_depth p b n :
  bucket_ok p b -> length p = W -> length (nid n) = W -> owns b (nid n) = true -> (0 < cap)%nat ->
  snd (badd cap b n) = true.
Proof.
  intros OK Lp Ln O Hc. destruct (has_id (nid n) (bnodes b)) eqn:Hid; [rewrite badd_known by assumption; reflexivity|].
  rewrite badd_new by assumption. destruct (bnodes b) as [|m ns] eqn:Eb.
  - rewrite evict_room by exact Hc. replace (length [] <? cap)%nat with true by (symmetry; apply Nat.ltb_lt, Hc). reflexivity.
  - (* a node of the bucket would carry the identifier p, as n does *)
    exfalso. apply has_id_false in Hid. apply Hid. left.
    destruct (bucket_ok_id p b OK (nid m)) as [Lm Sm]; [rewrite Eb; left; reflexivity|].
    pose proof OK as (P & _). unfold owns in O. rewrite P in O.
    apply starts_with_same_length in Sm, O; congruence.
Qed.

(* below capacity a new owned identifier is appended *)
Lemma badd_append b n :
  owns b (nid n) = true -> has_id (nid n) (bnodes b) = false -> (length (bnodes b) < cap)%nat ->
  badd cap b n = (mkBucket (bprefix b) (bnodes b ++ [n]), true).
Proof.
  intros O H L. rewrite badd_new, evict_room by assumption.
  destruct (Nat.ltb_spec (length (bnodes b)) cap); [reflexivity | lia].
Qed.

(* ---- Bucket.split *)
Lemma split_step_ok p bb n :
  bucket_ok (p ++ [false]) (fst bb) -> bucket_ok (p ++ [true]) (snd bb) -> length (nid n) = W ->
  bucket_ok (p ++ [false]) (fst (split_step cap bb n)) /\ bucket_ok (p ++ [true]) (snd (split_step cap bb n)).
Proof.
  destruct bb as [b0 b1]. cbn [fst snd]. intros O0 O1 Ln. unfold split_step.
  destruct (owns b0 (nid n)); cbn [fst snd].
  - split; [apply badd_ok; assumption | exact O1].
  - destruct (owns b1 (nid n)); cbn [fst snd]; split; auto. apply badd_ok; assumption.
Qed.

Lemma split_step_ids p bb n :
  bucket_ok (p ++ [false]) (fst bb) -> bucket_ok (p ++ [true]) (snd bb) ->
  forall i, In i (map nid (bnodes (fst (split_step cap bb n)) ++ bnodes (snd (split_step cap bb n)))) ->
            In i (map nid (bnodes (fst bb) ++ bnodes (snd bb))) \/ i = nid n.
Proof.
  destruct bb as [b0 b1]. cbn [fst snd]. intros _ _ i. unfold split_step. rewrite !map_app, !in_app_iff.
  destruct (owns b0 (nid n)); [|destruct (owns b1 (nid n))]; cbn [fst snd]; intros [H|H]; try apply badd_ids in H; tauto.
Qed.

Lemma bsplit_some b : (cap <= length (bnodes b))%nat -> exists b0 b1, bsplit cap b = Some (b0, b1).
Proof.
  intros L. unfold bsplit. destruct (Nat.ltb_spec (length (bnodes b)) cap); [lia|].
  destruct (fold_left _ _ _) as [b0 b1]. eauto.
Qed.

(* the state of the loop of Bucket.split after the nodes ns *)
Definition low (p : bits) (n : node) : bool := starts_with (p ++ [false]) (nid n).
Definition halves (p : bits) (ns : list node) : bucket * bucket :=
  (mkBucket (p ++ [false]) (filter (low p) ns), mkBucket (p ++ [true]) (filter (fun n => negb (low p n)) ns)).

Lemma split_step_halves p done n :
  (length done < cap)%nat -> ~ In (nid n) (map nid done) ->
  starts_with p (nid n) = true -> (length p < length (nid n))%nat ->
  split_step cap (halves p done) n = halves p (done ++ [n]).
Proof.
  intros Len Fresh Sn Lp. unfold halves. rewrite !filter_app. cbn [filter].
  assert (Fresh' : forall f, has_id (nid n) (filter f done) = false).
  { intros f. apply has_id_false. intros Hi. apply Fresh. rewrite in_map_iff in Hi |- *.
    destruct Hi as (m & Em & Hm). apply filter_In in Hm as [Hm _]. eauto. }
  assert (Len' : forall f, (length (filter f done) < cap)%nat).
  { intros f. pose proof (filter_len_le f done). lia. }
  pose proof (starts_with_next_bit p (nid n) Sn Lp) as Hi. fold (low p n) in Hi.
  unfold split_step, owns. cbn [bprefix]. rewrite Hi. fold (low p n). destruct (low p n) eqn:Lo; cbn [negb] in *.
  - rewrite badd_append; [| exact Lo | apply Fresh' | apply Len']. cbn [fst bprefix bnodes]. rewrite app_nil_r. reflexivity.
  - rewrite badd_append; [| exact Hi | apply Fresh' | apply Len']. cbn [fst bprefix bnodes]. rewrite app_nil_r. reflexivity.
Qed.

Lemma split_fold p b : bucket_ok p b -> (length p < W)%nat -> forall todo done,
  bnodes b = done ++ todo -> fold_left (split_step cap) todo (halves p done) = halves p (bnodes b).
Proof.
  intros OK Lp. pose proof OK as (_ & _ & C & N & _).
  induction todo as [|n todo IH]; intros done E; cbn [fold_left].
  - rewrite app_nil_r in E. rewrite E. reflexivity.
  - destruct (bucket_ok_id p b OK (nid n)) as [Ln Sn]; [rewrite E, map_app, in_app_iff; right; left; reflexivity|].
    rewrite split_step_halves; [apply IH; rewrite <- app_assoc; exact E | | | exact Sn | lia].
    + rewrite E, app_length in C. cbn [length] in C. lia.
    + rewrite E, map_app in N. apply NoDup_remove_2 in N. intros Hd. apply N, in_app_iff. left. exact Hd.
Qed.

Lemma bsplit_partition p b b0 b1 :
  bucket_ok p b -> (length p < W)%nat -> bsplit cap b = Some (b0, b1) ->
  b0 = mkBucket (p ++ [false]) (filter (low p) (bnodes b)) /\
  b1 = mkBucket (p ++ [true]) (filter (fun n => negb (low p n)) (bnodes b)).
Proof.
  intros OK Lp. unfold bsplit. destruct (length (bnodes b) <? cap)%nat; [discriminate|].
  destruct OK as (P & OK'). rewrite P. change (mkBucket _ [], mkBucket _ []) with (halves p []).
  rewrite (split_fold p b (conj P OK') Lp _ [] eq_refl). intros H. injection H as <- <-. auto.
Qed.

Lemma bsplit_ok p b b0 b1 :
  bucket_ok p b -> (length p < W)%nat -> bsplit cap b = Some (b0, b1) ->
  bucket_ok (p ++ [false]) b0 /\ bucket_ok (p ++ [true]) b1.
Proof.
  intros OK Lp Sp. destruct (bsplit_partition p b b0 b1 OK Lp Sp) as [-> ->].
  assert (Lq : forall x : bool, (length (p ++ [x]) <= W)%nat) by (intros x; rewrite app_length; cbn; lia).
  split; apply (bucket_ok_filter p b); auto.
  intros n Hn Lo. destruct (bucket_ok_id p b OK _ (in_map nid _ _ Hn)) as [Ln Sn].
  rewrite starts_with_next_bit by (auto; lia). exact Lo.
Qed.

End BucketFacts.
