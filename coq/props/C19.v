(* C19 - stored identity data survives a crash at any point.  Property theorems, and the example configuration and
   workloads of the refutations and non-vacuity checks at the end; no helper lemmas.
   Model: model/M19_crash.v (Database.open/_prepare_version/executescript/commit/__enter__/__exit__, the insert
   functions and check_database as generated in gen/G19_db.v from the source).  The store (SQLite: WAL journal,
   synchronous=NORMAL, against a process kill) is any `store_ops` meeting `contract` (spec/S19_durable.v):
   COMMIT publishes the connection's view atomically, a kill keeps exactly what was published.  Every theorem
   is for all stores meeting the contract, all workloads and all kill instants.
   `prepare_pinned`, `identity_cfg`, `wallet_cfg`, `with_block_users` are the generated definitions; `prepare_pinned`
   is false on the current tree (a missing version row reads as "not versioned yet"); true is the _prepare_version of
   the pinned tree, refuted below. *)
From Coq Require Import ZArith List Bool Permutation.
From IPV8V Require Import lib.PyErr lib.Bytes model.M16_tokentree proofs.P16_gather
  model.M19_crash gen.G19_db spec.S19_durable
  proofs.P19_base proofs.P19_crash proofs.P19_rebuild.
Import ListNotations.
Open Scope Z_scope.

(* Each insert function of the two databases (insert_token, insert_metadata, insert_attestation; wallet
   insert_attestation) is exactly one INSERT into a data table followed by one commit, and outside a
   `with` block that commit is a real COMMIT. *)
Theorem every_insert_commits :
  Forall (fun ops => exists ig t, ops = [OExec ig t; OCommit] /\ t <> T_OPTION)
         (cfg_inserts identity_cfg ++ cfg_inserts wallet_cfg) /\
  (forall (S : Type) (O : store_ops S) (m : ms S), ms_pend m = 0 -> db_commit O m = real_commit O m).
Proof.
  split.
  - apply Forall_forall. intros ops H. apply insert_okb_shape. revert ops H. apply forallb_forall.
    vm_compute. reflexivity.
  - intros S O. exact (db_commit_idle O).
Qed.
Print Assumptions every_insert_commits.

(* Both generated configurations are well formed: schema script = CREATE TABLE IF NOT EXISTS ..., delete + insert of
   the version row; every insert targets a schema table. *)
Theorem generated_configurations_well_formed : cfg_okb identity_cfg = true /\ cfg_okb wallet_cfg = true.
Proof. split; vm_compute; reflexivity. Qed.
Print Assumptions generated_configurations_well_formed.

(* reopen_ok: take a fresh file and ANY history of processes - each opens the database, makes any insert
   calls, and is killed at any instant (before/after every statement of the schema script, every INSERT,
   every commit, every acknowledgement), possibly during open itself, possibly many times in a row.
   The next open succeeds, leaves the current version row and every table of the schema, publishes
   everything (nothing pending), and does not touch the data rows. *)
Theorem reopen_ok : forall (S : Type) (O : store_ops S) cfg s0 h,
  contract O -> cfg_okb cfg = true -> fresh O s0 -> only_calls h ->
  let m := run_history O cfg prepare_pinned (mkMs s0 0 [] []) h in
  exists tr m',
    open O cfg prepare_pinned m = (tr, m', Done) /\
    version_row (s_view O (ms_st m')) = Some (cfg_latest cfg) /\
    (forall td, In td (schema_tables cfg) -> find_table (s_view O (ms_st m')) (t_id td) = Some td) /\
    s_durable O (ms_st m') = s_view O (ms_st m') /\
    data_rows (s_view O (ms_st m')) = data_rows (s_view O (ms_st m)).
Proof.
  intros S O cfg s0 h K Ok F C m.
  destruct (history_reopen_l O K cfg (cfg_okb_wf cfg Ok) s0 h F C) as [tr [m' [E [A1 [A2 [A3 [A4 _]]]]]]].
  exists tr, m'. auto.
Qed.
Print Assumptions reopen_ok.

(* acked_durable: after any such history, every record whose insert call had returned (ms_acks) is stored:
   a row with its key columns is there; and when distinct records never share key columns
   (key_consistent), the record itself is there, column for column. *)
Theorem acked_durable : forall (S : Type) (O : store_ops S) cfg s0 h,
  contract O -> cfg_okb cfg = true -> fresh O s0 -> only_calls h ->
  let m := run_history O cfg prepare_pinned (mkMs s0 0 [] []) h in
  exists tr m',
    open O cfg prepare_pinned m = (tr, m', Done) /\
    Forall (ack_stored cfg (s_view O (ms_st m'))) (ms_acks m) /\
    (key_consistent cfg (all_calls h) -> Forall (ack_present cfg (s_view O (ms_st m'))) (ms_acks m)).
Proof.
  intros S O cfg s0 h K Ok F C m. pose proof (cfg_okb_wf cfg Ok) as W.
  destruct (history_reopen_l O K cfg W s0 h F C) as [tr [m' [E [_ [_ [_ [_ [A5 [A6 [A7 A8]]]]]]]]]].
  exists tr, m'. split; [exact E|]. split; [exact A5|].
  intros KC. apply Forall_forall. intros c Hc. rewrite Forall_forall in A5.
  apply (ack_present_of_stored cfg W _ (ms_started m)); auto.
  intros c1 c2 t td H1 H2. apply KC; apply A8; assumption.
Qed.
Print Assumptions acked_durable.

(* no partial row: every data row visible after the reopen is, column for column, the record of an insert
   call that had at least started before the kill (rows are atomic); acknowledged calls are among the
   started ones, which are calls of the workload. *)
Theorem no_partial_rows : forall (S : Type) (O : store_ops S) cfg s0 h,
  contract O -> cfg_okb cfg = true -> fresh O s0 -> only_calls h ->
  let m := run_history O cfg prepare_pinned (mkMs s0 0 [] []) h in
  exists tr m',
    open O cfg prepare_pinned m = (tr, m', Done) /\
    rows_started cfg (ms_started m) (s_view O (ms_st m')) /\
    incl (ms_acks m) (ms_started m) /\ incl (ms_started m) (all_calls h).
Proof.
  intros S O cfg s0 h K Ok F C m.
  destruct (history_reopen_l O K cfg (cfg_okb_wf cfg Ok) s0 h F C) as [tr [m' [E [_ [_ [_ [_ [_ A]]]]]]]].
  exists tr, m'. auto.
Qed.
Print Assumptions no_partial_rows.

(* exactly a prefix: one process, any list of insert calls, from any opened state with nothing pending.
   At every kill instant x the published content is exactly the logical effect of the first j calls, where
   a calls have been acknowledged or raised, s have started, and a <= j <= s <= a+1: everything acknowledged,
   at most the one call in flight, nothing later. *)
Theorem crash_prefix_exact : forall (S : Type) (O : store_ops S) cfg wl m,
  contract O -> cfg_okb cfg = true ->
  ms_pend m = 0 -> s_durable O (ms_st m) = s_view O (ms_st m) ->
  exists tr m',
    run_actions O cfg m (map (fun c => ACall (fst c) (snd c)) wl) = (tr, m') /\
    s_view O (ms_st m') = effect cfg (s_view O (ms_st m)) wl /\
    ms_acks m' = ms_acks m ++ returned cfg (s_view O (ms_st m)) wl /\
    Forall (fun x => exists a j s, (a <= j)%nat /\ (j <= s)%nat /\ (s <= a + 1)%nat /\ (s <= length wl)%nat /\
              s_durable O (ms_st x) = effect cfg (s_durable O (ms_st m)) (firstn j wl) /\
              ms_acks x = ms_acks m ++ returned cfg (s_durable O (ms_st m)) (firstn a wl) /\
              ms_started x = ms_started m ++ firstn s wl) tr.
Proof.
  intros S O cfg wl m K Ok P C.
  destruct (crash_prefix_exact_l O K cfg (cfg_okb_wf cfg Ok) wl m P C) as [tr [m' [E [[_ [_ [V [A _]]]] F]]]].
  exists tr, m'. auto.
Qed.
Print Assumptions crash_prefix_exact.

(* pseudonym_rebuild_verifies: if the tokens an uninterrupted run of the workload stores are a parent-first
   chain of validly signed tokens with distinct hashes (what add_credential inserts), then at every kill
   instant, the tree PseudonymManager.__init__ rebuilds from the surviving Tokens rows - loaded in any
   order - passes TokenTree.verify (model of C16) for every element.  hash, signature check, key and the
   decoding of a row into a Token are arbitrary. *)
Theorem pseudonym_rebuild_verifies :
  forall (S : Type) (O : store_ops S) cfg hash sigverify pk (tok : row -> token) (T : Z) wl m tr m',
  contract O -> cfg_okb cfg = true ->
  ms_pend m = 0 -> s_durable O (ms_st m) = s_view O (ms_st m) ->
  honest cfg hash sigverify pk tok T (s_view O (ms_st m)) wl ->
  run_actions O cfg m (map (fun c => ACall (fst c) (snd c)) wl) = (tr, m') ->
  forall snap, In snap (m :: tr) ->
  forall els c e md,
    Permutation els (stored_tokens tok T (s_durable O (ms_st (reboot O snap)))) ->
    In e els -> Z.of_nat (length els) <= md ->
    tree_verify hash sigverify pk (mkTree els [] c) e md = true.
Proof.
  intros S O cfg hash sigverify pk tok T wl m tr m' K Ok.
  exact (pseudonym_rebuild_verifies_l O K cfg (cfg_okb_wf cfg Ok) hash sigverify pk tok T wl m tr m').
Qed.
Print Assumptions pseudonym_rebuild_verifies.

(* with_block_defers: inside `with db:` every commit is deferred - whatever insert calls return there,
   nothing is published until the block is left (acknowledgements are NOT durable) ... *)
Theorem with_block_defers : forall (S : Type) (O : store_ops S) cfg wl m,
  contract O -> cfg_okb cfg = true ->
  exists tr m',
    run_actions O cfg m (AEnter :: map (fun c => ACall (fst c) (snd c)) wl) = (tr, m') /\
    Forall (fun x => s_durable O (ms_st x) = s_durable O (ms_st m)) tr /\
    s_durable O (ms_st m') = s_durable O (ms_st m) /\ 0 < ms_pend m'.
Proof. intros S O cfg wl m K Ok. exact (with_block_defers_l O K cfg (cfg_okb_wf cfg Ok) wl m). Qed.
Print Assumptions with_block_defers.

(* ... leaving it normally after at least one commit request publishes the whole view ... *)
Theorem with_block_exit_publishes : forall (S : Type) (O : store_ops S) cfg m,
  contract O -> 1 < ms_pend m ->
  exists m', run_action O cfg m (AExit XNone) = ([m'], m', Done) /\
             s_durable O (ms_st m') = s_view O (ms_st m) /\ s_view O (ms_st m') = s_view O (ms_st m) /\
             ms_pend m' = 0.
Proof. intros S O cfg m K. exact (with_block_exit_publishes_l O K cfg m). Qed.
Print Assumptions with_block_exit_publishes.

(* ... and no anchored caller wraps its inserts in such a block. *)
Theorem no_with_block_callers : with_block_users = [].
Proof. reflexivity. Qed.
Print Assumptions no_with_block_callers.

(* upgrades of files written by older releases: props/C19x.v (statement-level transaction model, which does not use
   what follows); here the analogous fact at the level of the store contract: *)
(* for any store meeting the contract a script run as one transaction is all or nothing: at every
   kill instant the published content is the old one, except after the final COMMIT, where every statement
   has been applied; a failing statement publishes nothing. *)
Theorem atomic_script_all_or_nothing : forall (S : Type) (O : store_ops S) sc m,
  contract O ->
  exists tr m' o,
    run_atomic O m sc = (tr, m', o) /\
    (o = Done ->
       s_durable O (ms_st m') = fold_stmts (s_view O (ms_st m)) sc /\
       s_view O (ms_st m') = fold_stmts (s_view O (ms_st m)) sc /\
       exists tr0, tr = tr0 ++ [m'] /\ Forall (fun x => s_durable O (ms_st x) = s_view O (ms_st m)) tr0) /\
    (o <> Done -> Forall (fun x => s_durable O (ms_st x) = s_view O (ms_st m)) tr /\
                  s_durable O (ms_st m') = s_view O (ms_st m)).
Proof. intros S O sc m K. exact (atomic_script_all_or_nothing_l O K sc m). Qed.
Print Assumptions atomic_script_all_or_nothing.

(* the hypotheses on the store are satisfiable: the two-level store used for the correspondence meets them *)
Theorem contract_satisfiable : contract cstore_ops /\ fresh cstore_ops fresh_store.
Proof.
  split; [|split; reflexivity].
  constructor; cbn; intros; try reflexivity; destruct (apply_stmt (cs_view s) q); reflexivity.
Qed.
Print Assumptions contract_satisfiable.

(* ------------------------------------------------------------------------------------------------
   What is false, kept visible.  ex_cfg is the identity database as on the pinned tree, written out
   (version 1; Attestations keyed by (public_key, metadata_pointer)), so that these statements do not move
   when the source does. *)
Definition ex_cfg : dbcfg :=
  mkCfg 1
    [OScript [SCreate (mkT 1 [0%nat; 1%nat; 3%nat]); SCreate (mkT 2 [0%nat; 1%nat]); SCreate (mkT 3 [0%nat; 2%nat]);
              SCreate (mkT 0 [0%nat]); SDelete 0 0%nat 0; SInsert false 0 [0; 1]]; OCommit]
    [[OExec true 1; OCommit]; [OExec true 2; OCommit]; [OExec true 3; OCommit]].
Definition ex_tables : list Z := [1; 2; 3].

Example ex_cfg_well_formed : cfg_okb ex_cfg = true.
Proof. vm_compute. reflexivity. Qed.

(* The pinned _prepare_version (a missing version row escapes as StopIteration): the schema script runs on
   every open in autocommit mode, so a kill between its DELETE and INSERT of the version row leaves a file
   that can never be opened again.  History: create the database; reopen, killed at instant 6 (after the
   DELETE). *)
Theorem pinned_reopen_refuted :
  exists h, only_calls h /\
    snd (open cstore_ops ex_cfg true
              (run_history cstore_ops ex_cfg true (mkMs fresh_store 0 [] []) h))
    = Raised EStopIteration.
Proof.
  exists [([], 100%nat); ([], 6%nat)]. split; [repeat constructor|vm_compute; reflexivity].
Qed.
Print Assumptions pinned_reopen_refuted.

(* Without key_consistent "the record itself is there" fails on a well-formed configuration: with
   Attestations keyed by (public_key, metadata_pointer), a second authority's attestation of the same metadata
   is acknowledged (INSERT OR IGNORE) and not stored.  Rows: [subject; authority; metadata; signature]. *)
Theorem acked_unchanged_refuted :
  exists h c, only_calls h /\
    let m := run_history cstore_ops ex_cfg false (mkMs fresh_store 0 [] []) h in
    In c (ms_acks m) /\
    ~ ack_present ex_cfg (cs_view (ms_st (snd (fst (open cstore_ops ex_cfg false m))))) c.
Proof.
  exists [([ACall 2 [10; 21; 30; 41]; ACall 2 [10; 22; 30; 42]], 100%nat)], (2%nat, [10; 22; 30; 42]).
  split; [repeat constructor|]. split; [vm_compute; auto|].
  intros [t [A B]]. vm_compute in A. inversion A; subst t. vm_compute in B.
  repeat (destruct B as [B|B]; [discriminate|]). exact B.
Qed.
Print Assumptions acked_unchanged_refuted.

(* ------------------------------------------------------------------------------------------------
   Non-vacuity: concrete histories on ex_cfg.
   Rows of Tokens: [key; previous; signature; content_hash; content]; tables 1 Tokens 2 Metadata 3 Attestations. *)
Definition ex_calls : list action :=
  [ACall 0 [10; 11; 12; 13; 14]; ACall 1 [10; 15; 16; 17]; ACall 2 [10; 20; 18; 19]; ACall 0 [10; 11; 12; 13; 14]].

(* killed between the INSERT of the second call and its commit (instant 14): the first record is there,
   the second is not, reopening works *)
Example c19_kill_between_insert_and_commit :
  crash_obs false ex_cfg ex_tables [(ex_calls, 14%nat)]
  = [1; 1;  1; 5; 10; 11; 12; 13; 14;  0;  0].
Proof. vm_compute. reflexivity. Qed.

(* killed right after that commit, before the acknowledgement (instant 15): the second record is there *)
Example c19_kill_after_commit :
  crash_obs false ex_cfg ex_tables [(ex_calls, 15%nat)]
  = [1; 1;  1; 5; 10; 11; 12; 13; 14;  1; 4; 10; 15; 16; 17;  0].
Proof. vm_compute. reflexivity. Qed.

(* killed inside the schema script of a reopen, between DELETE and INSERT of the version row, then a third
   process runs to its end: everything is there (the duplicate token is ignored), version row restored *)
Example c19_kill_in_reopen_then_continue :
  crash_obs false ex_cfg ex_tables [(firstn 2 ex_calls, 100%nat); ([], 6%nat); (skipn 2 ex_calls, 100%nat)]
  = [1; 1;  1; 5; 10; 11; 12; 13; 14;  1; 4; 10; 15; 16; 17;  1; 4; 10; 20; 18; 19].
Proof. vm_compute. reflexivity. Qed.

(* the same history on the pinned _prepare_version: the third process cannot open, nor can the observer *)
Example c19_pinned_history :
  crash_obs true ex_cfg ex_tables [(firstn 2 ex_calls, 100%nat); ([], 6%nat); (skipn 2 ex_calls, 100%nat)]
  = [4; -1;  1; 5; 10; 11; 12; 13; 14;  1; 4; 10; 15; 16; 17;  0].
Proof. vm_compute. reflexivity. Qed.

(* the hypotheses of acked_durable are met by this workload: records with equal keys are equal *)
Example c19_hypotheses_met :
  only_calls [(ex_calls, 14%nat)] /\ key_consistent ex_cfg (all_calls [(ex_calls, 14%nat)]).
Proof.
  split; [repeat constructor|].
  intros c1 c2 t td H1 H2 T1 T2 _ _ _. rewrite <- T2 in T1. clear T2 t td.
  vm_compute in H1, H2.
  repeat (destruct H1 as [<-|H1]); try contradiction;
  repeat (destruct H2 as [<-|H2]); try contradiction;
  try reflexivity; vm_compute in T1; discriminate T1.
Qed.

(* inside a with block two acknowledged inserts publish nothing; a wallet duplicate raises IntegrityError *)
Example c19_with_block_and_duplicate :
  run_live_case (ex_cfg, ex_tables, [AEnter; ACall 0 [10; 11; 12; 13; 14]; ACall 1 [10; 15; 16; 17]])
  = [1;  1; 1; 0; 0; 0; 0; 0; 0;
         1; 2; 1; 5; 10; 11; 12; 13; 14; 0; 0; 0; 0; 0;
         1; 3; 1; 5; 10; 11; 12; 13; 14; 1; 4; 10; 15; 16; 17; 0; 0; 0; 0] /\
  run_live_case (mkCfg 2 [OScript [SCreate (mkT 4 [0%nat]); SCreate (mkT 0 [0%nat]); SDelete 0 0%nat 0;
                                   SInsert false 0 [0; 2]]; OCommit] [[OExec false 4; OCommit]],
                 [4], [ACall 0 [7; 8; 9; 6]; ACall 0 [7; 5; 4; 6]])
  = [1;  1; 0; 1; 4; 7; 8; 9; 6; 1; 4; 7; 8; 9; 6;
         2; 0; 1; 4; 7; 8; 9; 6; 1; 4; 7; 8; 9; 6].
Proof. vm_compute. split; reflexivity. Qed.
