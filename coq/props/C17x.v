(* C17x - the identity-consent functions TRANSLATED from the Python source (gen/G17_consent.v, regenerated on every
   run by tools/tr/tr_consent.py; vocabulary in model/M17_consent_gen.v, assembly into events in
   model/M17_run_gen.v) compute what the hand model M17_consent computes; four theorems of props/C17.v
   (consent, no double signing, valid Attestations table, token permission) are carried over to the translated code.
   hash, sigverify, mysign, parse, me and the widths are universally quantified.  The SHA-1 padding is the
   translated pad_hash (g_norm); table Attestations has the key found in get_schema (the proof needs the
   key public_key, authority_key, metadata_pointer). *)
From Coq Require Import ZArith List.
From IPV8V Require Import lib.PyErr lib.Bytes model.M16_tokentree model.M17_consent model.M17_consent_gen
  gen.G17_consent model.M17_run_gen spec.S17_consent
  proofs.P16_props proofs.P17_props proofs.P17_consent_gen.
From IPV8V Require props.C17.
Import ListNotations.
Open Scope Z_scope.

(* gen_refines_hand_model: on every state whose consent table has unique keys (every reachable state), for
   every event - registration, advertisement, disclosure, missing-response, attest, missing-request, from
   anybody, decodable or truncated - the translated handler leaves the same state, sends the same datagrams and
   raises the same exception as the hand model's step; the invariant is kept. *)
Theorem gen_refines_hand_model : forall hash sigverify mysign parse me rhl rsl s now ev,
  NoDup (map fst (known s)) ->
  g_step hash sigverify mysign parse me rhl rsl s now ev
  = step hash sigverify mysign parse g_norm me rhl rsl true s now ev
  /\ NoDup (map fst (known (st_of (step hash sigverify mysign parse g_norm me rhl rsl true s now ev)))).
Proof. exact (fun h sv ms pa me rhl rsl s now ev W =>
                conj (gen_step_refines h sv ms pa me rhl rsl s now ev W) (known_keys_unique_step h sv ms pa g_norm me rhl rsl true s now ev W)). Qed.
Print Assumptions gen_refines_hand_model.

(* the translated constructor builds the hand model's initial state, and whole histories agree *)
Theorem gen_init_is_init : forall hash sigverify mysign parse me rhl rsl,
  g_initial hash sigverify mysign parse me rhl rsl = (init me, [], None).
Proof.
  intros. unfold g_initial, run_m, g_init.
  erewrite mbind_ok; [|reflexivity].
  erewrite mbind_ok; [|apply g_get_pseudonym_eq].
  unfold ensure_pseu. cbn [k_has alookup pseus blank set_known].
  erewrite mbind_ok; [|reflexivity]. erewrite mbind_ok; [|reflexivity]. erewrite mbind_ok; [|reflexivity].
  erewrite mbind_ok; [|reflexivity].
  unfold tree_elements at 1, get_tree at 1. cbn [pseus set_pseus set_chains set_perms set_known blank aset alookup].
  rewrite bytes_eqb_refl. cbn [elements empty_tree mfor].
  erewrite mbind_ok; [|reflexivity]. cbn iota beta.
  erewrite mbind_ok; [|apply g_get_credentials_eq].
  cbn [dmd set_pseus set_chains set_perms set_known blank credentials_of filter map dedup_by mfor].
  erewrite mbind_ok; [|reflexivity]. cbn iota beta. reflexivity.
Qed.
Print Assumptions gen_init_is_init.

Theorem gen_histories_refine : forall hash sigverify mysign parse me rhl rsl evs,
  g_run hash sigverify mysign parse me rhl rsl (init me) evs
  = run hash sigverify mysign parse g_norm me rhl rsl true (init me) evs.
Proof. intros. apply gen_run_refines, known_keys_unique_init. Qed.
Print Assumptions gen_histories_refine.

(* the handlers registered by __init__ are the ones the assembly dispatches to; the packet limit is 1296 *)
Theorem gen_handler_table : g_handler_table = expected_handlers /\ g_safe_udp_packet_length = 1296.
Proof. split; reflexivity. Qed.
Print Assumptions gen_handler_table.

(* function by function: the translated should_sign is the model's (every test, in order) ... *)
Theorem gen_should_sign : forall hash sigverify mysign parse me rhl rsl now json_out jlen pk m s o,
  g_should_sign hash sigverify mysign parse me rhl rsl now json_out jlen pk m s o
  = (s, o, should_sign hash parse me s now pk (get_tree pk (pseus s)) m).
Proof. exact g_should_sign_eq. Qed.
Print Assumptions gen_should_sign.

(* ... the translated substantiate is the model's (tokens, then metadata, then attestations; state kept on
   a decoding error) ... *)
Theorem gen_substantiate : forall hash sigverify mysign parse me rhl rsl now json_out jlen pk mds toks atts fail s o,
  g_substantiate hash sigverify mysign parse me rhl rsl now json_out jlen pk
      (mds, fail_is fail 1) (toks, fail_is fail 0) tt (atts, fail_is fail 2) s o
  = (fst (substantiate hash sigverify true s pk mds toks atts fail), o,
     match snd (substantiate hash sigverify true s pk mds toks atts fail) with
     | Ok c => Ok (c, pk) | Raise e => Raise e end).
Proof. exact g_substantiate_eq. Qed.
Print Assumptions gen_substantiate.

(* ... and the translated database functions are the model's tables: INSERT OR IGNORE under the primary keys
   of get_schema, get_authority by signature *)
Theorem gen_database : forall hash sigverify mysign parse me rhl rsl now json_out jlen,
  (forall subj auth a s o,
     g_insert_attestation hash sigverify mysign parse me rhl rsl now json_out jlen subj auth a s o
     = (set_datt s (insert_att true (mkRow subj auth (a_mptr a) (a_sig a)) (datt s)), o, Ok tt)) /\
  (forall pk m s o,
     g_insert_metadata hash sigverify mysign parse me rhl rsl now json_out jlen pk m s o
     = (set_dmd s (insert_md pk m (dmd s)), o, Ok tt)) /\
  (forall pk s o,
     g_get_metadata_for hash sigverify mysign parse me rhl rsl now json_out jlen pk s o
     = (s, o, Ok (credentials_of pk (dmd s)))) /\
  (forall a s o,
     g_get_authority hash sigverify mysign parse me rhl rsl now json_out jlen a s o
     = (s, o, sql_first (map r_auth (filter (fun r => bytes_eqb (r_sig r) (a_sig a)) (datt s))))).
Proof. exact (fun h sv ms pa me rhl rsl now j jl =>
   conj (g_insert_attestation_eq h sv ms pa me rhl rsl now j jl)
  (conj (g_insert_metadata_eq h sv ms pa me rhl rsl now j jl)
  (conj (g_get_metadata_for_eq h sv ms pa me rhl rsl now j jl)
        (g_get_authority_eq h sv ms pa me rhl rsl now j jl)))). Qed.
Print Assumptions gen_database.

(* hence the property theorems hold of the translated code *)
Theorem gen_sign_requires_consent : forall hash sigverify mysign parse me rhl rsl pre now ev p a,
  In (OAttest p a)
     (outs_of (g_step hash sigverify mysign parse me rhl rsl
                      (fst (g_run hash sigverify mysign parse me rhl rsl (init me) pre)) now ev)) ->
  sender_of ev = Some p /\ is_disclosure ev = true /\
  Forall (fun t => tverify sigverify p t = true) (tokens_of ev) /\
  Forall (fun aa => att_verify sigverify (fst aa) (snd aa) = true) (atts_of ev) /\
  exists m tok e,
    let s' := st_of (g_step hash sigverify mysign parse me rhl rsl
                            (fst (g_run hash sigverify mysign parse me rhl rsl (init me) pre)) now ev) in
    a = mkAtt (md_hash hash m) (mysign (md_hash hash m)) /\
    In (p, m) (dmd s') /\ md_verify sigverify p m = true /\
    In tok (elements (get_tree p (pseus s'))) /\ thash hash tok = m_tptr m /\
    (p <> me -> rooted hash sigverify p (elements (get_tree p (pseus s'))) tok) /\
    registration g_norm pre (t_chash tok) = Some e /\
    consent parse e p now m /\
    already me (datt (fst (g_run hash sigverify mysign parse me rhl rsl (init me) pre))) (md_hash hash m) = false.
Proof.
  intros hash sigverify mysign parse me rhl rsl pre now ev p a.
  rewrite gen_step_reachable, gen_histories_refine. apply C17.sign_requires_consent.
Qed.
Print Assumptions gen_sign_requires_consent.

Theorem gen_no_double_sign : forall hash sigverify mysign parse me rhl rsl,
  (forall m, sigverify me m (mysign m) = true) ->
  (forall k1 k2 m1 m2 sg, sigverify k1 m1 sg = true -> sigverify k2 m2 sg = true -> k1 = k2) ->
  forall evs, NoDup (trace_ptrs (snd (g_run hash sigverify mysign parse me rhl rsl (init me) evs))).
Proof. intros until evs. rewrite gen_histories_refine. apply C17.no_double_sign; assumption. Qed.
Print Assumptions gen_no_double_sign.

Theorem gen_attestations_table_valid : forall hash sigverify mysign parse me rhl rsl evs,
  Forall (fun r => sigverify (r_auth r) (r_mptr r) (r_sig r) = true)
         (datt (fst (g_run hash sigverify mysign parse me rhl rsl (init me) evs))).
Proof. intros. rewrite gen_histories_refine. apply C17.attestations_table_valid. Qed.
Print Assumptions gen_attestations_table_valid.

Theorem gen_tokens_only_up_to_permission : forall hash sigverify mysign parse me rhl rsl pre now ev p toks,
  In (OMissingResp p toks)
     (outs_of (g_step hash sigverify mysign parse me rhl rsl
                      (fst (g_run hash sigverify mysign parse me rhl rsl (init me) pre)) now ev)) ->
  exists kn, ev = EReqMissing p kn /\
  forall tok, In tok toks ->
    exists i, nth_error (chain (fst (g_run hash sigverify mysign parse me rhl rsl (init me) pre))) i = Some tok /\
              kn <= Z.of_nat i /\
              (i < opened hash sigverify mysign parse g_norm me rhl rsl true pre p)%nat.
Proof.
  intros hash sigverify mysign parse me rhl rsl pre now ev p toks.
  rewrite gen_step_reachable, gen_histories_refine. apply C17.tokens_only_up_to_permission.
Qed.
Print Assumptions gen_tokens_only_up_to_permission.

(* Non-vacuity: the translated code runs (toy instance of props/C17.v) *)
Definition tid (x : bytes) : bytes := x.
Definition tme : bytes := [9].
Definition kA : bytes := [7].
Definition kB : bytes := [8].
Definition kD : bytes := [6].
Definition mk_tok (k prev ch : bytes) : token := mkToken prev ch (toy_sig k (prev ++ ch)) None.
Definition mk_md (k : bytes) (t : token) (json : bytes) : metadata :=
  mkMd (thash tid t) json (toy_sig k (thash tid t ++ json)).
Definition tokA := mk_tok kA (genesis tid kA) [50].
Definition mdA := mk_md kA tokA [1; 110; 100; 99].
Definition tokB := mk_tok kB (genesis tid kB) [50].
Definition mdB := mk_md kB tokB [1; 110; 100; 99].
Definition attD := mkAtt (md_hash tid mdA) (toy_sig kD (md_hash tid mdA)).
Definition grun := g_run tid toy_verify3 (toy_sig tme) toy_parse tme 1 1.

Example c17x_translated_code_runs :
  map (fun ox => attest_ptrs (fst ox))
      (snd (grun (init tme)
         [(0, EKnown [50] [110] kA None); (1, EKnown [51] [111] kB None);
          (10, EDisclose kB [mdB] [tokB] [] None);                  (* hash registered for A: refused *)
          (11, EDisclose kA [mdA] [tokA] [(kD, attD)] None);        (* attested, next to D's attestation *)
          (12, EDisclose kA [mdA] [tokA] [(kD, attD)] None);        (* replay: refused *)
          (301, EDisclose kA [mdA] [tokA] [] (Some 0%nat))]))       (* truncated token area: struct.error *)
  = [[]; []; []; [md_hash tid mdA]; []; []]
  /\ map snd (snd (grun (init tme) [(0, EKnown [50] [110] kA None); (301, EDisclose kA [mdA] [tokA] [] (Some 0%nat))]))
     = [None; Some StructError].
Proof. vm_compute. split; reflexivity. Qed.

Example c17x_permissions_run :
  map (fun ox => match fst ox with [OMissingResp _ toks] => Some (length toks) | _ => None end)
      (snd (grun (init tme)
         [(0, EAdvertise None [60] [1; 1; 1; 1] 4); (1, EAdvertise (Some kA) [61] [1; 2; 1; 1] 4);
          (2, EAdvertise None [62] [1; 3; 1; 1] 4); (3, EReqMissing kA 0); (4, EReqMissing kB 0)]))
  = [None; None; None; Some 2%nat; Some 0%nat].
Proof. vm_compute. reflexivity. Qed.
