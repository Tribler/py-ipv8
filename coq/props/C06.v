(* C06 - an exit node never emits traffic its exit policy forbids. *)
From Coq Require Import ZArith List Bool.
From IPV8V Require Import lib.PyErr lib.Bytes gen.G06_datachecker spec.S06_policy model.M06_emit
  proofs.P06_classifier proofs.P06_emit.
Import ListNotations.
Open Scope Z_scope.

(* The gate translated from exit_socket.py computes exactly the declarative policy, for every
   byte string, every flag list and every overlay prefix - and never raises. *)
Theorem classifier_meets_spec : forall flags prefix d,
  bytes_ok d -> is_allowed flags prefix d = Ok (permitted flags prefix d).
Proof. exact is_allowed_correct. Qed.
Print Assumptions classifier_meets_spec.

(* Over every history of the exit socket, everything handed to the outside transport and
   everything sent back into the tunnel is permitted by the policy, and no transport send goes
   to the null address. *)
Theorem emit_only_permitted : forall flags prefix prev_ip ops,
  Forall op_ok ops ->
  Forall (out_ok flags prefix) (snd (run flags prefix prev_ip init_sock ops)).
Proof. intros flags prefix prev_ip ops H. apply run_ok; [apply init_ok|exact H]. Qed.
Print Assumptions emit_only_permitted.

(* A disabled socket becomes enabled only by exit data for a known circuit that comes from the previous hop's IP
   and has a destination other than 0.0.0.0:0. *)
Theorem socket_opened_by_prev_hop_only : forall flags prefix prev_ip s o,
  enabled s = false -> enabled (fst (step flags prefix prev_ip s o)) = true ->
  exists d data, o = ExitData true prev_ip d data /\ d <> DNull.
Proof.
  intros flags prefix prev_ip s o Hen H. apply opening_spec. rewrite step_enabled, Hen in H. exact H.
Qed.
Print Assumptions socket_opened_by_prev_hop_only.

(* A socket that is and stays disabled emits nothing. *)
Theorem disabled_is_silent : forall flags prefix prev_ip s o,
  sock_ok s -> enabled s = false -> enabled (fst (step flags prefix prev_ip s o)) = false ->
  snd (step flags prefix prev_ip s o) = [].
Proof.
  intros flags prefix prev_ip s o Hs Hen H. rewrite step_enabled, Hen in H. rewrite step_closed; auto.
Qed.
Print Assumptions disabled_is_silent.

(* The queue of packets waiting for the transports never exceeds its bound. *)
Theorem exit_queue_bounded : forall flags prefix prev_ip ops,
  Forall op_ok ops ->
  Z.of_nat (length (queue (fst (run flags prefix prev_ip init_sock ops)))) <= EXIT_QUEUE_MAXLEN.
Proof. intros flags prefix prev_ip ops H. apply run_ok; [apply init_ok|exact H]. Qed.
Print Assumptions exit_queue_bounded.

(* Exit data the policy forbids leaves an enabled socket exactly as it was and emits nothing. *)
Theorem forbidden_exit_is_noop : forall flags prefix prev_ip s known src d data,
  enabled s = true -> allowed flags prefix data = false ->
  step flags prefix prev_ip s (ExitData known src d data) = (s, []).
Proof.
  intros flags prefix prev_ip s known src d data Hen Ha. cbn [M06_emit.step]. destruct (is_null d); [reflexivity|].
  destruct known; cbn [negb]; [|reflexivity]. rewrite Hen. apply sendto_forbidden, Ha.
Qed.
Print Assumptions forbidden_exit_is_noop.

(* non-vacuity: a concrete history in which packets are queued, drained, emitted and refused *)
Example c06_nonvacuous :
  let flags := [1; 2] in let prefix := repeat 7 22 in
  let utp := 1 :: 0 :: repeat 0 18 in
  let ipv8 := 0 :: 2 :: repeat 9 21 in
  snd (run flags prefix 5 init_sock
           [ExitData true 6 (DV4 1 1) utp; ExitData true 5 (DV4 1 1) utp; ExitData true 5 (DV4 1 1) ipv8;
            TransportsCreated; ExitData true 9 (DV6 2 2) utp; Outside false false (DV4 3 3) utp;
            Outside false false (DV4 3 3) ipv8])
  = [Sendto utp (DV4 1 1); Sendto utp (DV6 2 2); SendData (DV4 3 3) utp].
Proof. vm_compute. reflexivity. Qed.
