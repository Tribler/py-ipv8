(* C12 - the peer graph's lookups always agree with its membership.  Property theorems only.
   Model: coq/model/M12_network.v (Network of ipv8/peerdiscovery/network.py, fixed tree);
   what the graph is and what each query must answer: coq/spec/S12_graph.v. *)
From Coq Require Import ZArith List Bool.
From IPV8V Require Import lib.PyErr model.M02_wire model.M12_network spec.S12_graph
  proofs.P12_inv proofs.P12_queries proofs.P12_snapshot.
Import ListNotations.
Open Scope Z_scope.

(* After ANY sequence of operations (mutators, cache-mutating queries, cache overflows with any caps,
   snapshots) on a graph with any blacklists, every way of asking - by public key, by address (for
   every iteration order of the verified set), peers per service, services of a peer, walkable
   addresses (with and without service / old-style filter), introductions of a peer, snapshot
   contents - gives exactly what the verified peers, their addresses, the advertised services and the
   known addresses imply. *)
Theorem queries_agree : forall ipc intc svcc bla blm ops,
  answers_agree (run (init_net ipc intc svcc bla blm) ops).
Proof. intros. apply answers_agree_inv, Inv_reachable. Qed.
Print Assumptions queries_agree.

(* A query changes caches at most: the graph (verified peers with their addresses, services, known
   addresses) is the same before and after - in every state, reachable or not. *)
Theorem queries_pure : forall n o, is_query o = true -> abs (fst (step n o)) = abs n.
Proof. exact abs_query. Qed.
Print Assumptions queries_pure.

(* Asking never changes the answer: after any run, any further sequence of questions leaves the graph
   unchanged, and every question asked afterwards is still answered from that same graph. *)
Theorem asking_changes_nothing : forall ipc intc svcc bla blm ops qs,
  all_queries qs ->
  let n := run (init_net ipc intc svcc bla blm) ops in
  abs (run n qs) = abs n /\ answers_agree (run n qs).
Proof.
  intros ipc intc svcc bla blm ops qs Hq n. split; [apply abs_run_queries; exact Hq|].
  apply answers_agree_inv, Inv_run, Inv_reachable.
Qed.
Print Assumptions asking_changes_nothing.

(* remove_peer: whatever happened before and whatever is asked afterwards, no verified peer has the
   key any more and no lookup (by key, by any address, by any service) returns a peer with it. *)
Theorem removed_peer_is_gone : forall ipc intc svcc bla blm ops k am qs,
  all_queries qs ->
  let n := run (init_net ipc intc svcc bla blm) (ops ++ RemovePeer k am :: qs) in
  absent_key (abs n) k /\ never_returned n k.
Proof.
  intros ipc intc svcc bla blm ops k am qs Hq. rewrite run_app. apply removed_peer_gone_from_inv; [apply Inv_reachable|exact Hq].
Qed.
Print Assumptions removed_peer_is_gone.

(* remove_by_address: nobody verified uses the address any more, lookup by that address answers None,
   and every peer that was verified at that address is gone from every lookup. *)
Theorem removed_by_address_is_gone : forall ipc intc svcc bla blm ops a qs,
  all_queries qs ->
  let n0 := run (init_net ipc intc svcc bla blm) ops in
  let n := run n0 (RemoveByAddress a :: qs) in
  unused_addr (abs n) a /\
  (forall hint, snd (get_verified_by_address n a hint) = None) /\
  (forall i, In i (verified n0) -> owns n0 a i = true ->
             absent_key (abs n) (hkey (heap n0) i) /\ never_returned n (hkey (heap n0) i)).
Proof. intros ipc intc svcc bla blm ops a qs Hq. apply removed_by_address_gone_from_inv; [apply Inv_reachable|exact Hq]. Qed.
Print Assumptions removed_by_address_is_gone.

(* A removed peer can be added again: add_verified_peer of a fresh Peer with that key (not
   blacklisted) verifies it, with exactly the new addresses, and lookup by key returns it. *)
Theorem removed_can_be_added_again : forall ipc intc svcc bla blm ops k am0 qs am,
  all_queries qs ->
  let n := run (init_net ipc intc svcc bla blm) (ops ++ RemovePeer k am0 :: qs) in
  blacklisted n k am = false ->
  let n' := fst (step n (AddVerified k am)) in
  exists i, get_verified_by_public_key_bin n' k = Some i /\ hget (heap n') i = (k, am) /\ In i (verified n').
Proof.
  intros ipc intc svcc bla blm ops k am0 qs am Hq n B n'. exists (length (heap n)).
  apply readd; [apply Inv_reachable| |exact B]. exact (proj1 (removed_peer_is_gone ipc intc svcc bla blm ops k am0 qs Hq)).
Qed.
Print Assumptions removed_can_be_added_again.

Theorem removed_by_address_can_be_added_again : forall ipc intc svcc bla blm ops a qs i am,
  all_queries qs ->
  let n0 := run (init_net ipc intc svcc bla blm) ops in
  let n := run n0 (RemoveByAddress a :: qs) in
  In i (verified n0) -> owns n0 a i = true ->
  let k := hkey (heap n0) i in
  blacklisted n k am = false ->
  let n' := fst (step n (AddVerified k am)) in
  exists j, get_verified_by_public_key_bin n' k = Some j /\ hget (heap n') j = (k, am) /\ In j (verified n').
Proof.
  intros ipc intc svcc bla blm ops a qs i am Hq n0 n Hi Oi k B n'. exists (length (heap n)).
  apply readd; [apply Inv_run, Inv_reachable| |exact B].
  exact (proj1 (proj2 (proj2 (removed_by_address_is_gone ipc intc svcc bla blm ops a qs Hq)) i Hi Oi)).
Qed.
Print Assumptions removed_by_address_can_be_added_again.

(* Blacklisted identities never become verified: in every reachable state no verified peer has a
   blacklisted mid, and none of its addresses is blacklisted. *)
Theorem blacklist_respected : forall ipc intc svcc bla blm ops,
  let n := run (init_net ipc intc svcc bla blm) ops in
  forall p, In p (g_peers (abs n)) ->
    ~ In (p_key p) blm /\ forall a, In a (p_addrs p) -> ~ In a bla.
Proof.
  intros ipc intc svcc bla blm ops n p Hp. subst n.
  destruct (blacklist_inv _ p (Inv_reachable ipc intc svcc bla blm ops) Hp) as [A B].
  pose proof (blp_run ops (init_net ipc intc svcc bla blm)) as E. injection E as E1 E2.
  rewrite E2 in A. rewrite E1 in B. exact (conj A B).
Qed.
Print Assumptions blacklist_respected.

(* load_snapshot terminates on every byte string: the loop fuel of the model never runs out. *)
Theorem load_snapshot_total : forall n d,
  snd (load_loop (length d) d 0 (all_addrs n) (intro_cache n)) = false.
Proof. intros n d. apply load_loop_total, PeanoNat.Nat.le_sub_l. Qed.
Print Assumptions load_snapshot_total.

(* The representation invariant behind all of the above holds in every reachable state: index =
   membership, cached service lists complete and duplicate free, cached introduction lists exact. *)
Theorem representation_invariant : forall ipc intc svcc bla blm ops,
  Inv (run (init_net ipc intc svcc bla blm) ops).
Proof. exact Inv_reachable. Qed.
Print Assumptions representation_invariant.

(* ---- non-vacuity: concrete histories *)
Definition ex_a0 := A4 [1; 1; 1; 1] 1.
Definition ex_a1 := A4 [2; 2; 2; 2] 2.
Definition ex_a6 := A6 (repeat 0 15 ++ [3]) 3.
Definition ex_m4 (a : addr) := mkAm (Some a) None None.
Definition ex_m0 := mkAm None None None.
Definition ex_h1 :=
  [AddVerified 1 (ex_m4 ex_a0); DiscoverServices 1 ex_m0 [7];
   GetByAddress ex_a0 None; GetPeersForService 7;
   DiscoverAddress 1 ex_m0 ex_a1 (Some 7) false; GetIntroductionsFrom 1].

(* warm caches, every lookup finds peer object 0 *)
Example c12_lookups_nonvacuous :
  let n := run (init_net 2 2 2 [] []) ex_h1 in
  (snd (get_verified_by_address n ex_a0 None), get_verified_by_public_key_bin n 1,
   snd (get_peers_for_service n 7), snd (get_walkable_addresses n (Some 7) false),
   snd (get_introductions_from n 1), ip_cache n, svc_cache n, intro_cache n)
  = (Some 0%nat, Some 0%nat, [0%nat], [ex_a1], [ex_a1], [(ex_a0, 0%nat)], [(7, [0%nat])], [(1, [ex_a1])]).
Proof. vm_compute. reflexivity. Qed.

(* after remove_by_address the address and service caches still hold the removed object, and yet
   nothing returns it *)
Example c12_removed_with_stale_caches :
  let n := run (init_net 2 2 2 [] []) (ex_h1 ++ [RemoveByAddress ex_a0]) in
  (ip_cache n, svc_cache n, snd (get_verified_by_address n ex_a0 None), get_verified_by_public_key_bin n 1,
   snd (get_peers_for_service n 7), snd (get_walkable_addresses n None false))
  = ([(ex_a0, 0%nat)], [(7, [0%nat])], None, None, [], [ex_a1]).
Proof. vm_compute. reflexivity. Qed.

(* ... and the peer can be added again (new object 3, new addresses); its snapshot reloads to the
   preferred (IPv6) address *)
Example c12_readd_and_snapshot :
  let n := run (init_net 2 2 2 [] [])
               (ex_h1 ++ [RemoveByAddress ex_a0; AddVerified 1 (mkAm (Some ex_a1) (Some ex_a6) None)]) in
  (get_verified_by_public_key_bin n 1, snd (get_verified_by_address n ex_a1 None), verified n,
   snapshot n, snapshot_reload n)
  = (Some 3%nat, Some 3%nat, [3%nat], Ok (3 :: repeat 0 15 ++ [3; 0; 3]), Ok [ex_a6]).
Proof. vm_compute. reflexivity. Qed.

(* blacklists: an address update onto a blacklisted address, a blacklisted mid and a peer at a
   blacklisted address that is already walkable (from a snapshot) are all refused *)
Example c12_blacklist_nonvacuous :
  let n := run (init_net 500 500 500 [ex_a1] [3])
               [AddVerified 1 (ex_m4 ex_a0); AddVerified 1 (ex_m4 ex_a1);
                AddVerified 3 (ex_m4 ex_a0); LoadSnapshot [1; 2; 2; 2; 2; 0; 2];
                AddVerified 2 (ex_m4 ex_a1)] in
  (verified n, map (hget (heap n)) (verified n), map fst (all_addrs n))
  = ([0%nat], [(1, ex_m4 ex_a0)], [ex_a0; ex_a1]).
Proof. vm_compute. reflexivity. Qed.
