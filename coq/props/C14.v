(* C14 - the DHT routing table stays a valid Kademlia tree.  The property theorems, each a short step from
   the lemmas of proofs/P14_*.v.
   Model: model/M14_routing.v (trie.py, Bucket, RoutingTable); vocabulary: spec/S14_kademlia.v.
   W = identifier width (160 in the code), cap = Bucket.max_size (8 in the code); all statements
   hold for every W and every cap >= 1. *)
From Coq Require Import ZArith List Bool Arith Lia.
From IPV8V Require Import lib.PyErr model.M14_routing spec.S14_kademlia
  proofs.P14_bits proofs.P14_trie proofs.P14_bucket proofs.P14_table proofs.P14_closest proofs.P14_main.
Import ListNotations.
Open Scope Z_scope.

(* After any sequence of additions (new ids, known ids, rejected ids), bad-node removals and status
   changes, with arbitrary W-bit identifiers, round-trip times and failure counts: no operation raises
   or exhausts the recursion budget, and the table is a valid Kademlia tree - bucket keys prefix-free
   and complete (one owner per identifier, found by get_bucket), every node in the bucket owning its
   id, capacity respected, identifiers unique, only buckets on our own path ever split. *)
Theorem tree_valid : forall W cap me ops,
  (0 < cap)%nat -> Forall (op_ok W) ops ->
  exists rt, run W cap (rt_init me) ops = Ok rt /\ own rt = me /\ valid_table W cap rt.
Proof.
  intros W cap me ops Hc F. destruct (run_ok W cap me Hc ops (rt_init me) (inv_init W cap me) F) as (rt & E & I).
  exists rt. split; [exact E|]. split; [apply I | exact (valid_of_inv W cap me rt I)].
Qed.
Print Assumptions tree_valid.

(* Every bucket key is the root or p ++ [b] with p a prefix of our own identifier: a bucket that does
   not contain our own id is never split. *)
Theorem split_only_on_own_path : forall W cap me rt k b,
  (0 < cap)%nat -> reachable W cap me rt -> bucket_at rt k b ->
  k = [] \/ exists q x, k = q ++ [x] /\ is_prefix q me.
Proof.
  intros W cap me rt k b Hc R G. pose proof (reachable_inv W cap me rt Hc R) as I.
  pose proof (valid_of_inv W cap me rt I) as V. destruct I as [<- _]. exact (vt_own_path _ _ _ V k b G).
Qed.
Print Assumptions split_only_on_own_path.

(* RoutingTable.add on any reachable table: returns (never KeyError, never more than W + 1 nested
   calls) and leads to a reachable table. *)
Theorem add_total : forall W cap me rt n,
  (0 < cap)%nat -> reachable W cap me rt -> length (nid n) = W ->
  exists rt' r, rt_add W cap rt n = Ok (rt', r) /\ reachable W cap me rt'.
Proof.
  intros W cap me rt n Hc R L. destruct (reachable_wf W cap me rt Hc R) as (t & -> & H).
  destruct (rt_add_ok W cap me Hc t n H L) as (t' & r & E & _). exists (mkRT me t'), r. split; [exact E|].
  apply (reachable_step W cap me _ (Add n) _ R L). cbn [step]. rewrite E. reflexivity.
Qed.
Print Assumptions add_total.

(* Bucket.split of any bucket of a reachable table drops no node and invents none: the two halves are
   the order-preserving partition of its nodes by their next identifier bit. *)
Theorem split_keeps_all_nodes : forall W cap me rt k b b0 b1,
  (0 < cap)%nat -> reachable W cap me rt -> bucket_at rt k b -> (length k < W)%nat ->
  bsplit cap b = Some (b0, b1) ->
  b0 = mkBucket (k ++ [false]) (filter (fun n => starts_with (k ++ [false]) (nid n)) (bnodes b)) /\
  b1 = mkBucket (k ++ [true]) (filter (fun n => negb (starts_with (k ++ [false]) (nid n))) (bnodes b)).
Proof.
  intros W cap me rt k b b0 b1 Hc R G L Sp. destruct (reachable_wf W cap me rt Hc R) as (t & -> & H).
  destruct (wf_bucket_at W cap me k [] t b H G) as (_ & OK & _). exact (bsplit_partition W cap k b b0 b1 OK L Sp).
Qed.
Print Assumptions split_keeps_all_nodes.

(* closest_nodes(target, k, exclude) on any reachable table returns exactly the k live (not BAD, not
   excluded) nodes with the smallest XOR distance to the target, nearest first; fewer only if fewer
   exist.  For every k (also 0 and k larger than the table), with and without exclude_node. *)
Theorem closest_exact : forall W cap me rt target k excl,
  (0 < cap)%nat -> reachable W cap me rt -> length target = W ->
  exists res, closest rt target k excl = Ok res /\ k_closest rt target excl k res.
Proof.
  intros W cap me rt target k excl Hc R L. destruct (reachable_wf W cap me rt Hc R) as (t & -> & H).
  exact (closest_ok W cap me t target k excl H L).
Qed.
Print Assumptions closest_exact.

(* The specification k_closest has exactly one solution (so closest_exact pins the result down). *)
Theorem k_closest_unique : forall rt target excl k r1 r2,
  NoDup (map nid (table_nodes rt)) ->
  k_closest rt target excl k r1 -> k_closest rt target excl k r2 -> r1 = r2.
Proof.
  intros rt target excl k r1 r2 N K1 K2.
  apply (ss_lt_unique target); [exact (kc_sorted _ _ _ _ _ K1) | exact (kc_sorted _ _ _ _ _ K2) |].
  intros n. split; [apply (k_closest_incl rt target excl k r2 r1) | apply (k_closest_incl rt target excl k r1 r2)]; assumption.
Qed.
Print Assumptions k_closest_unique.

(* Functional reading: the first k of the live nodes sorted by distance. *)
Theorem closest_is_sorted_prefix : forall W cap me rt target k excl,
  (0 < cap)%nat -> reachable W cap me rt -> length target = W ->
  closest rt target k excl = Ok (firstn k (sort_by_dist target (filter (live excl) (table_nodes rt)))).
Proof.
  intros W cap me rt target k excl Hc R L. destruct (reachable_wf W cap me rt Hc R) as (t & -> & H).
  destruct (closest_ok W cap me t target k excl H L) as (res & E & K). rewrite E. f_equal.
  apply (k_closest_unique (mkRT me t) target excl k); [exact (wf_NoDup W cap me t [] H) | exact K |].
  apply (sorted_prefix_k_closest W cap me); assumption.
Qed.
Print Assumptions closest_is_sorted_prefix.

(* The fact the outward sub-tree walk rests on: an identifier sharing the prefix p with the target is
   strictly closer to it than any identifier that does not. *)
Theorem xor_order_by_common_prefix : forall p t a b,
  starts_with p t = true -> starts_with p a = true -> starts_with p b = false ->
  length a = length t -> length b = length t -> dist a t < dist b t.
Proof. exact P14_bits.xor_order_by_common_prefix. Qed.
Print Assumptions xor_order_by_common_prefix.

(* The integer XOR of routing.distance is the bitwise XOR of the two identifiers. *)
Theorem distance_is_bitwise_xor : forall a b, length a = length b -> dist a b = bval (xorl a b).
Proof. exact dist_xorl. Qed.
Print Assumptions distance_is_bitwise_xor.

(* ---- trie.py *)
Theorem trie_set_get : forall (A : Type) (t : trie A) k v k',
  tget (tset t k v) k' = if bits_eqb k' k then Ok v else tget t k'.
Proof.
  intros A t k v k'. destruct (bits_eqb k' k) eqn:E.
  - apply bits_eqb_eq in E. subst. apply tget_tset_same.
  - apply bits_eqb_neq in E. apply tget_tset_other, E.
Qed.
Print Assumptions trie_set_get.

(* __delitem__ of a stored key succeeds and removes exactly that key *)
Theorem trie_del_removes_exactly : forall (A : Type) (t : trie A) k v,
  tget t k = Ok v ->
  exists t', tdel t k = Ok t' /\ tget t' k = Raise KeyError /\ (forall k', k' <> k -> tget t' k' = tget t k').
Proof.
  intros A t k v G. unfold tdel. destruct (tdel_aux t k) as [u|] eqn:D.
  - apply tget_tdel_aux in D as (_ & Hk & Ho). destruct u as [|w c0 c1]; [|eauto].
    exists empty_root. split; [reflexivity|]. split; [apply tget_empty_root|].
    intros k' N. rewrite <- Ho by exact N. rewrite tget_Empty. apply tget_empty_root.
  - apply tdel_aux_none in D. congruence.
Qed.
Print Assumptions trie_del_removes_exactly.

(* __delitem__ of a missing key raises KeyError *)
Theorem trie_del_missing : forall (A : Type) (t : trie A) k e, tget t k = Raise e -> tdel t k = Raise KeyError.
Proof.
  intros A t k e G. unfold tdel. destruct (tdel_aux t k) as [u|] eqn:D; [|reflexivity].
  apply tget_tdel_aux in D as ((v & Hv) & _). congruence.
Qed.
Print Assumptions trie_del_missing.

(* pruning: starting from an empty trie no value-less leaf chain ever remains *)
Theorem trie_stays_pruned : forall (A : Type) (t : trie A) k,
  compact t -> (forall v, compact (tset t k v)) /\ (forall t', tdel t k = Ok t' -> compact t').
Proof. intros A t k C. split; [intros v; apply compact_tset, C | intros t'; apply compact_tdel, C]. Qed.
Print Assumptions trie_stays_pruned.

(* suffixes(p) lists, each once, exactly the s for which p + s is a stored key; the buckets visited
   through it by closest_nodes are exactly the values stored below p, and no lookup fails *)
Theorem trie_suffixes_exact : forall (A : Type) (t : trie A) p,
  NoDup (suffixes t p) /\ (forall s, In s (suffixes t p) <-> exists v, tget t (p ++ s) = Ok v) /\
  under t p = Ok (tvalues (tfind t p)).
Proof. intros A t p. split; [apply NoDup_tkeys|]. split; [intros s; apply in_suffixes | apply under_ok]. Qed.
Print Assumptions trie_suffixes_exact.

(* ---- Bucket.generate_id: for every random draw the identifier lies in the bucket and
   has full width; the drawn number is its suffix *)
Theorem refresh_id_in_bucket : forall W b r,
  (length (bprefix b) <= W)%nat -> owns b (gen_id W b r) = true /\ length (gen_id W b r) = W.
Proof.
  intros W b r L. unfold owns, gen_id. split; [apply starts_with_app|].
  rewrite app_length, Z_to_bits_length. lia.
Qed.
Print Assumptions refresh_id_in_bucket.

Theorem refresh_id_suffix_is_draw : forall W b r,
  0 <= r < 2 ^ Z.of_nat (W - length (bprefix b)) ->
  bval (skipn (length (bprefix b)) (gen_id W b r)) = r.
Proof.
  intros W b r Hr. unfold gen_id. rewrite skipn_app, skipn_all, Nat.sub_diag. apply bval_Z_to_bits, Hr.
Qed.
Print Assumptions refresh_id_suffix_is_draw.

(* ---- gen_id_pinned and tdel_pinned (model/M14_routing.v) transcribe Bucket.generate_id and Trie.__delitem__ of the
   pinned upstream tree: the first draws an identifier outside the bucket, the second raises KeyError on the last key *)
Theorem refresh_id_pinned_refuted :
  exists b r, (length (bprefix b) <= 160)%nat /\ 0 <= r <= 2 ^ (160 - Z.of_nat (length (bprefix b))) /\
              owns b (gen_id_pinned 160 b r) = false.
Proof.
  exists (mkBucket [true; false; true; true] []), 5. split; [apply Nat.leb_le; reflexivity|].
  split; [split; apply Z.leb_le; reflexivity | reflexivity].
Qed.
Print Assumptions refresh_id_pinned_refuted.

Theorem trie_del_pinned_refuted :
  exists (t : trie Z) k v, tget t k = Ok v /\ tdel_pinned t k = Raise KeyError.
Proof. exists (tset empty_root [false] 7), [false], 7. split; reflexivity. Qed.
Print Assumptions trie_del_pinned_refuted.

(* ---- non-vacuity: the concrete history ex_ops of proofs/P14_main.v (4-bit identifiers, capacity 2, own id
   0110): one addition splits three times (buckets 1, 00, 010, 011), a full bucket evicts its bad node and
   its slow node, a node goes bad and is removed, and is added again later *)
Example c14_nonvacuous_ops_ok : Forall (op_ok 4) ex_ops.
Proof. repeat constructor. Qed.

Example c14_nonvacuous_tree :
  ex_table = [([false; false], []); ([false; true; false], [4; 5]); ([false; true; true], [6; 7]); ([true], [14])].
Proof. vm_compute. reflexivity. Qed.

(* closest_nodes on that table: nearest first, the excluded node skipped, the walk leaves the target's bucket *)
Example c14_nonvacuous_closest :
  (ex_closest 5 3 None, ex_closest 5 3 (Some 4), ex_closest 13 8 None) = ([5; 4; 7], [5; 7; 6], [14; 5; 4; 7; 6]).
Proof. vm_compute. reflexivity. Qed.

(* deletion prunes the chain it leaves behind, and only that *)
Example c14_nonvacuous_trie :
  let t := tset (tset (tset empty_root [true; true; true] 3) [false] 1) [true] 2 in
  (tdel t [true; true; true], suffixes t [true])
  = (Ok (TNode None (TNode (Some 1) Empty Empty) (TNode (Some 2) Empty Empty)), [[]; [true; true]]).
Proof. vm_compute. reflexivity. Qed.

Example c14_nonvacuous_refresh :
  bitsZ (gen_id 8 (mkBucket [true; false; true] []) 6) = 166 /\
  owns (mkBucket [true; false; true] []) (Z_to_bits 8 166) = true.
Proof. vm_compute. split; reflexivity. Qed.
