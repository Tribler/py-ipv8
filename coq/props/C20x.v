(* C20 extension - the VariablePayload machinery as TRANSLATED from lazy_payload.py / payload_dataclass.py
   (tools/tr/tr_vp.py -> gen/G20_vp.v).  Property theorems and, at the end, one worked example with its value type.
   Vocabulary: model/M20_vp_gen.v; four predicates of the statements - lift_pl, key_self, rtp_ok, supported - are
   defined in proofs/P20_vp_gen.v. *)
From Coq Require Import ZArith List Bool String.
From IPV8V Require Import lib.PyErr model.M20_vp model.M20_vp_gen gen.G20_vp proofs.P20_vp_gen.
From IPV8V Require props.C20.
Import ListNotations.

(* The interpreted methods, translated from the AST, compute exactly what the hand model M20_vp says - for every
   well-formed definition (any formats incl. bits / nested / lists, any hooks), all constructor arguments, all decoded
   argument lists and all instances, exceptions included.  SUPER_FWD = false: the definition's next __init__ after
   VariablePayload in the MRO is object.__init__ (the forwarding branch is outside the translated set). *)
Theorem gen_refines_hand_model : forall V (P : rtp V) K,
  wf_defn (defn_of V K) = true ->
  (forall args kwargs,
     VariablePayload___init__ V P false K (object_new V) args kwargs =
     do fs <- interp_init V (defn_of V K) args kwargs; Ok (cls_set_match_args V K (c_names V K), fs)) /\
  (forall NEW args,
     VariablePayload_from_unpack_list V P NEW K args =
     do a' <- interp_fix_unpack V (c_hook_unpack V K) (defn_of V K) (c_names V K) args; NEW K a' []) /\
  (forall o,
     VariablePayload_to_pack_list V P K o =
     do r <- interp_to_pack V (c_hook_pack V K) (defn_of V K) o; Ok (lift_pl V r)) /\
  (forall f, VariablePayload__to_packlist_fmt V P f = Ok (GP (packname f))) /\
  (forall o n, VariablePayload__fix_pack V P K o n = fix_pack V (c_hook_pack V K) (defn_of V K) o n).
Proof.
  intros V P K Hwf. split; [|split; [|split; [|split]]].
  - intros. exact (init_refines V P K args kwargs Hwf).
  - intros. exact (from_unpack_list_refines V P NEW K args).
  - intros. exact (to_pack_list_refines V P K o Hwf).
  - exact (to_packlist_fmt_refines V P).
  - exact (fix_pack_refines V P K).
Qed.
Print Assumptions gen_refines_hand_model.

(* The three source generators, translated (templates parsed into code-object structure), are the generator model. *)
Theorem gen_generators_refine_model : forall V (P : rtp V) K (defaults : list (nat * V)),
  wf_defn (defn_of V K) = true ->
  g_compile_init V P (c_names V K) defaults =
    Ok (CInit "__init__" (gen_init (c_names V K) (key_self V defaults)) (map (fun n => (n, n)) (c_names V K))) /\
  g_compile_from_unpack_list V P K (c_names V K) = Ok (CUnpack "from_unpack_list" (c_names V K) (gen_unpack (defn_of V K))) /\
  g_compile_to_pack_list V P K (c_fmts V K) (c_names V K) = Ok (CPack "to_pack_list" (lift_gp (gen_pack (defn_of V K)))).
Proof.
  intros V P K defaults Hwf. destruct (P20_vp.wf_defn_spec _ Hwf) as [_ Hnd].
  split; [|split].
  - exact (compile_init_refines V P (c_names V K) defaults Hnd).
  - exact (compile_from_unpack_list_refines V P K Hnd).
  - exact (compile_to_pack_list_refines V P K Hwf).
Qed.
Print Assumptions gen_generators_refine_model.

(* vp_compile, translated as a straight-line program (signature -> defaults -> three exec -> four setattr), leaves
   exactly `compiled_class K` : __init__ := the generated constructor with the definition's own defaults evaluated in the
   globals handed to exec, __match_args__ := names, from_unpack_list := the generated function bound to this class,
   to_pack_list := the generated function.  Its only input is the class. *)
Theorem vp_compile_is_compiled_class : forall V (P : rtp V) K,
  wf_cls V P K = true -> g_vp_compile V P K = Ok (compiled_class V P K).
Proof. exact vp_compile_refines. Qed.
Print Assumptions vp_compile_is_compiled_class.

(* The three methods of the compiled class are exactly the evaluators of the generated functions of M20_vp. *)
Theorem compiled_methods_are_generated_evaluators : forall V (P : rtp V) K,
  (forall args kwargs,
     call_init V P (compiled_class V P K) args kwargs =
     eval_init V V (fun v => Ok v) (gen_init (c_names V K) (own_defaults V P K)) args kwargs) /\
  (forall o, call_to_pack V (compiled_class V P K) o = eval_to_pack V (c_hook_pack V K) (gen_pack (defn_of V K)) o) /\
  (forall args,
     call_from_unpack V P (compiled_class V P K) args =
     eval_from_unpack V (is_none V P) (c_hook_unpack V K) V (fun v => Ok v)
       (gen_init (c_names V K) (own_defaults V P K)) (gen_unpack (defn_of V K)) args).
Proof.
  intros V P K.
  assert (Hi : forall args kwargs, call_init V P (compiled_class V P K) args kwargs =
            eval_init V V (fun v => Ok v) (gen_init (c_names V K) (own_defaults V P K)) args kwargs).
  { intros. apply call_init_generated. reflexivity. }
  split; [exact Hi|split].
  - intros o. exact (call_to_pack_generated V (compiled_class V P K) (gen_pack (defn_of V K)) o eq_refl).
  - intros args. exact (call_from_unpack_generated V P (compiled_class V P K) (defn_of V K) V _ _ args eq_refl (fun a => Hi a [])).
Qed.
Print Assumptions compiled_methods_are_generated_evaluators.

(* The defaults of the compiled constructor are the definition's own, each attached to its own name: name n has default v
   in the compiled constructor iff parameter n of the definition's constructor has default v (a pairing of names and
   defaults in any other order is excluded). *)
Theorem compiled_defaults_are_own : forall V (P : rtp V) K sig n v,
  sig_items V P (c_init V K) = Ok sig -> nodup_nat (map fst sig) = true ->
  (assoc_nat n (own_defaults V P K) = Some v <-> (assoc_nat n sig = Some v /\ is_empty V P v = false)).
Proof. exact assoc_own_defaults. Qed.
Print Assumptions compiled_defaults_are_own.

(* The result depends on nothing but the definition: two classes with the same names, formats, hooks, identity and own
   defaults get the same four attributes, whatever they held before and whatever was compiled earlier (vp_compile keeps
   no state between calls: the translator refuses module-level state). *)
Theorem compiled_depends_on_definition_only : forall V (P : rtp V) K1 K2,
  c_names V K1 = c_names V K2 -> c_fmts V K1 = c_fmts V K2 -> c_fixpack V K1 = c_fixpack V K2 ->
  c_fixunpack V K1 = c_fixunpack V K2 -> c_id V K1 = c_id V K2 -> own_defaults V P K1 = own_defaults V P K2 ->
  c_init V (compiled_class V P K1) = c_init V (compiled_class V P K2) /\
  c_from_unpack V (compiled_class V P K1) = c_from_unpack V (compiled_class V P K2) /\
  c_to_pack V (compiled_class V P K1) = c_to_pack V (compiled_class V P K2) /\
  c_match_args V (compiled_class V P K1) = c_match_args V (compiled_class V P K2).
Proof. exact compiled_depends_on_definition_only. Qed.
Print Assumptions compiled_depends_on_definition_only.

(* compiling a compiled class again (DataClassPayload.__new__ does so on every allocation) changes nothing *)
Theorem recompilation_stable : forall V (P : rtp V) K,
  rtp_ok V P -> wf_cls V P K = true -> mem (self_name V P) (c_names V K) = false ->
  g_vp_compile V P (compiled_class V P K) = Ok (compiled_class V P K).
Proof.
  intros V P K Hr Hwf Hself. destruct (wf_cls_spec V P K Hwf) as (Hd & Hnd & _).
  rewrite vp_compile_refines.
  - rewrite (compiled_class_idem V P K Hr Hwf). reflexivity.
  - unfold wf_cls. change (defn_of V (compiled_class V P K)) with (defn_of V K). rewrite Hd.
    change (c_init V (compiled_class V P K)) with (FInit V (gen_init (c_names V K) (own_defaults V P K)) (map (fun n => (n, n)) (c_names V K)) true).
    cbn [sig_items map fst nodup_nat andb]. rewrite map_map. cbn [fst]. rewrite map_fst_gen_init, nodup_nat_b, Hnd, andb_true_r.
    apply negb_true_iff. exact Hself.
Qed.
Print Assumptions recompilation_stable.

(* type_map, translated, is M20_vp.type_map - results and raised exceptions - whenever the fuel exceeds the nesting *)
Theorem type_map_refines_model : forall V (P : rtp V) fuel t,
  (ty_depth t < fuel)%nat -> g_type_map V P fuel t = M20_vp.type_map t.
Proof. exact type_map_refines. Qed.
Print Assumptions type_map_refines_model.

Theorem type_from_format_roundtrip : forall V (P : rtp V) fuel f t,
  g_type_from_format V P f = Ok t -> g_type_map V P (S fuel) t = Ok (TFname f).
Proof. intros V P fuel f t H. rewrite type_from_format_spec in H. injection H as <-. reflexivity. Qed.
Print Assumptions type_from_format_roundtrip.

(* For a supported annotation list the converted class has names = field names in order, format_list = type_map of the
   annotations, msg_id set for the WID variant, hooks untouched, and IS vp_compile of that definition (compiled_class) with
   the constructor @dataclass wrote put back (converted_class: the compiled constructor would leave a default_factory field
   holding dataclasses' factory marker); the module attribute is rebound to the class. *)
Theorem dataclass_equals_plain : forall V (P : rtp V) FUEL W K mid tfs,
  Forall2 (supported V FUEL K) (c_dc_fields V K) tfs ->
  wf_cls V P (dc_definition V K mid tfs) = true ->
  let D := dc_definition V K mid tfs in
  g_convert_to_payload V P FUEL W K mid =
    Ok (world_set V W (c_module V K) (c_name V K) (converted_class V P K mid tfs), converted_class V P K mid tfs)
  /\ c_names V D = map fst (c_dc_fields V K)
  /\ c_fmts V D = map fk_of_tfmt tfs
  /\ c_msg_id V D = match mid with Some z => Some z | None => c_msg_id V K end
  /\ c_fixpack V D = c_fixpack V K /\ c_fixunpack V D = c_fixunpack V K /\ c_init V D = c_init V K.
Proof.
  intros V P FUEL W K mid tfs Hs Hwf D. split.
  - rewrite convert_to_payload_refines, (field_fmts_ok V P FUEL K _ _ Hs). cbn [bind]. fold D.
    rewrite vp_compile_refines by exact Hwf. cbn [bind]. destruct mid; reflexivity.
  - subst D. destruct mid; repeat split.
Qed.
Print Assumptions dataclass_equals_plain.

(* The own defaults of that definition are the dataclass field defaults (the constructor @dataclass wrote: dc_wf). *)
Theorem dataclass_defaults_are_field_defaults : forall V (P : rtp V) K mid tfs,
  rtp_ok V P -> dc_wf V P K ->
  own_defaults V P (dc_definition V K mid tfs) = filter (fun kv => negb (is_empty V P (snd kv))) (c_dc_fields V K).
Proof.
  intros V P K mid tfs Hr Hw. unfold own_defaults.
  replace (c_init V (dc_definition V K mid tfs)) with (c_init V K) by (destruct mid; reflexivity).
  rewrite Hw. cbn [sig_items filter snd]. rewrite Hr. reflexivity.
Qed.
Print Assumptions dataclass_defaults_are_field_defaults.

(* The converted class behaves like the compiled form of the plain definition (field names, formats, field defaults): the constructor
   binds exactly as the generated one (M20_vp.eval_init over gen_init) with an omitted parameter getting run_default of
   its field's default - the default itself, or a FRESH result of the default_factory; pack and unpack are the generated
   functions' evaluators.  With props/C20.v (defaults_render_faithfully, compiled_*_equals_interpreted) this is the plain
   interpreted definition's behaviour. *)
Theorem converted_dataclass_behaves_like_its_definition : forall V (P : rtp V) K mid tfs,
  rtp_ok V P -> dc_wf V P K -> nodup_b (map fst (c_dc_fields V K)) = true ->
  let D := dc_definition V K mid tfs in
  (forall args kwargs,
     call_init V P (converted_class V P K mid tfs) args kwargs =
     eval_init V V (run_default V P) (gen_init (c_names V D) (own_defaults V P D)) args kwargs) /\
  (forall o, call_to_pack V (converted_class V P K mid tfs) o = eval_to_pack V (c_hook_pack V K) (gen_pack (defn_of V D)) o) /\
  (forall args,
     call_from_unpack V P (converted_class V P K mid tfs) args =
     eval_from_unpack V (is_none V P) (c_hook_unpack V K) V (run_default V P)
       (gen_init (c_names V D) (own_defaults V P D)) (gen_unpack (defn_of V D)) args).
Proof.
  intros V P K mid tfs Hr Hw Hnd D. set (C := converted_class V P K mid tfs).
  assert (Hi : forall args kwargs, call_init V P C args kwargs =
            eval_init V V (run_default V P) (gen_init (c_names V D) (own_defaults V P D)) args kwargs).
  { intros. subst D. rewrite (dataclass_defaults_are_field_defaults V P K mid tfs Hr Hw).
    rewrite (call_init_dataclass V P C _ _ args kwargs Hw Hnd). destruct mid; reflexivity. }
  split; [exact Hi|split].
  - intros o. rewrite (call_to_pack_generated V C (gen_pack (defn_of V D)) o eq_refl). destruct mid; reflexivity.
  - intros args. rewrite (call_from_unpack_generated V P C (defn_of V D) V _ _ args eq_refl (fun a => Hi a [])).
    destruct mid; reflexivity.
Qed.
Print Assumptions converted_dataclass_behaves_like_its_definition.

(* every allocation converts again (DataClassPayload.__new__): the second and later conversions change nothing *)
Theorem reallocation_stable : forall V (P : rtp V) FUEL W K mid tfs,
  Forall2 (supported V FUEL K) (c_dc_fields V K) tfs ->
  wf_cls V P (dc_definition V K mid tfs) = true ->
  (mid = None \/ mid = c_msg_id V (dc_definition V K mid tfs)) ->
  let C := converted_class V P K mid tfs in
  g_convert_to_payload V P FUEL W C mid = Ok (world_set V W (c_module V K) (c_name V K) C, C).
Proof.
  intros V P FUEL W K mid tfs Hs Hwf Hm C.
  destruct (dataclass_equals_plain V P FUEL W C mid tfs) as [H _].
  - destruct mid; exact Hs.
  - subst C. rewrite dc_definition_id; [|destruct mid; reflexivity..|exact Hm]. destruct mid; exact Hwf.
  - rewrite H. subst C. rewrite (converted_class_idem V P K mid tfs). destruct mid; reflexivity.
Qed.
Print Assumptions reallocation_stable.

(* an unsupported annotation: convert_to_payload raises exactly what type_map raises for the first such field *)
Theorem convert_unsupported_raises : forall V (P : rtp V) FUEL W K mid pre fld post tfs t e,
  c_dc_fields V K = pre ++ fld :: post -> Forall2 (supported V FUEL K) pre tfs ->
  assoc_nat (fst fld) (c_hints V K) = Some t -> (ty_depth t < FUEL)%nat -> M20_vp.type_map t = Raise e ->
  g_convert_to_payload V P FUEL W K mid = Raise e.
Proof.
  intros V P FUEL W K mid pre fld post tfs t e Hf Hs Ht Hd Hm. rewrite convert_to_payload_refines, Hf.
  rewrite (mapM_app_raise _ pre fld post tfs e (field_fmts_ok V P FUEL K _ _ Hs)); [reflexivity|].
  rewrite (field_fmt_spec V P FUEL K fld t Ht Hd). exact Hm.
Qed.
Print Assumptions convert_unsupported_raises.

(* DataClassPayload.__new__ / DataClassPayloadWID.__new__: a fresh object, the class converted (again) on the way *)
Theorem dataclass_new_converts : forall V (P : rtp V) FUEL W K,
  DataClassPayload___new__ V P FUEL W K = (do r <- g_convert_to_payload V P FUEL W K None; Ok (fst r, snd r, object_new V)) /\
  DataClassPayloadWID___new__ V P FUEL W K =
  match c_msg_id V K with
  | Some z => do r <- g_convert_to_payload V P FUEL W K (Some z); Ok (fst r, snd r, object_new V)
  | None => Raise TypeError
  end.
Proof.
  intros. unfold DataClassPayload___new__, DataClassPayloadWID___new__, cls_get_msg_id. cbn zeta. split.
  - destruct (g_convert_to_payload V P FUEL W K None) as [[w k]|]; reflexivity.
  - destruct (c_msg_id V K) as [z|]; cbn [bind]; [|reflexivity].
    destruct (g_convert_to_payload V P FUEL W K (Some z)) as [[w k]|]; reflexivity.
Qed.
Print Assumptions dataclass_new_converts.

(* gen_refines_hand_model, compiled_methods_are_generated_evaluators and props/C20.v chained: the compiled class - hence
   the converted dataclass - behaves like the TRANSLATED
   interpreted methods of the plain definition: same pack list, same instance from every decoded argument list (None
   guard as in C20), same fields from positional arguments. *)
Theorem compiled_behaves_like_translated_plain : forall V (P : rtp V) K,
  wf_defn (defn_of V K) = true ->
  (forall o, (do r <- call_to_pack V (compiled_class V P K) o; Ok (lift_pl V r)) = VariablePayload_to_pack_list V P K o) /\
  (forall args, List.length args = List.length (c_names V K) ->
     (forall n a, In (n, a) (combine (c_names V K) args) -> mem n (c_fixunpack V K) = true -> is_none V P a = false) ->
     (do fs <- call_from_unpack V P (compiled_class V P K) args; Ok (cls_set_match_args V K (c_names V K), fs)) =
     VariablePayload_from_unpack_list V P (fun K' a k => VariablePayload___init__ V P false K' (object_new V) a k) K args) /\
  (forall args, List.length args = List.length (c_names V K) ->
     (do fs <- call_init V P (compiled_class V P K) args []; Ok (cls_set_match_args V K (c_names V K), fs)) =
     VariablePayload___init__ V P false K (object_new V) args []).
Proof.
  intros V P K Hwf. destruct (compiled_methods_are_generated_evaluators V P K) as (Ei & Ep & Eu).
  destruct (gen_refines_hand_model V P K Hwf) as (Ri & Ru & Rp & _).
  assert (Hi : forall args, List.length args = List.length (c_names V K) ->
            (do fs <- call_init V P (compiled_class V P K) args []; Ok (cls_set_match_args V K (c_names V K), fs)) =
            VariablePayload___init__ V P false K (object_new V) args []).
  { intros args Hl. rewrite Ei, Ri.
    destruct (C20.compiled_init_equals_interpreted_positional V V (fun v => Ok v) (defn_of V K) (own_defaults V P K) args Hwf Hl) as [H1 H2].
    change (d_names (defn_of V K)) with (c_names V K) in H1. rewrite H1, H2. reflexivity. }
  split; [|split; [|exact Hi]].
  - intros o. rewrite Ep, Rp, (C20.compiled_pack_equals_interpreted V (c_hook_pack V K) (defn_of V K) o Hwf). reflexivity.
  - intros args Hl Hn. rewrite Eu, Ru.
    pose proof (C20.compiled_unpack_equals_interpreted V (is_none V P) (c_hook_unpack V K) V (fun v => Ok v) (defn_of V K) (own_defaults V P K) args Hwf Hl Hn) as HE.
    change (d_names (defn_of V K)) with (c_names V K) in HE. rewrite HE. unfold interp_from_unpack. cbn [defn_of d_names].
    destruct (interp_fix_unpack V (c_hook_unpack V K) (defn_of V K) (c_names V K) args) as [a'|]; cbn [bind]; [|reflexivity].
    symmetry. apply Ri.
Qed.
Print Assumptions compiled_behaves_like_translated_plain.

(* ---- non-vacuity: a dataclass with three fields (int, List[Nested], type_from_format("I") defaulting to 7), WID 5 *)
Local Open Scope nat_scope.
Inductive xval := XNone | XEmpty | XFactory | XI (z : Z).
Definition xP : rtp xval :=
  mkRtp xval (fun v => match v with XNone => true | _ => false end) (fun v => match v with XEmpty => true | _ => false end)
        XEmpty 100 101 102 (fun v => match v with XFactory => Ok (XI 40%Z) | _ => Ok v end).
Definition xK : cls xval :=
  mkCls xval 1 2 3 [] [] [] [11] (fun _ v => v) (fun n v => match v with XI z => XI (z + 1)%Z | _ => v end) None
        (FUser xval [(100, XEmpty); (10, XEmpty); (11, XEmpty); (12, XI 7%Z); (13, XFactory)]) (MInherited) (FInherited) None
        [(10, XEmpty); (11, XEmpty); (12, XI 7%Z); (13, XFactory)] [(10, TInt); (11, TSeq (TClass 9)); (12, TVar 4); (13, TSeq TInt)].

Example c20x_nonvacuous :
  let tfs := [TFq; TFpayloadlist 9; TFname 4; TFarray TFq] in
  let D := dc_definition xval xK (Some 5%Z) tfs in
  Forall2 (supported xval 3 xK) (c_dc_fields xval xK) tfs /\ wf_cls xval xP D = true /\ dc_wf xval xP xK /\ rtp_ok xval xP /\
  own_defaults xval xP D = [(12, XI 7%Z); (13, XFactory)] /\
  (exists W' C, g_convert_to_payload xval xP 3 [] xK (Some 5%Z) = Ok (W', C) /\
     c_msg_id xval C = Some 5%Z /\ c_names xval C = [10; 11; 12; 13] /\
     c_fmts xval C = [KStr 0 false; KPayloadList 9; KStr 13 false; KStr 6 false] /\
     c_match_args xval C = Some [10; 11; 12; 13] /\
     call_init xval xP C [XI 1%Z; XI 2%Z] [] = Ok [(10, XI 1%Z); (11, XI 2%Z); (12, XI 7%Z); (13, XI 40%Z)] /\
     call_from_unpack xval xP C [XI 1%Z; XI 2%Z; XI 3%Z; XI 4%Z] = Ok [(10, XI 1%Z); (11, XI 3%Z); (12, XI 3%Z); (13, XI 4%Z)] /\
     call_to_pack xval C [(10, XI 1%Z); (11, XI 2%Z); (12, XI 7%Z); (13, XI 0%Z)] =
       Ok [(PStr 0, [XI 1%Z]); (PPayloadList, [XI 2%Z]); (PStr 13, [XI 7%Z]); (PStr 6, [XI 0%Z])] /\
     g_convert_to_payload xval xP 3 W' C (Some 5%Z) = Ok (W' ++ W', C)) /\
  g_convert_to_payload xval xP 3 [] (cls_set_names xval xK []) None <> Raise OutOfFuel /\
  VariablePayload___init__ xval xP false (dc_definition xval xK None tfs) (object_new xval) [XI 1%Z] [(12, XI 3%Z); (11, XI 2%Z)]
    = Raise KeyError /\
  VariablePayload___init__ xval xP false (dc_definition xval xK None tfs) (object_new xval) [XI 1%Z] [(13, XI 4%Z); (12, XI 3%Z); (11, XI 2%Z)]
    = Ok (cls_set_match_args xval (dc_definition xval xK None tfs) [10; 11; 12; 13], [(10, XI 1%Z); (11, XI 2%Z); (12, XI 3%Z); (13, XI 4%Z)]).
Proof.
  cbv zeta. split; [|split; [|split; [|split; [|split; [|split; [|split; [|split]]]]]]].
  - repeat constructor; eexists; (split; [reflexivity|split; [reflexivity|cbn; auto with arith]]).
  - vm_compute. reflexivity.
  - reflexivity.
  - reflexivity.
  - vm_compute. reflexivity.
  - pose (C := converted_class xval xP xK (Some 5%Z) [TFq; TFpayloadlist 9; TFname 4; TFarray TFq]).
    exists [((2, 3), C)], C. split; [|split; [|split; [|split; [|split; [|split; [|split; [|split]]]]]]]; vm_compute; reflexivity.
  - vm_compute. discriminate.
  - vm_compute. reflexivity.
  - vm_compute. reflexivity.
Qed.
