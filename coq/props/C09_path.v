(* C09, path level - when a circuit is torn down or abandoned, EVERY node on its path drops its entries
   within a bound computed from the settings.  Property theorems only.

   Model: model/M09_network.v - a network of M09 nodes (model/M09_reclaim.v, unchanged) plus the messages
   in flight; one step = one node processing one event; which message is delivered, dropped, duplicated,
   delayed or overtaken is an unconstrained choice of the trace.

   Hypotheses, all of them executable checks (they are evaluated on observed implementation histories by
   tools/checks/c09_path.py):
   * `nrun_timely` / the timely part of `nrun_ok`: every node's event loop is served on time (the C09
     assumption, per node);
   * `quiet_shape_b st D p tq j w`: the situation from which the bound is counted.  p is the path (originator,
     hops with the id of the link leading to each, all distinct).  Whatever entries still name ids of the path
     sit at the right positions with the right routing fields (ANY subset may already be missing: lost
     destroys, partial sweeps, nodes that are gone); no create / extend is under way for these ids; the cells
     in flight for these ids travel on links of the path.  And the circuit is dead at its head or cut off
     from its far end:
       j = 0: the originator has torn the circuit down (its entry is closing) or the originator is gone;
       j > 0: node j of the path - a relay or the exit - has dropped its entries for it (or is gone), or the link
              that leads to it is dead (`dead` lists ids on which nothing is delivered any more: a cut link, an
              isolated node); no node above it answers in its place; the destroy towards the originator may
              be lost or not; the
              originator's entry may still be alive and it goes on pinging: tq is then L + B_entry where L
              bounds the originator's last activity stamp and the arrival of what still travels upwards above
              the break (L = time of the break + j * D does).
   * `nrun_ok st D ids`: after that no NEW traffic is injected for these ids (no application data, no datagram
     from outside at the exit, nothing from outside the modelled nodes, the ids are not handed out again);
     a datagram - and every duplicate of it - is delivered within D of being sent, or never; the node that
     peels the last layer of a cell finds a message of the kind that was sent, or fails.
   Pings need no hypothesis: do_ping is part of the model; the theorem shows that it stops (the originator's
   entry is not refreshed through a broken path, C09's node bound then closes it by tq).

   Conclusion: at any time T > tq + B_path, B_path = 2 * hops * D + (max_time_inactive + sweep interval +
   remove_tunnel_delay), at which the nodes have been served, no node holds a circuit, relay or exit entry
   for any id of the path.  Counted from a teardown at node j > 0 at time t0 whose entries are gone at
   t0 + remove_tunnel_delay: everything is reclaimed by
   t0 + remove_tunnel_delay + (j + 2 * hops) * D + 2 * (max_time_inactive + sweep + remove_tunnel_delay). *)
From Coq Require Import ZArith List Bool.
From IPV8V Require Import model.M09_reclaim model.M09_harness model.M09_network spec.S09_reclaim
  proofs.P09_alist proofs.P09_inv proofs.P09_network_frame proofs.P09_network_node proofs.P09_network_step
  proofs.P09_network_path proofs.P09_network_inv proofs.P09_network_main proofs.P09_network_binv proofs.P09_network_bmain.
Import ListNotations.
Open Scope Z_scope.

(* the explicit bound *)
Theorem B_path_formula : forall st D hops,
  B_path st D hops = 2 * Z.of_nat hops * D + B_entry st.
Proof. exact (fun st D hops => eq_refl). Qed.
Print Assumptions B_path_formula.

(* The path-level theorem, from any network state whose nodes satisfy the node invariant of C09.  `_partial`:
   what is missing with respect to the full property text is listed at the end of this file. *)
Theorem path_bounded_reclaim_from_partial : forall st, settings_ok st -> forall D p tq j dead wq tr T,
  0 <= D ->
  (forall n s, aget n (nodes wq) = Some s -> inv st s) ->
  quiet_shape_b st D p tq j dead wq = true ->
  nrun_ok st D (p_ids p) dead wq tr = true ->
  tq + B_path st D (p_len p) < T ->
  forall n s x, aget n (nodes (nrun st wq tr)) = Some s -> on_time st s T = true ->
    In x (p_ids p) -> holds_id s x = false.
Proof.
  intros st Hst D p tq j dead wq tr T HD Wi Hq Hrun HT n s x Hg Hon Hx.
  destruct (quiet_shape_params _ _ _ _ _ _ _ Hq) as [Hp Hj].
  destruct (nrun_good st D p tq j dead Hst HD Hp Hj tr wq (quiet_shape_sound st D p tq j dead HD Hp Hj wq Hq) Wi Hrun)
    as [W' Wi'].
  apply (reclaimed_node st D p tq j dead Hst HD Hp Hj _ T n s x W' Wi' Hg Hon HT). apply inI_in. exact Hx.
Qed.
Print Assumptions path_bounded_reclaim_from_partial.

(* from the initial network: earlier histories need only be timely *)
Theorem path_bounded_reclaim_partial : forall st, settings_ok st -> forall D p tq j dead names t0 tr1 tr2 T,
  0 <= D -> nodup_b names = true ->
  nrun_timely st (init_net names t0) tr1 = true ->
  let wq := nrun st (init_net names t0) tr1 in
  quiet_shape_b st D p tq j dead wq = true ->
  nrun_ok st D (p_ids p) dead wq tr2 = true ->
  let wT := nrun st wq tr2 in
  all_on_time st wT T = true ->
  tq + B_path st D (p_len p) < T ->
  net_holds wT (p_ids p) = false.
Proof.
  intros st Hst D p tq j dead names t0 tr1 tr2 T HD Hnd Ht1 wq Hq Hrun wT Hall HT.
  apply (from_init st Hst names t0 tr1 tr2 T (p_ids p) Hnd Ht1 Hall). intro Wi.
  exact (path_bounded_reclaim_from_partial st Hst D p tq j dead wq tr2 T HD Wi Hq Hrun HT).
Qed.
Print Assumptions path_bounded_reclaim_partial.

(* the cross-node invariant behind it (who can refresh whose activity stamp, and the measure): every step
   that meets the assumptions preserves "entries at their positions with stamps <= tq + 2 * hops * D; a live
   originator entry last active by tq - B_entry; cells for the path on its links, downward ones sent by
   tq + (k-1) * D, upward ones by tq + (2 * hops - k) * D, and those above the break early enough to reach the
   originator by tq - B_entry" *)
Theorem quiet_invariant_preserved : forall st D p tq j dead,
  settings_ok st -> 0 <= D -> path_ok_b p = true -> (j <= p_len p)%nat -> forall w tl,
  wgood st D p tq j dead w -> winv st w -> step_ok st D (p_ids p) dead w tl = true ->
  wgood st D p tq j dead (nstep st w tl).
Proof. exact (fun st D p tq j dead Hst HD Hp Hj => nstep_good st D p tq j dead Hst HD Hp Hj). Qed.
Print Assumptions quiet_invariant_preserved.

Theorem quiet_shape_gives_invariant : forall st D p tq j dead,
  0 <= D -> path_ok_b p = true -> (j <= p_len p)%nat -> forall w,
  quiet_shape_b st D p tq j dead w = true -> wgood st D p tq j dead w.
Proof. exact quiet_shape_sound. Qed.
Print Assumptions quiet_shape_gives_invariant.

(* node level, for an arbitrary id set I: an event that is not a cell for I, at a node whose bookkeeping is
   closed with respect to I, creates no entry for I, advances no activity stamp of I except by a deferred
   create_transports, and sends no cell for I; a cell for I stamps only its own key and the partner route of
   the relay entry it travels along, and makes the node send at most the relayed cell or the pong *)
Theorem event_frame : forall st I s e,
  closedI I s -> ev_ok I s e ->
  frame st I (ev_touch s e) s (fst (step_at st s e)) /\ ev_outs I s e (snd (step_at st s e)).
Proof. exact step_at_frame. Qed.
Print Assumptions event_frame.

(* A 2-hop circuit (originator 0, relay 1, exit 2; link ids 11 and 12) is built by the real handshake,
   pinged, and torn down silently by the originator at t = 3 while a ping and a duplicate of it are still
   travelling; the duplicate is delivered later, both pings are answered by the exit, the pongs travel
   back and keep the relay's routes alive until t = 8; sweeps every 5 s.  The hypotheses of the theorem
   hold with D = 2, the relay still holds its routes at t = 25, and everything is gone at T = 42 >
   3 + B_path = 41. *)
Definition ex_st := default_settings 1.
Definition ex_path := mkPath 0 [(1, 11); (2, 12)].
Definition ex_dl (t : Z) (i : nat) (keep plain : bool) (len : Z) (m : cellmsg) (ls : list Z) :=
  (t, NDeliver i keep plain len (COk m) ls).
Definition ex_run0 := ERun 0 false 0 0 0 np.
Definition ex_sweeps (t : Z) := [(t, NLocal 0 ESweep); (t, NLocal 1 ESweep); (t, NLocal 2 ESweep)].

Definition ex_tr1 : list (Z * nlabel) :=
  [ (1, NLocal 0 (ECreateCircuit 11 2 (sp 1 true 101) [100]));
    ex_dl 1 0 false true 100 (MCreate 101) [];
    (1, NLocal 1 (ex_run0 [100]));
    ex_dl 1 0 false true 100 (MCreated 101 VOk (sp 2 false 102)) [120];
    ex_dl 1 0 false false 120 (MExtend 102) [];
    (1, NLocal 1 (ERun 0 true 2 12 55 np [100]));
    ex_dl 1 0 false true 100 (MCreate 55) [];
    (1, NLocal 2 (ex_run0 [100]));
    ex_dl 1 0 false true 100 (MCreated 55 VOk np) [110];
    (1, NLocal 1 (ex_run0 []));
    ex_dl 1 0 false false 110 (MExtended 102 VOk np) [];
    (2, NLocal 0 (EPing [50]));
    ex_dl 2 0 true false 50 (MOther 0) [50];
    (3, NLocal 0 (ECallRemove KCirc 11 0 false));
    (3, NLocal 0 (ex_run0 [])) ].

Definition ex_tr2 : list (Z * nlabel) :=
  [ ex_dl 4 0 false false 50 (MOther 0) [50];
    ex_dl 4 0 false false 50 MPing [40];
    (5, NLocal 0 ESweep); (5, NLocal 1 ESweep); (5, NLocal 2 ESweep);
    ex_dl 5 1 false false 40 (MOther 0) [40];
    ex_dl 6 0 false false 50 MPing [40];
    (6, NLocal 1 (EWake 0));
    ex_dl 6 0 false false 40 MPong [];
    (8, NLocal 0 (EWake 0));
    ex_dl 8 0 false false 40 (MOther 0) [40];
    (10, NLocal 0 ESweep); (10, NLocal 1 ESweep); (10, NLocal 2 ESweep);
    ex_dl 10 0 false false 40 MPong [] ]
  ++ ex_sweeps 15 ++ ex_sweeps 20 ++ ex_sweeps 25
  ++ [ (25, NLocal 1 (ex_run0 [])) ]
  ++ [ (30, NLocal 1 (EWake 0)) ] ++ ex_sweeps 30
  ++ [ (30, NLocal 1 (ex_run0 [])); (30, NLocal 2 (ex_run0 [])) ]
  ++ [ (35, NLocal 1 (EWake 0)); (35, NLocal 2 (EWake 0)) ] ++ ex_sweeps 35
  ++ ex_sweeps 40.

Notation ex_wq := (nrun ex_st (init_net [0; 1; 2] 0) ex_tr1).

Example c09_path_hypotheses_hold :
  nodup_b [0; 1; 2] = true
  /\ nrun_timely ex_st (init_net [0; 1; 2] 0) ex_tr1 = true
  /\ quiet_shape_b ex_st 2 ex_path 3 0 [] ex_wq = true
  /\ nrun_ok ex_st 2 (p_ids ex_path) [] ex_wq ex_tr2 = true
  /\ all_on_time ex_st (nrun ex_st ex_wq ex_tr2) 42 = true
  /\ 3 + B_path ex_st 2 (p_len ex_path) = 41.
Proof. vm_compute. repeat split; reflexivity. Qed.

(* at the quiet point all three nodes hold entries and two cells are in flight; at t = 25 the relay and the
   exit still hold theirs, the last stamp being 8 > tq: the traffic that was under way did matter *)
Example c09_path_entries_were_there :
  net_holds ex_wq (p_ids ex_path) = true
  /\ length (flight ex_wq) = 2%nat
  /\ net_holds (nrun ex_st ex_wq (firstn 24 ex_tr2)) (p_ids ex_path) = true
  /\ (exists s r, aget 1 (nodes (nrun ex_st ex_wq (firstn 24 ex_tr2))) = Some s
                  /\ aget 11 (relays s) = Some r /\ la (r_ro r) = 8).
Proof.
  split; [vm_compute; reflexivity|]. split; [vm_compute; reflexivity|]. split; [vm_compute; reflexivity|].
  eexists. eexists. vm_compute. repeat split; reflexivity.
Qed.

(* the theorem applied to it *)
Example c09_path_reclaimed :
  net_holds (nrun ex_st ex_wq ex_tr2) (p_ids ex_path) = false.
Proof.
  destruct c09_path_hypotheses_hold as (H1 & H2 & H3 & H4 & H5 & H6).
  assert (Hst : settings_ok ex_st) by (vm_compute; repeat split; discriminate).
  assert (HD : 0 <= 2) by discriminate.
  assert (HT : 3 + B_path ex_st 2 (p_len ex_path) < 42) by (rewrite H6; reflexivity).
  exact (path_bounded_reclaim_partial ex_st Hst 2 ex_path 3 0%nat [] [0; 1; 2] 0 ex_tr1 ex_tr2 42 HD H1 H2 H3 H4 H5 HT).
Qed.

(* The same circuit, but now the EXIT drops its socket silently at t = 2 (gone at t = 7) while the originator
   stays alive and goes on pinging (t = 9, 16, 23): the pings are relayed and die at the exit; the originator's
   stamp stays at 4 (the last pong), its sweep closes the circuit at t = 25; the relay's downward route, kept
   alive by the pings until 23, goes at t = 50.  Break position j = 2, L = 4, tq = L + B_entry = 34. *)
Definition ex_ping (t : Z) :=
  [(t, NLocal 0 (EPing [50])); ex_dl t 0 false false 50 (MOther 0) [50]; ex_dl (t + 1) 0 false false 50 MPing []].
Definition ex_tr1b : list (Z * nlabel) :=
  firstn 11 ex_tr1 ++
  [ (2, NLocal 0 (EPing [50]));
    (2, NLocal 2 (ECallRemove KExit 12 0 false)); (2, NLocal 2 (ex_run0 []));
    ex_dl 2 0 false false 50 (MOther 0) [50];
    ex_dl 3 0 false false 50 MPing [40];
    ex_dl 3 0 false false 40 (MOther 0) [40];
    ex_dl 4 0 false false 40 MPong [] ]
  ++ ex_sweeps 5 ++ [ (6, NLocal 1 (EWake 0)); (7, NLocal 2 (EWake 0)) ].
Definition ex_tr2b : list (Z * nlabel) :=
  ex_ping 9 ++ ex_sweeps 10 ++ ex_sweeps 15 ++ ex_ping 16 ++ ex_sweeps 20 ++ ex_ping 23 ++ ex_sweeps 25
  ++ [ (25, NLocal 0 (ex_run0 [])); (25, NLocal 1 (ex_run0 [])) ]
  ++ [ (30, NLocal 0 (EWake 0)); (30, NLocal 1 (EWake 0)) ] ++ ex_sweeps 30 ++ ex_sweeps 35 ++ ex_sweeps 40
  ++ ex_sweeps 45 ++ [ (45, NLocal 1 (ex_run0 [])) ] ++ [ (50, NLocal 1 (EWake 0)) ] ++ ex_sweeps 50
  ++ ex_sweeps 55 ++ ex_sweeps 60 ++ ex_sweeps 65 ++ ex_sweeps 70.
Notation ex_wqb := (nrun ex_st (init_net [0; 1; 2] 0) ex_tr1b).

Example c09_path_broken_hypotheses_hold :
  nrun_timely ex_st (init_net [0; 1; 2] 0) ex_tr1b = true
  /\ quiet_shape_b ex_st 2 ex_path 34 2 [] ex_wqb = true
  /\ nrun_ok ex_st 2 (p_ids ex_path) [] ex_wqb ex_tr2b = true
  /\ all_on_time ex_st (nrun ex_st ex_wqb ex_tr2b) 73 = true
  /\ 34 + B_path ex_st 2 (p_len ex_path) = 72
  (* the originator is alive at the quiet point, and the relay still holds a route at t = 45 *)
  /\ (exists s c, aget 0 (nodes ex_wqb) = Some s /\ aget 11 (circuits s) = Some c /\ c_closing c = false)
  /\ net_holds (nrun ex_st ex_wqb (firstn 37 ex_tr2b)) (p_ids ex_path) = true.
Proof.
  split; [vm_compute; reflexivity|]. split; [vm_compute; reflexivity|]. split; [vm_compute; reflexivity|].
  split; [vm_compute; reflexivity|]. split; [vm_compute; reflexivity|]. split; [|vm_compute; reflexivity].
  eexists. eexists. vm_compute. repeat split; reflexivity.
Qed.

Example c09_path_broken_reclaimed :
  net_holds (nrun ex_st ex_wqb ex_tr2b) (p_ids ex_path) = false.
Proof.
  destruct c09_path_broken_hypotheses_hold as (H2 & H3 & H4 & H5 & H6 & _).
  assert (Hst : settings_ok ex_st) by (vm_compute; repeat split; discriminate).
  assert (HD : 0 <= 2) by discriminate.
  assert (H1 : nodup_b [0; 1; 2] = true) by reflexivity.
  assert (HT : 34 + B_path ex_st 2 (p_len ex_path) < 73) by (rewrite H6; reflexivity).
  exact (path_bounded_reclaim_partial ex_st Hst 2 ex_path 34 2%nat [] [0; 1; 2] 0 ex_tr1b ex_tr2b 73 HD H1 H2 H3 H4 H5 HT).
Qed.

(* The same circuit again; nobody tears anything down, but from t = 2 on the link between the relay and the
   exit (id 12) is dead: every cell on it is lost.  All three nodes keep their entries; the originator pings
   at 2, 9, 16, 23, the relay forwards the pings onto the dead link; no pong comes back, the originator's stamp
   stays at 1, its sweep closes the circuit at 25; the exit, which hears nothing, goes at 30, the relay's
   downward route at 50.  Break position j = 2 with dead = [12]; without the dead link the shape does not hold
   (the exit still holds its socket). *)
Definition ex_pingc (t : Z) :=
  [(t, NLocal 0 (EPing [50])); ex_dl t 0 false false 50 (MOther 0) [50]; (t, NDrop 0)].
Definition ex_tr1c : list (Z * nlabel) :=
  firstn 11 ex_tr1 ++ ex_pingc 2 ++ ex_sweeps 5 ++ [ (6, NLocal 1 (EWake 0)) ].
Definition ex_tr2c : list (Z * nlabel) :=
  ex_pingc 9 ++ ex_sweeps 10 ++ ex_sweeps 15 ++ ex_pingc 16 ++ ex_sweeps 20 ++ ex_pingc 23 ++ ex_sweeps 25
  ++ [ (25, NLocal 0 (ex_run0 [])); (25, NLocal 1 (ex_run0 [])); (25, NLocal 2 (ex_run0 [])) ]
  ++ [ (30, NLocal 0 (EWake 0)); (30, NLocal 1 (EWake 0)); (30, NLocal 2 (EWake 0)) ]
  ++ ex_sweeps 30 ++ ex_sweeps 35 ++ ex_sweeps 40
  ++ ex_sweeps 45 ++ [ (45, NLocal 1 (ex_run0 [])) ] ++ [ (50, NLocal 1 (EWake 0)) ] ++ ex_sweeps 50
  ++ ex_sweeps 55 ++ ex_sweeps 60 ++ ex_sweeps 65 ++ ex_sweeps 70.
Notation ex_wqc := (nrun ex_st (init_net [0; 1; 2] 0) ex_tr1c).

Example c09_path_cut_hypotheses_hold :
  nrun_timely ex_st (init_net [0; 1; 2] 0) ex_tr1c = true
  /\ quiet_shape_b ex_st 2 ex_path 34 2 [12] ex_wqc = true
  /\ nrun_ok ex_st 2 (p_ids ex_path) [12] ex_wqc ex_tr2c = true
  /\ all_on_time ex_st (nrun ex_st ex_wqc ex_tr2c) 73 = true
  /\ quiet_shape_b ex_st 2 ex_path 34 2 [] ex_wqc = false
  /\ net_holds (nrun ex_st ex_wqc (firstn 38 ex_tr2c)) (p_ids ex_path) = true.
Proof. vm_compute. repeat split; reflexivity. Qed.

Example c09_path_cut_reclaimed :
  net_holds (nrun ex_st ex_wqc ex_tr2c) (p_ids ex_path) = false.
Proof.
  destruct c09_path_cut_hypotheses_hold as (H2 & H3 & H4 & H5 & _).
  assert (Hst : settings_ok ex_st) by (vm_compute; repeat split; discriminate).
  assert (HD : 0 <= 2) by discriminate.
  assert (H1 : nodup_b [0; 1; 2] = true) by reflexivity.
  assert (HT : 34 + B_path ex_st 2 (p_len ex_path) < 73) by (vm_compute; reflexivity).
  exact (path_bounded_reclaim_partial ex_st Hst 2 ex_path 34 2%nat [12] [0; 1; 2] 0 ex_tr1c ex_tr2c 73 HD H1 H2 H3 H4 H5 HT).
Qed.

(* the shipped settings with one second of message life-time: 3 hops are reclaimed within 36 s *)
Example c09_path_bound_defaults :
  B_path (default_settings 1) 1 1 = 32 /\ B_path (default_settings 1) 1 2 = 34 /\ B_path (default_settings 1) 1 3 = 36.
Proof. vm_compute. repeat split; reflexivity. Qed.

(* A circuit whose construction is under way or has been abandoned at any stage.  While it is built the ids
   that belong to it are not a path but a tree that grows: the originator retries its first create under the
   same id with other candidates, a node asked to extend allocates a fresh id for every attempt, every node
   that accepts a create holds an exit socket.  `F : family` records that tree as a ghost - per id its level,
   the node at its upper end, the id it was extended from, the candidates at its lower end; it is computed
   from the history (ids that are never allocated simply stay unused) and the theorem holds for every F that
   passes the checks.  O is the originator, x0 its circuit id, h the number of hops it is to have.

   Hypotheses (executable, evaluated on observed histories by tools/checks/c09_path.py):
   * `build_shape_b st F O x0 h tq w`: at the start whatever is held or in flight under an id of F is what the
     tree allows (in particular: nothing at all, before the circuit exists; or the leftovers of the handshake
     at the moment the originator gives up); the originator's entry, if there is one, is closing, or not yet
     ready and created early enough that the retry budget of the code (next_hop_timeout *
     (circuit_timeout / next_hop_timeout + hops - 1)) plus remove_tunnel_delay runs out by tq.
   * `brun_ok st D F O x0 tq w tr`: every step is timely, datagrams live at most D, decryption is typed; a created
     answers the create it was sent for; the circuit is created by O only, by tq - build_bound - delay, with its
     first hops among the candidates of x0 in F; an id of F is allocated only where F says, by the body of
     on_extend while the exit socket it extends is still there; no application data, outside datagram or cell
     from outside the modelled nodes for ids of F; and the circuit does not become ready (`unready_b`: a circuit
     that does is the business of the theorem above).
   Everything else is free: which handshake message is lost, duplicated, delayed or overtaken, how often the
   originator's RetryRequestCache times out and which candidates it then picks (within F), whether and when
   the originator tears the circuit down, with or without a destroy, or is cut off from the network.

   Conclusion: at any T > tq + 2 * h * D + (max_time_inactive + sweep + remove_tunnel_delay) at which the nodes
   have been served, no node holds a circuit, relay or exit entry under ANY id of F.  Counted from the creation of
   the circuit at tc (tq = tc + build_bound + remove_tunnel_delay): T > tc + B_build st D goal h. *)
Theorem B_build_formula : forall st D goal hops,
  B_build st D goal hops
  = s_next_hop_timeout st * (s_circuit_timeout st / s_next_hop_timeout st + goal - 1) + s_remove_delay st
    + (2 * Z.of_nat hops * D + (s_max_inactive st + s_sweep st + s_remove_delay st)).
Proof. exact (fun st D goal hops => eq_refl). Qed.
Print Assumptions B_build_formula.

Theorem path_bounded_reclaim_building_from_partial : forall st, settings_ok st ->
  forall D F O x0 h tq wq tr T,
  0 <= D ->
  (forall n s, aget n (nodes wq) = Some s -> inv st s) ->
  build_shape_b st F O x0 h tq wq = true ->
  brun_ok st D F O x0 tq wq tr = true ->
  tq + B_path st D h < T ->
  forall n s x, aget n (nodes (nrun st wq tr)) = Some s -> on_time st s T = true ->
    In x (map fst F) -> holds_id s x = false.
Proof.
  intros st Hst D F O x0 h tq wq tr T HD Wi Hq Hrun HT n s x Hg Hon Hx.
  assert (Hwf : fam_ok_b F O x0 h = true).
  { unfold build_shape_b in Hq. apply andb_true_iff in Hq. destruct Hq as [Hq' _].
    apply andb_true_iff in Hq'. destruct Hq' as [Hq' _]. exact Hq'. }
  destruct (brun_good st D F O x0 h tq Hst HD Hwf tr wq (build_shape_sound st D F O x0 h tq HD Hwf wq Hq) Wi Hrun)
    as [W' Wi'].
  apply (breclaimed_node st D F O x0 h tq Hst HD Hwf _ T n s x W' Wi' Hg Hon HT).
  apply in_map_iff in Hx. destruct Hx as ([y i] & E & Hin). simpl in E. subst y.
  apply IF_some. exact (in_aget _ _ _ Hin).
Qed.
Print Assumptions path_bounded_reclaim_building_from_partial.

Theorem path_bounded_reclaim_building_partial : forall st, settings_ok st ->
  forall D F O x0 h tq names t0 tr1 tr2 T,
  0 <= D -> nodup_b names = true ->
  nrun_timely st (init_net names t0) tr1 = true ->
  let wq := nrun st (init_net names t0) tr1 in
  build_shape_b st F O x0 h tq wq = true ->
  brun_ok st D F O x0 tq wq tr2 = true ->
  let wT := nrun st wq tr2 in
  all_on_time st wT T = true ->
  tq + B_path st D h < T ->
  net_holds wT (map fst F) = false.
Proof.
  intros st Hst D F O x0 h tq names t0 tr1 tr2 T HD Hnd Ht1 wq Hq Hrun wT Hall HT.
  apply (from_init st Hst names t0 tr1 tr2 T (map fst F) Hnd Ht1 Hall). intro Wi.
  exact (path_bounded_reclaim_building_from_partial st Hst D F O x0 h tq wq tr2 T HD Wi Hq Hrun HT).
Qed.
Print Assumptions path_bounded_reclaim_building_partial.

(* the bound counted from the creation of the circuit *)
Theorem building_bound_from_creation : forall st D goal h tc T,
  tc + B_build st D goal h < T <-> (tc + build_bound st goal + s_remove_delay st) + B_path st D h < T.
Proof. intros. unfold B_build. split; intro H; rewrite <- !Z.add_assoc in *; exact H. Qed.
Print Assumptions building_bound_from_creation.

(* the retry budget: while an own circuit is neither closing nor ready, every properly timed event of its node
   happens within build_bound + remove_tunnel_delay of its creation - so that is when the originator stops *)
Theorem building_stops_in_time : forall st, settings_ok st -> forall s t x c,
  inv st s -> on_time st s t = true -> aget x (circuits s) = Some c -> c_closing c = false ->
  c_hops c < c_goal c -> t <= creation (c_ro c) + build_bound st (c_goal c) + s_remove_delay st.
Proof. exact building_time. Qed.
Print Assumptions building_stops_in_time.

(* the cross-node invariant over the growing tree is preserved by every step that meets the assumptions *)
Theorem building_invariant_preserved : forall st D F O x0 h tq,
  settings_ok st -> 0 <= D -> fam_ok_b F O x0 h = true -> forall w tl,
  wgoodF st D F O x0 h tq w -> winv st w -> bstep_ok st D F O x0 tq w tl = true ->
  wgoodF st D F O x0 h tq (nstep st w tl).
Proof. exact bnstep_good. Qed.
Print Assumptions building_invariant_preserved.

(* circuit_timeout 30 s, next_hop_timeout 10 s: three tries.  The originator 0 creates circuit 11 (2 hops) at
   t = 1 through candidate 1, which joins; the extend reaches 1, which allocates id 12 and asks node 2, which joins -
   but the created is lost.  At t = 11 the RetryRequestCache times out: the originator extends again, 1 allocates
   id 13 and asks node 3, which joins; that created is lost too, and a duplicate of the extend that arrives at
   t = 13 is refused.  At t = 21 the budget is spent: the originator removes its circuit (gone at 26); the three
   exit sockets - at 1 for id 11, at 2 for id 12, at 3 for id 13 - go by inactivity at 30, 30 and 40.  The family
   has three ids; before the run none of them is in use (the shape check passes on the initial network).
   tq = 1 + build_bound + remove_tunnel_delay = 46; with D = 2: T = 86 > 1 + B_build = 84. *)
Definition bex_st := mkSettings 100 3600 20 1000000 30 60 10 5 8 5 10 true true.
Definition bex_fam : family :=
  [(11, mkF 1 0 None [1]); (12, mkF 2 1 (Some 11) [2]); (13, mkF 2 1 (Some 11) [3])].
Definition bex_sweeps (t : Z) :=
  [(t, NLocal 0 ESweep); (t, NLocal 1 ESweep); (t, NLocal 2 ESweep); (t, NLocal 3 ESweep)].
Definition bex_tr : list (Z * nlabel) :=
  [ (1, NLocal 0 (ECreateCircuit 11 2 (sp 1 true 101) [100]));
    ex_dl 1 0 false true 100 (MCreate 101) [];
    (1, NLocal 1 (ex_run0 [100]));
    ex_dl 1 0 false true 100 (MCreated 101 VOk (sp 2 true 102)) [120];
    ex_dl 1 0 false false 120 (MExtend 102) [];
    (1, NLocal 1 (ERun 0 true 2 12 55 np [100]));
    ex_dl 1 0 false true 100 (MCreate 55) [];
    (1, NLocal 2 (ex_run0 [100]));
    (1, NDrop 0) ]
  ++ bex_sweeps 5 ++ bex_sweeps 10 ++
  [ (11, NLocal 0 (ERetryTimeout 11));
    (11, NLocal 0 (ERun 0 false 0 0 0 (sp 3 false 103) [120]));
    (11, NLocal 1 (ECreateTimeout 55));
    ex_dl 11 0 true false 120 (MExtend 103) [];
    (11, NLocal 1 (ERun 0 true 3 13 56 np [100]));
    ex_dl 12 1 false true 100 (MCreate 56) [];
    (12, NLocal 3 (ex_run0 [100]));
    (12, NDrop 1);
    ex_dl 13 0 false false 120 (MExtend 103) [];
    (13, NLocal 1 (ERun 0 false 0 0 0 np [])) ]
  ++ bex_sweeps 15 ++ bex_sweeps 20 ++
  [ (21, NLocal 0 (ERetryTimeout 11)); (21, NLocal 0 (ex_run0 [])); (21, NLocal 1 (ECreateTimeout 56)) ]
  ++ bex_sweeps 25 ++ [ (25, NLocal 1 (ex_run0 [])); (25, NLocal 2 (ex_run0 [])); (26, NLocal 0 (EWake 0)) ]
  ++ [ (30, NLocal 1 (EWake 0)); (30, NLocal 2 (EWake 0)) ] ++ bex_sweeps 30
  ++ bex_sweeps 35 ++ [ (35, NLocal 3 (ex_run0 [])) ] ++ [ (40, NLocal 3 (EWake 0)) ] ++ bex_sweeps 40
  ++ bex_sweeps 45 ++ bex_sweeps 50 ++ bex_sweeps 55 ++ bex_sweeps 60 ++ bex_sweeps 65 ++ bex_sweeps 70
  ++ bex_sweeps 75 ++ bex_sweeps 80 ++ bex_sweeps 85.
Notation bex_w0 := (nrun bex_st (init_net [0; 1; 2; 3] 0) []).

Example c09_building_hypotheses_hold :
  build_shape_b bex_st bex_fam 0 11 2 46 bex_w0 = true
  /\ brun_ok bex_st 2 bex_fam 0 11 46 bex_w0 bex_tr = true
  /\ all_on_time bex_st (nrun bex_st bex_w0 bex_tr) 86 = true
  /\ 46 + B_path bex_st 2 2 = 84 /\ 1 + B_build bex_st 2 2 2 = 84
  (* at t = 20 four nodes hold entries under the three ids of the family, two of which did not exist at t = 10 *)
  /\ net_holds (nrun bex_st bex_w0 (firstn 35 bex_tr)) [11] = true
  /\ net_holds (nrun bex_st bex_w0 (firstn 35 bex_tr)) [12] = true
  /\ net_holds (nrun bex_st bex_w0 (firstn 35 bex_tr)) [13] = true
  /\ net_holds (nrun bex_st bex_w0 (firstn 17 bex_tr)) [13] = false.
Proof. vm_compute. repeat split; reflexivity. Qed.

Example c09_building_reclaimed :
  net_holds (nrun bex_st bex_w0 bex_tr) (map fst bex_fam) = false.
Proof.
  destruct c09_building_hypotheses_hold as (H3 & H4 & H5 & H6 & _).
  assert (Hst : settings_ok bex_st) by (vm_compute; repeat split; discriminate).
  assert (HD : 0 <= 2) by discriminate.
  assert (H1 : nodup_b [0; 1; 2; 3] = true) by reflexivity.
  assert (H2 : nrun_timely bex_st (init_net [0; 1; 2; 3] 0) [] = true) by reflexivity.
  assert (HT : 46 + B_path bex_st 2 2 < 86) by (rewrite H6; reflexivity).
  exact (path_bounded_reclaim_building_partial bex_st Hst 2 bex_fam 0 11 2%nat 46 [0; 1; 2; 3] 0 [] bex_tr 86
           HD H1 H2 H3 H4 H5 HT).
Qed.

(* the shipped settings: a 3-hop circuit that never completes is reclaimed everywhere within 80 + 5 + 36 s of its
   creation when datagrams live at most a second *)
Example c09_building_bound_defaults :
  build_bound (default_settings 1) 3 = 80 /\ B_build (default_settings 1) 1 3 3 = 121
  /\ B_build (default_settings 1) 1 1 1 = 97.
Proof. vm_compute. repeat split; reflexivity. Qed.

(* What is missing with respect to the property text (hence `_partial`), for the two theorems together:
   1. The junction of the two situations in full generality.  Circuits that never become ready are covered from
      their creation (`path_bounded_reclaim_building_partial`, whatever is lost, duplicated or retried).  Circuits
      that did become ready are covered once torn down at the originator - also with handshake leftovers, since
      `build_shape_b` accepts a closing ready circuit - and, by the first theorem, when the path breaks at a node
      or link while the originator stays alive, but the latter only without handshake leftovers for the ids of the
      path (`quiet_shape_b` with j > 0 asks for none).
   2. A node that crashes in the sense of no longer being served while it stays in the node map (its own
      entries then stay: the conclusion is about nodes whose event loop runs).  Cut links and isolated nodes
      are covered (`dead`, and for circuits under construction simply as lost messages).
   3. Paths that visit the same node twice (first theorem; the building theorem only asks that no node extends a
      circuit to itself) and id collisions (2^-32 per pair in the code: here the family F is given, an id of F is
      allocated only where F says).
   4. D: the bounds are in terms of the settings and of the largest life-time D of a datagram in the network,
      which no setting of py-ipv8 bounds.
   5. First theorem, j > 0: right after the handshake a relay still holds the exit socket it had before it became
      a relay (until remove_tunnel_delay has passed); the shape asks that no node above the break holds one.
   6. Building theorem: that the body of on_extend runs while the exit socket it extends is still there, and that a
      created carries the identifier of the create it answers, are assumptions on the trace (checked on every
      observed history), not derived from the model, in which identifiers are oracle values. *)
