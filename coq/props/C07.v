(* C07 - anonymized overlays never send from the node's own address.
   s0 is an arbitrary state of the node (any settings, any circuits, any queue); ops an arbitrary
   interleaving of sends, anonymity switches, overlay launches, attach/detach of the tunnel
   community and circuit life-cycle events. *)
From Coq Require Import ZArith List Bool.
From IPV8V Require Import lib.PyErr lib.Bytes gen.G07_consts model.M07_tunnel_ep spec.S07_anon_spec
  proofs.P07_tunnel_ep.
Import ListNotations.
Open Scope Z_scope.

(* Whatever the history, the wrapped (raw) endpoint's send is only ever called with the packet of
   the send operation being processed, and only if that packet's prefix is not switched on at that
   moment.  Hence a packet sent while its prefix is switched on is not handed to the raw socket,
   neither then nor at any later step (queued packets never surface as Raw). *)
Theorem anon_never_raw : forall s0 ops,
  Forall (fun e => forall a p, In (Raw a p) (ev_outs e) ->
                   anon_on (ev_pre e) p = false /\ exists nh, ev_op e = Send a p nh) (trace s0 ops).
Proof. intros s0 ops. apply trace_forall. intros s o a p. apply step_raw. Qed.
Print Assumptions anon_never_raw.

(* An overlay that asked for anonymity when it was launched (Community.__init__ with
   settings.anonymize) never has a packet with its prefix handed to the raw socket, in any later
   history that does not explicitly switch that prefix off again. *)
Theorem asked_never_raw : forall s pfx ops,
  Forall (keeps_on pfx) ops ->
  Forall (fun e => forall a p, In (Raw a p) (ev_outs e) -> pfx_of p <> pfx)
         (trace (fst (step s (Launch pfx true))) ops).
Proof. intros s pfx ops. apply switched_on_never_raw, launch_switches_on. Qed.
Print Assumptions asked_never_raw.

(* The same in terms of packets: the switch is keyed by the first 22 bytes, which is the overlay's
   prefix (0x00, version, 20-byte community id); so no datagram that starts with the prefix of an
   overlay that asked for anonymity is ever handed to the raw socket. *)
Theorem asked_overlay_packets_never_raw : forall s pfx ops,
  length pfx = 22%nat -> Forall (keeps_on pfx) ops ->
  Forall (fun e => forall a body, ~ In (Raw a (pfx ++ body)) (ev_outs e))
         (trace (fst (step s (Launch pfx true))) ops).
Proof.
  intros s pfx ops Hlen Hk. eapply Forall_impl; [|exact (asked_never_raw s pfx ops Hk)].
  intros e He a body Hin. apply (He a _ Hin), overlay_prefix_is_key, Hlen.
Qed.
Print Assumptions asked_overlay_packets_never_raw.

(* Every send of a packet whose prefix is switched on has exactly one of the three permitted fates:
   carried now (followed by the whole waiting queue, in order) over a usable circuit; appended to
   the queue with no raw and no tunnel send; or dropped because no tunnel community is attached. *)
Theorem anon_send_fate : forall s0 ops,
  Forall (fun e => forall a p nh, ev_op e = Send a p nh -> anon_on (ev_pre e) p = true ->
                   fate (ev_pre e) a p (ev_outs e) (ev_post e)) (trace s0 ops).
Proof.
  intros s0 ops. apply trace_forall. intros s o a p nh Ho. cbn [ev_op] in Ho. subst o. apply send_anon_fate.
Qed.
Print Assumptions anon_send_fate.

(* Every tunnel send names a circuit of the attached community that is not closing, is a DATA
   circuit, was built for the configured number of hops and has them all, ends in a hop flagged
   EXIT_IPV8, is entered at its first hop, and carries origin 0.0.0.0:0. *)
Theorem tunnel_send_wellformed : forall s0 ops,
  Forall (fun e => Forall (tunnel_ok (ev_pre e)) (ev_outs e)) (trace s0 ops).
Proof. intros s0 ops. apply trace_forall. intros s o. apply step_tunnel_ok. Qed.
Print Assumptions tunnel_send_wellformed.

(* The waiting queue never exceeds its bound, at any point of any history. *)
Theorem queue_bounded : forall ops,
  Z.of_nat (length (queue (final init ops))) <= SEND_QUEUE_MAXLEN
  /\ Forall (fun e => Z.of_nat (length (queue (ev_pre e))) <= SEND_QUEUE_MAXLEN) (trace init ops).
Proof. exact queue_bounded_always. Qed.
Print Assumptions queue_bounded.

(* A waiting packet leaves the queue only as tunnel data (origin 0.0.0.0:0) or by overflow. *)
Theorem queue_exit_only_tunnel_or_overflow : forall s o e, In e (queue s) ->
  In e (queue (fst (step s o)))
  \/ (exists t cid, In (Tunnel t cid (fst e) NULL_ADDR (snd e)) (snd (step s o)))
  \/ In (Evicted (fst e) (snd e)) (snd (step s o)).
Proof.
  intros s o e Hin. pattern o, (step s o); apply step_elim.
  - intros a p nh. pose proof (enqueue_keeps (queue s) (a, p) e Hin) as Hk.
    apply send_elim; intros; cbn [fst snd queue set_queue].
    + left. exact Hin.
    + left. exact Hin.
    + right. left. exists (first_hop_addr c), (c_id c). right. apply (in_map (tunnel_out c)). exact Hin.
    + destruct Hk as [Hk|Hk]; [left; exact Hk|right; right; exact Hk].
    + destruct Hk as [Hk|Hk]; [left; exact Hk|right; right; right; exact Hk].
  - intros o' s' _ Hq. left. cbn [fst]. rewrite Hq. exact Hin.
Qed.
Print Assumptions queue_exit_only_tunnel_or_overflow.

(* Queued packets keep the classification they got when they were submitted: everything in the queue was put
   there by a send whose prefix was switched on at that moment. *)
Theorem queue_entries_were_anonymized : forall s o e, In e (queue (fst (step s o))) ->
  In e (queue s) \/ (exists nh, o = Send (fst e) (snd e) nh /\ anon_on s (snd e) = true).
Proof. exact step_queue_origin. Qed.
Print Assumptions queue_entries_were_anonymized.

(* A send whose own prefix is on - the step that may flush the queue - hands nothing to the raw socket, whatever
   the switches of the waiting packets' prefixes say by then (no re-classification at flush time). *)
Theorem flush_never_raw : forall s a p nh,
  anon_on s p = true -> forall b q, ~ In (Raw b q) (snd (step s (Send a p nh))).
Proof. exact anon_send_no_raw. Qed.
Print Assumptions flush_never_raw.

(* Bytes equal to a waiting packet reach the raw socket only through a new, separate plain submission of the
   same bytes, which leaves the state - and the waiting packet - untouched. *)
Theorem queued_never_raw : forall s o e,
  In e (queue s) -> In (Raw (fst e) (snd e)) (snd (step s o)) ->
  (exists nh, o = Send (fst e) (snd e) nh) /\ anon_on s (snd e) = false /\ fst (step s o) = s.
Proof. intros s o e _. apply raw_is_plain_send. Qed.
Print Assumptions queued_never_raw.

(* Overflow evicts only the oldest entry and only when the queue is full. *)
Theorem eviction_only_when_full : forall s o b q, In (Evicted b q) (snd (step s o)) ->
  SEND_QUEUE_MAXLEN <= Z.of_nat (length (queue s)) /\ exists tl, queue s = (b, q) :: tl.
Proof.
  intros s o b q. pattern o, (step s o); apply step_elim; [|intros o' s' _ _ []].
  intros a p nh. pose proof (enqueue_evicted_full (queue s) (a, p) b q) as Hk.
  apply send_elim; [intros _ H|intros _ _ H|intros c _ _ _ _ _ H|intros _ _ H|intros s1 _ _ _ H]; cbn [snd] in H.
  - destruct H as [H|[]]. discriminate.
  - destruct H as [H|[]]. discriminate.
  - destruct H as [H|H]; [discriminate|]. apply in_map_iff in H as [x [Hx _]]. discriminate.
  - apply Hk, H.
  - destruct H as [H|H]; [discriminate|]. apply Hk, H.
Qed.
Print Assumptions eviction_only_when_full.

(* An overlay that did not ask for anonymity is unaffected: exactly one raw send, state unchanged,
   in every state (attached or not, circuits or not, queue empty or full). *)
Theorem plain_unaffected : forall s a p nh,
  anon_on s p = false -> step s (Send a p nh) = (s, [Raw a p]).
Proof. exact send_plain. Qed.
Print Assumptions plain_unaffected.

(* Nothing but a send operation makes the node emit anything or touch the queue. *)
Theorem only_send_emits : forall s o, is_send o = false ->
  snd (step s o) = [] /\ queue (fst (step s o)) = queue s.
Proof.
  intros s o. pattern o, (step s o); apply step_elim.
  - discriminate.
  - intros o' s' _ Hq _. split; [reflexivity|exact Hq].
Qed.
Print Assumptions only_send_emits.

(* notify_listeners(packet, from_tunnel) delivers to a listener iff its anonymize flag equals
   from_tunnel. *)
Theorem delivery_filter : forall ls from_tunnel id,
  In id (notify ls from_tunnel) <-> exists an, In (id, an) ls /\ anonymize_of (id, an) = from_tunnel.
Proof.
  intros ls ft id.
  unfold notify. rewrite in_map_iff. split.
  - intros [[i an] [Hi Hin]]. cbn [fst] in Hi. subst i. apply filter_In in Hin as [Hin Hb].
    exists an. split; [exact Hin|]. apply eqb_prop. exact Hb.
  - intros [an [Hin Hb]]. exists (id, an). split; [reflexivity|]. apply filter_In.
    split; [exact Hin|]. rewrite Hb. apply eqb_reflx.
Qed.
Print Assumptions delivery_filter.

(* Circuit identifiers stay unique, so "the circuit cid" of a tunnel send is unambiguous. *)
Theorem circuit_ids_unique : forall ops, NoDup (map c_id (circuits (final init ops))).
Proof.
  intros ops. apply (invariant_along ids_ok step_ids ops init). split; constructor.
Qed.
Print Assumptions circuit_ids_unique.

(* The constants translated from the source are the documented ones (queue bound 100, 22-byte
   prefix, EXIT_IPV8 = 4, one hop by default); a changed literal fails here. *)
Theorem documented_constants :
  SEND_QUEUE_MAXLEN = 100 /\ PREFIX_LEN = 22 /\ PEER_FLAG_EXIT_IPV8 = 4 /\ ATTACH_DEFAULT_HOPS = 1.
Proof. repeat split; reflexivity. Qed.
Print Assumptions documented_constants.

(* pA, pP: two 22-byte overlay prefixes; exitH: a hop flagged EXIT_IPV8; relayH: a relay (P07) *)

(* queued while the circuit is extending, flushed in order once it is ready, plain traffic raw *)
Example c07_nonvacuous_flush :
  map ev_outs (trace init [Launch pA true; Attach 1; Send 7 (pA ++ [1]) (Some exitH);
                           Send 8 (pA ++ [2]) None; Send 9 (pP ++ [3]) None;
                           AddHop 0 exitH; Send 7 (pA ++ [4]) None])
  = [[]; []; [CreateCircuit 1 [4]; Queued 7 (pA ++ [1])];
     [CreateCircuit 1 [4]; Queued 8 (pA ++ [2])]; [Raw 9 (pP ++ [3])]; [];
     [Tunnel 50 0 7 0 (pA ++ [4]); Tunnel 50 0 7 0 (pA ++ [1]); Tunnel 50 0 8 0 (pA ++ [2])]].
Proof. vm_compute. reflexivity. Qed.

(* closing circuit with a non-empty queue, detach, wrong exit flags, wrong length: never raw *)
Example c07_nonvacuous_hold :
  map ev_outs (trace init [SetAnon pA true; Attach 2; NewCirc 2 0 relayH; AddHop 0 relayH;
                           AddHop 0 (mkHop 51 [2]); Send 7 pA None; AddHop 1 relayH; AddHop 1 exitH;
                           Close 1; Send 7 pA None; Detach; Send 7 pA None])
  = [[]; []; []; []; []; [CreateCircuit 2 [4]; Queued 7 pA]; []; []; []; [CreateCircuit 2 [4]; Queued 7 pA];
     []; [Dropped 7 pA]].
Proof. vm_compute. reflexivity. Qed.

(* the hypotheses of asked_never_raw / asked_overlay_packets_never_raw are met: pA is a 22-byte
   prefix and the history toggles another prefix only *)
Example c07_nonvacuous_keeps :
  length pA = 22%nat /\ Forall (keeps_on pA) [Toggle pP; SetAnon pA true; Detach; Send 7 pA None].
Proof. split; [reflexivity|repeat constructor; cbn; discriminate]. Qed.

(* overflow: the 101st waiting packet evicts the first *)
Example c07_nonvacuous_overflow :
  let ops := [SetAnon pA true; Attach 1] ++ map (fun i => Send (Z.of_nat i) pA None) (seq 0 101) in
  last (map ev_outs (trace init ops)) [] = [CreateCircuit 1 [4]; Evicted 0 pA; Queued 100 pA]
  /\ length (queue (final init ops)) = 100%nat.
Proof. vm_compute. split; reflexivity. Qed.

(* anonymity of A switched off while its packet waits; B's send flushes it - as tunnel data, not raw *)
Example c07_nonvacuous_requeue :
  let pB := 0 :: 2 :: repeat 66 20 in
  map ev_outs (trace init [SetAnon pA true; SetAnon pB true; Attach 1; Send 7 (pA ++ [1]) (Some exitH);
                           Toggle pA; AddHop 0 exitH; Send 9 (pB ++ [2]) None; Send 7 (pA ++ [3]) None])
  = [[]; []; []; [CreateCircuit 1 [4]; Queued 7 (pA ++ [1])]; []; [];
     [Tunnel 50 0 9 0 (pB ++ [2]); Tunnel 50 0 7 0 (pA ++ [1])]; [Raw 7 (pA ++ [3])]].
Proof. vm_compute. reflexivity. Qed.

Example c07_nonvacuous_delivery :
  notify [(1, Some true); (2, Some false); (3, None)] true = [1]
  /\ notify [(1, Some true); (2, Some false); (3, None)] false = [2; 3].
Proof. vm_compute. split; reflexivity. Qed.
