(* C16 - a token tree only ever holds its owner's signed chain, in any order.
   Model: model/M16_tokentree.v (gather_token with the repaired chain reaction that wakes every waiter).
   SHA3-256 (`hash`), the signature check (`sigverify`) and the tree's key (`pk`) are universally
   quantified: nothing is assumed about them.  The widths on the wire (`hl`, `sl`) are quantified too; where
   they matter the offers are required to have them (`prev_wire`, `wire_form`) and the reload theorems
   need `0 < hl`. *)
From Coq Require Import ZArith List Permutation.
From IPV8V Require Import lib.PyErr lib.Bytes model.M16_tokentree spec.S16_closure
  proofs.P16_gather proofs.P16_props.
Import ListNotations.
Open Scope Z_scope.

(* Whatever is offered, in whatever order, gather_token never fails (no KeyError from the waiting
   area, the recursion of the chain reaction is bounded by the waiting area). *)
Theorem gather_never_fails : forall hash sigverify pk c arr,
  exists tr, gather_all hash sigverify pk (empty_tree c) arr = Ok tr.
Proof.
  intros hash sigverify pk c arr.
  destruct (reach_ind hash sigverify pk c arr (fun _ _ => True)) as [tr [E _]]; eauto.
Qed.
Print Assumptions gather_never_fails.

(* elements_sound: in every reachable state every element is validly signed by the tree's key, is one
   of the offered tokens, and the dict is ordered so that each element's predecessor pointer is the
   genesis hash or the hash of an earlier element (no dangling element, no cycle); keys are unique.
   Waiting tokens are validly signed offered tokens whose predecessor is not (yet) an element. *)
Theorem elements_sound : forall hash sigverify pk c arr tr,
  gather_all hash sigverify pk (empty_tree c) arr = Ok tr ->
  Forall (fun e => tverify sigverify pk e = true /\ exists p, In p arr /\ same_fields p e) (elements tr)
  /\ chain_ok hash pk (elements tr)
  /\ NoDup (keys hash (elements tr))
  /\ Forall (fun u => tverify sigverify pk u = true /\ (exists p, In p arr /\ same_fields p u) /\
                      ~ In (t_prev u) (keys hash (elements tr))) (unchained tr).
Proof.
  intros hash sigverify pk c arr tr E. destruct (reach_inv hash sigverify pk c arr tr E) as [S [N _]].
  pose proof S as [_ S2 S3 _ _].
  split; [|split; [exact S2|split; [exact S3|]]]; apply Forall_forall.
  - intros e. apply (Sound_elem hash sigverify pk arr tr e S).
  - intros u Hu. destruct (Sound_wait hash sigverify pk arr tr u S Hu) as [A [B _]].
    split; [assumption|]. split; [assumption|exact (N u Hu)].
Qed.
Print Assumptions elements_sound.

(* forged or foreign tokens (signature does not verify under the tree's key) and dangling tokens are
   never elements *)
Theorem forged_foreign_dangling_never_elements : forall hash sigverify pk c arr tr t e,
  gather_all hash sigverify pk (empty_tree c) arr = Ok tr -> In e (elements tr) -> same_fields t e ->
  tverify sigverify pk t = true /\
  (t_prev t = genesis hash pk \/ In (t_prev t) (keys hash (elements tr))).
Proof.
  intros hash sigverify pk c arr tr t e E. apply (Sound_connected hash sigverify pk arr).
  apply (reach_inv hash sigverify pk c arr tr E).
Qed.
Print Assumptions forged_foreign_dangling_never_elements.

(* verify / get_root_path succeed on every element (maxdepth at least the number of elements; the
   default is 1000) ... *)
Theorem elements_verify : forall hash sigverify pk c arr tr e md,
  gather_all hash sigverify pk (empty_tree c) arr = Ok tr -> In e (elements tr) ->
  Z.of_nat (length (elements tr)) <= md ->
  tree_verify hash sigverify pk tr e md = true /\
  exists p, get_root_path hash sigverify pk tr e md = e :: p.
Proof.
  intros hash sigverify pk c arr tr e md E. apply (Sound_verify hash sigverify pk arr).
  apply (reach_inv hash sigverify pk c arr tr E).
Qed.
Print Assumptions elements_verify.

(* ... and, on any tree and any token, verify only answers True when the token is validly signed and a
   path of stored, validly signed predecessors leads to the genesis pointer *)
Theorem verify_only_rooted : forall hash sigverify pk tr t md,
  tree_verify hash sigverify pk tr t md = true -> rooted hash sigverify pk (elements tr) t.
Proof.
  intros hash sigverify pk tr t md. unfold tree_verify. destruct (md <? 0); [discriminate|].
  apply verify_loop_rooted.
Qed.
Print Assumptions verify_only_rooted.

(* elements_complete_any_order: for every list of offers (duplicates allowed, any order) in wire form,
   as long as the number of distinct offers fits the waiting area, the run ends with exactly the closure
   of the offers: the validly signed offers connected to genesis through other such offers. *)
Theorem elements_complete_any_order : forall hash sigverify hl pk c arr,
  Forall (prev_wire hl) arr -> (distinct_offers arr <= c)%nat ->
  exists tr, gather_all hash sigverify pk (empty_tree c) arr = Ok tr /\
             forall h, In h (keys hash (elements tr)) <-> closure_keys hash sigverify pk arr h.
Proof.
  intros hash sigverify hl pk c arr W D.
  destruct (reach_complete hash sigverify pk c arr D) as [tr [E [S [N C]]]].
  exists tr. split; [assumption|]. apply (complete_closure hash sigverify hl pk); assumption.
Qed.
Print Assumptions elements_complete_any_order.

(* hence the result does not depend on order or multiplicity of arrival *)
Theorem order_independent : forall hash sigverify hl pk c arr1 arr2,
  (forall t, In t arr1 <-> In t arr2) ->
  Forall (prev_wire hl) arr1 -> (distinct_offers arr1 <= c)%nat ->
  exists tr1 tr2,
    gather_all hash sigverify pk (empty_tree c) arr1 = Ok tr1 /\
    gather_all hash sigverify pk (empty_tree c) arr2 = Ok tr2 /\
    forall h, In h (keys hash (elements tr1)) <-> In h (keys hash (elements tr2)).
Proof.
  intros hash sigverify hl pk c arr1 arr2 Same W D.
  destruct (elements_complete_any_order hash sigverify hl pk c arr1 W D) as [tr1 [E1 K1]].
  destruct (elements_complete_any_order hash sigverify hl pk c arr2) as [tr2 [E2 K2]].
  - apply Forall_forall. intros t Ht. rewrite Forall_forall in W. apply W, Same, Ht.
  - eapply Nat.le_trans; [|exact D]. apply distinct_offers_incl. intros t Ht. apply Same, Ht.
  - exists tr1, tr2. split; [assumption|]. split; [assumption|].
    intros h. rewrite K1, K2.
    split; intros [t [Ct Et]]; exists t; (split; [|assumption]);
      eapply in_closure_ext; try exact Ct; intros x Hx; apply Same; assumption.
Qed.
Print Assumptions order_independent.

Theorem permutation_independent : forall hash sigverify hl pk c arr1 arr2,
  Permutation arr1 arr2 -> Forall (prev_wire hl) arr1 -> (distinct_offers arr1 <= c)%nat ->
  exists tr1 tr2,
    gather_all hash sigverify pk (empty_tree c) arr1 = Ok tr1 /\
    gather_all hash sigverify pk (empty_tree c) arr2 = Ok tr2 /\
    forall h, In h (keys hash (elements tr1)) <-> In h (keys hash (elements tr2)).
Proof.
  intros hash sigverify hl pk c arr1 arr2 Pm. apply order_independent.
  intros t. split; apply Permutation_in; [|apply Permutation_sym]; assumption.
Qed.
Print Assumptions permutation_independent.

(* the waiting area never exceeds its capacity *)
Theorem waiting_area_bounded : forall hash sigverify pk c arr tr,
  gather_all hash sigverify pk (empty_tree c) arr = Ok tr -> (length (unchained tr) <= c)%nat.
Proof.
  intros hash sigverify pk c arr tr E. destruct (reach_inv hash sigverify pk c arr tr E) as [_ [_ [L C]]].
  rewrite C in L. exact L.
Qed.
Print Assumptions waiting_area_bounded.

(* content_bound: receive_content accepts exactly the contents that hash to the pointer; tokens built by
   the constructor / from_database_tuple satisfy content_ok; and if the offered tokens do, every token in
   the tree does, each attached content being the content of some offered token. *)
Theorem receive_content_only_matching : forall hash t c,
  snd (receive_content hash t c) = true <-> hash c = t_chash t.
Proof.
  intros hash t c. unfold receive_content. rewrite <- bytes_eqb_eq.
  destruct (bytes_eqb (hash c) (t_chash t)); simpl; split; auto.
Qed.
Print Assumptions receive_content_only_matching.

Theorem constructed_tokens_content_ok : forall hash prev sg chash content,
  content_ok hash (from_db hash prev sg chash content).
Proof.
  intros hash prev sg chash content. unfold from_db.
  destruct content; [apply receive_content_ok|]; exact I.
Qed.
Print Assumptions constructed_tokens_content_ok.

Theorem content_bound : forall hash sigverify pk c arr tr,
  Forall (content_ok hash) arr -> gather_all hash sigverify pk (empty_tree c) arr = Ok tr ->
  Forall (content_ok hash) (elements tr) /\ Forall (content_ok hash) (unchained tr).
Proof.
  intros hash sigverify pk c arr tr F E.
  destruct (content_from_offers hash sigverify pk c arr tr F E) as [A B].
  split; eapply Forall_impl; try eassumption; apply from_offer_ok.
Qed.
Print Assumptions content_bound.

Theorem content_provenance : forall hash sigverify pk c arr tr e ct,
  Forall (content_ok hash) arr -> gather_all hash sigverify pk (empty_tree c) arr = Ok tr ->
  In e (elements tr) -> t_content e = Some ct ->
  hash ct = t_chash e /\ exists p, In p arr /\ t_content p = Some ct.
Proof.
  intros hash sigverify pk c arr tr e ct F E He.
  destruct (content_from_offers hash sigverify pk c arr tr F E) as [A _].
  rewrite Forall_forall in A. apply (A e He).
Qed.
Print Assumptions content_provenance.

(* public_roundtrip: the public dump of a reachable tree (offers in wire form) reloads, into a fresh tree
   of the same key, to exactly the same elements in the same order (contents are not part of the dump)
   and unserialize_public answers True ... *)
Theorem public_roundtrip : forall hash sigverify hl sl pk c arr tr c2,
  (0 < hl)%nat -> Forall (wire_form hl sl) arr ->
  gather_all hash sigverify pk (empty_tree c) arr = Ok tr ->
  unserialize_public hash sigverify hl sl pk (empty_tree c2) (serialize_public tr)
  = (mkTree (map strip (elements tr)) [] c2, Ok true).
Proof.
  intros hash sigverify hl sl pk c arr tr c2 Hhl W E.
  apply (Sound_roundtrip hash sigverify hl sl pk arr); [assumption| |assumption].
  apply (reach_inv hash sigverify pk c arr tr E).
Qed.
Print Assumptions public_roundtrip.

(* ... and whatever order the chunks are emitted in, the reloaded tree has the same elements, provided
   the fresh tree's waiting area can hold them *)
Theorem public_roundtrip_any_order : forall hash sigverify hl sl pk c arr tr c2 l,
  (0 < hl)%nat -> Forall (wire_form hl sl) arr ->
  gather_all hash sigverify pk (empty_tree c) arr = Ok tr ->
  Permutation l (elements tr) -> (length (elements tr) <= c2)%nat ->
  exists tr2 b,
    unserialize_public hash sigverify hl sl pk (empty_tree c2) (flat_map signed l) = (tr2, Ok b) /\
    forall h, In h (keys hash (elements tr2)) <-> In h (keys hash (elements tr)).
Proof.
  intros hash sigverify hl sl pk c arr tr c2 l Hhl W E.
  apply (Sound_roundtrip_any_order hash sigverify hl sl pk arr); [assumption| |assumption].
  apply (reach_inv hash sigverify pk c arr tr E).
Qed.
Print Assumptions public_roundtrip_any_order.

(* ------------------------------------------------------------------------------------------------
   Non-vacuity and the pinned behaviour, on a concrete instance: 1-byte digests given by a table,
   key [9], genesis [0]; p is a child of genesis (hash [1]); a, b are children of p (hashes [2], [3]);
   d is dangling (valid signature, unknown predecessor); f is p with a forged signature. *)
Definition ex_hash := tbl_hash [([9], [0]); ([0;11;21], [1]); ([1;12;22], [2]); ([1;13;23], [3]);
                                ([7;14;24], [4]); ([0;11;99], [5]); ([50], [12]); ([51], [77])].
Definition ex_ver := tbl_verify [([0;11], [21]); ([1;12], [22]); ([1;13], [23]); ([7;14], [24])].
Definition ex_p := mkToken [0] [11] [21] None.
Definition ex_a := mkToken [1] [12] [22] None.
Definition ex_b := mkToken [1] [13] [23] None.
Definition ex_d := mkToken [7] [14] [24] None.
Definition ex_f := mkToken [0] [11] [99] None.

(* the fork arrives before its parent, mixed with a forged, a dangling and a duplicate token:
   the repaired chain reaction chains both children *)
Example c16_fork_before_parent :
  gather_all ex_hash ex_ver [9] (empty_tree 100) [ex_a; ex_f; ex_b; ex_d; ex_a; ex_p]
  = Ok (mkTree [ex_p; ex_a; ex_b] [ex_d] 100).
Proof. vm_compute. reflexivity. Qed.

(* the hypotheses of elements_complete_any_order are met by this run *)
Example c16_complete_hypotheses :
  Forall (prev_wire 1) [ex_a; ex_f; ex_b; ex_d; ex_a; ex_p] /\
  (distinct_offers [ex_a; ex_f; ex_b; ex_d; ex_a; ex_p] <= 100)%nat.
Proof. split; [repeat constructor|vm_compute; repeat constructor]. Qed.

(* the pinned chain reaction (only the first waiter is woken) refutes completeness / order independence:
   the same three offers end with three elements in one order and two in another *)
Theorem pinned_chain_reaction_refuted :
  exists hash sigverify pk arr1 arr2,
    Permutation arr1 arr2 /\
    exists tr1 tr2,
      gather_all_pinned hash sigverify pk (empty_tree 100) arr1 = Ok tr1 /\
      gather_all_pinned hash sigverify pk (empty_tree 100) arr2 = Ok tr2 /\
      length (elements tr1) = 3%nat /\ length (elements tr2) = 2%nat /\ unchained tr2 = [ex_b].
Proof.
  exists ex_hash, ex_ver, [9], [ex_p; ex_a; ex_b], [ex_a; ex_b; ex_p]. split.
  - apply (Permutation_cons_app [ex_a; ex_b] [] ex_p). apply Permutation_refl.
  - eexists. eexists. vm_compute. repeat split; reflexivity.
Qed.
Print Assumptions pinned_chain_reaction_refuted.

(* content is attached only when it hashes to the pointer (hash [50] = [12] = ex_a's pointer) *)
Example c16_content :
  let right := from_db ex_hash [1] [22] [12] (Some [50]) in
  let wrong := from_db ex_hash [1] [22] [12] (Some [51]) in
  t_content right = Some [50] /\ t_content wrong = None /\
  gather_all ex_hash ex_ver [9] (empty_tree 100) [ex_p; wrong; right]
  = Ok (mkTree [ex_p; mkToken [1] [12] [22] (Some [50])] [] 100).
Proof. vm_compute. repeat split; reflexivity. Qed.

(* verify, get_root_path, the public dump and its reload on the example tree *)
Example c16_verify_and_dump :
  let tr := mkTree [ex_p; ex_a; ex_b] [ex_d] 100 in
  tree_verify ex_hash ex_ver [9] tr ex_b 1000 = true /\
  get_root_path ex_hash ex_ver [9] tr ex_b 1000 = [ex_b; ex_p] /\
  tree_verify ex_hash ex_ver [9] tr ex_d 1000 = false /\
  tree_verify ex_hash ex_ver [9] tr ex_f 1000 = false /\
  serialize_public tr = [0;11;21; 1;12;22; 1;13;23] /\
  unserialize_public ex_hash ex_ver 1 1 [9] (empty_tree 100) (serialize_public tr)
  = (mkTree [ex_p; ex_a; ex_b] [] 100, Ok true) /\
  snd (unserialize_public ex_hash ex_ver 1 1 [9] (empty_tree 100) [0;11;21; 1;12]) = Raise StructError.
Proof. vm_compute. repeat split; reflexivity. Qed.

(* the toy instance (identity hash, signature = key ++ message) runs as well *)
Example c16_toy :
  let k := [7] in
  let p := toy_token k (genesis toy_hash k) [1] in
  let a := toy_token k (thash toy_hash p) [2] in
  let b := toy_token k (thash toy_hash p) [3] in
  let x := mkToken (thash toy_hash p) [4] [8;8] None in
  gather_all toy_hash toy_verify k (empty_tree 2) [a; x; b; p] = Ok (mkTree [p; a; b] [] 2).
Proof. vm_compute. reflexivity. Qed.
