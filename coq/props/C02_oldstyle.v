(* C02 (extension) - the class-specific glue of the old-style payload classes: constructor, to_pack_list,
   from_unpack_list and their helpers, translated from the source (gen/G02_oldstyle.v), round-trip on legal
   field values (spec/S02_oldstyle.v) and compose with the format-level theorem msg_roundtrip. *)
From Coq Require Import ZArith List Bool.
From IPV8V Require Import lib.PyErr lib.Bytes model.M02_wire model.M02_oldstyle gen.G02_registry
  gen.G02_oldstyle spec.S02_oldstyle proofs.P02_oldstyle.
Import ListNotations.
Open Scope Z_scope.

(* Every translated class has a legal-value specification, and its format_list, resolved through the live packer
   registry, is exactly the definition G02_registry ships for it (the one shipped_roundtrip speaks about). *)
Theorem oldstyle_all_specified : forall c, In c oldstyle_table ->
  (exists spec, spec_of (oc_name c) oldstyle_specs = Some spec) /\
  In (oc_name c, class_fmts c) msgdefs /\
  mapM (find_fmt REG) (oc_formats c) = Ok (class_fmts c).
Proof.
  intros c H. destruct (table_facts c H) as (Ha & Hf & _ & Hs). split; [exact Hs|]. split; [|exact Hf].
  apply assoc_fmts_In. exact Ha.
Qed.
Print Assumptions oldstyle_all_specified.

(* The glue alone: for a legal instance x, to_pack_list() succeeds, names exactly the formats of format_list, its
   values are legal for those formats, and from_unpack_list applied to what the wire hands back for them
   (`bits` come back as eight 0/1 integers) rebuilds x - same class, same attributes, flags in the form they are
   handed back (canon_obj). *)
Theorem oldstyle_glue_roundtrip : forall c spec x,
  In c oldstyle_table -> spec_of (oc_name c) oldstyle_specs = Some spec ->
  legal (oc_short c) spec x = true ->
  exists pl vs,
    oc_to_pack c x = Ok pl /\ map fst pl = oc_formats c /\ entry_vals (class_fmts c) pl = Ok vs /\
    (forall key_ok, msg_ok key_ok (msg_of_list (class_fmts c)) (wire_image (class_fmts c) vs) = true) /\
    oc_from_unpack c (unpack_args (class_fmts c) (wire_image (class_fmts c) vs)) = Ok (canon_obj spec x).
Proof. intros c spec x Hin Hs. exact (oldstyle_glue_l c spec Hin Hs x). Qed.
Print Assumptions oldstyle_glue_roundtrip.

(* Class level, on the wire: decode(encode x) = x with the exact end offset, at any offset, between any bytes. *)
Theorem oldstyle_class_roundtrip : forall key_ok c spec x bs (pre suf : bytes),
  In c oldstyle_table -> spec_of (oc_name c) oldstyle_specs = Some spec ->
  legal (oc_short c) spec x = true ->
  encode_obj REG key_ok (oc_to_pack c) x = Ok bs ->
  (msg_greedy (msg_of_list (class_fmts c)) = false \/ suf = []) ->
  decode_obj REG key_ok (oc_formats c) (oc_from_unpack c) (pre ++ bs ++ suf) (length pre)
    = Ok (canon_obj spec x, (length pre + length bs)%nat).
Proof.
  intros key_ok c spec x bs pre suf Hin Hs. rewrite <- (spec_for_some c spec Hs).
  exact (class_roundtrips_l c Hin key_ok x bs pre suf).
Qed.
Print Assumptions oldstyle_class_roundtrip.

(* ... and it is not vacuous: every legal instance can be encoded. *)
Theorem oldstyle_encode_defined : forall key_ok c spec x,
  In c oldstyle_table -> spec_of (oc_name c) oldstyle_specs = Some spec ->
  legal (oc_short c) spec x = true -> exists bs, encode_obj REG key_ok (oc_to_pack c) x = Ok bs.
Proof.
  intros key_ok c spec x Hin Hs Hl. destruct (table_facts c Hin) as (_ & Hfs & Hsim & _).
  destruct (oldstyle_glue_l c spec Hin Hs x Hl) as (pl & vs & Htp & Hn & Hev & Hok & _).
  exact (compose_defined key_ok c (class_fmts c) x pl vs Hfs (table_wf c Hin) Hsim Htp Hn Hev (Hok key_ok)).
Qed.
Print Assumptions oldstyle_encode_defined.

(* What comes back equals what went in, in Python's sense (True == 1), is itself legal, and is a fixed point:
   an instance whose flags are already held as 0/1 (False/True for `advice`) comes back identical. *)
Theorem oldstyle_canon_equal : forall short spec x, legal short spec x = true ->
  obj_pyeq (canon_obj spec x) x = Ok true /\ legal short spec (canon_obj spec x) = true /\
  canon_obj spec (canon_obj spec x) = canon_obj spec x.
Proof.
  intros short spec [cn a] H. unfold legal, canon_obj, obj_pyeq in *. cbn [fst snd] in *. apply andb_true_iff in H as [Hc H].
  destruct (fields_canon spec a H) as (E1 & E2 & E3). rewrite String.eqb_refl, Hc, E2, E3. auto.
Qed.
Print Assumptions oldstyle_canon_equal.

(* one named instance per shipped old-style class (class_roundtrips: spec/S02_oldstyle.v) *)
Theorem IntroductionRequestPayload_roundtrip : class_roundtrips IntroductionRequestPayload_class.
Proof. apply class_roundtrips_l. unfold oldstyle_table. cbn [In]. tauto. Qed.
Print Assumptions IntroductionRequestPayload_roundtrip.
Theorem IntroductionResponsePayload_roundtrip : class_roundtrips IntroductionResponsePayload_class.
Proof. apply class_roundtrips_l. unfold oldstyle_table. cbn [In]. tauto. Qed.
Print Assumptions IntroductionResponsePayload_roundtrip.
Theorem PunctureRequestPayload_roundtrip : class_roundtrips PunctureRequestPayload_class.
Proof. apply class_roundtrips_l. unfold oldstyle_table. cbn [In]. tauto. Qed.
Print Assumptions PunctureRequestPayload_roundtrip.
Theorem PuncturePayload_roundtrip : class_roundtrips PuncturePayload_class.
Proof. apply class_roundtrips_l. unfold oldstyle_table. cbn [In]. tauto. Qed.
Print Assumptions PuncturePayload_roundtrip.
Theorem BinMemberAuthenticationPayload_roundtrip : class_roundtrips BinMemberAuthenticationPayload_class.
Proof. apply class_roundtrips_l. unfold oldstyle_table. cbn [In]. tauto. Qed.
Print Assumptions BinMemberAuthenticationPayload_roundtrip.
Theorem GlobalTimeDistributionPayload_roundtrip : class_roundtrips GlobalTimeDistributionPayload_class.
Proof. apply class_roundtrips_l. unfold oldstyle_table. cbn [In]. tauto. Qed.
Print Assumptions GlobalTimeDistributionPayload_roundtrip.
Theorem SimilarityRequestPayload_roundtrip : class_roundtrips SimilarityRequestPayload_class.
Proof. apply class_roundtrips_l. unfold oldstyle_table. cbn [In]. tauto. Qed.
Print Assumptions SimilarityRequestPayload_roundtrip.
Theorem SimilarityResponsePayload_roundtrip : class_roundtrips SimilarityResponsePayload_class.
Proof. apply class_roundtrips_l. unfold oldstyle_table. cbn [In]. tauto. Qed.
Print Assumptions SimilarityResponsePayload_roundtrip.
Theorem PingPayload_roundtrip : class_roundtrips PingPayload_class.
Proof. apply class_roundtrips_l. unfold oldstyle_table. cbn [In]. tauto. Qed.
Print Assumptions PingPayload_roundtrip.
Theorem PongPayload_roundtrip : class_roundtrips PongPayload_class.
Proof. apply class_roundtrips_l. unfold oldstyle_table. cbn [In]. tauto. Qed.
Print Assumptions PongPayload_roundtrip.
Theorem DiscoveryIntroductionRequestPayload_roundtrip : class_roundtrips DiscoveryIntroductionRequestPayload_class.
Proof. apply class_roundtrips_l. unfold oldstyle_table. cbn [In]. tauto. Qed.
Print Assumptions DiscoveryIntroductionRequestPayload_roundtrip.
Theorem RequestAttestationPayload_roundtrip : class_roundtrips RequestAttestationPayload_class.
Proof. apply class_roundtrips_l. unfold oldstyle_table. cbn [In]. tauto. Qed.
Print Assumptions RequestAttestationPayload_roundtrip.
Theorem VerifyAttestationRequestPayload_roundtrip : class_roundtrips VerifyAttestationRequestPayload_class.
Proof. apply class_roundtrips_l. unfold oldstyle_table. cbn [In]. tauto. Qed.
Print Assumptions VerifyAttestationRequestPayload_roundtrip.
Theorem AttestationChunkPayload_roundtrip : class_roundtrips AttestationChunkPayload_class.
Proof. apply class_roundtrips_l. unfold oldstyle_table. cbn [In]. tauto. Qed.
Print Assumptions AttestationChunkPayload_roundtrip.
Theorem ChallengePayload_roundtrip : class_roundtrips ChallengePayload_class.
Proof. apply class_roundtrips_l. unfold oldstyle_table. cbn [In]. tauto. Qed.
Print Assumptions ChallengePayload_roundtrip.
Theorem ChallengeResponsePayload_roundtrip : class_roundtrips ChallengeResponsePayload_class.
Proof. apply class_roundtrips_l. unfold oldstyle_table. cbn [In]. tauto. Qed.
Print Assumptions ChallengeResponsePayload_roundtrip.

(* non-vacuity: real instances, built by the translated constructors (identifier 70000 is reduced to 4464),
   are legal, encode, and decode at offset 3 to the same instance *)
Definition demo (c : oldcls) (args : list val) (suf : bytes) : bool :=
  match oc_new c args with
  | Ok x =>
      legal (oc_short c) (spec_for c) x &&
      match encode_obj REG nokey (oc_to_pack c) x with
      | Ok bs => res_eqb on_eqb (decode_obj REG nokey (oc_formats c) (oc_from_unpack c) ([7; 7; 7] ++ bs ++ suf) 3)
                                (Ok (canon_obj (spec_for c) x, (3 + length bs)%nat))
                 && negb (length bs =? 0)%nat
      | Raise _ => false
      end
  | Raise _ => false
  end.
Definition a4 (a b c d p : Z) : val := VAddr (A4 [a; b; c; d] p).
Definition h20 : bytes := [1; 2; 3; 4; 5; 6; 7; 8; 9; 10; 11; 12; 13; 14; 15; 16; 17; 18; 19; 20].
Example c02x_nonvacuous :
  demo IntroductionRequestPayload_class
       [a4 1 2 3 4 5; a4 10 0 0 1 80; a4 8 8 8 8 65535; VBool true; VStr conn_symmetric; VInt 70000; VBytes [9; 9]] [] = true /\
  demo IntroductionResponsePayload_class
       [a4 1 2 3 4 5; a4 10 0 0 1 80; a4 8 8 8 8 65535; a4 0 0 0 0 0; a4 9 9 9 9 9; VStr conn_public; VInt (-1); VBytes [];
        VBool true; VInt 0; VBool true] [] = true /\
  demo DiscoveryIntroductionRequestPayload_class
       [VBytes h20; a4 1 2 3 4 5; a4 10 0 0 1 80; a4 8 8 8 8 65535; VBool false; VStr conn_unknown; VInt 65536; VBytes [1]] [] = true /\
  demo SimilarityRequestPayload_class [VInt 3; a4 1 2 3 4 5; a4 5 4 3 2 1; VStr conn_public; VList [VBytes h20; VBytes h20]] [] = true /\
  demo SimilarityResponsePayload_class
       [VInt 65535; VList [VBytes h20]; VList [VTuple [VBytes h20; VInt 4294967295]; VTuple [VBytes h20; VInt 0]]] [] = true /\
  demo PongPayload_class [VInt 77] [5; 5] = true /\
  demo GlobalTimeDistributionPayload_class [VInt 18446744073709551615] [5] = true /\
  demo BinMemberAuthenticationPayload_class [VBytes h20] [5] = true /\
  demo AttestationChunkPayload_class [VBytes h20; VInt 513; VBytes [1; 2; 3]] [] = true.
Proof. vm_compute. repeat split; reflexivity. Qed.
