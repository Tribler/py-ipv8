(* C18 (extension) - the protocol code TRANSLATED from the source on every run (gen/G18_proofs.v, by
   tools/tr/tr_proofs.py): boudot.py EL / SQR, pengbaorange attestation.py create_attest_pair and algorithm.py
   (challenge domain), structs.py PengBaoPublicData.check / generate_response, boneh.py decode, the bonehexact
   challenge / response / relativity functions, community.py on_challenge_response.
   gen_refines_hand_model_*: the generated functions compute exactly what the hand models M18_range / M18_hom /
   M18_bitpairs / M18_driver compute; the other theorems are the properties of C18 as statements about the generated
   code.  Property theorems, closed by lemmas of proofs/ (four are derived here in two lines); examples at the end. *)
From Coq Require Import ZArith List Bool Permutation QArith.
From IPV8V Require Import lib.PyErr lib.Bytes model.M18_hom model.M18_range model.M18_bitpairs model.M18_gen_rt model.M18_driver gen.G18_proofs
  spec.S18_bgn proofs.P18_hom proofs.P18_bitpairs proofs.P18_proofs_gen.
Import ListNotations.
Open Scope Z_scope.

Theorem gen_refines_hand_model_el_create : forall G gmul gone ginv Hsh gmodulus x r1 r2 g1 h1 g2 h2 b bitspace t l w n1 n2 rest,
  g_el_create G gmul gone ginv Hsh gmodulus x r1 r2 g1 h1 g2 h2 b bitspace t l (w :: n1 :: n2 :: rest) =
  Ok (el_create G gmul gone ginv Hsh x r1 r2 g1 h1 g2 h2 (w, n1, n2), rest).
Proof. intros. apply g_el_create_eq. Qed.
Print Assumptions gen_refines_hand_model_el_create.

Theorem gen_refines_hand_model_el_check : forall G gmul gone ginv Hsh e g1 h1 g2 h2 y1 y2,
  g_el_check G gmul gone ginv Hsh e g1 h1 g2 h2 y1 y2 = Ok (el_check G gmul gone ginv Hsh e g1 h1 g2 h2 y1 y2).
Proof. exact el_check_refines. Qed.
Print Assumptions gen_refines_hand_model_el_check.

Theorem gen_refines_hand_model_sqr_create : forall G gmul gone ginv Hsh gmodulus x r1 gg hh b bitspace r2 w n1 n2 rest,
  g_sqr_create G gmul gone ginv Hsh gmodulus x r1 gg hh b bitspace (r2 :: w :: n1 :: n2 :: rest) =
  Ok (sqr_create G gmul gone ginv Hsh x r1 gg hh (r2, w, n1, n2), rest).
Proof. intros. apply g_sqr_create_eq. Qed.
Print Assumptions gen_refines_hand_model_sqr_create.

Theorem gen_refines_hand_model_sqr_check : forall G gmul gone ginv Hsh s gg hh y,
  g_sqr_check G gmul gone ginv Hsh s gg hh y = Ok (sqr_check G gmul gone ginv Hsh s gg hh y).
Proof. exact sqr_check_refines. Qed.
Print Assumptions gen_refines_hand_model_sqr_check.

Theorem gen_refines_hand_model_generate_response : forall p s t,
  g_generate_response p s t = Ok (generate_response p s t).
Proof. exact generate_response_refines. Qed.
Print Assumptions gen_refines_hand_model_generate_response.

(* PengBaoPublicData.check *)
Theorem gen_refines_hand_model_range_check : forall G gmul gone ginv geqb PKg PKh Hsh pd a b s t x y u v,
  g_range_check G gmul gone ginv geqb PKg PKh Hsh pd a b s t x y u v =
  Ok (range_check G gmul gone ginv geqb PKg PKh Hsh pd a b s t (x, y, u, v)).
Proof. exact range_check_refines. Qed.
Print Assumptions gen_refines_hand_model_range_check.

(* create_attest_pair: on the queues / stream that hold exactly the draws of the hand model's record ... *)
Theorem gen_refines_hand_model_create_attest_pair : forall G gmul gone ginv PKg PKh Hsh gmodulus v a b bitspace rd rest,
  g_create_attest_pair G gmul gone ginv PKg PKh Hsh gmodulus v a b bitspace (queues_of rd) (sec_of rd ++ rest) =
  bind (create_attest_pair G gmul gone ginv PKg PKh Hsh v a b rd) (fun r => Ok (r, rest)).
Proof. exact create_attest_pair_refines. Qed.
Print Assumptions gen_refines_hand_model_create_attest_pair.

(* ... and on ANY queues and stream (rejected draws included): what the translated builder returns is what the
   hand model returns on the draws that were accepted *)
Theorem gen_create_attest_pair_sound : forall G gmul gone ginv PKg PKh Hsh gmodulus v a b bitspace rq sec r rest,
  g_create_attest_pair G gmul gone ginv PKg PKh Hsh gmodulus v a b bitspace rq sec = Ok (r, rest) ->
  exists rd, create_attest_pair G gmul gone ginv PKg PKh Hsh v a b rd = Ok r.
Proof. exact create_attest_pair_sound. Qed.
Print Assumptions gen_create_attest_pair_sound.

(* AttestationCommunity.on_challenge_response *)
Theorem gen_refines_hand_model_on_challenge_response : forall A R sha proc hon empty_agg alg_honesty
    (st : vstate A) hh (resp : R) d b q,
  g_on_challenge_response A R sha proc hon empty_agg alg_honesty st hh resp d b q =
  on_challenge_response sha proc hon empty_agg alg_honesty st hh resp d b q.
Proof. exact on_challenge_response_refines. Qed.
Print Assumptions gen_refines_hand_model_on_challenge_response.

(* completeness: whatever the draws, if the translated builder returns a proof then the translated verifier
   accepts the translated responder's answer to every challenge s, t > 0 (m2 >= 0 as in C18.range_complete) *)
Theorem gen_range_complete : forall G gmul gone ginv geqb PKg PKh Hsh gmodulus,
  abelian_group G gmul gone ginv -> (forall x, geqb x x = true) ->
  forall v a b bitspace rq sec pub priv rest s t resp,
  g_create_attest_pair G gmul gone ginv PKg PKh Hsh gmodulus v a b bitspace rq sec = Ok ((pub, priv), rest) ->
  0 <= p_m2 priv -> 0 < s -> 0 < t ->
  g_generate_response priv s t = Ok resp ->
  let '(x, y, u, w) := resp in
  g_range_check G gmul gone ginv geqb PKg PKh Hsh pub a b s t x y u w = Ok true.
Proof. exact gen_range_complete_l. Qed.
Print Assumptions gen_range_complete.

(* the range is inclusive at both ends: the translated builder never refuses a value a <= v <= b *)
Theorem gen_range_inside_not_refused : forall G gmul gone ginv PKg PKh Hsh gmodulus v a b bitspace rq sec,
  a <= v <= b ->
  g_create_attest_pair G gmul gone ginv PKg PKh Hsh gmodulus v a b bitspace rq sec <> Raise ValueError.
Proof. exact gen_range_inside_not_refused_l. Qed.
Print Assumptions gen_range_inside_not_refused.

(* partial (as C18.range_outside_unbuildable_partial): outside the range it builds nothing, whatever is drawn *)
Theorem gen_range_outside_unbuildable_partial : forall G gmul gone ginv PKg PKh Hsh gmodulus v a b bitspace rq sec,
  a <= b -> v < a \/ b < v ->
  g_create_attest_pair G gmul gone ginv PKg PKh Hsh gmodulus v a b bitspace rq sec = Raise ValueError \/
  g_create_attest_pair G gmul gone ginv PKg PKh Hsh gmodulus v a b bitspace rq sec = Raise OutOfFuel.
Proof. exact gen_range_outside_unbuildable_l. Qed.
Print Assumptions gen_range_outside_unbuildable_partial.

(* pengbaorange/algorithm.py: every challenge (s, t) that create_challenges can draw - _safe_rndint keeps drawing
   while the value is below LARGE_INTEGER, so LARGE_INTEGER itself can come out - is answered honestly by
   create_challenge_response, never with the random garbage it keeps for challenges that are too small *)
Theorem challenge_domain_is_answered : forall G PKg gmodulus rq s t priv rq',
  g_pb_create_challenges G PKg gmodulus rq = Ok (s, t) ->
  g_pb_create_challenge_response G PKg gmodulus priv s t rq' = Ok (generate_response priv s t).
Proof. exact challenge_domain_is_answered_l. Qed.
Print Assumptions challenge_domain_is_answered.

(* the whole honest exchange over the translated code: what the builder returns, any challenge the verifier can
   draw, the prover's answer to it: the verifier's check accepts *)
Theorem gen_honest_range_exchange_accepted : forall G gmul gone ginv geqb PKg PKh Hsh gmodulus,
  abelian_group G gmul gone ginv -> (forall x, geqb x x = true) ->
  forall v a b bitspace rq sec pub priv rest crq s t rq',
  g_create_attest_pair G gmul gone ginv PKg PKh Hsh gmodulus v a b bitspace rq sec = Ok ((pub, priv), rest) ->
  0 <= p_m2 priv -> g_pb_create_challenges G PKg gmodulus crq = Ok (s, t) ->
  exists x y u w, g_pb_create_challenge_response G PKg gmodulus priv s t rq' = Ok (x, y, u, w) /\
                  g_range_check G gmul gone ginv geqb PKg PKh Hsh pub a b s t x y u w = Ok true.
Proof. exact gen_honest_range_exchange_accepted_l. Qed.
Print Assumptions gen_honest_range_exchange_accepted.

(* an answer to a challenge that is not outstanding (never sent, already answered, a duplicate) changes nothing *)
Theorem gen_not_outstanding_is_ignored : forall A R sha proc hon empty_agg alg_honesty (st : vstate A) hh (resp : R) d b q,
  pend_get (vs_pending st) hh = None ->
  g_on_challenge_response A R sha proc hon empty_agg alg_honesty st hh resp d b q = Ok (st, []).
Proof. exact gen_not_outstanding_ignored. Qed.
Print Assumptions gen_not_outstanding_is_ignored.

(* the answer is matched to the outstanding challenge with ITS hash - wherever that challenge stands in the list:
   the aggregate is updated with that challenge, it and its hash leave the lists (which stay consistent), and when
   it was the last one the aggregate is reported and the verification ends *)
Theorem gen_answer_matched_by_hash : forall A R sha proc hon empty_agg alg_honesty (st : vstate A) hh (resp : R) d b q hc st' out,
  vs_ok sha st -> vs_active st = true ->
  pend_get (vs_pending st) hh = Some hc -> hc < 0 -> In hh (vs_hashed st) ->
  g_on_challenge_response A R sha proc hon empty_agg alg_honesty st hh resp d b q = Ok (st', out) ->
  exists c, In c (vs_chals st) /\ sha c = hh /\ proc (vs_agg st) (Some c) resp = Ok (vs_agg st') /\
    vs_hashed st' = remove_first hh (vs_hashed st) /\ vs_ok sha st' /\
    (vs_hashed st' = [] -> out = [VCallback (vs_agg st')] /\ vs_active st' = false).
Proof. exact gen_answer_matched_by_hash. Qed.
Print Assumptions gen_answer_matched_by_hash.

(* a failed honesty check reports the empty aggregate and ends the verification ... *)
Theorem gen_failed_honesty_check_ends : forall A R sha proc hon empty_agg alg_honesty (st : vstate A) hh (resp : R) d b q hc,
  vs_active st = true -> pend_get (vs_pending st) hh = Some hc -> 0 <= hc -> hon hc resp = Ok false ->
  exists st' : vstate A,
    g_on_challenge_response A R sha proc hon empty_agg alg_honesty st hh resp d b q = Ok (st', [VCallback empty_agg]) /\
    vs_active st' = false.
Proof. exact gen_failed_honesty_check_ends. Qed.
Print Assumptions gen_failed_honesty_check_ends.

(* ... for good: afterwards (and after completion) nothing is counted, reported or sent any more *)
Theorem gen_ended_is_silent : forall A R sha proc hon empty_agg alg_honesty (st : vstate A) hh (resp : R) d b q,
  vs_active st = false ->
  exists st' : vstate A,
    g_on_challenge_response A R sha proc hon empty_agg alg_honesty st hh resp d b q = Ok (st', []) /\
    vs_active st' = false /\ vs_agg st' = vs_agg st /\ vs_hashed st' = vs_hashed st /\ vs_chals st' = vs_chals st.
Proof. exact gen_ended_is_silent. Qed.
Print Assumptions gen_ended_is_silent.

(* a whole verification with every challenge outstanding: the answers may arrive in ANY order; each is counted
   once, with the challenge of its hash; exactly one result is reported - the aggregate of all the answers *)
Theorem gen_run_aggregates_every_answer_once : forall A R sha proc hon empty_agg alg_honesty chals0,
  NoDup (map sha chals0) -> alg_honesty = false ->
  forall (answers : list (Z * R)) (st : vstate A), vs_ok sha st -> vs_active st = true -> all_outstanding st ->
  incl (vs_chals st) chals0 -> NoDup (map fst (vs_pending st)) ->
  Permutation (map fst answers) (vs_hashed st) -> vs_hashed st <> [] ->
  forall afin, fold_answers sha proc chals0 (vs_agg st) answers = Ok afin ->
  exists st' : vstate A,
    run_with (g_on_challenge_response A R sha proc hon empty_agg alg_honesty) st
             (map (fun a => (fst a, snd a, (false, 0, @nil bytes))) answers) = Ok (st', [VCallback afin]) /\
    vs_agg st' = afin /\ vs_active st' = false /\ vs_hashed st' = [] /\ vs_chals st' = [].
Proof.
  intros A R sha proc hon empty_agg alg_honesty chals0 Hnd Hh answers st Hok Hact Hall Hincl _.
  exact (gen_run_all_answers A R sha proc hon empty_agg alg_honesty chals0 Hnd Hh answers st Hok Hact Hall Hincl).
Qed.
Print Assumptions gen_run_aggregates_every_answer_once.

Theorem gen_refines_hand_model_decode : forall G gmul gone ginv geqb PKg SKt1 ms c,
  g_decode G gmul gone ginv geqb PKg SKt1 ms c = Ok (decode G gmul gone ginv geqb PKg SKt1 ms c).
Proof. exact decode_refines. Qed.
Print Assumptions gen_refines_hand_model_decode.

Theorem gen_refines_hand_model_create_challenge_response : forall G gmul gone ginv geqb PKg SKt1 c,
  g_create_challenge_response G gmul gone ginv geqb PKg SKt1 c = Ok (challenge_response G gmul gone ginv geqb PKg SKt1 c).
Proof. exact challenge_response_refines. Qed.
Print Assumptions gen_refines_hand_model_create_challenge_response.

Theorem gen_refines_hand_model_process_challenge_response : forall m r, g_process_challenge_response m r = rm_incr m r.
Proof. exact process_challenge_response_refines. Qed.
Print Assumptions gen_refines_hand_model_process_challenge_response.

Theorem gen_refines_hand_model_relativity_match : forall e o, g_binary_relativity_match e o = Ok (relativity_match e o).
Proof. exact relativity_match_refines. Qed.
Print Assumptions gen_refines_hand_model_relativity_match.

Theorem gen_refines_hand_model_relativity_certainty : forall e o, g_binary_relativity_certainty e o = Ok (certainty e o).
Proof. exact certainty_refines. Qed.
Print Assumptions gen_refines_hand_model_relativity_certainty.

(* the translated decode inverts encode; the translated responder answers the class of the message modulo t2 *)
Theorem gen_decode_encode : forall G gmul gone ginv geqb g h t1 t2 P, bgn_keypair G gmul gone ginv geqb g h t1 t2 P ->
  forall ms m r, Forall (fun x => 0 <= x < t2) ms -> In m ms ->
  g_decode G gmul gone ginv geqb g t1 ms (encode G gmul gone ginv g h m r) = Ok (Some m).
Proof.
  intros G gmul gone ginv geqb g h t1 t2 P K ms m r H1 H2. rewrite decode_refines. f_equal.
  exact (decode_encode_w G gmul gone ginv geqb g h t1 t2 P K ms m r H1 H2).
Qed.
Print Assumptions gen_decode_encode.

Theorem gen_challenge_response_classes : forall G gmul gone ginv geqb g h t1 t2 P, bgn_keypair G gmul gone ginv geqb g h t1 t2 P ->
  forall m r, g_create_challenge_response G gmul gone ginv geqb g t1 (encode G gmul gone ginv g h m r) =
    Ok (if m mod t2 =? 0 then 0 else if m mod t2 =? 1 then 1 else if m mod t2 =? 2 then 2 else 3).
Proof.
  intros G gmul gone ginv geqb g h t1 t2 P K m r. rewrite challenge_response_refines. f_equal.
  exact (challenge_response_spec_w G gmul gone ginv geqb g h t1 t2 P K m r).
Qed.
Print Assumptions gen_challenge_response_classes.

(* acceptance / rejection by the translated scoring: the true profile scores 1 - 2^-n, any other profile of the
   same number of pairs scores 0 *)
Theorem gen_true_value_score : forall e,
  exists q, g_binary_relativity_certainty e e = Ok q /\ (q == 1 - Qpower (1 # 2) (rm_total e))%Q.
Proof. intros e. exists (certainty e e). split; [apply certainty_refines|apply true_value_score_l]. Qed.
Print Assumptions gen_true_value_score.

Theorem gen_other_profile_zero : forall e o, r3 e = 0 -> r3 o = 0 -> rm_total e = rm_total o -> e <> o ->
  exists q, g_binary_relativity_certainty e o = Ok q /\ (q == 0)%Q.
Proof.
  intros e o H1 H2 H3 H4. exists (certainty e o). split; [apply certainty_refines|exact (other_profile_zero_l e o H1 H2 H3 H4)].
Qed.
Print Assumptions gen_other_profile_zero.

(* the translated builder / verifier run on the executable instance; boundaries of [18, 200] included; rejected
   draws in the queues (the 0 before 5000, the multiple of k before 123456789 are skipped) *)
Example c18x_range_runs :
  let rq := [[1234]; [77]; [9]; [100003]; [0; 5000]; [123456789]; [4242]; [777]] in
  let sec := [5; 6; 7; 8; 9; 10; 11; 12; 13; 14; 15] in
  let run v a' b' :=
    bind (g_create_attest_pair ev ev_mul ev_one ev_inv ev_g ev_h (ev_hash []) (fun _ => 11) v 18 200 32 rq sec) (fun r =>
    let '((pub, priv), _) := r in
    bind (g_generate_response priv 40000 50000) (fun resp => let '(x, y, u, w) := resp in
    g_range_check ev ev_mul ev_one ev_inv ev_eqb ev_g ev_h (ev_hash []) pub a' b' 40000 50000 x y u w)) in
  run 30 18 200 = Ok true /\ run 18 18 200 = Ok true /\ run 200 18 200 = Ok true /\ run 30 31 200 = Ok false /\
  run 17 18 200 = Raise OutOfFuel /\ run 201 18 200 = Raise OutOfFuel /\ run 5 18 200 = Raise ValueError.
Proof. vm_compute. repeat split. Qed.

(* three challenges [7], [8], [9] (hash = first byte), answers arriving as 8, 9, 8 again, 7: counted once each, with
   the right challenge; the aggregate (here: the list of (challenge, answer) counted) is reported exactly once *)
Example c18x_bookkeeping_runs :
  let sha := fun c : bytes => match c with x :: _ => x | [] => 0 end in
  let proc := fun (a : list (Z * Z)) (c : option bytes) (r : Z) => Ok (a ++ [(match c with Some (x :: _) => x | _ => -1 end, r)]) in
  let hon := fun (v r : Z) => Ok (v =? r) in
  let st := MkVS [(7, -1); (8, -1); (9, -1)] true [7; 8; 9] [[7]; [8]; [9]] [] in
  run_with (g_on_challenge_response (list (Z * Z)) Z sha proc hon [] false) st
    [(8, 1, (false, 0, [])); (9, 2, (false, 0, [])); (8, 0, (false, 0, [])); (7, 0, (false, 0, []))]
  = Ok (MkVS [] false [] [] [(8, 1); (9, 2); (7, 0)], [VCallback [(8, 1); (9, 2); (7, 0)]]).
Proof. vm_compute. reflexivity. Qed.

(* a failed honesty check (value 2 expected, 0 answered) ends the verification; the later answer is ignored *)
Example c18x_liar_is_final :
  let sha := fun c : bytes => match c with x :: _ => x | [] => 0 end in
  let proc := fun (a : list Z) (c : option bytes) (r : Z) => Ok (a ++ [r]) in
  let hon := fun (v r : Z) => Ok (v =? r) in
  let st := MkVS [(7, -1); (50, 2)] true [7] [[7]] [] in
  run_with (g_on_challenge_response (list Z) Z sha proc hon [99] true) st
    [(50, 0, (false, 0, [])); (7, 1, (false, 0, []))]
  = Ok (MkVS [] false [7] [[7]] [], [VCallback [99]]).
Proof. vm_compute. reflexivity. Qed.

(* the boundary is real: the verifier can draw exactly LARGE_INTEGER (after rejecting 7), and the prover answers it *)
Example c18x_boundary_challenge :
  g_pb_create_challenges ev ev_g (fun _ => 1000000) [[7; 32765]; [32766]] = Ok (32765, 32766)
  /\ g_pb_create_challenge_response ev ev_g (fun _ => 1000000) (MkPriv 1 2 3 4 5 6) 32765 32766 [] = Ok (generate_response (MkPriv 1 2 3 4 5 6) 32765 32766)
  /\ g_pb_create_challenge_response ev ev_g (fun _ => 1000000) (MkPriv 1 2 3 4 5 6) 32764 32766 [[40000]; [40001]; [40002]; [40003]] = Ok (40000, 40001, 40002, 40003).
Proof. vm_compute. repeat split. Qed.
