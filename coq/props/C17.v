(* C17 - identity attestations and token disclosure require the owner's consent.
   Model: model/M17_consent.v (IdentityCommunity + IdentityManager / PseudonymManager + the tables of
   IdentityDatabase, over the C16 token tree): should_sign compares the stored authority key with the node's
   key, table Attestations is keyed (public_key, authority_key, metadata_pointer) (`wide = true`;
   `wide = false` is the key (public_key, metadata_pointer) of the pinned commit).
   SHA3-256 (`hash`), signature verification (`sigverify`), the node's signing operation (`mysign`),
   json.loads (`parse`), the SHA-1 padding (`norm`), the node's key (`me`) and the widths are universally
   quantified.  Three theorems assume something about them: no_double_sign (the node's signatures verify under
   its key; a signature string verifies under one key only), disclosure_within_permission (the node's signatures
   verify; no event of the history has the node's own key as sender) and advertisement_extends_chain (the
   node's signatures verify).
   A history is a list of (time, event); `fst (run .. (init me) pre)` is the node's state after the
   history `pre`, `step .. s now ev` is what the node does on one more event. *)
From Coq Require Import ZArith List.
From IPV8V Require Import lib.Bytes model.M16_tokentree model.M17_consent spec.S17_consent
  proofs.P16_props proofs.P17_props proofs.P17_chain.
Import ListNotations.
Open Scope Z_scope.

(* sign_requires_consent.  After ANY history `pre` (any number of registrations for any subjects and
   hashes, any messages from anybody), if the node sends an attestation `a` to `p` on event `ev` at time
   `now`, then: ev is a disclosure or missing-response authenticated by p itself; every token and every
   attestation that message carried verified; a is the node's signature over the hash of a metadata
   entry m stored for p and signed by p; m points to a token of p's tree which (for p other than the node)
   is validly signed by p and connected to p's genesis through validly signed stored tokens; the user's
   LAST registration of that token's attribute hash in `pre` exists and names exactly subject p, is at most
   300 s old, names exactly m's name, and - if it fixed extra metadata - m's extra fields are exactly those;
   and before this event the database held no attestation by the node over m. *)
Theorem sign_requires_consent : forall hash sigverify mysign parse norm me rhl rsl wide pre now ev p a,
  In (OAttest p a)
     (outs_of (step hash sigverify mysign parse norm me rhl rsl wide
                    (fst (run hash sigverify mysign parse norm me rhl rsl wide (init me) pre)) now ev)) ->
  sender_of ev = Some p /\ is_disclosure ev = true /\
  Forall (fun t => tverify sigverify p t = true) (tokens_of ev) /\
  Forall (fun aa => att_verify sigverify (fst aa) (snd aa) = true) (atts_of ev) /\
  exists m tok e,
    let s' := st_of (step hash sigverify mysign parse norm me rhl rsl wide
                          (fst (run hash sigverify mysign parse norm me rhl rsl wide (init me) pre)) now ev) in
    a = mkAtt (md_hash hash m) (mysign (md_hash hash m)) /\
    In (p, m) (dmd s') /\ md_verify sigverify p m = true /\
    In tok (elements (get_tree p (pseus s'))) /\ thash hash tok = m_tptr m /\
    (p <> me -> rooted hash sigverify p (elements (get_tree p (pseus s'))) tok) /\
    registration norm pre (t_chash tok) = Some e /\
    consent parse e p now m /\
    already me (datt (fst (run hash sigverify mysign parse norm me rhl rsl wide (init me) pre)))
            (md_hash hash m) = false.
Proof.
  intros hash sigverify mysign parse norm me rhl rsl wide pre now ev p a Hin.
  apply attest_requires_consent in Hin; [|apply final_Inv, Inv_init].
  destruct Hin as [A [B [C [D [m [tok [e H]]]]]]]. unfold final in H.
  rewrite (known_registration hash sigverify mysign parse norm me rhl rsl wide pre (init me)) in H.
  destruct (registration norm pre (t_chash tok)) eqn:R; [|destruct H as [_ [_ [_ [_ [_ [_ [H _]]]]]]]; discriminate].
  split; [exact A|]. split; [exact B|]. split; [exact C|]. split; [exact D|]. exists m, tok, e. rewrite R. exact H.
Qed.
Print Assumptions sign_requires_consent.

(* the consent table of the node is exactly the history of the user's registrations *)
Theorem consent_table_is_history : forall hash sigverify mysign parse norm me rhl rsl wide pre h,
  alookup h (known (fst (run hash sigverify mysign parse norm me rhl rsl wide (init me) pre)))
  = registration norm pre h.
Proof.
  intros. rewrite (known_registration hash sigverify mysign parse norm me rhl rsl wide pre (init me)).
  destruct (registration norm pre h); reflexivity.
Qed.
Print Assumptions consent_table_is_history.

(* no_double_sign.  Over a whole history, no metadata hash is attested twice - replays, re-registrations
   and disclosures that already carry other authorities' attestations included.  Assumes that the node's
   signatures verify under its key and that a signature string verifies under one key only. *)
Theorem no_double_sign : forall hash sigverify mysign parse norm me rhl rsl,
  (forall m, sigverify me m (mysign m) = true) ->
  (forall k1 k2 m1 m2 sg, sigverify k1 m1 sg = true -> sigverify k2 m2 sg = true -> k1 = k2) ->
  forall evs,
    NoDup (trace_ptrs (snd (run hash sigverify mysign parse norm me rhl rsl true (init me) evs))).
Proof.
  intros hash sigverify mysign parse norm me rhl rsl H1 H2 evs.
  apply (run_logged hash sigverify mysign parse norm me rhl rsl H1 H2 evs (init me) []), logged_init.
Qed.
Print Assumptions no_double_sign.

Lemma toy_mysign_ok k : forall m, toy_verify3 k m (toy_sig k m) = true.
Proof. intros m. unfold toy_verify3. apply bytes_eqb_refl. Qed.

Lemma toy_sig_binds : forall k1 k2 m1 m2 sg,
  toy_verify3 k1 m1 sg = true -> toy_verify3 k2 m2 sg = true -> k1 = k2.
Proof.
  unfold toy_verify3, toy_sig. intros k1 k2 m1 m2 sg H1 H2.
  apply bytes_eqb_eq in H1, H2. subst sg. inversion H2 as [[L E]].
  apply Nat2Z.inj in L. symmetry. eapply app_inv_length; eauto.
Qed.

(* the two hypotheses are satisfiable (toy scheme: the signature of m under k is [len k] ++ k ++ m) *)
Theorem no_double_sign_hypotheses_satisfiable : forall k,
  (forall m, toy_verify3 k m (toy_sig k m) = true) /\
  (forall k1 k2 m1 m2 sg, toy_verify3 k1 m1 sg = true -> toy_verify3 k2 m2 sg = true -> k1 = k2).
Proof. exact (fun k => conj (toy_mysign_ok k) toy_sig_binds). Qed.
Print Assumptions no_double_sign_hypotheses_satisfiable.

(* with the pinned key of table Attestations (one attestation per subject and metadata, whoever made it)
   the statement is false: when another authority attested first, the node's own attestation is not
   stored and a replay of the disclosure is attested again *)
Definition tid (x : bytes) : bytes := x.
Definition tme : bytes := [9].
Definition kA : bytes := [7].
Definition kB : bytes := [8].
Definition kD : bytes := [6].
Definition mk_tok (k prev ch : bytes) : token := mkToken prev ch (toy_sig k (prev ++ ch)) None.
Definition mk_md (k : bytes) (t : token) (json : bytes) : metadata :=
  mkMd (thash tid t) json (toy_sig k (thash tid t ++ json)).
Definition tokA := mk_tok kA (genesis tid kA) [50].
Definition mdA := mk_md kA tokA [1; 110; 100; 99].
Definition attD := mkAtt (md_hash tid mdA) (toy_sig kD (md_hash tid mdA)).
Definition h_third_party : list (Z * event) :=
  [(0, EKnown [50] [110] kA None);
   (5, EDisclose kA [mdA] [tokA] [(kD, attD)] None);
   (6, EDisclose kA [mdA] [tokA] [(kD, attD)] None)].

Theorem pinned_schema_double_sign_refuted :
  exists hash sigverify mysign parse norm me rhl rsl evs,
    (forall m, sigverify me m (mysign m) = true) /\
    (forall k1 k2 m1 m2 sg, sigverify k1 m1 sg = true -> sigverify k2 m2 sg = true -> k1 = k2) /\
    ~ NoDup (trace_ptrs (snd (run hash sigverify mysign parse norm me rhl rsl false (init me) evs))).
Proof.
  exists tid, toy_verify3, (toy_sig tme), toy_parse, tid, tme, 1%nat, 1%nat, h_third_party.
  split; [apply toy_mysign_ok|]. split; [apply toy_sig_binds|].
  vm_compute. intros N. inversion N as [|x l H1 H2]. apply H1. left. reflexivity.
Qed.
Print Assumptions pinned_schema_double_sign_refuted.

(* in every reachable state every row of Attestations is validly signed by the authority it names *)
Theorem attestations_table_valid : forall hash sigverify mysign parse norm me rhl rsl wide evs,
  Forall (fun r => sigverify (r_auth r) (r_mptr r) (r_sig r) = true)
         (datt (fst (run hash sigverify mysign parse norm me rhl rsl wide (init me) evs))).
Proof. intros. apply final_Inv, Inv_init. Qed.
Print Assumptions attestations_table_valid.

(* store_only_valid_attestation.  A row appears only as follows: on an Attest message from p, the row (me, p, pointer, signature)
   of exactly the attestation p sent, valid under p's key (an attestation signed by a third party, or
   altered, is not stored); on a disclosure from p, a verified attestation carried by it, for subject p, or
   the node's own attestation that it sends in the same step; on no other event. *)
Theorem store_only_valid_attestation : forall hash sigverify mysign parse norm me rhl rsl wide pre now ev r,
  In r (datt (st_of (step hash sigverify mysign parse norm me rhl rsl wide
                          (fst (run hash sigverify mysign parse norm me rhl rsl wide (init me) pre)) now ev))) ->
  In r (datt (fst (run hash sigverify mysign parse norm me rhl rsl wide (init me) pre))) \/
  (sigverify (r_auth r) (r_mptr r) (r_sig r) = true /\
   match ev with
   | EAttest p (Some a) => r = mkRow me p (a_mptr a) (a_sig a)
   | EDisclose p _ _ atts _ =>
       r_pk r = p /\
       (In (r_auth r, mkAtt (r_mptr r) (r_sig r)) atts \/
        (r_auth r = me /\
         In (OAttest p (mkAtt (r_mptr r) (r_sig r)))
            (outs_of (step hash sigverify mysign parse norm me rhl rsl wide
                           (fst (run hash sigverify mysign parse norm me rhl rsl wide (init me) pre)) now ev))))
   | EMissingResp p _ _ =>
       r_pk r = p /\ r_auth r = me /\
       In (OAttest p (mkAtt (r_mptr r) (r_sig r)))
          (outs_of (step hash sigverify mysign parse norm me rhl rsl wide
                         (fst (run hash sigverify mysign parse norm me rhl rsl wide (init me) pre)) now ev))
   | _ => False
   end).
Proof. intros. apply stored_rows. assumption. Qed.
Print Assumptions store_only_valid_attestation.

(* tokens_only_up_to_permission.  Tokens leave in a missing-response only as the answer to a request of that
   very peer, and each token sent is the chain token at a position i with  kn <= i < opened pre p (kn the index the request names),
   where `opened pre p` is the length the chain had right after the user's last
   request_attestation_advertisement addressed to p (0 if there was none). *)
Theorem tokens_only_up_to_permission : forall hash sigverify mysign parse norm me rhl rsl wide pre now ev p toks,
  In (OMissingResp p toks)
     (outs_of (step hash sigverify mysign parse norm me rhl rsl wide
                    (fst (run hash sigverify mysign parse norm me rhl rsl wide (init me) pre)) now ev)) ->
  exists kn, ev = EReqMissing p kn /\
  forall tok, In tok toks ->
    exists i, nth_error (chain (fst (run hash sigverify mysign parse norm me rhl rsl wide (init me) pre))) i = Some tok /\
              kn <= Z.of_nat i /\
              (i < opened hash sigverify mysign parse norm me rhl rsl wide pre p)%nat.
Proof.
  intros hash sigverify mysign parse norm me rhl rsl wide pre now ev p toks Hin.
  destruct (missing_response_within_permission _ _ _ _ _ _ _ _ _ _ _ _ _ _ Hin) as [kn [E F]].
  exists kn. split; [exact E|]. intros tok Ht. destruct (F tok Ht) as [i [A [B C]]].
  exists i. split; [exact A|]. split; [exact B|]. eapply Nat.lt_le_trans; [exact C|apply perm_le_opened].
Qed.
Print Assumptions tokens_only_up_to_permission.

Theorem unpermitted_peers_get_nothing : forall hash sigverify mysign parse norm me rhl rsl wide pre now ev p toks,
  opened hash sigverify mysign parse norm me rhl rsl wide pre p = 0%nat ->
  In (OMissingResp p toks)
     (outs_of (step hash sigverify mysign parse norm me rhl rsl wide
                    (fst (run hash sigverify mysign parse norm me rhl rsl wide (init me) pre)) now ev)) ->
  toks = [].
Proof.
  intros hash sigverify mysign parse norm me rhl rsl wide pre now ev p toks Z0 Hin.
  destruct (tokens_only_up_to_permission _ _ _ _ _ _ _ _ _ _ _ _ _ _ Hin) as [kn [_ F]].
  destruct toks as [|t toks]; [reflexivity|]. destruct (F t (or_introl eq_refl)) as [i [_ [_ L]]].
  rewrite Z0 in L. inversion L.
Qed.
Print Assumptions unpermitted_peers_get_nothing.

(* the other way tokens leave the node: the disclosure sent along with an advertisement.  It is sent only
   on the user's request_attestation_advertisement(p, ..), to p, every token of it is a token of the chain,
   and at that moment the user has opened the whole chain to p (so each token's position is below
   `opened`).  Assumes the node's signatures verify and that no message is authenticated by the node's own
   key (C01: nobody else can sign with it). *)
Theorem disclosure_within_permission : forall hash sigverify mysign parse norm me rhl rsl wide,
  (forall m, sigverify me m (mysign m) = true) ->
  forall pre now ev p m toks kept,
  Forall (fun te => sender_of (snd te) <> Some me) pre ->
  In (ODisclose p m toks kept)
     (outs_of (step hash sigverify mysign parse norm me rhl rsl wide
                    (fst (run hash sigverify mysign parse norm me rhl rsl wide (init me) pre)) now ev)) ->
  let s' := st_of (step hash sigverify mysign parse norm me rhl rsl wide
                        (fst (run hash sigverify mysign parse norm me rhl rsl wide (init me) pre)) now ev) in
  (exists h json jlen, ev = EAdvertise (Some p) h json jlen) /\
  incl toks (chain s') /\
  perm_of s' p = length (chain s') /\
  opened hash sigverify mysign parse norm me rhl rsl wide (pre ++ [(now, ev)]) p = length (chain s').
Proof.
  intros hash sigverify mysign parse norm me rhl rsl wide MS pre now ev p m toks kept F Hin.
  destruct (disclosure_from_chain hash sigverify mysign parse norm me rhl rsl wide MS _ _ _ _ _ _ _
              (final_own_in_chain hash sigverify mysign parse norm me rhl rsl wide MS pre _ F (own_in_chain_init me)) Hin)
    as [[h [json [jlen E]]] [A B]].
  split; [eauto|]. split; [exact A|]. split; [exact B|]. subst ev. apply opened_snoc_advertise.
Qed.
Print Assumptions disclosure_within_permission.

(* every advertisement of the user extends the chain by exactly one token over the (padded) attribute hash,
   so "position in the chain" counts the user's advertisements *)
Theorem advertisement_extends_chain : forall hash sigverify mysign parse norm me rhl rsl wide,
  (forall m, sigverify me m (mysign m) = true) ->
  forall s now p h json jlen,
  exists tok,
    chain (st_of (step hash sigverify mysign parse norm me rhl rsl wide s now (EAdvertise p h json jlen)))
    = chain s ++ [tok] /\ t_chash tok = norm h.
Proof.
  intros hash sigverify mysign parse norm me rhl rsl wide MS s now p h json jlen.
  exists (adv_tok hash mysign norm me s h). split; [|reflexivity].
  apply (advertise_success hash sigverify mysign norm me rhl rsl MS).
Qed.
Print Assumptions advertisement_extends_chain.

(* a disclosure or missing-response from a peer for whom the user registered nothing changes nothing and is
   not answered *)
Theorem unsolicited_disclosure_dropped : forall hash sigverify mysign parse norm me rhl rsl wide pre now p mds toks atts fail,
  (forall t h name md, ~ In (t, EKnown h name p md) pre) ->
  let s := fst (run hash sigverify mysign parse norm me rhl rsl wide (init me) pre) in
  step hash sigverify mysign parse norm me rhl rsl wide s now (EDisclose p mds toks atts fail) = (s, [], None) /\
  forall b, step hash sigverify mysign parse norm me rhl rsl wide s now (EMissingResp p toks b) = (s, [], None).
Proof. intros. apply unknown_sender_dropped, unregistered_unknown. assumption. Qed.
Print Assumptions unsolicited_disclosure_dropped.

(* Non-vacuity on the toy instance (identity hash, toy signatures, toy JSON documents).
   Two concurrent registrations: attribute [50] named [110] for subject A, attribute [51] named [111] for B. *)
Definition trun w := run tid toy_verify3 (toy_sig tme) toy_parse tid tme 1 1 w.
Definition tokB := mk_tok kB (genesis tid kB) [50].      (* B's own token over the hash registered for A *)
Definition mdB := mk_md kB tokB [1; 110; 100; 99].
Definition tokB2 := mk_tok kB (genesis tid kB) [51].
Definition mdB2 := mk_md kB tokB2 [1; 111; 100; 99].
Definition h_matrix : list (Z * event) :=
  [(0, EKnown [50] [110] kA None); (1, EKnown [51] [111] kB None);
   (10, EDisclose kB [mdB] [tokB] [] None);          (* B presents the hash registered for A: refused *)
   (11, EDisclose kA [mdA] [tokA] [] None);          (* A: attested *)
   (12, EDisclose kA [mdA] [tokA] [] None);          (* replay: refused *)
   (13, EDisclose kB [mdB2] [tokB2] [] None);        (* B's own registration: attested *)
   (400, EKnown [50] [110] kA None);                 (* re-registration after expiry *)
   (401, EDisclose kA [mdA] [tokA] [] None)].        (* still refused: attested already *)

Example c17_several_registrations :
  map (fun ox => attest_ptrs (fst ox)) (snd (trun true (init tme) h_matrix))
  = [[]; []; []; [md_hash tid mdA]; []; [md_hash tid mdB2]; []; []].
Proof. vm_compute. reflexivity. Qed.

(* expiry: 300 s after the registration is accepted, 301 s is not; a wrong name and unexpected extra
   metadata are refused *)
Example c17_reject_matrix :
  let outs evs := trace_ptrs (snd (trun true (init tme) evs)) in
  outs [(0, EKnown [50] [110] kA None); (300, EDisclose kA [mdA] [tokA] [] None)] = [md_hash tid mdA] /\
  outs [(0, EKnown [50] [110] kA None); (301, EDisclose kA [mdA] [tokA] [] None)] = [] /\
  outs [(0, EKnown [50] [111] kA None); (1, EDisclose kA [mdA] [tokA] [] None)] = [] /\
  outs [(0, EKnown [50] [110] kA (Some [])); (1, EDisclose kA [mk_md kA tokA [1; 110; 100; 99; 5; 6]] [tokA] [] None)] = [] /\
  outs [(0, EKnown [50] [110] kA (Some [([5], [6])]));
        (1, EDisclose kA [mk_md kA tokA [1; 110; 100; 99; 5; 6]] [tokA] [] None)]
    = [md_hash tid (mk_md kA tokA [1; 110; 100; 99; 5; 6])] /\
  outs [(0, EKnown [50] [110] kB None); (1, EDisclose kA [mdA] [tokA] [] None)] = [].
Proof. vm_compute. repeat split; reflexivity. Qed.

(* with the key (public_key, authority_key, metadata_pointer) both attestations are stored and the replay is refused; an attestation that names
   the wrong authority is not stored and blocks signing *)
Example c17_third_party :
  trace_ptrs (snd (trun true (init tme) h_third_party)) = [md_hash tid mdA] /\
  map r_auth (datt (fst (trun true (init tme) h_third_party))) = [kD; tme] /\
  trace_ptrs (snd (trun true (init tme)
     [(0, EKnown [50] [110] kA None); (5, EDisclose kA [mdA] [tokA] [(kB, attD)] None)])) = [].
Proof. vm_compute. repeat split; reflexivity. Qed.

(* incoming attestations: stored when signed by the sender, dropped when signed by a third party *)
Example c17_store :
  let ptr := [1; 2; 3] in
  datt (fst (trun true (init tme) [(0, EAttest kA (Some (mkAtt ptr (toy_sig kA ptr))))]))
    = [mkRow tme kA ptr (toy_sig kA ptr)] /\
  datt (fst (trun true (init tme) [(0, EAttest kA (Some (mkAtt ptr (toy_sig kD ptr))))])) = [].
Proof. vm_compute. split; reflexivity. Qed.

(* permissions: three own tokens, the second advertisement is addressed to A, so A may see two tokens;
   B, never addressed, gets nothing; a request beyond the opened index gets nothing *)
Definition h_perm : list (Z * event) :=
  [(0, EAdvertise None [60] [1; 1; 1; 1] 4); (1, EAdvertise (Some kA) [61] [1; 2; 1; 1] 4);
   (2, EAdvertise None [62] [1; 3; 1; 1] 4);
   (3, EReqMissing kA 0); (4, EReqMissing kA 1); (5, EReqMissing kB 0); (6, EReqMissing kA 2)].
Example c17_permissions :
  opened tid toy_verify3 (toy_sig tme) toy_parse tid tme 1 1 true h_perm kA = 2%nat /\
  length (chain (fst (trun true (init tme) h_perm))) = 3%nat /\
  map (fun ox => match fst ox with [OMissingResp _ toks] => Some (length toks) | _ => None end)
      (snd (trun true (init tme) h_perm))
  = [None; None; None; Some 2%nat; Some 1%nat; Some 0%nat; Some 0%nat].
Proof. vm_compute. repeat split; reflexivity. Qed.
