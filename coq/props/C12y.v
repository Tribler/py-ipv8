(* C12y - the peer graph as RUN FROM THE SOURCE.  The bodies of Network.__init__, _forget_introduction,
   _forget_service_caches, add_verified_peer, discover_address, discover_services, register_service_provider,
   get_peers_for_service, get_services_for_peer, get_walkable_addresses, get_verified_by_address,
   get_verified_by_public_key_bin, get_introductions_from, remove_by_address, remove_peer, snapshot,
   load_snapshot, is_new_style (ipv8/peerdiscovery/network.py) and of DirtyDict.__init__ / __setitem__ / update
   / clear, Peer.INTERFACE_ORDER, Peer._update_preferred_address, Peer.address, Peer.add_address and the
   address statements of Peer.__init__ (ipv8/peer.py) are regenerated on every run by tools/tr/tr_network.py
   (gen/G12_network.v) over the control combinators of model/M12_network_rt.v; model/M12_network_gen.v runs
   the model's operations through them.  The theorems state that this computes exactly the hand model
   model/M12_network.v, so every theorem of props/C12.v and props/C12x.v is a theorem about the translated
   source.  Property theorems only. *)
From Coq Require Import ZArith List Bool.
From IPV8V Require Import lib.PyErr model.M02_wire model.M12_network spec.S12_graph
  proofs.P12_inv proofs.P12_queries proofs.P12_snapshot
  model.M12_network_rt gen.G12_network model.M12_network_gen proofs.P12_network_gen.
Import ListNotations.
Open Scope Z_scope.

(* Every history of operations, any cache caps, any blacklists, any iteration order of the verified set (the
   hints): running the translated functions gives the same final graph (heap of Peer objects, membership,
   indexes, all three caches) and the same result of every operation as the hand model - no exception, no
   while loop out of fuel. *)
Theorem gen_refines_hand_model : forall ipc intc svcc bla blm ops,
  grun (init_net ipc intc svcc bla blm) ops = hrun (init_net ipc intc svcc bla blm) ops.
Proof. intros. apply gen_refines_run, Inv_init. Qed.
Print Assumptions gen_refines_hand_model.

(* One operation, from any graph that satisfies the representation invariant (every reachable one does). *)
Theorem gen_refines_step : forall s o, Inv s -> gstep s o = hstep s o.
Proof. exact gstep_ok. Qed.
Print Assumptions gen_refines_step.

(* The graph reached through the translated functions IS the hand model's graph ... *)
Theorem gen_state_is_model_state : forall ipc intc svcc bla blm ops,
  fst (grun (init_net ipc intc svcc bla blm) ops) = run (init_net ipc intc svcc bla blm) ops.
Proof. intros. apply gen_state, Inv_init. Qed.
Print Assumptions gen_state_is_model_state.

(* ... and Network.__init__ as translated builds the hand model's initial graph with the default caps. *)
Theorem gen_init_is_model_init : g_init = init_net 500 500 500 [] [].
Proof. reflexivity. Qed.
Print Assumptions gen_init_is_model_init.

(* Transferred: representation invariant and agreement of every lookup with the membership (props/C12.v
   representation_invariant, queries_agree), on the graph built by the translated functions. *)
Theorem gen_representation_invariant : forall ipc intc svcc bla blm ops,
  Inv (fst (grun (init_net ipc intc svcc bla blm) ops)) /\
  answers_agree (fst (grun (init_net ipc intc svcc bla blm) ops)).
Proof.
  intros. rewrite gen_state by apply Inv_init. split; [|apply answers_agree_inv]; apply Inv_reachable.
Qed.
Print Assumptions gen_representation_invariant.

(* What the TRANSLATED lookups return on such a graph is what the graph implies, and asking leaves it alone. *)
Theorem gen_lookups_agree : forall ipc intc svcc bla blm ops,
  let n := fst (grun (init_net ipc intc svcc bla blm) ops) in
  let g := abs n in
  (forall fuel k, g_get_verified_by_public_key_bin fuel k n = (n, Ok (spec_by_key g k))) /\
  (forall fuel hint a, exists n' r, g_get_verified_by_address fuel hint a n = (n', Ok r) /\ abs n' = g /\
        match r with Some i => In i (spec_owners g a) | None => spec_owners g a = [] end) /\
  (forall fuel sid, exists n' l, g_get_peers_for_service fuel sid n = (n', Ok l) /\ abs n' = g /\
        forall i, In i l <-> In i (spec_peers_for_service g sid)) /\
  (forall fuel so old, exists n' l, g_get_walkable_addresses fuel so old n = (n', Ok l) /\ abs n' = g /\
        forall a, In a l <-> In a (spec_walkable g so old)).
Proof.
  intros ipc intc svcc bla blm ops n g.
  assert (HI : Inv n) by (unfold n; rewrite gen_state by apply Inv_init; apply Inv_reachable).
  destruct (answers_agree_inv n HI) as (A1 & A2 & A3 & _ & A5 & _). repeat split.
  - intros fuel k. rewrite g_get_verified_by_public_key_bin_ok, A1. reflexivity.
  - intros fuel hint a. rewrite g_get_verified_by_address_ok. do 2 eexists. split; [reflexivity|].
    split; [apply abs_gvba|apply A2].
  - intros fuel sid. rewrite g_get_peers_for_service_ok. do 2 eexists. split; [reflexivity|]. split; [apply abs_gpfs|apply A3].
  - intros fuel so old. rewrite g_get_walkable_addresses_ok. do 2 eexists. split; [reflexivity|].
    split; [apply abs_walkable|apply A5].
Qed.
Print Assumptions gen_lookups_agree.

(* Transferred: asking_changes_nothing. *)
Theorem gen_asking_changes_nothing : forall ipc intc svcc bla blm ops qs,
  all_queries qs ->
  let n := fst (grun (init_net ipc intc svcc bla blm) ops) in
  abs (fst (grun n qs)) = abs n.
Proof.
  intros ipc intc svcc bla blm ops qs Hq n. unfold n. rewrite (gen_state ops) by apply Inv_init.
  rewrite gen_state by apply Inv_reachable. apply abs_run_queries. exact Hq.
Qed.
Print Assumptions gen_asking_changes_nothing.

(* Transferred from props/C12x.v: the translated snapshot() never raises on a reachable graph, and the
   translated load_snapshot of it into the translated Network() recovers exactly the verified peers'
   preferred addresses, in order, and makes exactly them walkable. *)
Theorem gen_snapshot_roundtrip : forall ipc intc svcc bla blm ops fuel,
  Forall op_ok ops ->
  let n := fst (grun (init_net ipc intc svcc bla blm) ops) in
  exists bs, g_snapshot fuel n = (n, Ok bs) /\
    let m := fst (g_load_snapshot (S (length bs)) bs g_init) in
    snd (g_load_snapshot (S (length bs)) bs g_init) = Ok tt /\
    map fst (all_addrs m) = uniq (spec_snapshot_addrs (abs n)) /\
    (forall x, In x (snd (get_walkable_addresses m None false)) <-> In x (spec_snapshot_addrs (abs n))).
Proof.
  intros ipc intc svcc bla blm ops fuel Ho n. unfold n. rewrite gen_state by apply Inv_init.
  pose proof (snapshot_addrs_packable _ (heap_ok_reachable ipc intc svcc bla blm ops Ho)) as Hok.
  destruct (packed_ok _ Hok) as (bs & Hs).
  exists bs. rewrite g_snapshot_ok. split; [rewrite <- Hs; reflexivity|].
  rewrite g_load_fresh_ok, <- snapshot_addrs_agree. cbn [fst snd]. split; [reflexivity|].
  destruct (load_into_empty _ bs 500 500 500 [] [] Hok Hs) as (K & _ & W). auto.
Qed.
Print Assumptions gen_snapshot_roundtrip.

(* peer.py: one Peer object driven through the translated Peer.__init__ / add_address / address and the
   translated DirtyDict.update (what add_verified_peer does to a known peer), in any order: its address dict
   is the hand model's addrmap and every read of Peer.address returns am_preferred of it - the primitive
   `paddress` the translated Network functions use. *)
Theorem gen_peer_address_is_preferred : forall ao ops,
  snd (gpeer_run (gpeer_new ao) ops) = snd (hpeer_run (hpeer_new ao) ops) /\
  dd_map (p_addresses (fst (gpeer_run (gpeer_new ao) ops))) = fst (hpeer_run (hpeer_new ao) ops).
Proof.
  intros ao ops. destruct (gpeer_run_ok ops _ _ (PInv_new ao)) as [E1 E2]. split; [exact E1|exact (pi_map _ _ E2)].
Qed.
Print Assumptions gen_peer_address_is_preferred.

(* ---- non-vacuity: a history through every translated function, run from the generated definitions *)
Definition y_a0 := A4 [1; 1; 1; 1] 1.
Definition y_a1 := A4 [2; 2; 2; 2] 2.
Definition y_ad := ADom [104] 80.
Definition y_ops : list op :=
  [AddVerified 1 (mkAm (Some y_a0) None None); DiscoverServices 1 am_empty [7]; GetByAddress y_a0 None; GetPeersForService 7;
   DiscoverAddress 1 am_empty y_a1 (Some 7) false; GetIntroductionsFrom 1;
   DiscoverAddress 2 (mkAm None None (Some y_ad)) y_a0 None true; GetWalkable (Some 7) false; GetServicesForPeer 1; Snapshot;
   RemoveByAddress y_a0; GetByKey 1; RemovePeer 2 am_empty; LoadSnapshot [1; 2; 2; 2; 2; 0; 2; 2; 0; 1; 104; 0; 80; 9];
   GetWalkable None false; AddVerified 1 (mkAm (Some y_a1) None None); Snapshot].

Example c12y_nonvacuous_run :
  snd (grun (init_net 2 2 2 [] []) y_ops)
  = [Ok GUnit; Ok GUnit; Ok (GOPeer (Some 0%nat)); Ok (GPeers [0%nat]); Ok GUnit; Ok (GAddrs [y_a1]); Ok GUnit;
     Ok (GAddrs [y_a1]); Ok (GSvcs [7]); Ok (GBytes [1; 1; 1; 1; 1; 0; 1; 2; 0; 1; 104; 0; 80]); Ok GUnit; Ok (GOPeer None);
     Ok GUnit; Ok GUnit; Ok (GAddrs [y_a1; y_ad]); Ok GUnit; Ok (GBytes [1; 2; 2; 2; 2; 0; 2])].
Proof. vm_compute. reflexivity. Qed.

Example c12y_nonvacuous_peer :
  snd (gpeer_run (gpeer_new (Some y_ad)) [PRead; PUpdate (mkAm None None (Some (ADom [105] 81))); PRead; PAdd y_a0; PRead;
                                           PUpdate (mkAm (Some y_a1) None None); PRead])
  = [Ok (Some y_ad); Ok None; Ok (Some (ADom [105] 81)); Ok None; Ok (Some y_a0); Ok None; Ok (Some y_a1)].
Proof. vm_compute. reflexivity. Qed.
