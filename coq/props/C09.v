(* C09 - tunnel state is always reclaimed, whatever gets lost.

   Model: model/M09_reclaim.v (one tunnel node with time; events carry the time, the oracle outcomes of
   cryptography / randomness / candidate choice, and are otherwise unconstrained: every pattern of lost,
   duplicated, reordered or delayed messages is some event list).  The decision rules and constants are
   regenerated from the source on every run (gen/G09_rules.v).
   `timely` is the assumption on the event loop: interval tasks, sleeps and cache time-outs fire on time and
   tasks created by ensure_future run before the clock moves (checked on every observed history). *)
From Coq Require Import ZArith List Bool Lia.
From IPV8V Require Import gen.G09_rules model.M09_reclaim model.M09_harness spec.S09_reclaim
  proofs.P09_alist proofs.P09_sweep proofs.P09_main proofs.P09_more proofs.P09_frames proofs.P09_count.
Import ListNotations.
Open Scope Z_scope.

(* sweep_sound, rule level: the if/elif chains translated from do_remove decide exactly the documented
   verdicts (inactive / too old / over the traffic limit, in that order, destroy only for the last). *)
Theorem sweep_rules_meet_spec : forall st tnow,
  (forall c, circ_rule st tnow c = circuit_verdict st tnow c)
  /\ (forall r, relay_rule st tnow r = relay_verdict st tnow r)
  /\ (forall e, exit_rule st tnow e = exit_verdict st tnow e).
Proof. intros st tnow. split; [exact (circ_rule_spec st tnow) | split; [exact (relay_rule_spec st tnow) | exact (exit_rule_spec st tnow)]]. Qed.
Print Assumptions sweep_rules_meet_spec.

(* sweep_sound, state level: one sweep queues exactly the removals the specification lists - table by
   table, in table order - and touches nothing else. *)
Theorem sweep_sound : forall st s,
  starts (sweep st s) = starts s ++ sweep_spec st s
  /\ circuits (sweep st s) = circuits s /\ relays (sweep st s) = relays s /\ exits (sweep st s) = exits s
  /\ sleeping (sweep st s) = sleeping s /\ last_sweep (sweep st s) = now s.
Proof. intros st s. rewrite starts_sweep. repeat split. Qed.
Print Assumptions sweep_sound.

(* ... i.e. an entry is scheduled for removal by the sweep iff one of the conditions holds for it. *)
Theorem sweep_schedules_iff : forall st s cid dd rn,
  (In (DRemove KCirc cid dd rn) (sweep_spec st s) <->
     exists c b, In (cid, c) (circuits s) /\ circuit_verdict st (now s) c = Some b /\ dd = (if b then 1 else 0) /\ rn = false)
  /\ (In (DRemove KRelay cid dd rn) (sweep_spec st s) <->
     exists r b, In (cid, r) (relays s) /\ relay_verdict st (now s) r = Some b /\ dd = (if b then 1 else 0) /\ rn = false)
  /\ (In (DRemove KExit cid dd rn) (sweep_spec st s) <->
     exists e b, In (cid, e) (exits s) /\ exit_verdict st (now s) e = Some b /\ dd = (if b then 1 else 0) /\ rn = false).
Proof.
  intros st s cid dd rn.
  split; [exact (sweep_spec_in st s KCirc cid dd rn) | split; [exact (sweep_spec_in st s KRelay cid dd rn) | exact (sweep_spec_in st s KExit cid dd rn)]].
Qed.
Print Assumptions sweep_schedules_iff.

(* the interval task that carries the sweep: do_circuits first tries to meet the node's own demand for
   circuits (build_tunnels); for every number of rounds and every answer of create_circuit the call of
   do_remove at its end is reached - a demand that cannot be met never starves the sweep.  (The control
   skeleton of do_circuits is translated from the source: gen/G09_rules.v, dc_inner_body / dc_outer_body.) *)
Theorem sweep_task_always_sweeps : forall ds, do_circuits_sweeps ds = true.
Proof.
  intro ds. unfold do_circuits_sweeps. destruct (dc_outer ds) eqn:E; try reflexivity.
  destruct (dc_outer_no_return ds E).
Qed.
Print Assumptions sweep_task_always_sweeps.

(* bounded_reclaim, joined nodes: after ANY history of events (any loss / duplication / reordering, any
   interleaving of handshakes, destroys, data, timers, API calls) that the event loop served on time, a relay
   route that is still in the table at time t was active within the last
   B_entry = max_time_inactive + sweep interval + remove_tunnel_delay. *)
Theorem relay_bounded_reclaim : forall st, settings_ok st -> forall t0 tr t cid r,
  timely st (init_node t0) tr = true ->
  let s := fst (run st (init_node t0) tr) in
  on_time st s t = true -> aget cid (relays s) = Some r -> t <= la (r_ro r) + B_entry st.
Proof. intros st Hst t0 tr t cid r Ht s. apply relay_bound_l; [exact Hst | apply reach_inv; assumption]. Qed.
Print Assumptions relay_bounded_reclaim.

(* the same for exit sockets *)
Theorem exit_bounded_reclaim : forall st, settings_ok st -> forall t0 tr t cid e,
  timely st (init_node t0) tr = true ->
  let s := fst (run st (init_node t0) tr) in
  on_time st s t = true -> aget cid (exits s) = Some e -> t <= la (e_ro e) + B_entry st.
Proof. intros st Hst t0 tr t cid e Ht s. apply exit_bound_l; [exact Hst | apply reach_inv; assumption]. Qed.
Print Assumptions exit_bounded_reclaim.

(* bounded_reclaim, originator: a circuit still in the table at time t is within
   max(last activity + max_time_inactive + sweep, creation + next_hop_timeout * (tries + goal_hops - 1))
   + remove_tunnel_delay - whatever state it is in (half-built with retries pending, ready, closing). *)
Theorem circuit_bounded_reclaim : forall st, settings_ok st -> forall t0 tr t cid c,
  timely st (init_node t0) tr = true ->
  let s := fst (run st (init_node t0) tr) in
  on_time st s t = true -> aget cid (circuits s) = Some c -> t <= circuit_deadline st c.
Proof. intros st Hst t0 tr t cid c Ht s. apply circuit_bound_l; [exact Hst | apply reach_inv; assumption]. Qed.
Print Assumptions circuit_bounded_reclaim.

(* read as reclamation: if the entries of an id (if any are left) were last active at or before t_quiet,
   then once t_quiet + B_entry has passed the node holds nothing for that id. *)
Theorem node_reclaimed : forall st, settings_ok st -> forall t0 tr t t_quiet cid,
  timely st (init_node t0) tr = true ->
  let s := fst (run st (init_node t0) tr) in
  on_time st s t = true ->
  (forall r, aget cid (relays s) = Some r -> la (r_ro r) <= t_quiet) ->
  (forall e, aget cid (exits s) = Some e -> la (e_ro e) <= t_quiet) ->
  (forall c, aget cid (circuits s) = Some c -> circuit_deadline st c <= t_quiet + B_entry st) ->
  t_quiet + B_entry st < t ->
  holds_id s cid = false.
Proof. intros st Hst t0 tr t t_quiet cid Ht s. apply node_clear; [exact Hst | apply reach_inv; assumption]. Qed.
Print Assumptions node_reclaimed.

(* destroy_shortcut: an authenticated destroy from the adjacent peer queues the removal of the entry (both
   directions of a relay, with the destroy forwarded along the first) at that moment ... *)
Theorem destroy_schedules_relay : forall s src cid reason nxt prev,
  aget cid (relays s) = Some nxt -> aget (r_next nxt) (relays s) = Some prev -> src = r_peer prev ->
  recv_destroy s src cid reason
  = defer (DRemove KRelay (r_next nxt) 0 false) (defer (DRemove KRelay cid reason false) s).
Proof. intros s src cid reason nxt prev H1 H2 H3. unfold recv_destroy. rewrite H1, H2, H3, Z.eqb_refl. reflexivity. Qed.
Print Assumptions destroy_schedules_relay.

Theorem destroy_schedules_exit : forall s src cid reason e,
  relay_adjacent s src cid = false -> aget cid (exits s) = Some e -> src = e_peer e ->
  recv_destroy s src cid reason = defer (DRemove KExit cid 0 false) s.
Proof.
  intros s src cid reason e H1 H2 H3. rewrite recv_destroy_eq, H1. unfold exit_adjacent. rewrite H2, H3, Z.eqb_refl. reflexivity.
Qed.
Print Assumptions destroy_schedules_exit.

Theorem destroy_schedules_circuit : forall s src cid reason c,
  relay_adjacent s src cid = false -> exit_adjacent s src cid = false ->
  aget cid (circuits s) = Some c -> src = c_first c ->
  recv_destroy s src cid reason = defer (DRemove KCirc cid 0 false) s.
Proof.
  intros s src cid reason c H1 H2 H3 H4. rewrite recv_destroy_eq, H1, H2. unfold circuit_adjacent. rewrite H3, H4, Z.eqb_refl. reflexivity.
Qed.
Print Assumptions destroy_schedules_circuit.

(* ... a destroy from anybody else changes nothing ... *)
Theorem destroy_from_stranger_is_noop : forall s src cid reason,
  relay_adjacent s src cid = false -> exit_adjacent s src cid = false -> circuit_adjacent s src cid = false ->
  recv_destroy s src cid reason = s.
Proof. intros s src cid reason H1 H2 H3. rewrite recv_destroy_eq, H1, H2, H3. reflexivity. Qed.
Print Assumptions destroy_from_stranger_is_noop.

(* ... the queued task forwards the destroy to the next hop and sleeps for remove_tunnel_delay only
   (earlier than the inactivity bound), and when it wakes the entry is gone. *)
Theorem destroy_propagates_and_sleeps : forall st s cid destroy rn r,
  aget cid (relays s) = Some r -> 0 < s_remove_delay st ->
  start_remove st s KRelay cid destroy rn
  = (set_sleeping (sleeping s ++ [(now s + s_remove_delay st, KRelay, cid)]) s,
     if destroy =? 0 then [] else [ODestroy (r_peer r) (r_next r) destroy]).
Proof. intros st s cid destroy rn r H Hd. unfold start_remove. rewrite H, (delay_pos_waits st rn Hd). reflexivity. Qed.
Print Assumptions destroy_propagates_and_sleeps.

Theorem removal_task_deletes : forall s k cid,
  let s' := fst (finish_remove s k cid) in
  match k with
  | KCirc => aget cid (circuits s') = None
  | KRelay => aget cid (relays s') = None
  | KExit => aget cid (exits s') = None
  end.
Proof.
  intros s k cid. destruct k; simpl; try (rewrite aget_adel, Z.eqb_refl; reflexivity).
  destruct (aget cid (exits s)) eqn:E; simpl; [rewrite aget_adel, Z.eqb_refl; reflexivity | exact E].
Qed.
Print Assumptions removal_task_deletes.

(* the exit's outside sockets: finish_remove closes the transports of an enabled, opened socket ... *)
Theorem exit_socket_closed_on_removal : forall s cid e,
  aget cid (exits s) = Some e -> e_enabled e = true -> e_open e = true ->
  snd (finish_remove s KExit cid) = [OClose cid].
Proof. intros s cid e H1 H2 H3. simpl. rewrite H1. simpl. rewrite H2, H3. reflexivity. Qed.
Print Assumptions exit_socket_closed_on_removal.

(* ... and nothing else makes an open socket disappear: over every history, an exit socket with open
   transports is either still in the table with open transports or the history closed them. *)
Theorem sockets_closed_when_dropped : forall st tr s,
  sockets_kept s (fst (run st s tr)) (snd (run st s tr)).
Proof.
  intros st tr. induction tr as [|[t e] tl IH]; intros s; simpl; [apply sockets_kept_same; reflexivity|].
  destruct (step_frame st (set_now t s) e) as (_ & _ & K1).
  unfold step. simpl fst. simpl snd. destruct (step_at st (set_now t s) e) as [s1 o1].
  pose proof (IH s1) as K2. destruct (run st s1 tl) as [s2 o2]. exact (sockets_kept_trans _ _ _ _ _ K1 K2).
Qed.
Print Assumptions sockets_closed_when_dropped.

(* activity_only_by_traffic: no entry appears and no activity stamp advances except while a cell is being
   processed (ERecvCell and the tasks it defers, ERun) or an own circuit is created - not by timers, destroys,
   the node's own pings / data, or datagrams from outside.  Hence "no traffic for this id after t_quiet" bounds
   every activity stamp of the id by t_quiet, which is what node_reclaimed asks for. *)
Theorem activity_only_by_traffic : forall st s e,
  is_traffic e = false -> no_activity s (fst (step_at st s e)).
Proof. exact quiet_events_no_activity. Qed.
Print Assumptions activity_only_by_traffic.

(* in particular datagrams from the outside world are not activity: whatever an outside peer keeps sending to
   the exit's ports, no entry of the node - the exit socket included - has its activity stamp advanced; only the
   byte counter of that exit socket moves.  (So an abandoned circuit's exit socket is reclaimed on schedule.) *)
Theorem outside_datagrams_never_refresh : forall st s cid len allowed ls,
  no_activity s (fst (step_at st s (EOutside cid len allowed ls))).
Proof. intros. apply quiet_events_no_activity. reflexivity. Qed.
Print Assumptions outside_datagrams_never_refresh.

Theorem outside_datagram_keeps_exit_stamp : forall st s cid len allowed ls e',
  aget cid (exits (fst (step_at st s (EOutside cid len allowed ls)))) = Some e' ->
  exists e, aget cid (exits s) = Some e /\ la (e_ro e') = la (e_ro e) /\ down (e_ro e') = down (e_ro e) + len.
Proof.
  intros st s cid len allowed ls e'.
  cbn [step_at]. destruct (aget cid (exits s)) as [e|] eqn:Ee; [|simpl; congruence].
  intro H. exists e. split; [reflexivity|].
  assert (G : aget cid (exits (set_exits (aset cid (e_with_ro (ro_down len) e) (exits s)) s)) = Some e').
  { destruct allowed; [|exact H]. rewrite fst_let3, (send_cell_exits st) in H. exact H. }
  simpl in G. rewrite aget_aset, Z.eqb_refl in G. inversion G; subst e'. simpl. auto.
Qed.
Print Assumptions outside_datagram_keeps_exit_stamp.

(* once a node has dropped its entries for an id, encrypted cells that name the id die there: nothing is
   forwarded, answered or changed (this is what ends the traffic downstream of a reclaimed hop) *)
Theorem unknown_id_is_dropped : forall st s src cid early len cr ls,
  aget cid (relays s) = None -> aget cid (circuits s) = None -> aget cid (exits s) = None ->
  recv_cell st s src cid false early len cr ls = (s, []).
Proof. intros st s src cid early len cr ls H1 H2 H3. unfold recv_cell, ahas. rewrite H1, H2, H3. reflexivity. Qed.
Print Assumptions unknown_id_is_dropped.

(* join_limit: the body of on_create changes the exit-socket table only if the node holds fewer than
   max_joined_circuits relay + exit entries and the id is not in use; at the limit it does nothing. *)
Theorem join_limit : forall st s src cid ident eo tg tc nb p ls,
  let s' := fst (run_deferred st s (DCreate src cid ident) eo tg tc nb p ls) in
  exits s' <> exits s ->
  zlen (relays s) + zlen (exits s) < s_max_joined st
  /\ ahas cid (circuits s) = false /\ ahas cid (relays s) = false /\ ahas cid (exits s) = false
  /\ ahas cid (createds s) = false
  /\ aget cid (exits s') = Some (mkExit (ro_new (now s)) src false false []).
Proof.
  intros st s src cid ident eo tg tc nb p ls. simpl. unfold should_join.
  destruct (negb (s_any_flag st)); [simpl; congruence|].
  destruct (ahas cid (createds s)) eqn:E1; [simpl; congruence|].
  destruct (ahas cid (circuits s)) eqn:E2; [simpl; congruence|].
  destruct (ahas cid (relays s)) eqn:E3; [simpl; congruence|].
  destruct (ahas cid (exits s)) eqn:E4; [simpl; congruence|]. simpl orb. cbv iota.
  destruct (s_max_joined st <=? Z.add (zlen (relays s)) (zlen (exits s))) eqn:E; [simpl; congruence|].
  simpl negb. cbv iota. intros _. rewrite fst_let3, send_cell_exits. simpl. rewrite aget_aset, Z.eqb_refl.
  apply Z.leb_gt in E. repeat split; auto.
Qed.
Print Assumptions join_limit.

Theorem join_refused_at_limit : forall st s src cid ident eo tg tc nb p ls,
  s_max_joined st <= zlen (relays s) + zlen (exits s) ->
  run_deferred st s (DCreate src cid ident) eo tg tc nb p ls = (s, []).
Proof.
  intros st s src cid ident eo tg tc nb p ls H. simpl. unfold should_join. apply Z.leb_le in H. rewrite H.
  destruct (negb (s_any_flag st)); [reflexivity|].
  destruct (ahas cid (createds s)); [reflexivity|].
  destruct (ahas cid (circuits s) || ahas cid (relays s) || ahas cid (exits s)); reflexivity.
Qed.
Print Assumptions join_refused_at_limit.

(* relay_early_budget, relay: a cell is forwarded only through the budget test - a flagged cell only while
   the route's counter is below max_relay_early - and every forwarded cell increments the counter
   (which starts at RELAY_EARLY_INIT = 1 for the extend that created the route). *)
Theorem relay_early_budget_relay : forall st s src cid plain early len cr ls nxt,
  aget cid (relays s) = Some nxt ->
  let '(s', o) := recv_cell st s src cid plain early len cr ls in
  o = [] \/
  (o = [OCell (r_peer nxt) (r_next nxt) early 0] /\ plain = false
   /\ (early = true -> r_early nxt < s_max_early st)
   /\ exists nxt', aget cid (relays s') = Some nxt' /\ r_early nxt' = r_early nxt + 1).
Proof. exact relay_forward_l. Qed.
Print Assumptions relay_early_budget_relay.

(* ... and over every event the counter of a live route never goes down (a route either continues one of
   the previous state with a counter at least as large, or was created at this very moment) ... *)
Theorem relay_early_counter_monotone : forall st s e, routes_cont s (fst (step_at st s e)).
Proof. intros st s e. apply step_frame. Qed.
Print Assumptions relay_early_counter_monotone.

(* ... so that during the whole life of a route (any history) the number of relay_early cells forwarded on
   it, added to its initial counter, never exceeds max_relay_early: at most max_relay_early - 1 for a route
   created with RELAY_EARLY_INIT = 1. *)
Theorem relay_early_budget : forall st cid c0 tr s r0,
  aget cid (relays s) = Some r0 -> creation (r_ro r0) = c0 -> route_lives st cid c0 s tr ->
  r_early r0 + fw_count st cid s tr <= Z.max (r_early r0) (s_max_early st).
Proof.
  intros st cid c0 tr. induction tr as [|[t e] tl IH]; intros s r0 H0 Hc Hl; simpl; [lia|].
  simpl in Hl. destruct Hl as (Ht & (r1 & H1 & Hc1) & Hl).
  unfold step in *. simpl fst in *. simpl snd in *.
  destruct (step_frame st (set_now t s) e) as (_ & R & _).
  destruct (step_at st (set_now t s) e) as [s1 o] eqn:Es. simpl in *.
  destruct (R _ _ H1) as [(r & Hr & Hle & Hcr)|Hn]; [|simpl in Hn; lia].
  simpl in Hr. rewrite H0 in Hr. inversion Hr; subst r. clear Hr.
  specialize (IH s1 r1 H1 Hc1 Hl). pose proof (fw_count_nonneg st cid tl s1) as Hnn.
  destruct (fw_flag_cases cid e o) as [E0|(E1 & src & plain & len & cr & ls & Ee & Eo)].
  - rewrite E0. lia.
  - (* a counted event: the budget test was passed and the counter went up *)
    rewrite E1. subst e.
    pose proof (relay_forward_l st (set_now t s) src cid plain true len cr ls r0 H0) as F.
    cbn [step_at] in Es. rewrite Es in F. destruct F as [F|(Fo & Fp & Fe & (nxt' & Hn' & He'))]; [contradiction|].
    rewrite H1 in Hn'. inversion Hn'; subst nxt'. specialize (Fe eq_refl). lia.
Qed.
Print Assumptions relay_early_budget.

(* relay_early_budget, originator: a non-extend cell is flagged only while the circuit's counter is below
   max_relay_early, and every flagged cell increments it. *)
Theorem relay_early_budget_origin : forall st s dst cid mid ls c,
  aget cid (circuits s) = Some c ->
  let '(s', o, _) := send_cell st s dst cid mid ls in
  let early := origin_marks_early mid (c_early c) (s_max_early st) in
  o = [OCell dst cid early mid]
  /\ (early = true -> mid <> MSG_EXTEND -> c_early c < s_max_early st)
  /\ exists c', aget cid (circuits s') = Some c' /\ c_early c' = (if early then c_early c + 1 else c_early c).
Proof.
  intros st s dst cid mid ls c H. unfold send_cell. destruct (take ls) as [n ls']. rewrite H. simpl.
  split; [reflexivity|]. split.
  - unfold origin_marks_early. intros E Hm. apply orb_true_iff in E. destruct E as [E|E]; [|apply Z.ltb_lt; exact E].
    apply Z.eqb_eq in E. destruct (Hm E).
  - eexists. split; [rewrite aget_aset, Z.eqb_refl; reflexivity | reflexivity].
Qed.
Print Assumptions relay_early_budget_origin.

(* the shipped settings meet the hypotheses, and the bounds they give (seconds) *)
Example c09_defaults_ok :
  B_entry (default_settings 1) = 30 /\ build_bound (default_settings 1) 3 = 80
  /\ tries0 (default_settings 1) = 6
  /\ (0 <=? s_max_inactive (default_settings 1)) && (0 <? s_next_hop_timeout (default_settings 1))
     && (s_next_hop_timeout (default_settings 1) <=? s_circuit_timeout (default_settings 1)) = true.
Proof. vm_compute. repeat split; reflexivity. Qed.

(* a route with max_relay_early = 3 receives five flagged cells: two are forwarded (counter 1 -> 3) *)
Example c09_relay_early_enforced :
  let st := mkSettings 100 3600 20 1000000 60 60 10 5 3 5 10 true true in
  let r := mkRelay (mkRo 0 0 0 0) 2 8 true RELAY_EARLY_INIT in
  let b := mkRelay (mkRo 0 0 0 0) 1 7 false RELAY_EARLY_INIT in
  let s := mkNode 0 0 [] [(1, r); (2, b)] [] [] [] [] [] [] in
  let tr := map (fun t => (t, ERecvCell 7 1 false true 100 (COk (MOther 0)) [100])) [1; 2; 3; 4; 5] in
  fw_count st 1 s tr = 2 /\ route_lives st 1 0 s tr.
Proof. vm_compute. repeat split; try reflexivity; eexists; split; reflexivity. Qed.

(* a properly timed history on a relay-to-be: create, extend, created, data relayed, the originator goes
   silent; sweeps every 5 s; the relay routes are condemned at the first sweep after 20 s of silence and
   are gone 5 s later - here at t = 30 - and the history is `timely` *)
Example c09_relay_reclaimed :
  let st := default_settings 1 in
  let tr := [(0, ESweep);
             (1, ERecvCell 7 1 true true 100 (COk (MCreate 11)) []);
             (1, ERun 0 false 0 0 0 np [200]);
             (2, ERecvCell 7 1 false true 100 (COk (MExtend 12)) []);
             (2, ERun 0 true 8 2 13 np [100]);
             (3, ERecvCell 8 2 true false 200 (COk (MCreated 13 VOk np)) [210]);
             (3, ERun 0 false 0 0 0 np []);
             (4, ERecvCell 7 1 false true 120 (COk (MOther 0)) [110]);
             (5, ESweep); (8, EWake 0); (10, ESweep); (15, ESweep); (20, ESweep); (25, ESweep);
             (25, ERun 0 false 0 0 0 np []); (25, ERun 0 false 0 0 0 np []);
             (30, EWake 0); (30, EWake 0); (30, ESweep)] in
  timely st (init_node 0) tr = true
  /\ relays (fst (run st (init_node 0) (firstn 16 tr))) <> []
  /\ relays (fst (run st (init_node 0) tr)) = [] /\ exits (fst (run st (init_node 0) tr)) = [].
Proof. vm_compute. repeat split; try reflexivity. discriminate. Qed.
