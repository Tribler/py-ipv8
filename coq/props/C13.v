(* C13 - introduced peers behind cone NATs become mutually reachable. *)
From Coq Require Import ZArith List Bool Lia ZifyBool.
From IPV8V Require Import lib.PyErr gen.G13_lan model.M13_nat model.M13_scenario
  proofs.P13_proto proofs.P13_nat proofs.P13_sweeplib proofs.P13_scenario.
Import ListNotations.
Open Scope Z_scope.

(* ---------------------------------------------------------------------------------- the introducer *)

(* Whatever the state of a node: if its answer to an introduction request introduces somebody, then the
   same step emits exactly two datagrams - first a puncture-request to the introduced (verified) peer's
   address naming the requester's LAN address (as stated in the request) and the requester's address as
   this node sees it, with the request's identifier; then the response, to the requester's address. *)
Theorem introducer_punctures : forall n src new key dest slan swan sup ident n' outs dst m,
  handle n src (IntroReq new key dest slan swan sup ident) = (n', outs) ->
  In (dst, m) outs -> introduces m = true ->
  exists c st ilan iwan,
    In c (n_peers n') /\
    m = IntroResp st (n_key n) src (n_lan n) (n_wan n) ilan iwan true (p_new c) ident /\
    dst = src /\
    outs = [(p_v4 c, PunctReq st slan src ident); (src, m)].
Proof.
  intros n src new key dest slan swan sup ident n' outs dst m H Hin Hi.
  cbn [handle] in H. destruct (touch n key src) as [p0 known].
  set (p1 := mkPeer (p_key p0) (p_v4 p0) (Some slan) (new || sup || p_new p0)) in *.
  set (n1 := add_verified n p1 known) in *.
  destruct (add_verified_static n p1 known) as (Ek & El & Ew & _ & _). fold n1 in Ek, El, Ew.
  destruct (pick n1 (intro_candidates n1 src)) as [c|] eqn:Ep.
  - destruct (intro_fields n1 c) as [ilan iwan] eqn:Ef. inversion H; subst n' outs; clear H.
    destruct Hin as [Hin|[Hin|[]]]; inversion Hin; subst dst m; [discriminate Hi|].
    exists c, (p_new p1), ilan, iwan. rewrite Ek, El, Ew. repeat split; try reflexivity.
    cbn [set_gt n_peers]. eapply intro_candidates_sub. eapply pick_in. exact Ep.
  - inversion H; subst n' outs; clear H.
    destruct Hin as [Hin|[]]; inversion Hin; subst dst m. cbn in Hi. discriminate Hi.
Qed.
Print Assumptions introducer_punctures.

(* The peer that is asked to puncture is never the requester itself (no other known peer being registered
   under the requester's source address). *)
Theorem introduction_excludes_requester : forall n src new key dest slan swan sup ident n' outs,
  key <> n_key n ->
  (forall q, In q (n_peers n) -> has_addr src q = true -> p_key q = key) ->
  handle n src (IntroReq new key dest slan swan sup ident) = (n', outs) ->
  forall dst st lanw wanw pid, In (dst, PunctReq st lanw wanw pid) outs ->
  exists c, In c (n_peers n') /\ p_v4 c = dst /\ p_key c <> key.
Proof.
  intros n src new key dest slan swan sup ident n' outs Hk Hu H dst st lanw wanw pid Hin.
  cbn [handle] in H. destruct (touch n key src) as [p0 known] eqn:Et.
  destruct (touch_peer n key src p0 known Et) as [Hp0k Hp0a].
  set (p1 := mkPeer (p_key p0) (p_v4 p0) (Some slan) (new || sup || p_new p0)) in *.
  set (n1 := add_verified n p1 known) in *.
  assert (Hpeers : n_peers n1 = put_peer p1 (n_peers n)).
  { apply add_verified_peers. cbn. lia. }
  destruct (pick n1 (intro_candidates n1 src)) as [c0|] eqn:Ep.
  - destruct (intro_fields n1 c0) as [ilan iwan]. inversion H; subst n' outs. clear H.
    destruct Hin as [Hin|[Hin|[]]]; [|discriminate Hin]. inversion Hin.
    exists c0. split; [|split; [reflexivity|]].
    + cbn [set_gt n_peers]. eapply intro_candidates_sub. eapply pick_in. exact Ep.
    + apply pick_in in Ep. unfold intro_candidates in Ep.
      destruct (find (has_addr src) (n_peers n1)) as [other|] eqn:Eo.
      * apply filter_In in Ep. destruct Ep as [_ Hne].
        pose proof (find_some _ _ Eo) as [Hoin Hoa]. rewrite Hpeers in Hoin.
        assert (p_key other = key).
        { destruct (put_peer_inv _ _ _ Hoin) as [E|E]; [rewrite E; cbn; exact Hp0k | apply Hu; assumption]. }
        lia.
      * exfalso. pose proof (find_none _ _ Eo p1) as Hn. rewrite Hpeers in Hn.
        specialize (Hn (in_put_peer _ _)). unfold has_addr, peer_addrs in Hn. cbn in Hn.
        rewrite Hp0a, addr_eqb_refl in Hn. discriminate Hn.
  - inversion H; subst n' outs. destruct Hin as [Hin|[]]. discriminate Hin.
Qed.
Print Assumptions introduction_excludes_requester.

(* Own-address learning, requester side: the requester becomes a verified peer recorded under its source
   address together with the LAN address it stated. *)
Theorem request_verifies_sender : forall n src new key dest slan swan sup ident n' outs,
  key <> n_key n ->
  handle n src (IntroReq new key dest slan swan sup ident) = (n', outs) ->
  exists p, find_peer key (n_peers n') = Some p /\ p_v4 p = src /\ p_lan p = Some slan.
Proof.
  intros n src new key dest slan swan sup ident n' outs Hk H.
  cbn [handle] in H. destruct (touch n key src) as [p0 known] eqn:Et.
  destruct (touch_peer n key src p0 known Et) as [Hp0k Hp0a].
  set (p1 := mkPeer (p_key p0) (p_v4 p0) (Some slan) (new || sup || p_new p0)) in *.
  set (n1 := add_verified n p1 known) in *.
  assert (Hpeers : n_peers n1 = put_peer p1 (n_peers n)) by (apply add_verified_peers; cbn; lia).
  assert (Hf : find_peer key (n_peers n1) = Some p1).
  { rewrite Hpeers. replace key with (p_key p1) by (cbn; exact Hp0k). apply find_put_peer. }
  exists p1. destruct (pick n1 (intro_candidates n1 src)) as [c|].
  - destruct (intro_fields n1 c). inversion H; subst. cbn [set_gt n_peers]. repeat split; auto.
  - inversion H; subst. cbn [set_gt n_peers]. repeat split; auto.
Qed.
Print Assumptions request_verifies_sender.

(* ---------------------------------------------------------------------------------- the requester *)

(* Handling an introduction response: nothing is sent; my_estimated_wan becomes the destination field
   unless that is a LAN-subnet address; the responder becomes a verified peer recorded under its source
   address and stated LAN address; the addresses picked by intro_selection - evaluated with the freshly
   learned WAN address - are registered for walking. *)
Theorem response_effect : forall n src new key dest slan swan ilan iwan sup inew ident n' outs,
  handle n src (IntroResp new key dest slan swan ilan iwan sup inew ident) = (n', outs) ->
  outs = [] /\
  n_wan n' = learned_wan n dest /\ n_lan n' = n_lan n /\
  (forall a, In a (intro_selection (n_lan n) (learned_wan n dest) ilan iwan) -> registered a n') /\
  (key <> n_key n -> exists p, find_peer key (n_peers n') = Some p /\ p_v4 p = src /\ p_lan p = Some slan).
Proof.
  intros n src new key dest slan swan ilan iwan sup inew ident n' outs H.
  cbn [handle] in H. destruct (touch n key src) as [p0 known] eqn:Et.
  destruct (touch_peer n key src p0 known Et) as [Hp0k Hp0a].
  set (p1 := mkPeer (p_key p0) (p_v4 p0) (Some slan) (new || sup || p_new p0)) in *.
  set (n0 := if in_lan_subnets (fst dest) then n else set_wan n dest) in *.
  set (n1 := add_verified n0 p1 known) in *.
  assert (E0 : n_key n0 = n_key n /\ n_lan n0 = n_lan n /\ n_wan n0 = learned_wan n dest /\ n_peers n0 = n_peers n).
  { unfold n0, learned_wan. destruct (in_lan_subnets (fst dest)); cbn; repeat split. }
  destruct E0 as (E0k & E0l & E0w & E0p).
  destruct (add_verified_static n0 p1 known) as (Ek & El & Ew & _ & _). fold n1 in Ek, El, Ew.
  inversion H; subst n' outs; clear H.
  pose proof (fold_discover_static (intro_selection (n_lan n1) (n_wan n1) ilan iwan) n1 key inew) as Hs.
  cbn zeta in Hs. destruct Hs as (Hs1 & Hs2 & Hs3 & Hs4).
  split; [reflexivity|]. split; [rewrite Hs3, Ew, E0w; reflexivity|]. split; [rewrite Hs2, El, E0l; reflexivity|].
  split.
  - intros a Ha. apply fold_discover_registers. left. rewrite El, Ew, E0l, E0w. exact Ha.
  - intros Hk. exists p1. rewrite Hs4.
    assert (Hpeers : n_peers n1 = put_peer p1 (n_peers n0)) by (apply add_verified_peers; cbn; lia).
    rewrite Hpeers. split; [|split; [exact Hp0a | reflexivity]].
    replace key with (p_key p1) by (cbn; exact Hp0k). apply find_put_peer.
Qed.
Print Assumptions response_effect.

(* LAN vs WAN selection: an introduced peer whose WAN address has my WAN ip (same NAT box / same machine)
   is contacted on its LAN address and nowhere else ... *)
Theorem same_site_selects_lan : forall my_lan my_wan ilan iwan,
  ilan <> zero_addr -> fst iwan = fst my_wan -> intro_selection my_lan my_wan ilan iwan = [ilan].
Proof.
  intros my_lan my_wan ilan iwan Hl Hw. unfold intro_selection.
  rewrite Hw, Z.eqb_refl. cbn [negb]. rewrite andb_false_r.
  apply addr_eqb_neq in Hl. rewrite Hl. reflexivity.
Qed.
Print Assumptions same_site_selects_lan.

(* ... and one with another WAN ip on its WAN address (after its LAN address, if one was given). *)
Theorem other_site_selects_wan : forall my_lan my_wan ilan iwan,
  iwan <> zero_addr -> fst iwan <> fst my_wan ->
  intro_selection my_lan my_wan ilan iwan = (if addr_eqb ilan zero_addr then [] else [ilan]) ++ [iwan].
Proof.
  intros my_lan my_wan ilan iwan Hw Hd. unfold intro_selection.
  apply addr_eqb_neq in Hw. rewrite Hw. replace (fst iwan =? fst my_wan) with false by lia.
  cbn [negb andb]. destruct (addr_eqb ilan zero_addr); reflexivity.
Qed.
Print Assumptions other_site_selects_wan.

(* a registered address is among the next contact attempts unless it already belongs to a verified peer *)
Theorem registered_is_walked : forall n a,
  registered a n -> existsb (has_addr a) (n_peers n) = false -> In a (walkable n).
Proof.
  intros n a (k & b & Hin) Hp. unfold walkable. apply addr_sort_in.
  apply in_map_iff. exists (a, (Some k, b)). split; [reflexivity|].
  apply filter_In. split; [exact Hin|]. cbn. rewrite Hp. reflexivity.
Qed.
Print Assumptions registered_is_walked.

(* ---------------------------------------------------------------------------------- the introduced peer *)

(* Puncture target selection: the puncture goes to the walker's WAN address, or - when that has my own WAN
   ip - to the walker's LAN address; it is sent in the same step and carries the identifier. *)
Theorem puncture_goes_to_walker : forall n src new lanw wanw ident,
  handle n src (PunctReq new lanw wanw ident) =
  (set_gt n (n_gt n + 1),
   [(if fst wanw =? fst (n_wan n) then lanw else wanw, Punct new (n_key n) (n_lan n) wanw ident)]).
Proof. intros. reflexivity. Qed.
Print Assumptions puncture_goes_to_walker.

(* the translated LAN subnet table is RFC 1918 *)
Theorem lan_subnets_rfc1918 : forall ip, in_lan_subnets ip = true <-> rfc1918 ip.
Proof. exact lan_subnets_rfc1918_l. Qed.
Print Assumptions lan_subnets_rfc1918.

(* ---------------------------------------------------------------------------------- the NAT network *)

(* every send keeps the network well formed *)
Theorem route_keeps_wf : forall n hid dst n' oc, net_wf n -> route n hid dst = (n', oc) -> net_wf n'.
Proof. exact route_wf. Qed.
Print Assumptions route_keeps_wf.

(* The puncture lemma, for every well-formed network and each of the three cone disciplines: once a host
   behind a NAT has sent a datagram to a public address dst, it has an external address, and datagrams from
   exactly dst to that address are delivered to the host - at once and after any further traffic. *)
Theorem punctured_pair_passes : forall n hid h s dst n1 oc,
  net_wf n -> find_host n hid = Some h -> find_site n (h_site h) = Some s -> is_open (s_type s) = false ->
  find (by_lan (s_id s) dst) (hosts n) = None -> in_lan_subnets (fst dst) = false -> fst dst <> s_pub s ->
  route n hid dst = (n1, oc) ->
  exists ext,
    external n1 hid = Some (s_pub s, ext) /\
    forall later, internet (routes n1 later) dst (s_pub s, ext) = Deliver hid dst.
Proof.
  intros n hid h s dst n1 oc W Hh Hs Ho Hl Hp Hd R.
  rewrite (route_outbound n hid h s dst Hh Hs Ho Hl Hp) in R. inversion R; subst n1; clear R H1.
  set (s' := site_after s (h_lan h) dst). set (ext := ext_after s (h_lan h)).
  pose proof (find_some _ _ Hs) as [Hsin Hsid]. pose proof (find_some _ _ Hh) as [Hhin Hhid].
  pose proof (site_after_extends s (h_lan h) dst) as E. fold s' in E.
  assert (Ws' : site_wf s') by (apply site_after_wf; exact (wf_sites n W s Hsin)).
  assert (W1 : net_wf (set_site n s')) by (apply set_site_wf with (s := s); [assumption | assumption | apply extends_ident; assumption | assumption]).
  assert (Hu : upd s' s = s') by (unfold upd; rewrite (ex_id _ _ E), Z.eqb_refl; reflexivity).
  exists ext. split.
  - exact (external_after_outbound n hid h s dst W Hh Hs Ho).
  - intros later. apply pinhole_delivers; [apply routes_wf; exact W1|]. apply pinhole_stable; [exact W1|].
    exists s', h. rewrite set_site_sites, set_site_hosts.
    split; [apply in_map_iff; exists s; split; [exact Hu | exact Hsin]|].
    rewrite (ex_type _ _ E), (ex_pub _ _ E), (ex_id _ _ E).
    repeat (split; [first [assumption | reflexivity | lia]|]).
    split; [apply site_after_maps|]. split; [exact Hd|].
    pose proof (site_after_filt s (h_lan h) dst) as F. fold s' ext in F.
    destruct (s_type s); cbn [filter_ok]; auto.
    eapply existsb_impl; [|exact F]. intros [xp xa] Hx. cbn [fst snd] in *.
    apply andb_true_iff in Hx. destruct Hx as [H1 H2].
    apply addr_eqb_eq in H2. subst xa. apply andb_true_iff. split; [exact H1 | apply Z.eqb_refl].
Qed.
Print Assumptions punctured_pair_passes.

(* endpoint-independent mapping: the external address of a host never changes once allocated *)
Theorem external_address_stable : forall n hid x h d n' oc,
  net_wf n -> external n hid = Some x -> route n h d = (n', oc) -> external n' hid = Some x.
Proof.
  intros n hid x h0 d n' oc W Hx R.
  destruct (route_extends n h0 d n' oc W R) as [Hhosts [->|(s & s' & Hs & E & Ws & ->)]]; [exact Hx|].
  unfold external in *. unfold find_host in *. rewrite set_site_hosts.
  destruct (find (fun h => h_id h =? hid) (hosts n)) as [h|]; [|discriminate].
  rewrite (find_site_set n s s' _ W Hs (extends_ident _ _ E)).
  destruct (find_site n (h_site h)) as [t|] eqn:Ft; [|discriminate]. cbn [option_map].
  pose proof (find_some _ _ Ft) as [Htin _].
  destruct (upd_keeps n s s' t W Hs E Htin) as (_ & Et & Ep & Ex). rewrite Et, Ep.
  destruct (is_open (s_type t)); [exact Hx|].
  destruct (ex_maps _ _ Ex) as (more & ->).
  unfold map_lookup in *. rewrite lib.Lists.find_app.
  destruct (find (fun e => addr_eqb (fst e) (h_lan h)) (s_maps t)); [exact Hx | discriminate].
Qed.
Print Assumptions external_address_stable.

(* the simulated restricted NATs really filter: what was not solicited is dropped *)
Theorem unsolicited_is_filtered : forall n s h src ext,
  net_wf n -> In s (sites n) -> In h (hosts n) -> h_site h = s_id s -> In (h_lan h, ext) (s_maps s) ->
  fst src <> s_pub s ->
  (s_type s = AddrRestricted /\ (forall e, In e (s_filt s) -> fst e = ext -> fst (snd e) <> fst src)
   \/ s_type s = PortRestricted /\ (forall e, In e (s_filt s) -> fst e = ext -> snd e <> src)) ->
  internet n src (s_pub s, ext) = Drop Filtered.
Proof.
  intros n s h src ext W Hs Hh Hsite Hmap Hsrc Ht.
  assert (Ho : is_open (s_type s) = false) by (destruct Ht as [[-> _]|[-> _]]; reflexivity).
  rewrite (internet_inbound n s h src ext W Hs Ho Hh Hsite Hmap Hsrc).
  replace (filter_ok (s_type s) (s_filt s) ext src) with false; [reflexivity|].
  symmetry. destruct Ht as [[-> Hf]|[-> Hf]]; cbn [filter_ok].
  - match goal with |- ?X = false => destruct X eqn:Ex; [|reflexivity] end. apply existsb_exists in Ex.
    destruct Ex as (e & Hin & He). apply andb_true_iff in He. destruct He as [H1 H2].
    apply Z.eqb_eq in H1. apply Z.eqb_eq in H2. exfalso. exact (Hf e Hin H1 H2).
  - match goal with |- ?X = false => destruct X eqn:Ex; [|reflexivity] end. apply existsb_exists in Ex.
    destruct Ex as (e & Hin & He). apply andb_true_iff in He. destruct He as [H1 H2].
    apply addr_eqb_eq in H2. apply Z.eqb_eq in H1. exfalso. exact (Hf e Hin H1 H2).
Qed.
Print Assumptions unsolicited_is_filtered.

(* hosts of one NAT site reach each other directly, LAN address to LAN address *)
Theorem lan_delivery : forall n hid h s h2,
  net_wf n -> find_host n hid = Some h -> find_site n (h_site h) = Some s -> is_open (s_type s) = false ->
  In h2 (hosts n) -> h_site h2 = h_site h ->
  route n hid (h_lan h2) = (n, Deliver (h_id h2) (h_lan h)).
Proof.
  intros n hid h s h2 W Hh Hs Ho Hin Hsite. unfold route. rewrite Hh, Hs, Ho.
  pose proof (find_some _ _ Hs) as [_ Hsid].
  change (fun h0 : host => (h_site h0 =? s_id s) && addr_eqb (h_lan h0) (h_lan h2)) with (by_lan (s_id s) (h_lan h2)).
  replace (s_id s) with (h_site h2) by lia. rewrite (wf_host_lan n W h2 Hin). reflexivity.
Qed.
Print Assumptions lan_delivery.

(* ---------------------------------------------------------------------------------- the scenario *)

(* For every NAT type of the requester's site and of the introduced peer's site (4 x 4), placement (own
   sites / the same site - two public hosts count as own sites, two nodes on one public machine as the same
   site), way the introducer B got to know the introduced peer (it walked to B / the tracker introduced it
   and B walked to it), old- and new-style first request of the introduced peer, old- and new-style request
   of the requester, k = 1..5 candidates at B (the other k-1 of rotating types, alternating placement and
   acquisition), every position of the introduced peer among them; and for k in {1, 3} also every
   combination of: the introduced peer has numerically the requester's LAN address behind its own NAT
   (alias), the requester talked to the tracker before (warm), the introduced peer lost its NAT mapping
   and renewed it from a new external address before the requester turned up (rebound)   [in_sweep] -
   on the network that enforces mapping and filtering:  B's response introduces candidate `pos`, and B's
   puncture-request names the requester's LAN/WAN pair and reaches it; it punctures towards the requester;
   one of the requester's next contact attempts - sent to an address B handed out - reaches it; its answer
   reaches the requester; both end up in each other's get_peers(); and peers of one site talk LAN address to
   LAN address (all_true spells these clauses, see M13_scenario.verdict). *)
Theorem cone_reachability : forall tA tC same resp newC alias rebound styleA warm k pos,
  in_sweep alias warm rebound k -> (pos < k)%nat ->
  let g := cfg_for tA (mkCand tC same resp newC alias rebound) styleA warm k pos in
  let o := run_scn g in
  introduced_peer o = Some (cand_id pos) /\
  verdict_of g o = all_true /\
  In (cand_id pos) (peers_of o ID_A) /\ In ID_A (peers_of o (cand_id pos)).
Proof.
  intros tA tC same resp newC alias rebound styleA warm k pos Hk Hp g o.
  destruct (judge_spec g o same pos false (scn_check_true tA tC same resp newC alias rebound styleA warm k pos Hk Hp))
    as (H1 & _ & _ & H2 & H3 & H4 & _).
  auto.
Qed.
Print Assumptions cone_reachability.

(* If requester and introduced peer share a site, the requester makes exactly one contact attempt at the
   addresses B handed out: to the peer's LAN address, delivered with the requester's LAN address as source. *)
Theorem same_nat_uses_lan : forall tA tC resp newC alias rebound styleA warm k pos,
  in_sweep alias warm rebound k -> (pos < k)%nat ->
  let g := cfg_for tA (mkCand tC true resp newC alias rebound) styleA warm k pos in
  contacts (run_scn g) = [(host_lan g (cand_id pos), Deliver (cand_id pos) (host_lan g ID_A))].
Proof.
  intros tA tC resp newC alias rebound styleA warm k pos Hk Hp g.
  apply (judge_spec g (run_scn g) true pos false (scn_check_true tA tC true resp newC alias rebound styleA warm k pos Hk Hp)).
  reflexivity.
Qed.
Print Assumptions same_nat_uses_lan.

(* every scenario network is well formed and stays so under any scripted history, so the general NAT
   theorems above apply to every state these runs pass through *)
Theorem scenario_nets_wf : forall tA tC same resp newC alias rebound styleA warm k pos ops,
  in_sweep alias warm rebound k -> (pos < k)%nat ->
  let g := cfg_for tA (mkCand tC same resp newC alias rebound) styleA warm k pos in
  net_wf (w_net (run_ops (mk_world g) ops)).
Proof.
  intros tA tC same resp newC alias rebound styleA warm k pos ops Hk Hp g. apply run_ops_wf, net_wfb_sound.
  apply (judge_spec g (run_scn g) same pos false (scn_check_true tA tC same resp newC alias rebound styleA warm k pos Hk Hp)).
Qed.
Print Assumptions scenario_nets_wf.

(* ---------------------------------------------------------------------------------- non-vacuity *)
Definition g_pr : cfg := cfg_for PortRestricted (mkCand PortRestricted false false false false false) false false 1 0.

(* both behind port-restricted NATs: the puncture itself is filtered at the requester's NAT, the request
   then passes the introduced peer's NAT *)
Example c13_filtering_at_work :
  existsb (fun e => match e with Ev 3 _ (Punct _ _ _ _ _) (Drop Filtered) => true | _ => false end)
          (o_events (run_scn g_pr)) = true
  /\ verdict_of g_pr (run_scn g_pr) = all_true.
Proof. vm_compute. split; reflexivity. Qed.

(* without the introduction (no puncture) the same request is dropped by the introduced peer's NAT *)
Example c13_unpunctured_is_dropped :
  existsb (fun e => match e with Ev 2 _ (IntroReq _ _ _ _ _ _ _) (Drop Filtered) => true | _ => false end)
          (o_events (run_case (g_pr, [OpWalk 3 ADDR_B (Some false); OpPump; OpWalk 2 ADDR_B (Some false);
                                      OpWalk 2 (ip4 5 0 0 10, 21000) (Some false); OpPump]))) = true.
Proof. vm_compute. reflexivity. Qed.

(* same NAT, introduced peer known to B only from its response: it is reached on its LAN address *)
Example c13_same_site_by_response :
  let g := cfg_for FullCone (mkCand FullCone true true false false false) false false 1 0 in
  contacts (run_scn g) = [((ip4 192 168 1 13, 8003), Deliver 3 (ip4 192 168 1 12, 8002))].
Proof. vm_compute. reflexivity. Qed.

(* the variations at work: the introduced peer (AddrRestricted NAT) has the requester's own LAN address, lost
   its mapping (so B first knew it under 5.0.0.10:21000, then 21001) and the requester knows the tracker *)
Example c13_variations :
  let g := cfg_for PortRestricted (mkCand AddrRestricted false false true true true) true true 1 0 in
  host_lan g 3 = host_lan g ID_A
  /\ contacts (run_scn g) = [((ip4 5 0 0 10, 21001), Deliver 3 (ip4 5 0 0 1, 20100));
                              ((ip4 192 168 1 12, 8002), Deliver 2 (ip4 192 168 1 12, 8002))]
  /\ verdict_of g (run_scn g) = all_true.
Proof. vm_compute. repeat split; reflexivity. Qed.

(* the hypotheses of the NAT theorems are met by a scenario network *)
Example c13_net_wf : net_wfb (mk_net g_pr) = true.
Proof. vm_compute. reflexivity. Qed.
