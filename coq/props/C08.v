(* C08 - circuit hops are only keyed with the peer the originator chose.
   C : crypto bundles the external primitives (X25519 [dh]/[pub], the crypto_auth MAC [mac]/[tag_eqb], HKDF
   [kdf], the session-key encryption of the candidate list [cenc_of]/[cdec]); what is assumed of them is a
   hypothesis of the theorem that needs it, and [Toy] (model/M08_toy.v) satisfies all of them. *)
From Coq Require Import ZArith List Bool.
From IPV8V Require Import lib.PyErr model.M08_handshake model.M08_toy spec.S08_knowledge proofs.P08_base proofs.P08_origin
  proofs.P08_relay proofs.P08_honest proofs.P08_inv proofs.P08_toy.
Import ListNotations.
Open Scope Z_scope.

(* After an honest create exchange (the originator waits for B; B handles the create; the originator handles
   B's created): exactly one hop is appended, it names B, and its keys are the keys B holds for that circuit. *)
Theorem honest_create_agree : forall C,
  (forall a b, dh C a (pub C b) = dh C b (pub C a)) -> (forall a, tag_eqb C a a = true) ->
  forall O cid B O' B', wf_node C B -> create_exchange C O cid B O' B' ->
  exists hs h, hops_of O cid = Some hs /\ hops_of O' cid = Some (hs ++ [h]) /\ agree C h (B', cid).
Proof. exact create_agree_l. Qed.
Print Assumptions honest_create_agree.

(* After an honest extend exchange through the last node R of a path of any length (extend -> create ->
   created -> extended): one hop is appended behind the existing ones, it names B, both ends hold the same
   keys, and R still holds its own keys for the circuit. *)
Theorem honest_extend_agree : forall C,
  (forall a b, dh C a (pub C b) = dh C b (pub C a)) -> (forall a, tag_eqb C a a = true) ->
  forall O cid R rc B O' R' B' tc, wf_node C B -> extend_exchange C O cid R rc B O' R' B' tc ->
  exists hs h, hops_of O cid = Some hs /\ hops_of O' cid = Some (hs ++ [h]) /\ agree C h (B', tc)
    /\ node_keys R' rc = node_keys R rc /\ n_pkbin R' = n_pkbin R.
Proof. exact extend_agree_l. Qed.
Print Assumptions honest_extend_agree.

(* By induction, for every number of hops: a circuit built by honest exchanges lists exactly the selected
   nodes, in order, and every hop's keys equal the keys the corresponding node holds. *)
Theorem honest_agree : forall C,
  (forall a b, dh C a (pub C b) = dh C b (pub C a)) -> (forall a, tag_eqb C a a = true) ->
  forall cid O path, built C cid O path ->
  exists hs, hops_of O cid = Some hs /\ Forall2 (agree C) hs path.
Proof. exact honest_agree_l. Qed.
Print Assumptions honest_agree.

(* Selecting a peer records it: the create / extend that leaves the originator names the selected peer (for
   a create: is addressed to it) and carries pub x; afterwards the circuit's unverified hop is that peer with
   secret x - and accept_implies shows that an accepted hop is exactly the unverified hop's peer. *)
Theorem create_records_selection : forall C (n : @node C) cid cands tries o a0,
  In a0 (acts (send_initial_create n cid cands tries o)) ->
  exists first x, a0 = Send (p_addr first) (MCreate cid (o_pid o) (n_pkbin n) (pub C x)) /\ x = sk_of C (o_x o)
    /\ hd_error cands = Some first
    /\ exists c', aget cid (n_circ (st (send_initial_create n cid cands tries o))) = Some c'
       /\ c_unv c' = Some (mkHop first None (Some x)).
Proof.
  intros C n cid cands tries o.
  destruct (sic_cases n cid cands tries o) as [E|[E|(c & f & alt & G & HD & E)]]; rewrite E; intros a0 [].
  - subst a0. do 2 eexists. split; [reflexivity|]. split; [reflexivity|]. split; [exact HD|].
    eexists. split; [apply aget_aset_same|]. reflexivity.
  - contradiction.
Qed.
Print Assumptions create_records_selection.

Theorem extend_records_selection : forall C (n : @node C) cid cands tries o a0,
  In a0 (acts (send_extend n cid cands tries o)) ->
  exists t x addr fa, a0 = Send fa (MExtend cid (o_pid o) t (pub C x) addr) /\ x = sk_of C (o_x o)
    /\ exists c', aget cid (n_circ (st (send_extend n cid cands tries o))) = Some c'
       /\ c_unv c' = Some (mkHop (mkPeer t 0) None (Some x)).
Proof.
  intros C n cid cands tries o.
  destruct (sext_cases n cid cands tries o) as [[e E]|[E|(c & t & alt & fa & ad & G & E)]]; rewrite E; intros a0 [].
  - subst a0. do 4 eexists. split; [reflexivity|]. split; [reflexivity|].
    eexists. split; [apply aget_aset_same|]. reflexivity.
  - contradiction.
Qed.
Print Assumptions extend_records_selection.

(* The peer an extend selects is ONE peer: the key it names and the address it carries (when it carries one)
   are key and address of the same peer - the circuit's required exit, or the exit that random.choice picked
   when the hop offered no usable candidate. *)
Theorem send_extend_names_one_peer : forall C (n : @node C) cid cands tries o fa k i t X addr,
  In (Send fa (MExtend k i t X addr)) (acts (send_extend n cid cands tries o)) ->
  addr = 0 \/
  exists p, t = p_key p /\ addr = p_addr p
    /\ (o_fallback o = Some p \/ exists c, aget cid (n_circ n) = Some c /\ c_reqexit c = Some p).
Proof. exact (@sext_one_peer). Qed.
Print Assumptions send_extend_names_one_peer.

(* Whatever message a node handles, in whatever state: if the hop list of circuit cid differs afterwards, the
   message was a created/extended for cid (and, for a created, no relay request carries its identifier), a
   retry cache for cid was outstanding and its packet identifier equals the message's, the circuit had an
   unverified hop u with ephemeral secret x, the MAC verifies under dh x Y, and exactly one hop was appended:
   u's peer, keyed with kdf (dh x Y) (dh x (static public key of u's peer)). *)
Theorem accept_implies : forall C n src m o cid hs hs',
  hops_of n cid = Some hs -> hops_of (st (handle n src m o)) cid = Some hs' -> hs' <> hs ->
  exists i Y au ce r h,
    answer_of C m = Some (cid, i, Y, au, ce) /\ not_relay_case C n m
    /\ aget cid (n_retry n) = Some r /\ r_pid r = i
    /\ accepts C n cid Y au h /\ hs' = hs ++ [h].
Proof. exact accept_implies_l. Qed.
Print Assumptions accept_implies.

(* In every state reachable by any history of events (messages of any kind and content, timeouts, retries,
   removals) every hop of every circuit is keyed with kdf (dh x Y) (dh x (static key of the peer it names)),
   x being the ephemeral secret stored in that hop. *)
Theorem hops_keyed_with_named_peer : forall C evs n, keyed C n -> keyed C (run n evs).
Proof. exact run_keyed_l. Qed.
Print Assumptions hops_keyed_with_named_peer.

Theorem fresh_node_keyed : forall C (n : @node C), n_circ n = [] -> keyed C n.
Proof. intros C n E k hs H. unfold hops_of in H. rewrite E in H. discriminate. Qed.
Print Assumptions fresh_node_keyed.

(* Hence (ideal X25519 / HKDF: a dh output is computable only with one of the two secrets, kdf output only from
   both inputs): whoever can compute the keys of a hop holds the originator's ephemeral secret of that hop or
   the private key of the peer the hop names. *)
Theorem accepted_key_secret : forall C (agent : Type) (holds : agent -> SK C -> Prop)
    (can_sec : agent -> SEC C -> Prop) (can_key : agent -> KEYS C -> Prop),
  (forall A a P s, dh C a P = Some s -> can_sec A s -> holds A a \/ exists b, P = pub C b /\ holds A b) ->
  (forall A s1 s2, can_key A (kdf C s1 s2) -> can_sec A s1 /\ can_sec A s2) ->
  (forall a b, pub C a = pub C b -> a = b) ->
  forall n k hs h ks b A,
  keyed C n -> hops_of n k = Some hs -> In h hs -> h_keys h = Some ks ->
  cpk C (p_key (h_peer h)) = pub C b -> can_key A ks ->
  (exists x, h_dh h = Some x /\ holds A x) \/ holds A b.
Proof.
  intros C agent holds can_sec can_key dh_hidden kdf_hidden pub_inj n k hs h ks b A K H I KS B CK.
  pose proof (K k hs H) as F. rewrite Forall_forall in F. destruct (F h I) as (x & Y & s1 & s2 & X & D1 & D2 & E).
  rewrite E in KS. inversion KS; subst ks.
  apply kdf_hidden in CK. destruct CK as [_ C2].
  destruct (dh_hidden A x _ s2 D2 C2) as [HX|(b' & PB & HB)].
  - left. exists x. auto.
  - right. rewrite B in PB. apply pub_inj in PB. subst. auto.
Qed.
Print Assumptions accepted_key_secret.

(* Wrong identifier, or no retry cache for that circuit id (another circuit, an answer after the timeout):
   nothing at all happens. *)
Theorem unmatched_answer_noop : forall C n src m o cid i Y au ce,
  answer_of C m = Some (cid, i, Y, au, ce) -> not_relay_case C n m ->
  (forall r, aget cid (n_retry n) = Some r -> r_pid r <> i) ->
  handle n src m o = (n, [], None).
Proof.
  intros C n src m o cid i Y au ce A NR H. rewrite (answer_dispatch C n src m o cid i Y au ce A NR).
  destruct (aget cid (n_retry n)) as [r|] eqn:R; auto.
  destruct (r_pid r =? i) eqn:P; auto. apply Z.eqb_eq in P. destruct (H r eq_refl P).
Qed.
Print Assumptions unmatched_answer_noop.

(* Matching identifier, altered key or auth so that the MAC does not verify: CryptoException, state unchanged. *)
Theorem bad_auth_noop : forall C n src m o cid i Y au ce r c u x s1 s2,
  answer_of C m = Some (cid, i, Y, au, ce) -> not_relay_case C n m ->
  aget cid (n_retry n) = Some r -> r_pid r = i ->
  aget cid (n_circ n) = Some c -> c_unv c = Some u -> h_dh u = Some x ->
  dh C x Y = Some s1 -> dh C x (cpk C (p_key (h_peer u))) = Some s2 ->
  tag_eqb C au (mac C s1 Y) = false ->
  handle n src m o = (n, [], Some CryptoError).
Proof.
  intros C n src m o cid i Y au ce r c u x s1 s2 A NR R P G U X D1 D2 T.
  rewrite (answer_dispatch C n src m o cid i Y au ce A NR), R.
  apply Z.eqb_eq in P. rewrite P. unfold ours. rewrite G, U, X, D1, D2, T. reflexivity.
Qed.
Print Assumptions bad_auth_noop.

(* Matching identifier, malformed key material (X25519 raises ValueError: wrong length, rejected point): the
   answer is ignored like any other unauthentic answer - nothing changes, the retry cache stays (fix 48d1509). *)
Theorem malformed_key_noop : forall C n src m o cid i Y au ce r c u x,
  answer_of C m = Some (cid, i, Y, au, ce) -> not_relay_case C n m ->
  aget cid (n_retry n) = Some r -> r_pid r = i ->
  aget cid (n_circ n) = Some c -> c_unv c = Some u -> h_dh u = Some x ->
  dh C x Y = None ->
  handle n src m o = (n, [], None).
Proof.
  intros C n src m o cid i Y au ce r c u x A NR R P G U X D1.
  rewrite (answer_dispatch C n src m o cid i Y au ce A NR), R.
  apply Z.eqb_eq in P. rewrite P. unfold ours. rewrite G, U, X, D1. reflexivity.
Qed.
Print Assumptions malformed_key_noop.

(* Every created / extended is either ACCEPTED - it matches the outstanding retry cache and verifies against the
   unverified hop - or it changes nothing at all: the circuit entry, its unverified hop, the retry cache and every
   other table stay as they were and nothing is sent (wrong identifier, no cache, failed authentication, malformed
   key material, no unverified hop). *)
Theorem unaccepted_answer_changes_nothing : forall C (n : @node C) src m o cid i Y au ce,
  answer_of C m = Some (cid, i, Y, au, ce) -> not_relay_case C n m ->
  (exists e, handle n src m o = (n, [], e))
  \/ (exists r h, aget cid (n_retry n) = Some r /\ r_pid r = i /\ accepts C n cid Y au h).
Proof.
  intros C n src m o cid i Y au ce A NR. rewrite (answer_dispatch C n src m o cid i Y au ce A NR).
  destruct (aget cid (n_retry n)) as [r|] eqn:R; [|left; eexists; reflexivity].
  destruct (r_pid r =? i) eqn:P; [|left; eexists; reflexivity]. apply Z.eqb_eq in P.
  destruct (ours_spec C n cid Y au ce o) as [[E _]|(c & h & _ & AC & _)]; [left; exact E|].
  right. exists r, h. auto.
Qed.
Print Assumptions unaccepted_answer_changes_nothing.

(* No unverified hop (the answer has been consumed already): nothing happens. *)
Theorem no_unverified_noop : forall C n src m o cid i Y au ce c,
  answer_of C m = Some (cid, i, Y, au, ce) -> not_relay_case C n m ->
  aget cid (n_circ n) = Some c -> c_unv c = None ->
  handle n src m o = (n, [], None).
Proof.
  intros C n src m o cid i Y au ce c A NR G U. rewrite (answer_dispatch C n src m o cid i Y au ce A NR).
  destruct (aget cid (n_retry n)) as [r|]; auto. destruct (r_pid r =? i); auto.
  unfold ours. rewrite G, U. reflexivity.
Qed.
Print Assumptions no_unverified_noop.

(* An answer for circuit cid leaves every other circuit of the node exactly as it was. *)
Theorem answer_touches_only_its_circuit : forall C n src m o cid i Y au ce,
  answer_of C m = Some (cid, i, Y, au, ce) ->
  forall k, k <> cid -> aget k (n_circ (st (handle n src m o))) = aget k (n_circ n).
Proof.
  intros C n src m o cid i Y au ce A k K.
  destruct (answer_cases C n src m o cid i Y au ce A) as [(q & _ & _ & -> & _)|[_ [->|(r & _ & _ & ->)]]];
    [reflexivity|reflexivity|apply ours_only; exact K].
Qed.
Print Assumptions answer_touches_only_its_circuit.

(* An answer whose MAC was made for another ephemeral secret (an earlier attempt before the retry, another
   circuit, an earlier hop) is never accepted, whatever identifier it carries (ideal MAC: equal tags have equal
   keys; X25519 with different secrets on the same point gives different results). *)
Theorem stale_answer_rejected : forall C,
  (forall a b, tag_eqb C a b = true -> a = b) ->
  (forall s p s' p', mac C s p = mac C s' p' -> s = s' /\ p = p') ->
  (forall a a' P s, dh C a P = Some s -> dh C a' P = Some s -> a = a') ->
  forall n src m o cid i Y au ce c u x x_old s_old,
  answer_of C m = Some (cid, i, Y, au, ce) ->
  aget cid (n_circ n) = Some c -> c_unv c = Some u -> h_dh u = Some x ->
  dh C x_old Y = Some s_old -> au = mac C s_old Y -> x_old <> x ->
  same_hops n (st (handle n src m o)).
Proof.
  intros C tag_eqb_true mac_inj dh_inj n src m o cid i Y au ce c u x x_old s_old A G U X DO AU NE k.
  destruct (handle_hops C n src m o k) as [E|(hs0 & i' & Y' & au' & ce' & r & h & _ & A2 & _ & _ & _ & AC & _)]; auto.
  exfalso. rewrite A in A2. inversion A2; subst.
  destruct AC as (c' & u' & x' & s1 & s2 & G' & U' & X' & D1 & _ & T & _).
  assert (x' = x) by congruence. subst x'.
  apply tag_eqb_true in T. apply mac_inj in T. destruct T as [T _]. subst s1.
  apply NE. eapply dh_inj; eauto.
Qed.
Print Assumptions stale_answer_rejected.

(* A duplicate of an accepted answer changes no hop list (the next ephemeral secret being fresh). *)
Theorem duplicate_answer_rejected : forall C,
  (forall a b, tag_eqb C a b = true -> a = b) ->
  (forall s p s' p', mac C s p = mac C s' p' -> s = s' /\ p = p') ->
  (forall a a' P s, dh C a P = Some s -> dh C a' P = Some s -> a = a') ->
  forall n src src' m o o' cid hs hs',
  hops_of n cid = Some hs -> hops_of (st (handle n src m o)) cid = Some hs' -> hs' <> hs ->
  (forall c u x, aget cid (n_circ n) = Some c -> c_unv c = Some u -> h_dh u = Some x -> sk_of C (o_x o) <> x) ->
  same_hops (st (handle n src m o)) (st (handle (st (handle n src m o)) src' m o')).
Proof. exact duplicate_rejected_l. Qed.
Print Assumptions duplicate_answer_rejected.

(* No history of events - answers of any kind, duplicated, reordered, late, timeouts, retries, removal
   tasks - modifies an established hop: until the circuit object is purged, its earlier hop list is a prefix
   of the later one, so position i still holds the same peer and the same keys. *)
Theorem established_hops_never_change : forall C evs (n : @node C) k hs,
  (forall e, In e evs -> ~ purges C e k) -> hops_of n k = Some hs ->
  exists hs', hops_of (run n evs) k = Some hs' /\ prefix hs hs'.
Proof. exact run_grows_l. Qed.
Print Assumptions established_hops_never_change.

Theorem established_hop_fixed : forall C evs (n : @node C) k hs i h,
  (forall e, In e evs -> ~ purges C e k) -> hops_of n k = Some hs -> nth_error hs i = Some h ->
  exists hs', hops_of (run n evs) k = Some hs' /\ nth_error hs' i = Some h.
Proof.
  intros C evs n k hs i h NP H N. destruct (run_grows_l C evs n k hs NP H) as (hs' & H' & [t ->]).
  exists (hs ++ t). split; auto. rewrite nth_error_app1; auto. apply nth_error_Some. congruence.
Qed.
Print Assumptions established_hop_fixed.

(* In every reachable state a retry cache belongs to a circuit that is not closing, and a retry cache whose
   retry function is send_initial_create belongs to a circuit without hops (the accepted hop's cache is
   consumed at once, also when the candidate list is unreadable: fix 233b9c9). *)
Theorem retry_cache_consistent : forall C evs (n : @node C), retry_inv C n -> retry_inv C (run n evs).
Proof. intros C evs. induction evs as [|e tl IH]; intros n I; cbn [run]; auto. apply IH. apply step_inv. exact I. Qed.
Print Assumptions retry_cache_consistent.

Theorem retry_cache_consistent_init : forall C (n : @node C), n_retry n = [] -> retry_inv C n.
Proof. intros C n E k r c R. rewrite E in R. discriminate. Qed.
Print Assumptions retry_cache_consistent_init.

(* Hence the create that a timed-out retry cache sends is always the handshake of the FIRST hop: the circuit
   has no hops then, so a peer selected as first hop can never be appended behind an established hop. *)
Theorem retried_create_is_first_hop : forall C (n : @node C) cid o a k i pkb X,
  retry_inv C n -> In (Send a (MCreate k i pkb X)) (acts (step n (EvTimeout cid o))) ->
  k = cid /\ hops_of n cid = Some [].
Proof.
  intros C n cid o a k i pkb X I. cbn [step].
  destruct (retry_timeout_cases n cid o) as [E|(rt & R & [E|[E|(c & G & _ & [[RI E]|[_ E]])]])]; rewrite E;
    try (intros []).
  - intros K. destruct (create_records_selection _ _ _ _ _ _ _ K) as (f & x & K' & _). inversion K'; subst k. split; [reflexivity|].
    unfold hops_of. rewrite G, (proj2 (I cid rt c R G) RI). reflexivity.
  - intros K. apply extend_records_selection in K. destruct K as (t & x & ad & fa & K & _). discriminate.
Qed.
Print Assumptions retried_create_is_first_hop.

(* An extended leaves a node only as the translation of a created whose identifier names a pending
   CreateRequestCache entry; the entry (written by on_extend) fixes the circuit id, the identifier and the
   addressee of the extended; key, auth and candidate list are copied; the entry is consumed. *)
Theorem relay_pairing : forall C (n : @node C) e a f j Y au ce,
  In (Send a (MExtended f j Y au ce)) (acts (step n e)) ->
  exists src cid i o q,
    e = EvMsg src (MCreated cid i Y au ce) o
    /\ aget i (n_creq n) = Some q /\ f = q_from q /\ j = q_ident q /\ a = p_addr (q_peer q)
    /\ aget i (n_creq (st (step n e))) = None.
Proof. exact extended_only_for_pending_l. Qed.
Print Assumptions relay_pairing.

(* Entries appear only through on_extend and describe that extend (identifier, circuit it came from). *)
Theorem relay_entry_from_extend : forall C (n : @node C) e num q,
  aget num (n_creq (st (step n e))) = Some q -> aget num (n_creq n) <> Some q ->
  exists src rc pid npk X addr o,
    e = EvMsg src (MExtend rc pid npk X addr) o /\ num = o_num o
    /\ q_ident q = pid /\ q_from q = rc /\ q_to q = o_cid o.
Proof. exact creq_only_from_extend_l. Qed.
Print Assumptions relay_entry_from_extend.

(* The create a relay sends for an extend carries the originator's key unmodified, under the fresh circuit
   id and the number of the entry it records; it goes to a peer with the requested public key. *)
Theorem relay_forwards_key : forall C (n : @node C) src rc pid npk X addr o a,
  In a (acts (handle n src (MExtend rc pid npk X addr) o)) ->
  exists pv cd,
    a = Send (p_addr cd) (MCreate (o_cid o) (o_num o) (n_pkbin n) X)
    /\ handle n src (MExtend rc pid npk X addr) o
       = (set_creq n (aset (o_num o) (mkCreq pid (o_cid o) rc pv cd) (n_creq n)), [a], None)
    /\ (o_known o = None -> p_key cd = npk).
Proof. exact on_extend_out_l. Qed.
Print Assumptions relay_forwards_key.

Theorem assumptions_satisfiable :
  (forall a b, dh Toy a (pub Toy b) = dh Toy b (pub Toy a))
  /\ (forall a, tag_eqb Toy a a = true)
  /\ (forall a b, tag_eqb Toy a b = true -> a = b)
  /\ (forall s p s' p', mac Toy s p = mac Toy s' p' -> s = s' /\ p = p')
  /\ (forall a a' P s, dh Toy a P = Some s -> dh Toy a' P = Some s -> a = a')
  /\ (forall a b, pub Toy a = pub Toy b -> a = b)
  /\ (forall (A : list Z) a P s, dh Toy a P = Some s -> tcan_sec A s -> In a A \/ exists b, P = pub Toy b /\ In b A)
  /\ (forall (A : list Z) s1 s2, tcan_key A (kdf Toy s1 s2) -> tcan_sec A s1 /\ tcan_sec A s2).
Proof.
  exact (conj toy_dh_comm (conj toy_tag_eqb_refl (conj toy_tag_eqb_true (conj toy_mac_inj (conj toy_dh_inj
        (conj toy_pub_inj (conj toy_dh_hidden toy_kdf_hidden))))))).
Qed.
Print Assumptions assumptions_satisfiable.

(* The MAC is keyed with the ephemeral-ephemeral secret alone (crypto_auth(shared_secret[:32], ..)), so it does
   not prove that the answerer holds the selected peer's private key: an answer with a substituted ephemeral
   key and a MAC recomputed by someone who merely saw the create IS accepted.  The keys the originator then
   holds are still not computable by that party (nor by anybody without secret 1 or 100). *)
Theorem substituted_ephemeral_accepted_keys_stay_secret :
  hops_of (st (handle tO1 11 subst_eph (orc 102 501 [] 0 0))) 7
  = Some [mkHop (C := Toy) (mkPeer 1 11) (Some (TKdf (TDH 66 100) (TDH 1 100))) (Some 100)]
  /\ ~ tcan_key [66; 2; 3] (TKdf (TDH 66 100) (TDH 1 100)).
Proof. exact toy_subst_eph_accepted. Qed.
Print Assumptions substituted_ephemeral_accepted_keys_stay_secret.

(* a two-hop circuit built by honest exchanges exists in the toy instance (so [built] is inhabited beyond the
   base case), and its final state has both selected peers in order, matching keys and no retry cache left *)
Example built_two_hops : built Toy 7 tO3 [(tA3, 7); (tB1, 8)].
Proof.
  change [(tA3, 7); (tB1, 8)] with ([] ++ [(tA3, 7); (tB1, 8)]).
  eapply (built_more Toy 7 tO2 [] tA1 7 (blank 2) tO3 tA3 tB1 8).
  - eapply (built_first Toy 7 tO1 (blank 1) tO2 tA1).
    + reflexivity.
    + reflexivity.
    + exists (mkHop (C := Toy) (mkPeer 1 11) None (Some 100)), 100, 500, 10, 11,
        (orc 101 0 [mkPeer 2 12; mkPeer 2 12] 0 0), (orc 102 501 [] 0 0),
        (TPub 101), (TMac (TDH 100 101) (TPub 101)), (TCEnc (TKdf (TDH 100 101) (TDH 1 100)) [2; 2]).
      repeat split. do 2 eexists. repeat split.
  - reflexivity.
  - exists (mkHop (C := Toy) (mkPeer 2 0) None (Some 102)), 102, 501, 0, 10, 11, 12, 11,
      (orc 0 0 [] 8 600), (orc 103 0 [] 0 0), (orc 0 0 [] 0 0), (orc 104 502 [] 0 0), tA2, 12, 600, (TPub 102),
      (TPub 103), (TMac (TDH 102 103) (TPub 103)), (TCEnc (TKdf (TDH 102 103) (TDH 2 102)) []), 10, 501,
      (TPub 103), (TMac (TDH 102 103) (TPub 103)), (TCEnc (TKdf (TDH 102 103) (TDH 2 102)) []).
    repeat split. do 2 eexists. repeat split.
Qed.

Example final_state_two_hops :
  hops_of tO3 7 = Some [mkHop (C := Toy) (mkPeer 1 11) (Some (TKdf (TDH 100 101) (TDH 1 100))) (Some 100);
                        mkHop (C := Toy) (mkPeer 2 0) (Some (TKdf (TDH 102 103) (TDH 2 102))) (Some 102)]
  /\ node_keys tA3 7 = Some (TKdf (TDH 100 101) (TDH 1 100))
  /\ node_keys tB1 8 = Some (TKdf (TDH 102 103) (TDH 2 102))
  /\ n_retry tO3 = [].
Proof. exact toy_final_state. Qed.

(* the adversarial answers of the statement, each hitting the premise of its theorem *)
Example bad_answers_concrete :
  handle tO1 11 bad_ident (orc 0 0 [] 0 0) = (tO1, [], None)
  /\ handle tO1 11 bad_circuit (orc 0 0 [] 0 0) = (tO1, [], None)
  /\ handle tO1 11 bad_auth (orc 0 0 [] 0 0) = (tO1, [], Some CryptoError)
  /\ handle tO1 11 bad_key (orc 0 0 [] 0 0) = (tO1, [], Some CryptoError)
  /\ handle tO1 11 bad_point (orc 0 0 [] 0 0) = (tO1, [], None)
  /\ same_hops tO3 (st (handle tO3 11 extended2 (orc 105 503 [] 0 0)))
  /\ same_hops tO3 (st (handle tO3 11 created1 (orc 105 503 [] 0 0))).
Proof. repeat split. Qed.

(* a created arriving while an EXTEND is pending, carrying the pending identifier and hop 1's original key
   material (made for hop 1's ephemeral secret 100, not for the pending secret 102): whatever the message
   type, it is checked against the unverified hop and rejected; hop 1 is untouched (premise of
   stale_answer_rejected with x_old = 100, x = 102) *)
Example relabelled_earlier_answer_rejected :
  handle tO2 99 relabelled_created (orc 0 0 [] 0 0) = (tO2, [], Some CryptoError)
  /\ handle tO2 11 relabelled_extended (orc 0 0 [] 0 0) = (tO2, [], Some CryptoError)
  /\ hops_of tO2 7 = Some [mkHop (C := Toy) (mkPeer 1 11) (Some (TKdf (TDH 100 101) (TDH 1 100))) (Some 100)].
Proof. repeat split. Qed.

(* the fallback branch of send_extend (the hop offered no candidate; the originator picks exit 2 at address 12
   itself): key and address of that one peer travel together *)
Example fallback_extend_names_one_peer :
  acts (send_extend tO2 7 [] 3 (mkOracle 105 502 (Some (mkPeer 2 12)) [] 0 0 None))
  = [Send 11 (@MExtend Toy 7 502 2 (TPub 105) 12)].
Proof. reflexivity. Qed.
