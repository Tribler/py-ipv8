(* C16x - the token tree's methods TRANSLATED from the Python source (gen/G16_tokentree.v, regenerated on every
   run by tools/tr/tr_tokentree.py) compute what the hand model M16_tokentree computes; hence the theorems of
   props/C16.v hold of the translated code.
   hash (SHA3-256), sigverify (signature check), sl (signature length) and pk (the tree's key) are universally
   quantified; the hash width 32 comes from the struct format in Token.unserialize. *)
From Coq Require Import ZArith List.
From IPV8V Require Import lib.PyErr lib.Bytes model.M16_tokentree model.M16_tokentree_gen gen.G16_tokentree
  spec.S16_closure proofs.P16_gather proofs.P16_props proofs.P16_tokentree_gen props.C16.
Import ListNotations.
Open Scope Z_scope.

(* Operation by operation.  gather_token is entered with the fuel the translation passes, call_fuel 2: two
   units (one gather_token and one _append_chain_reaction_token level) for the call itself and for every
   waiting token; the equation holds on EVERY tree and token, including the raised KeyError cases.  verify
   and get_root_path loop on fuel: maxdepth+1 units suffice for maxdepth >= 0, and with any fuel they return
   the model's answer if they return.  unserialize_public mutates the tree chunk by chunk, so the model
   returns the tree reached together with the answer or exception; `urel` says the translation returns
   that pair, or raises what the model raises. *)
Theorem gen_refines_hand_model :
  forall (hash : bytes -> bytes) (sigverify : bytes -> bytes -> bytes -> bool) (sl : nat) (pk : bytes),
  (forall t, gt_get_hash hash sigverify sl pk t = thash hash t) /\
  (forall t, gt_verify hash sigverify sl pk t pk = tverify sigverify pk t) /\
  (forall a b, gt___eq__ hash sigverify sl pk a b = tok_eqb a b) /\
  (forall t c, gt_receive_content hash sigverify sl pk t c = receive_content hash t c) /\
  (forall s i, 0 <= i -> gt_unserialize hash sigverify sl pk s pk i
                         = token_unserialize 32 sl (skipn (Z.to_nat i) s)) /\
  (forall tr t, g_gather_token hash sigverify sl pk (call_fuel 2 tr) tr t = gather_top hash sigverify pk tr t) /\
  (forall arr tr, g_gather_all hash sigverify sl pk tr arr = gather_all hash sigverify pk tr arr) /\
  (forall tr, g_get_missing hash sigverify sl pk tr = Ok (get_missing tr)) /\
  (forall tr t md,
     (0 <= md -> g_verify hash sigverify sl pk (S (Z.to_nat md)) tr t md = Ok (tree_verify hash sigverify pk tr t md)) /\
     (forall fuel b, g_verify hash sigverify sl pk fuel tr t md = Ok b -> b = tree_verify hash sigverify pk tr t md)) /\
  (forall tr t md,
     (0 <= md -> g_get_root_path hash sigverify sl pk (S (Z.to_nat md)) tr t md
                 = Ok (get_root_path hash sigverify pk tr t md)) /\
     (forall fuel r, g_get_root_path hash sigverify sl pk fuel tr t md = Ok r
                     -> r = get_root_path hash sigverify pk tr t md)) /\
  (forall fuel tr, g_serialize_public hash sigverify sl pk fuel tr None = Ok (serialize_public tr)) /\
  (forall tr t b, serialize_up_to hash tr t = Ok b ->
                  g_serialize_public hash sigverify sl pk (S (length (elements tr))) tr (Some t) = Ok b) /\
  (forall tr s, urel (g_unserialize_public hash sigverify sl pk tr s)
                     (unserialize_public hash sigverify 32 sl pk tr s)).
Proof.
  intros hash sigverify sl pk.
  split; [apply gt_get_hash_eq|]. split; [apply gt_verify_eq|]. split; [apply gt_eq_eq|].
  split; [apply gt_receive_content_eq|]. split; [apply gt_unserialize_eq|].
  split; [apply g_gather_top_eq|]. split; [apply g_gather_all_eq|].
  split; [reflexivity|]. split; [apply g_verify_refines|].
  split; [apply g_get_root_path_refines|]. split; [reflexivity|].
  split; [apply g_serialize_up_to_refines|apply g_unserialize_refines].
Qed.
Print Assumptions gen_refines_hand_model.

(* the translated gather_token never fails and only ever stores the owner's signed, connected chain
   (the clause of elements_sound about the waiting tokens is not carried over) *)
Theorem gen_elements_sound : forall hash sigverify sl pk c arr, exists tr,
  g_gather_all hash sigverify sl pk (empty_tree c) arr = Ok tr /\
  Forall (fun e => tverify sigverify pk e = true /\ exists p, In p arr /\ same_fields p e) (elements tr) /\
  chain_ok hash pk (elements tr) /\ NoDup (keys hash (elements tr)).
Proof.
  intros hash sigverify sl pk c arr. destruct (gather_never_fails hash sigverify pk c arr) as [tr E].
  exists tr. rewrite g_gather_all_eq. split; [exact E|].
  destruct (elements_sound hash sigverify pk c arr tr E) as [A [B [C _]]]. auto.
Qed.
Print Assumptions gen_elements_sound.

(* ... exactly the closure of what was offered, in any order (offers in wire form, waiting area not exceeded) *)
Theorem gen_elements_complete_any_order : forall hash sigverify sl pk c arr,
  Forall (prev_wire 32) arr -> (distinct_offers arr <= c)%nat ->
  exists tr, g_gather_all hash sigverify sl pk (empty_tree c) arr = Ok tr /\
             forall h, In h (keys hash (elements tr)) <-> closure_keys hash sigverify pk arr h.
Proof.
  intros hash sigverify sl pk c arr W D.
  destruct (elements_complete_any_order hash sigverify 32 pk c arr W D) as [tr E].
  exists tr. rewrite g_gather_all_eq. exact E.
Qed.
Print Assumptions gen_elements_complete_any_order.

Theorem gen_order_independent : forall hash sigverify sl pk c arr1 arr2,
  (forall t, In t arr1 <-> In t arr2) -> Forall (prev_wire 32) arr1 -> (distinct_offers arr1 <= c)%nat ->
  exists tr1 tr2,
    g_gather_all hash sigverify sl pk (empty_tree c) arr1 = Ok tr1 /\
    g_gather_all hash sigverify sl pk (empty_tree c) arr2 = Ok tr2 /\
    forall h, In h (keys hash (elements tr1)) <-> In h (keys hash (elements tr2)).
Proof.
  intros hash sigverify sl pk c arr1 arr2 S W D.
  destruct (order_independent hash sigverify 32 pk c arr1 arr2 S W D) as [tr1 [tr2 E]].
  exists tr1, tr2. rewrite !g_gather_all_eq. exact E.
Qed.
Print Assumptions gen_order_independent.

(* the translated verify only answers True for a validly signed token with a stored, validly signed path to
   the genesis pointer - whatever the fuel and maxdepth *)
Theorem gen_verify_only_rooted : forall hash sigverify sl pk fuel tr t md,
  g_verify hash sigverify sl pk fuel tr t md = Ok true -> rooted hash sigverify pk (elements tr) t.
Proof.
  intros hash sigverify sl pk fuel tr t md H. apply (verify_only_rooted hash sigverify pk tr t md).
  symmetry. exact (proj2 (g_verify_refines hash sigverify sl pk tr t md) fuel true H).
Qed.
Print Assumptions gen_verify_only_rooted.

(* the translated dump of a reachable tree reloads, through the translated unserialize_public, to the same
   elements in the same order, with answer True *)
Theorem gen_public_roundtrip : forall hash sigverify sl pk c arr tr c2 fuel,
  Forall (wire_form 32 sl) arr -> g_gather_all hash sigverify sl pk (empty_tree c) arr = Ok tr ->
  exists dump, g_serialize_public hash sigverify sl pk fuel tr None = Ok dump /\
    g_unserialize_public hash sigverify sl pk (empty_tree c2) dump
    = Ok (mkTree (map strip (elements tr)) [] c2, true).
Proof.
  intros hash sigverify sl pk c arr tr c2 fuel W E. rewrite g_gather_all_eq in E.
  exists (serialize_public tr). split; [reflexivity|].
  apply urel_Ok. rewrite <- (public_roundtrip hash sigverify 32 sl pk c arr tr c2 (Nat.lt_0_succ _) W E).
  apply g_unserialize_refines.
Qed.
Print Assumptions gen_public_roundtrip.

(* non-vacuity: the translated code runs on the toy instance (identity hash, signature = key ++ message):
   a fork before its parent, a forged token, verify, and an unserialize of a ragged buffer *)
Example c16x_runs :
  let k := [7] in
  let p := toy_token k (genesis toy_hash k) [1] in
  let a := toy_token k (thash toy_hash p) [2] in
  let b := toy_token k (thash toy_hash p) [3] in
  let x := mkToken (thash toy_hash p) [4] [8;8] None in
  g_gather_all toy_hash toy_verify 3 k (empty_tree 5) [a; x; b; p] = Ok (mkTree [p; a; b] [] 5) /\
  g_verify toy_hash toy_verify 3 k 1001 (mkTree [p; a; b] [] 5) b 1000 = Ok true /\
  g_verify toy_hash toy_verify 3 k 1001 (mkTree [p; a; b] [] 5) x 1000 = Ok false /\
  g_get_root_path toy_hash toy_verify 3 k 1001 (mkTree [p; a; b] [] 5) b 1000 = Ok [b; p] /\
  g_get_missing toy_hash toy_verify 3 k (mkTree [p] [a; b] 5) = Ok [thash toy_hash p] /\
  g_unserialize_public toy_hash toy_verify 3 k (empty_tree 5) (repeat 0 70) = Raise StructError.
Proof. vm_compute. repeat split; reflexivity. Qed.
