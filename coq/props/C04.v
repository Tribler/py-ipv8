(* C04 - onion circuits deliver data intact and never expose it in transit.
   Every theorem is about model/M04_onion.v (PythonCryptoEndpoint + TunnelCommunity data plane) for an
   arbitrary AEAD (key, nonce, enc, dec) under the named assumptions of spec/S04_onion_spec.v, for a path
   with ANY number of relays (p_relays p is an arbitrary list), any payload, any other table entries. *)
From Coq Require Import ZArith List Bool Lia.
From IPV8V Require Import lib.PyErr lib.Bytes lib.BE model.M02_wire model.M03_recv model.M04_onion model.M04_harness
  spec.S04_onion_spec proofs.P04_base proofs.P04_node proofs.P04_endpoint proofs.P04_chain proofs.P04_props proofs.P04_e2e proofs.P04_ping.
Import ListNotations.
Open Scope Z_scope.

(* The assumptions placed on the AEAD are jointly satisfiable (toy instance used to run the model). *)
Theorem aead_assumptions_satisfiable :
  aead_correct tenc tdec /\ aead_authentic tenc tdec /\ aead_key_sep tenc tdec /\ aead_grows tenc 24.
Proof. exact (conj toy_correct (conj toy_authentic (conj toy_key_sep toy_grows))). Qed.
Print Assumptions aead_assumptions_satisfiable.

(* forward_transport + layers_on_link (forward): a cell message handed to the originator's crypto endpoint
   goes out as one datagram, every relay answers with exactly one datagram to the next node, the exit
   processes the message itself - and on link i the body is the message under exactly the layers of hops
   i+1..n (first remaining hop outermost). *)
Theorem forward_transport :
  forall (key nonce : Type) (enc : key -> dir -> nonce -> bytes -> bytes) (dec : key -> dir -> bytes -> option bytes)
         (p : path key) (m0 : Z) (rest : list Z) (e0 : bool) (ns : nat -> nonce) (rnd : Z -> bytes)
         (nss : nat -> nat -> nonce) (nsx : nat -> nonce),
  aead_correct enc dec -> forward_ready (origin_early p m0) p -> c_hs (p_circ p) = None ->
  let msg := m0 :: rest in
  let a1 := first_addr (p_relays p) (p_xaddr p) in
  let prev := last_sender (p_relays p) (p_oaddr p) in
  exists (o' : node key) (links : list bytes) (nl : list nonce),
    ep_send_cell enc (p_origin p) a1 (mkCell (p_cid p) msg false e0) ns = Ok (o', [Send a1 (hd [] links)])
    /\ through enc dec (p_relays p) (p_oaddr p) a1 (hd [] links) rnd nss
       = Some (prev, p_xaddr p, nth (length (p_relays p)) links [], tl links)
    /\ length links = path_len p /\ length nl = path_len p
    /\ (forall i, (i < path_len p)%nat ->
          cell_body (nth i links []) = enc_layers enc FORWARD (skipn i (path_keys p)) (skipn i nl) msg)
    /\ on_packet enc dec (p_exit p) prev (nth (length (p_relays p)) links []) rnd nsx
       = community_on_cell_packet enc (p_exit p) prev
           (cell_to_bin (p_pfx p) (mkCell (p_xcid p) msg false (origin_early p m0))) rnd nsx.
Proof.
  intros key nonce enc dec p m0 rest e0 ns rnd nss nsx C (Ho & Hx & Hch) Hhs msg a1 prev.
  destruct Ho as (Hp & Hop & Hcid & Hoa & Hok & _ & Hor & Hoe & Hom).
  destruct Hx as (Hxp & Hxcid & Hxr & Hxc & Hxe & Hxi & Hxk & Hxa & Hxm).
  set (early := origin_early p m0) in *.
  destruct (fwd_leg key nonce enc dec (p_pfx p) early (p_xaddr p) (p_xcid p) (p_xkey p) msg rnd (p_relays p) (p_cid p)
              (p_oaddr p) ns nss C Hp Hch) as (links & Hhd & Hthr & Hlast & Hlen & Hbody).
  eexists. exists links, (drawn ns (length (path_keys p))). repeat split; try assumption.
  - rewrite Hhd, <- Hop. apply (origin_send key nonce enc (p_origin p) a1 _ _ _ m0 rest e0 ns Hoa Hhs Hok).
  - rewrite drawn_length. apply path_keys_length.
  - rewrite Hlast, <- Hxp.
    apply (exit_opens key nonce enc dec (p_exit p) prev (p_xcid p) (p_xsock p) (p_xkey p) m0 rest early (ns O) rnd nsx C);
      try assumption; try (rewrite Hxp; assumption).
    intros He E. unfold early, origin_early in He. rewrite E in He. discriminate He.
Qed.
Print Assumptions forward_transport.

(* forward_intact: send_data at the originator of a ready circuit of any length makes the exit hand exactly
   the same bytes, with the destination given, to the exit socket of that circuit (and nothing else). *)
Theorem forward_intact :
  forall (key nonce : Type) (enc : key -> dir -> nonce -> bytes -> bytes) (dec : key -> dir -> bytes -> option bytes)
         (p : path key) (dest org : addr) (data : bytes) (ns : nat -> nonce) (rnd : Z -> bytes)
         (nss : nat -> nat -> nonce) (nsx : nat -> nonce),
  aead_correct enc dec -> forward_ready (origin_early p 1) p -> c_hs (p_circ p) = None ->
  addr_ok false dest = true -> addr_ok false org = true -> bytes_okb data = true -> is_null dest = false ->
  existsb (Z.eqb 1) (n_handlers (p_exit p)) = true ->
  let a1 := first_addr (p_relays p) (p_xaddr p) in
  let prev := last_sender (p_relays p) (p_oaddr p) in
  exists (o' : node key) (links : list bytes),
    send_data enc (p_origin p) a1 (p_cid p) dest org data ns = Ok (o', [Send a1 (hd [] links)])
    /\ through enc dec (p_relays p) (p_oaddr p) a1 (hd [] links) rnd nss
       = Some (prev, p_xaddr p, nth (length (p_relays p)) links [], tl links)
    /\ length links = path_len p
    /\ on_packet enc dec (p_exit p) prev (nth (length (p_relays p)) links []) rnd nsx
       = Ok (enabled_node (p_exit p) (p_xcid p) (p_xsock p), [ExitSendto (p_xcid p) data dest]).
Proof.
  intros key nonce enc dec p dest org data ns rnd nss nsx C Hr Hhs Hd Ho Hb Hn Hh a1 prev.
  destruct (data_packable dest org data Hd Ho Hb) as [rest Hpk].
  destruct (forward_transport key nonce enc dec p 1 rest false ns rnd nss nsx C Hr Hhs)
    as (o' & links & nl & Hs & Ht & Hl & _ & _ & Hx).
  destruct Hr as ((Hp & _ & Hcid & _) & (Hxp & Hxcid & Hxr & Hxc & Hxe & Hxi & Hxk & Hxa & Hxm) & _).
  exists o', links. repeat split; try assumption.
  - unfold send_data. rewrite fmt_data_eq.
    rewrite (send_cell_packed key nonce enc (p_origin p) a1 (p_cid p) 1 tail_data _ rest ns Hcid Hpk eq_refl). exact Hs.
  - fold prev in Hx. rewrite Hx. rewrite <- Hxp in Hp |- *. rewrite cell_dispatch, Hh by (assumption || discriminate).
    cbn [negb Z.eqb Pos.eqb].
    rewrite (on_data_exit key (p_exit p) prev (p_xcid p) dest org data rest (p_xsock p)); try assumption.
    + reflexivity.
    + right. rewrite Hxa. apply ip_eqb_refl.
Qed.
Print Assumptions forward_intact.

(* backward_transport + layers_on_link (backward): what an exit socket sends back travels through the relays
   in reverse, each adding its layer; link i (counted from the originator) again carries n - i layers; the
   originator opens all of them and processes the message itself. *)
Theorem backward_transport :
  forall (key nonce : Type) (enc : key -> dir -> nonce -> bytes -> bytes) (dec : key -> dir -> bytes -> option bytes)
         (p : path key) (m0 : Z) (rest : list Z) (nsx : nat -> nonce) (rnd : Z -> bytes)
         (nss : nat -> nat -> nonce) (nso : nat -> nonce),
  aead_correct enc dec -> backward_ready p -> c_hs (p_circ p) = None -> m0 <> 4 ->
  let msg := m0 :: rest in
  let a1 := first_addr (p_relays p) (p_xaddr p) in
  let prev := last_sender (p_relays p) (p_oaddr p) in
  exists (links : list bytes) (nl : list nonce),
    ep_send_cell enc (p_exit p) prev (mkCell (p_xcid p) msg false false) nsx = Ok (p_exit p, [Send prev (hd [] links)])
    /\ through enc dec (rev (p_relays p)) (p_xaddr p) prev (hd [] links) rnd nss
       = Some (a1, p_oaddr p, nth (length (p_relays p)) links [], tl links)
    /\ length links = path_len p /\ length nl = path_len p
    /\ (forall i, (i < path_len p)%nat ->
          cell_body (nth i (rev links) []) = enc_layers enc BACKWARD (skipn i (path_keys p)) (skipn i nl) msg)
    /\ on_packet enc dec (p_origin p) a1 (nth (length (p_relays p)) links []) rnd nso
       = community_on_cell_packet enc (p_origin p) a1
           (cell_to_bin (p_pfx p) (mkCell (p_cid p) msg false false)) rnd nso.
Proof. exact backward_transport_l. Qed.
Print Assumptions backward_transport.

(* backward_intact: data entering the exit socket from outside (tunnel_data) reaches the originator's
   consumer byte for byte, attributed to the outside source the exit observed, under this circuit's id:
   raw data -> on_raw_data; IPv8-shaped with our prefix -> handed to the dispatcher with the circuit id ONLY for
   message ids registered as acceptable from a data message (hidden-services lookups), dropped otherwise - a
   circuit control message (create, data, ping, ...) sent by the outside world is never executed; the state of
   the exit and of the originator is unchanged. *)
Theorem backward_intact :
  forall (key nonce : Type) (enc : key -> dir -> nonce -> bytes -> bytes) (dec : key -> dir -> bytes -> option bytes)
         (p : path key) (source : addr) (data : bytes) (nsx : nat -> nonce) (rnd : Z -> bytes)
         (nss : nat -> nat -> nonce) (nso : nat -> nonce),
  aead_correct enc dec -> backward_ready p -> c_hs (p_circ p) = None ->
  addr_ok false source = true -> bytes_okb data = true ->
  existsb (Z.eqb 1) (n_handlers (p_origin p)) = true ->
  let a1 := first_addr (p_relays p) (p_xaddr p) in
  let prev := last_sender (p_relays p) (p_oaddr p) in
  exists links : list bytes,
    tunnel_data enc (p_exit p) (p_xsock p) source data nsx = Ok (p_exit p, [Send prev (hd [] links)])
    /\ through enc dec (rev (p_relays p)) (p_xaddr p) prev (hd [] links) rnd nss
       = Some (a1, p_oaddr p, nth (length (p_relays p)) links [], tl links)
    /\ length links = path_len p
    /\ on_packet enc dec (p_origin p) a1 (nth (length (p_relays p)) links []) rnd nso
       = Ok (p_origin p,
             if could_be_ipv8 data && negb (is_e2e (c_ctype (p_circ p))) then
               if bytes_eqb (p_pfx p) (slice data None (Some 22)) then
                 match idx data 22 with
                 | Ok m => if existsb (Z.eqb m) (n_data_ids (p_origin p)) then [Reinject source data (p_cid p)] else []
                 | Raise _ => []
                 end
               else if n_tunnel_ep (p_origin p) then [NotifyOther source data] else []
             else [RawData (p_cid p) source data]).
Proof. exact backward_intact_l. Qed.
Print Assumptions backward_intact.

(* an outside datagram is never executed as a circuit message: on a node that registered no message as acceptable
   from a data message (the plain TunnelCommunity), data returned through the exit that is shaped like a message of
   the tunnel overlay itself (create, created, extend, data, ping, ... with the overlay prefix) is dropped by the
   originator - no handler runs, nothing is sent, no state changes - whoever sent it from outside. *)
Theorem outside_control_message_dropped :
  forall (key nonce : Type) (enc : key -> dir -> nonce -> bytes -> bytes) (dec : key -> dir -> bytes -> option bytes)
         (p : path key) (source : addr) (data : bytes) (nsx : nat -> nonce) (rnd : Z -> bytes)
         (nss : nat -> nat -> nonce) (nso : nat -> nonce),
  aead_correct enc dec -> backward_ready p -> c_hs (p_circ p) = None ->
  addr_ok false source = true -> bytes_okb data = true ->
  existsb (Z.eqb 1) (n_handlers (p_origin p)) = true ->
  could_be_ipv8 data = true -> is_e2e (c_ctype (p_circ p)) = false ->
  bytes_eqb (p_pfx p) (slice data None (Some 22)) = true -> n_data_ids (p_origin p) = [] ->
  let a1 := first_addr (p_relays p) (p_xaddr p) in
  let prev := last_sender (p_relays p) (p_oaddr p) in
  exists (links : list bytes),
    tunnel_data enc (p_exit p) (p_xsock p) source data nsx = Ok (p_exit p, [Send prev (hd [] links)])
    /\ through enc dec (rev (p_relays p)) (p_xaddr p) prev (hd [] links) rnd nss
       = Some (a1, p_oaddr p, nth (length (p_relays p)) links [], tl links)
    /\ on_packet enc dec (p_origin p) a1 (nth (length (p_relays p)) links []) rnd nso = Ok (p_origin p, []).
Proof. exact outside_control_message_dropped_l. Qed.
Print Assumptions outside_control_message_dropped.

(* no_two_links_equal: the bodies on two different links differ, and (j = number of hops) none of them is
   the plaintext message - in either direction. *)
Theorem no_two_links_equal :
  forall (key nonce : Type) (enc : key -> dir -> nonce -> bytes -> bytes) (ovh : nat) (d : dir)
         (ks : list key) (nl : list nonce) (m : bytes) (i j : nat),
  aead_grows enc ovh -> length nl = length ks -> (i < j <= length ks)%nat ->
  enc_layers enc d (skipn i ks) (skipn i nl) m <> enc_layers enc d (skipn j ks) (skipn j nl) m.
Proof.
  intros key nonce enc ovh d ks nl m i j G Hl Hij E. apply (f_equal (@length Z)) in E.
  rewrite !(enc_layers_length key nonce enc ovh) in E by (try exact G; rewrite !skipn_length; lia).
  rewrite !skipn_length in E. destruct G as [Gp _]. nia.
Qed.
Print Assumptions no_two_links_equal.

Theorem link_body_never_plaintext :
  forall (key nonce : Type) (enc : key -> dir -> nonce -> bytes -> bytes) (ovh : nat) (d : dir)
         (ks : list key) (nl : list nonce) (m : bytes) (i : nat),
  aead_grows enc ovh -> length nl = length ks -> (i < length ks)%nat ->
  enc_layers enc d (skipn i ks) (skipn i nl) m <> m.
Proof.
  intros key nonce enc ovh d ks nl m i G Hl Hi E.
  apply (no_two_links_equal key nonce enc ovh d ks nl m i (length ks) G Hl); [lia|].
  rewrite E, !skipn_all2 by lia. reflexivity.
Qed.
Print Assumptions link_body_never_plaintext.

(* tamper_dropped: a node that has to peel a layer neither forwards, delivers nor changes state when the body
   was not produced with the key of that layer (any altered byte of the body, by ideal authenticity). *)
Theorem tamper_dropped_at_relay :
  forall (key nonce : Type) (enc : key -> dir -> nonce -> bytes -> bytes) (dec : key -> dir -> bytes -> option bytes)
         (nd : node key) (src : addr) (cid : Z) (r : relay_route key) (k : key) (body : bytes) (early : bool)
         (rnd : Z -> bytes) (ns : nat -> nonce),
  aead_authentic enc dec -> length (n_prefix nd) = 22%nat -> cid_ok cid ->
  assoc cid (n_relays nd) = Some r -> rr_rdv r = false -> rr_dir r = FORWARD -> h_keys (rr_hop r) = Some k ->
  (forall n m, body <> enc k FORWARD n m) ->
  on_packet enc dec nd src (cell_to_bin (n_prefix nd) (mkCell cid body false early)) rnd ns = Ok (nd, []).
Proof. exact tamper_relay_dropped_l. Qed.
Print Assumptions tamper_dropped_at_relay.

Theorem tamper_dropped_at_exit :
  forall (key nonce : Type) (enc : key -> dir -> nonce -> bytes -> bytes) (dec : key -> dir -> bytes -> option bytes)
         (nd : node key) (src : addr) (cid : Z) (es : exit_sock key) (k : key) (body : bytes) (early : bool)
         (rnd : Z -> bytes) (ns : nat -> nonce),
  aead_authentic enc dec -> length (n_prefix nd) = 22%nat -> cid_ok cid ->
  assoc cid (n_relays nd) = None -> assoc cid (n_exits nd) = Some es -> h_keys (es_hop es) = Some k ->
  (forall n m, body <> enc k FORWARD n m) ->
  on_packet enc dec nd src (cell_to_bin (n_prefix nd) (mkCell cid body false early)) rnd ns = Ok (nd, []).
Proof. exact tamper_exit_dropped_l. Qed.
Print Assumptions tamper_dropped_at_exit.

(* returning cells: relays can only add layers, so an alteration below hop i+1 (body' not made with that hop's
   key) shows when the originator peels the layers of hops 1..i and then fails - nothing is delivered. *)
Theorem tamper_dropped_at_originator :
  forall (key nonce : Type) (enc : key -> dir -> nonce -> bytes -> bytes) (dec : key -> dir -> bytes -> option bytes)
         (nd : node key) (src : addr) (cid : Z) (ci : circuit key) (ks1 : list key) (k : key) (ks2 : list key)
         (nl1 : list nonce) (body' : bytes) (early : bool) (rnd : Z -> bytes) (ns : nat -> nonce),
  aead_correct enc dec -> aead_authentic enc dec -> length (n_prefix nd) = 22%nat -> cid_ok cid ->
  assoc cid (n_relays nd) = None -> assoc cid (n_exits nd) = None -> assoc cid (n_circuits nd) = Some ci ->
  map h_keys (c_hops ci) = map Some (ks1 ++ k :: ks2) -> length nl1 = length ks1 ->
  (forall n m, body' <> enc k BACKWARD n m) ->
  on_packet enc dec nd src (cell_to_bin (n_prefix nd) (mkCell cid (enc_layers enc BACKWARD ks1 nl1 body') false early)) rnd ns
  = Ok (nd, []).
Proof.
  intros key nonce enc dec nd src cid ci ks1 k ks2 nl1 body' early rnd ns C A Hp Hc Hr He Ha Hk Hl Hne.
  apply (origin_drops key nonce enc dec nd src cid ci _ early rnd ns Hp Hc Hr He Ha).
  rewrite map_app in Hk. apply map_eq_app in Hk as (h1 & h2 & Eh & E1 & E2).
  cbn [map] in E2. apply map_eq_cons in E2 as (h & ht & Eh2 & Ehk & _).
  rewrite Eh, Eh2, (decrypt_hops_prefix key nonce enc dec BACKWARD h1 ks1 nl1 body' C E1 Hl).
  cbn [decrypt_hops]. rewrite Ehk, (not_enc_no_dec key nonce enc dec k BACKWARD body' A Hne). reflexivity.
Qed.
Print Assumptions tamper_dropped_at_originator.

(* foreign_dropped: cells for unknown ids, and cells made under another key or for the other direction
   (splice from another circuit, reflection, outsider's keys), have no effect. *)
Theorem foreign_unknown_circuit_dropped :
  forall (key nonce : Type) (enc : key -> dir -> nonce -> bytes -> bytes) (dec : key -> dir -> bytes -> option bytes)
         (nd : node key) (src : addr) (cid : Z) (body : bytes) (early : bool) (rnd : Z -> bytes) (ns : nat -> nonce),
  length (n_prefix nd) = 22%nat -> cid_ok cid ->
  assoc cid (n_relays nd) = None -> assoc cid (n_exits nd) = None -> assoc cid (n_circuits nd) = None ->
  on_packet enc dec nd src (cell_to_bin (n_prefix nd) (mkCell cid body false early)) rnd ns = Ok (nd, []).
Proof. exact unknown_circuit_dropped. Qed.
Print Assumptions foreign_unknown_circuit_dropped.

Theorem foreign_key_dropped_at_relay :
  forall (key nonce : Type) (enc : key -> dir -> nonce -> bytes -> bytes) (dec : key -> dir -> bytes -> option bytes)
         (nd : node key) (src : addr) (cid : Z) (r : relay_route key) (k k' : key) (d' : dir) (n : nonce) (m : bytes)
         (early : bool) (rnd : Z -> bytes) (ns : nat -> nonce),
  aead_key_sep enc dec -> length (n_prefix nd) = 22%nat -> cid_ok cid ->
  assoc cid (n_relays nd) = Some r -> rr_rdv r = false -> rr_dir r = FORWARD -> h_keys (rr_hop r) = Some k ->
  (k', d') <> (k, FORWARD) ->
  on_packet enc dec nd src (cell_to_bin (n_prefix nd) (mkCell cid (enc k' d' n m) false early)) rnd ns = Ok (nd, []).
Proof.
  intros key nonce enc dec nd src cid r k k' d' n m early rnd ns S Hp Hc Ha Hr Hd Hk Hne.
  apply (relay_forward_drop key nonce enc dec nd src cid r k _ early rnd ns Hp Hc Ha Hr Hd Hk).
  apply (wrong_key_no_dec key nonce enc dec); assumption.
Qed.
Print Assumptions foreign_key_dropped_at_relay.

Theorem foreign_key_dropped_at_exit :
  forall (key nonce : Type) (enc : key -> dir -> nonce -> bytes -> bytes) (dec : key -> dir -> bytes -> option bytes)
         (nd : node key) (src : addr) (cid : Z) (es : exit_sock key) (k k' : key) (d' : dir) (n : nonce) (m : bytes)
         (early : bool) (rnd : Z -> bytes) (ns : nat -> nonce),
  aead_key_sep enc dec -> length (n_prefix nd) = 22%nat -> cid_ok cid ->
  assoc cid (n_relays nd) = None -> assoc cid (n_exits nd) = Some es -> h_keys (es_hop es) = Some k ->
  (k', d') <> (k, FORWARD) ->
  on_packet enc dec nd src (cell_to_bin (n_prefix nd) (mkCell cid (enc k' d' n m) false early)) rnd ns = Ok (nd, []).
Proof.
  intros key nonce enc dec nd src cid es k k' d' n m early rnd ns S Hp Hc Hr He Hk Hne.
  apply (exit_drops key nonce enc dec nd src cid es k _ early rnd ns Hp Hc Hr He Hk).
  apply (wrong_key_no_dec key nonce enc dec); assumption.
Qed.
Print Assumptions foreign_key_dropped_at_exit.

Theorem foreign_key_dropped_at_originator :
  forall (key nonce : Type) (enc : key -> dir -> nonce -> bytes -> bytes) (dec : key -> dir -> bytes -> option bytes)
         (nd : node key) (src : addr) (cid : Z) (ci : circuit key) (h0 : hop key) (htl : list (hop key))
         (k k' : key) (d' : dir) (n : nonce) (m : bytes) (early : bool) (rnd : Z -> bytes) (ns : nat -> nonce),
  aead_key_sep enc dec -> length (n_prefix nd) = 22%nat -> cid_ok cid ->
  assoc cid (n_relays nd) = None -> assoc cid (n_exits nd) = None ->
  assoc cid (n_circuits nd) = Some ci -> c_hops ci = h0 :: htl -> h_keys h0 = Some k ->
  (k', d') <> (k, BACKWARD) ->
  on_packet enc dec nd src (cell_to_bin (n_prefix nd) (mkCell cid (enc k' d' n m) false early)) rnd ns = Ok (nd, []).
Proof.
  intros key nonce enc dec nd src cid ci h0 htl k k' d' n m early rnd ns S Hp Hc Hr He Ha Hh Hk Hne.
  apply (origin_drops key nonce enc dec nd src cid ci _ early rnd ns Hp Hc Hr He Ha).
  rewrite Hh. cbn [decrypt_hops]. rewrite Hk, (wrong_key_no_dec key nonce enc dec k BACKWARD k' d' n m S Hne). reflexivity.
Qed.
Print Assumptions foreign_key_dropped_at_originator.

(* plaintext_refused: a cell with the plaintext flag is never relayed ... *)
Theorem plaintext_never_relayed :
  forall (key nonce : Type) (enc : key -> dir -> nonce -> bytes -> bytes) (dec : key -> dir -> bytes -> option bytes)
         (nd : node key) (src : addr) (cid : Z) (msg : bytes) (early : bool) (rnd : Z -> bytes) (ns : nat -> nonce),
  length (n_prefix nd) = 22%nat -> cid_ok cid -> has cid (n_relays nd) = true ->
  on_packet enc dec nd src (cell_to_bin (n_prefix nd) (mkCell cid msg true early)) rnd ns = Ok (nd, []).
Proof. exact relay_plain_refused. Qed.
Print Assumptions plaintext_never_relayed.

(* ... and at an end point it changes no state and is handed to a handler only as create (2) / created (3). *)
Theorem plaintext_only_create_created :
  forall (key nonce : Type) (enc : key -> dir -> nonce -> bytes -> bytes) (dec : key -> dir -> bytes -> option bytes)
         (nd : node key) (src : addr) (cid : Z) (msg : bytes) (early : bool) (rnd : Z -> bytes) (ns : nat -> nonce)
         (nd' : node key) (acts : list action),
  length (n_prefix nd) = 22%nat -> cid_ok cid -> has cid (n_relays nd) = false ->
  on_packet enc dec nd src (cell_to_bin (n_prefix nd) (mkCell cid msg true early)) rnd ns = Ok (nd', acts) ->
  nd' = nd /\ (acts = [] \/ exists m0 data, (m0 = 2 \/ m0 = 3) /\ acts = [Control m0 src cid data]).
Proof.
  intros key nonce enc dec nd src cid msg early rnd ns nd' acts Hp Hc Hh.
  intros H. destruct (plaintext_endpoint key nonce enc dec nd src cid msg early rnd ns _ Hp Hc Hh H) as [[e E]|[E|(m0 & data & Hm & E)]];
    [discriminate E| |]; injection E as -> ->; eauto 6.
Qed.
Print Assumptions plaintext_only_create_created.

(* The relay_early flag byte is outside the layers; altering it cannot alter what is delivered: an end point
   does exactly the same for either value (for every message but extend). *)
Theorem relay_early_flag_irrelevant_at_exit :
  forall (key nonce : Type) (enc : key -> dir -> nonce -> bytes -> bytes) (dec : key -> dir -> bytes -> option bytes)
         (nd : node key) (src : addr) (cid : Z) (es : exit_sock key) (k : key) (m0 : Z) (rest : list Z)
         (e1 e2 : bool) (n : nonce) (rnd : Z -> bytes) (ns : nat -> nonce),
  aead_correct enc dec -> length (n_prefix nd) = 22%nat -> cid_ok cid ->
  assoc cid (n_relays nd) = None -> assoc cid (n_exits nd) = Some es -> h_keys (es_hop es) = Some k ->
  0 < n_max_early nd -> m0 <> 4 ->
  on_packet enc dec nd src (cell_to_bin (n_prefix nd) (mkCell cid (enc k FORWARD n (m0 :: rest)) false e1)) rnd ns
  = on_packet enc dec nd src (cell_to_bin (n_prefix nd) (mkCell cid (enc k FORWARD n (m0 :: rest)) false e2)) rnd ns.
Proof.
  intros key nonce enc dec nd src cid es k m0 rest e1 e2 n rnd ns C Hp Hc Hr He Hk Hm H4.
  rewrite !(exit_opens key nonce enc dec nd src cid es k m0 rest _ n rnd ns C Hp Hc Hr He Hk Hm) by (intros _; exact H4).
  rewrite !(community_cell key nonce enc nd src cid m0 rest _ rnd ns Hp Hc). reflexivity.
Qed.
Print Assumptions relay_early_flag_irrelevant_at_exit.

Theorem relay_early_flag_irrelevant_at_originator :
  forall (key nonce : Type) (enc : key -> dir -> nonce -> bytes -> bytes) (dec : key -> dir -> bytes -> option bytes)
         (nd : node key) (src : addr) (cid : Z) (ci : circuit key) (ks : list key) (nl : list nonce) (m0 : Z)
         (rest : list Z) (e1 e2 : bool) (rnd : Z -> bytes) (ns : nat -> nonce),
  aead_correct enc dec -> length (n_prefix nd) = 22%nat -> cid_ok cid ->
  assoc cid (n_relays nd) = None -> assoc cid (n_exits nd) = None ->
  assoc cid (n_circuits nd) = Some ci -> c_hs ci = None ->
  map h_keys (c_hops ci) = map Some ks -> length nl = length ks -> 0 < n_max_early nd -> m0 <> 4 ->
  on_packet enc dec nd src (cell_to_bin (n_prefix nd) (mkCell cid (enc_layers enc BACKWARD ks nl (m0 :: rest)) false e1)) rnd ns
  = on_packet enc dec nd src (cell_to_bin (n_prefix nd) (mkCell cid (enc_layers enc BACKWARD ks nl (m0 :: rest)) false e2)) rnd ns.
Proof.
  intros key nonce enc dec nd src cid ci ks nl m0 rest e1 e2 rnd ns C Hp Hc Hr He Ha Hh Hk Hl Hm H4.
  rewrite !(origin_opens key nonce enc dec nd src cid ci ks nl m0 rest _ rnd ns C Hp Hc Hr He Ha Hh Hk Hl Hm) by (intros _; exact H4).
  rewrite !(community_cell key nonce enc nd src cid m0 rest _ rnd ns Hp Hc). reflexivity.
Qed.
Print Assumptions relay_early_flag_irrelevant_at_originator.

(* e2e_layer: two circuits of any lengths linked at a rendezvous point.  The sender wraps the message in the
   end-to-end layer first; every link of its circuit carries that (never the message) under the remaining hop
   layers; the rendezvous point peels its layer of the sender's circuit and adds its layer of the receiver's
   circuit around the same end-to-end ciphertext; the receiver's relays add theirs; the receiver opens all of
   them, then the end-to-end layer, and processes the message itself. *)
Theorem e2e_layer :
  forall (key nonce : Type) (enc : key -> dir -> nonce -> bytes -> bytes) (dec : key -> dir -> bytes -> option bytes)
         (e : e2e_path key) (m0 : Z) (rest : list Z) (e0 : bool) (ns : nat -> nonce) (rnd : Z -> bytes)
         (nssa : nat -> nat -> nonce) (nsr : nat -> nonce) (nssb : nat -> nat -> nonce) (nsb : nat -> nonce),
  aead_correct enc dec ->
  let early := (m0 =? 4) || (c_early (e_acirc e) <? n_max_early (e_a e)) in
  e2e_ready early e -> m0 <> 4 ->
  let msg := m0 :: rest in
  let a1 := first_addr (e_arelays e) (e_rpaddr e) in
  let ka_all := map rs_key (e_arelays e) ++ [e_ka e] in
  let kb_all := map rs_key (e_brelays e) ++ [e_kb e] in
  let inner := enc (e_hs e) (hs_out_dir (c_ctype (e_acirc e))) (ns O) msg in
  exists (a' : node key) (la : list bytes) (rp' : node key) (lb : list bytes) (nla nlb : list nonce),
    ep_send_cell enc (e_a e) a1 (mkCell (e_acid e) msg false e0) ns = Ok (a', [Send a1 (hd [] la)])
    /\ through enc dec (e_arelays e) (e_aaddr e) a1 (hd [] la) rnd nssa
       = Some (last_sender (e_arelays e) (e_aaddr e), e_rpaddr e, nth (length (e_arelays e)) la [], tl la)
    /\ on_packet enc dec (e_rp e) (last_sender (e_arelays e) (e_aaddr e)) (nth (length (e_arelays e)) la []) rnd nsr
       = Ok (rp', [Send (last_sender (e_brelays e) (e_baddr e)) (hd [] lb)])
    /\ through enc dec (rev (e_brelays e)) (e_rpaddr e) (last_sender (e_brelays e) (e_baddr e)) (hd [] lb) rnd nssb
       = Some (first_addr (e_brelays e) (e_rpaddr e), e_baddr e, nth (length (e_brelays e)) lb [], tl lb)
    /\ on_packet enc dec (e_b e) (first_addr (e_brelays e) (e_rpaddr e)) (nth (length (e_brelays e)) lb []) rnd nsb
       = community_on_cell_packet enc (e_b e) (first_addr (e_brelays e) (e_rpaddr e))
           (cell_to_bin (e_pfx e) (mkCell (e_bcid e) msg false false)) rnd nsb
    /\ length nla = length ka_all /\ length nlb = length kb_all
    /\ (forall i, (i < length ka_all)%nat ->
          cell_body (nth i la []) = enc_layers enc FORWARD (skipn i ka_all) (skipn i nla) inner)
    /\ (forall i, (i < length kb_all)%nat ->
          cell_body (nth i (rev lb) []) = enc_layers enc BACKWARD (skipn i kb_all) (skipn i nlb) inner).
Proof.
  intros key nonce enc dec e m0 rest e0 ns rnd nssa nsr nssb nsb C early R H4 msg a1 ka_all kb_all inner.
  (* the goal is folded while e2e_ready is taken apart: each of the nested matches would otherwise carry the whole
     statement as its return type *)
  match goal with |- ?G => set (goal := G) end.
  destruct R as (Hp & Hap & Hacid & Haa & Hahs & Hane & Hak & Hcha & Hrp & Hrca & Hrcb & (pk & cnt & r2 & Hr1 & Hre & Hr2 & Hr2k)
                 & Hchb & Hbp & Hbcid & Hbr & Hbe & Hba & Hbhs & Hbne & Hbk & Hbm & Hdir).
  subst goal.
  destruct (fwd_leg key nonce enc dec (e_pfx e) early (e_rpaddr e) (e_rcid_a e) (e_ka e) inner rnd (e_arelays e) (e_acid e)
              (e_aaddr e) (shift ns) nssa C Hp Hcha) as (la & Hahd & Hathr & Halast & _ & Habody).
  destruct (bwd_leg key nonce enc dec (e_pfx e) false (e_baddr e) (e_bcid e) (e_kb e) (nsr O) inner rnd (e_brelays e) (e_rcid_b e)
              (e_rpaddr e) nssb Hp Hchb) as (lb & nlb & Hbhd & Hbthr & Hblast & _ & Hbnl & Hbbody).
  assert (Lka : length ka_all = S (length (e_arelays e))) by (unfold ka_all; rewrite app_length, map_length; apply Nat.add_1_r).
  assert (Lkb : length kb_all = S (length (e_brelays e))) by (unfold kb_all; rewrite app_length, map_length; apply Nat.add_1_r).
  rewrite <- Lkb in Hbnl.
  eexists. exists la. eexists. exists lb, (drawn (shift ns) (length ka_all)), nlb.
  repeat split; try assumption.
  - rewrite Hahd, <- Hap.
    apply (origin_send_hs key nonce enc (e_a e) a1 _ _ ka_all _ m0 rest e0 ns Haa Hahs Hane Hak).
  - rewrite Halast, Hbhd, <- Hrp.
    apply (rendezvous_step key nonce enc dec (e_rp e) _ (e_rcid_a e) (e_rcid_b e) pk _ (e_ka e) cnt r2 (e_kb e) inner early _ rnd nsr C);
      try assumption; rewrite Hrp; assumption.
  - rewrite Hblast, <- Hbp. unfold inner. rewrite Hdir.
    apply (origin_opens_hs key nonce enc dec (e_b e) _ (e_bcid e) (e_bcirc e) kb_all _ (e_hs e) (ns O) m0 rest false rnd nsb C);
      try assumption; try (rewrite Hbp; assumption).
    intros _. exact H4.
  - apply drawn_length.
  - intros i Hi. apply Habody. rewrite <- Lka. exact Hi.
  - intros i Hi. apply Hbbody. rewrite <- Lkb. exact Hi.
Qed.
Print Assumptions e2e_layer.

(* ping cells: what forward_transport hands to the exit is answered with a pong under the same id and
   identifier, one BACKWARD layer, to the node it came from. *)
Theorem ping_answered :
  forall (key nonce : Type) (enc : key -> dir -> nonce -> bytes -> bytes)
         (nd : node key) (src : addr) (cid : Z) (es : exit_sock key) (k : key) (ident : Z) (early : bool)
         (rnd : Z -> bytes) (ns : nat -> nonce),
  length (n_prefix nd) = 22%nat -> cid_ok cid -> 0 <= ident < 65536 ->
  existsb (Z.eqb 6) (n_handlers nd) = true ->
  assoc cid (n_circuits nd) = None -> assoc cid (n_exits nd) = Some es -> h_keys (es_hop es) = Some k ->
  community_on_cell_packet enc nd src (cell_to_bin (n_prefix nd) (mkCell cid (6 :: be_encode 2 ident) false early)) rnd ns
  = Ok (nd, [Send src (cell_to_bin (n_prefix nd) (mkCell cid (enc k BACKWARD (ns O) (7 :: be_encode 2 ident)) false false))]).
Proof. exact ping_answered_l. Qed.
Print Assumptions ping_answered.

(* ... and so does the far end of a linked end-to-end circuit, which is the ORIGINATOR of its own circuit and has
   no exit socket for it: the pong goes out under the same id and identifier, inside the end-to-end layer and all
   hop layers of that circuit (ping is one instance of the cell message m0 :: rest of forward_transport /
   backward_transport / e2e_layer). *)
Theorem ping_answered_on_e2e_circuit :
  forall (key nonce : Type) (enc : key -> dir -> nonce -> bytes -> bytes)
         (nd : node key) (src : addr) (cid : Z) (ci : circuit key) (ks : list key) (hk : key) (h0 : hop key)
         (htl : list (hop key)) (ident : Z) (early : bool) (rnd : Z -> bytes) (ns : nat -> nonce),
  length (n_prefix nd) = 22%nat -> cid_ok cid -> 0 <= ident < 65536 ->
  existsb (Z.eqb 6) (n_handlers nd) = true ->
  assoc cid (n_circuits nd) = Some ci -> c_hs ci = Some hk -> c_hops ci = h0 :: htl ->
  map h_keys (c_hops ci) = map Some ks ->
  exists nd',
  community_on_cell_packet enc nd src (cell_to_bin (n_prefix nd) (mkCell cid (6 :: be_encode 2 ident) false early)) rnd ns
  = Ok (nd', [Send src (cell_to_bin (n_prefix nd)
                     (mkCell cid (enc_layers enc FORWARD ks (drawn (shift ns) (length ks))
                                    (enc hk (hs_out_dir (c_ctype ci)) (ns O) (7 :: be_encode 2 ident))) false
                             (c_early ci <? n_max_early nd)))]).
Proof.
  intros key nonce enc nd src cid ci ks hk h0 htl ident early rnd ns Hp Hc Hi Hh Hci Hhs Hne Hk. eexists.
  rewrite ping_handled by (try assumption; unfold known_cid, has; rewrite Hci; reflexivity).
  rewrite (origin_send_hs key nonce enc nd src cid ci ks hk 7 (be_encode 2 ident) false ns Hci Hhs) by (assumption || (rewrite Hne; discriminate)).
  reflexivity.
Qed.
Print Assumptions ping_answered_on_e2e_circuit.

(* pong cells: what backward_transport hands to the originator enters the pong handler with the header's circuit
   id and the identifier sent. *)
Theorem pong_received :
  forall (key nonce : Type) (enc : key -> dir -> nonce -> bytes -> bytes)
         (nd : node key) (src : addr) (cid ident : Z) (early : bool) (rnd : Z -> bytes) (ns : nat -> nonce),
  length (n_prefix nd) = 22%nat -> cid_ok cid -> 0 <= ident < 65536 ->
  existsb (Z.eqb 7) (n_handlers nd) = true ->
  community_on_cell_packet enc nd src (cell_to_bin (n_prefix nd) (mkCell cid (7 :: be_encode 2 ident) false early)) rnd ns
  = Ok (nd, [GotPong src cid ident]).
Proof.
  intros key nonce enc nd src cid ident early rnd ns Hp Hc Hi Hh.
  rewrite cell_dispatch, Hh by (assumption || discriminate).
  cbn [negb Z.eqb Pos.eqb]. unfold on_pong. rewrite (ident_payload_decode (n_prefix nd) 7 cid ident Hp Hc Hi). reflexivity.
Qed.
Print Assumptions pong_received.

(* ---------------------------------------------------------------------------------------------------
   Non-vacuity: a concrete 3-hop circuit (two relays and an exit) and a concrete rendezvous pair under the
   toy AEAD meet the hypotheses of the theorems above, and the model actually moves data over them. *)
Definition xpfx : bytes := [0; 2] ++ repeat 7 20%nat.
Definition xaO := A4 [10; 0; 0; 1] 1000.
Definition xaR1 := A4 [10; 0; 1; 1] 1000.
Definition xaR2 := A4 [10; 0; 1; 2] 1000.
Definition xaX := A4 [10; 0; 2; 1] 1000.
Definition xhandlers : list Z := [1; 2; 3; 4; 5; 6; 7; 19; 20].
Definition xcirc : circuit Z :=
  mkCircuit 3 CT_DATA [mkHop 1 xaR1 (Some 11); mkHop 2 null_addr (Some 12); mkHop 3 null_addr (Some 13)] None None false 3.
Definition xO : node Z := mkNode xpfx 8 [1] xhandlers [] false [(100, xcirc)] [] [].
Definition xR1 : node Z :=
  mkNode xpfx 8 [1] xhandlers [] false []
         [(100, mkRR 200 (mkHop 2 xaR2 (Some 11)) FORWARD false 1); (200, mkRR 100 (mkHop 0 xaO (Some 11)) BACKWARD false 1)] [].
Definition xR2 : node Z :=
  mkNode xpfx 8 [1] xhandlers [] false []
         [(200, mkRR 300 (mkHop 3 xaX (Some 12)) FORWARD false 1); (300, mkRR 200 (mkHop 1 xaR1 (Some 12)) BACKWARD false 1)] [].
Definition xsock : exit_sock Z := mkES 300 (mkHop 2 xaR2 (Some 13)) false.
Definition xX : node Z := mkNode xpfx 8 [1; 2] xhandlers [] false [] [] [(300, xsock)].
Definition xpath : path Z :=
  mkPath xpfx xO xaO 100 xcirc [mkRS xaR1 xR1 100 200 11; mkRS xaR2 xR2 200 300 12] xX xaX 300 xsock 13.

Example c04_path_meets_hypotheses :
  forward_ready (origin_early xpath 1) xpath /\ backward_ready xpath /\ c_hs (p_circ xpath) = None
  /\ existsb (Z.eqb 1) (n_handlers (p_exit xpath)) = true /\ existsb (Z.eqb 1) (n_handlers (p_origin xpath)) = true.
Proof.
  repeat (apply conj || eapply ex_intro); try reflexivity; try discriminate; try (intros H; discriminate H).
Qed.

Definition xdest := A4 [1; 2; 3; 4] 5.
Definition xdata : bytes := [100; 9; 8; 7; 101].

(* forward: three datagrams on the links, the exit hands the five bytes to its socket *)
Example c04_forward_runs :
  match send_data tenc xO xaR1 100 xdest null_addr xdata (stream [5; 6; 7]) with
  | Ok (_, [Send a pkt0]) =>
      match through tenc tdec (p_relays xpath) xaO a pkt0 (fun _ => []) (fun _ => stream []) with
      | Some (s, d, pktN, log) =>
          match on_packet tenc tdec xX s pktN (fun _ => []) (stream []) with
          | Ok (_, acts) => acts = [ExitSendto 300 xdata xdest] /\ length log = 2%nat
                            /\ map (@length Z) (map cell_body (pkt0 :: log)) = [92; 68; 44]%nat
          | _ => False
          end
      | None => False
      end
  | _ => False
  end.
Proof. vm_compute. repeat split; reflexivity. Qed.

(* backward: the originator's consumer gets the bytes with the outside source as origin *)
Example c04_backward_runs :
  match tunnel_data tenc xX (mkES 300 (mkHop 2 xaR2 (Some 13)) true) xdest xdata (stream [9]) with
  | Ok (_, [Send a pkt0]) =>
      match through tenc tdec (rev (p_relays xpath)) xaX a pkt0 (fun _ => []) (fun i => stream [20 + Z.of_nat i]) with
      | Some (s, d, pktN, log) =>
          on_packet tenc tdec xO s pktN (fun _ => []) (stream []) = Ok (xO, [RawData 100 xdest xdata])
      | None => False
      end
  | _ => False
  end.
Proof. vm_compute. reflexivity. Qed.

(* one altered element of the body: the first relay drops the cell and stays as it was; an altered
   relay_early flag: same delivery *)
Example c04_tamper_is_dropped :
  match send_data tenc xO xaR1 100 xdest null_addr xdata (stream [5; 6; 7]) with
  | Ok (_, [Send a pkt0]) =>
      on_packet tenc tdec xR1 xaO (xor_at 40 1 pkt0) (fun _ => []) (stream []) = Ok (xR1, [])
      /\ on_packet tenc tdec xR1 xaO (xor_at 95 4 pkt0) (fun _ => []) (stream []) = Ok (xR1, [])
      /\ (exists nd' pkt', on_packet tenc tdec xR1 xaO pkt0 (fun _ => []) (stream []) = Ok (nd', [Send xaR2 pkt'])
                            /\ (length pkt' + 24 = length pkt0)%nat)
  | _ => False
  end.
Proof. vm_compute. split; [reflexivity|]. split; [reflexivity|]. eexists; eexists. split; reflexivity. Qed.

(* a rendezvous pair: A (downloader) -- RA -- RP -- RB -- B (seeder) *)
Definition yaA := A4 [10; 1; 0; 1] 1000.
Definition yaRA := A4 [10; 1; 1; 1] 1000.
Definition yaRP := A4 [10; 1; 2; 1] 1000.
Definition yaRB := A4 [10; 1; 1; 2] 1000.
Definition yaB := A4 [10; 1; 0; 2] 1000.
Definition yacirc : circuit Z :=
  mkCircuit 2 CT_RP_DOWNLOADER [mkHop 1 yaRA (Some 21); mkHop 2 yaRP (Some 22)] None (Some 99) false 8.
Definition ybcirc : circuit Z :=
  mkCircuit 2 CT_RP_SEEDER [mkHop 3 yaRB (Some 31); mkHop 2 null_addr (Some 32)] None (Some 99) false 8.
Definition yA : node Z := mkNode xpfx 8 [1] xhandlers [] false [(500, yacirc)] [] [].
Definition yB : node Z := mkNode xpfx 8 [1] xhandlers [] false [(700, ybcirc)] [] [].
Definition yRA : node Z :=
  mkNode xpfx 8 [1] xhandlers [] false []
         [(500, mkRR 510 (mkHop 2 yaRP (Some 21)) FORWARD false 5); (510, mkRR 500 (mkHop 0 yaA (Some 21)) BACKWARD false 5)] [].
Definition yRB : node Z :=
  mkNode xpfx 8 [1] xhandlers [] false []
         [(700, mkRR 710 (mkHop 2 yaRP (Some 31)) FORWARD false 5); (710, mkRR 700 (mkHop 4 yaB (Some 31)) BACKWARD false 5)] [].
Definition yRP : node Z :=
  mkNode xpfx 8 [1; 2] xhandlers [] false []
         [(510, mkRR 710 (mkHop 3 yaRB (Some 22)) FORWARD true 2); (710, mkRR 510 (mkHop 1 yaRA (Some 32)) FORWARD true 2)] [].
Definition ye2e : e2e_path Z :=
  mkE2E xpfx yA yaA 500 yacirc [mkRS yaRA yRA 500 510 21] yRP yaRP 510 710 22 32
        yB yaB 700 ybcirc [mkRS yaRB yRB 700 710 31] 99.

Example c04_e2e_meets_hypotheses : e2e_ready false ye2e.
Proof.
  repeat (apply conj || eapply ex_intro); try reflexivity; try discriminate; try (intros H; discriminate H).
Qed.

Example c04_e2e_runs :
  match send_data tenc yA yaRA 500 null_addr xdest xdata (stream [1; 2; 3]) with
  | Ok (_, [Send a pkt0]) =>
      match through tenc tdec [mkRS yaRA yRA 500 510 21; mkRS yaRP yRP 510 710 22; mkRS yaRB yRB 700 710 31]
                    yaA a pkt0 (fun _ => []) (fun i => stream [40 + Z.of_nat i]) with
      | Some (s, d, pktN, log) => on_packet tenc tdec yB s pktN (fun _ => []) (stream []) = Ok (yB, [RawData 700 xdest xdata])
      | None => False
      end
  | _ => False
  end.
Proof. vm_compute. reflexivity. Qed.
