(* C10 - each outstanding request is resolved exactly once.  Property theorems only.
   Model: model/M10_reqcache.v (RequestCache + the TaskManager timeout tasks + loop iterations);
   vocabulary: spec/S10_reqcache.v; lemmas: proofs/P10_reqcache.v.
   `run cfg (init cfg) ops` ranges over every population of cache objects `cfg` (any number of caches,
   any prefixes / numbers / delays / callbacks) and every list of operations `ops`: add, pop,
   retrieve_cache, has/get, constructor, find_unclaimed_identifier, clear, passthrough enter/exit,
   clock advance, loop iteration begin/end, the scheduler running any timeout task (Fire, in any order),
   shutdown - including pops / adds / clear issued from inside on_timeout callbacks. *)
From Coq Require Import ZArith List Bool Arith.
From IPV8V Require Import lib.PyErr model.M10_reqcache spec.S10_reqcache proofs.P10_reqcache.
Import ListNotations.
Open Scope Z_scope.

(* The decidable reading of the property (`holds`, the same predicate the harness evaluates on the
   implementation) is true of every history: a cache is accepted only while not shut down and while no
   outstanding cache has its (prefix, number); a pop result and an on_timeout call are only ever delivered
   for an outstanding cache and end it; clear / shutdown drop outstanding caches only; after shutdown
   nothing is accepted and nothing times out. *)
Theorem resolved_at_most_once : forall cfg ops,
  holds cfg [] false (events (snd (run cfg (init cfg) ops))) = true.
Proof. exact holds_all_runs. Qed.
Print Assumptions resolved_at_most_once.

(* Counting form: at every point of every history, for every cache object,
   #resolutions <= #accepted adds <= #resolutions + 1   (resolution = pop result, timeout, or drop). *)
Theorem resolution_counts : forall cfg ops c,
  let l := events (snd (run cfg (init cfg) ops)) in
  (n_res c l <= n_add c l /\ n_add c l <= n_res c l + 1)%nat.
Proof. intros cfg ops c. exact (holds_counts_start cfg c _ false (holds_all_runs cfg ops)). Qed.
Print Assumptions resolution_counts.

(* Between a pop that returned cache c and a later timeout of c, c must have been added again. *)
Theorem pop_disables_timeout : forall cfg ops c l1 l2 l3,
  events (snd (run cfg (init cfg) ops)) = l1 ++ EPopped c :: l2 ++ ETimeout c :: l3 -> In (EAdded c) l2.
Proof. intros cfg ops c l1 l2 l3 E. exact (one_resolution_per_add _ _ _ _ _ _ _ _ E (or_introl eq_refl) (or_intror eq_refl)). Qed.
Print Assumptions pop_disables_timeout.

Theorem timeout_disables_pop : forall cfg ops c l1 l2 l3,
  events (snd (run cfg (init cfg) ops)) = l1 ++ ETimeout c :: l2 ++ EPopped c :: l3 -> In (EAdded c) l2.
Proof. intros cfg ops c l1 l2 l3 E. exact (one_resolution_per_add _ _ _ _ _ _ _ _ E (or_intror eq_refl) (or_introl eq_refl)). Qed.
Print Assumptions timeout_disables_pop.

Theorem timeout_fires_once : forall cfg ops c l1 l2 l3,
  events (snd (run cfg (init cfg) ops)) = l1 ++ ETimeout c :: l2 ++ ETimeout c :: l3 -> In (EAdded c) l2.
Proof. intros cfg ops c l1 l2 l3 E. exact (one_resolution_per_add _ _ _ _ _ _ _ _ E (or_intror eq_refl) (or_intror eq_refl)). Qed.
Print Assumptions timeout_fires_once.

(* State form: in every reachable state a cache has a live timeout task exactly when it is the cache
   registered under its identity. *)
Theorem timer_iff_outstanding : forall cfg ops c,
  let s := fst (run cfg (init cfg) ops) in
  tk_get (tasks s) c <> None <-> tbl_get (table s) (ckey cfg c) = Some c.
Proof. intros cfg ops c s. apply (inv_task cfg s), run_inv, inv_init. Qed.
Print Assumptions timer_iff_outstanding.

(* A successful pop removes the timer: the scheduler can no longer run that timeout. *)
Theorem pop_cancels_timer : forall cfg ops p n c,
  let s := fst (run cfg (init cfg) ops) in
  tbl_get (table s) (p, n) = Some c ->
  let s' := fst (step_b cfg s (BPop p n)) in
  snd (step_b cfg s (BPop p n)) = [OPop p n (Ok c)] /\ tk_get (tasks s') c = None /\
  snd (fire cfg s' c) = [ORefused c].
Proof. intros cfg ops. apply pop_releases. Qed.
Print Assumptions pop_cancels_timer.

(* After a timeout (callback doing nothing) a late response finds nothing: pop raises KeyError,
   and the timeout cannot run a second time. *)
Theorem timeout_then_pop_keyerror : forall cfg ops c,
  let s := fst (run cfg (init cfg) ops) in
  tk_get (tasks s) c = Some TReady -> c_script (getc cfg c) = [] ->
  let s' := fst (fire cfg s c) in
  In (OTimeout c) (snd (fire cfg s c)) /\
  snd (step_b cfg s' (BPop (fst (ckey cfg c)) (snd (ckey cfg c))))
  = [OPop (fst (ckey cfg c)) (snd (ckey cfg c)) (Raise KeyError)] /\
  snd (fire cfg s' c) = [ORefused c].
Proof. intros cfg ops. apply timeout_releases. Qed.
Print Assumptions timeout_then_pop_keyerror.

Theorem pop_keyerror_iff_free : forall cfg s p n,
  snd (step_b cfg s (BPop p n)) = [OPop p n (Raise KeyError)] <-> tbl_get (table s) (p, n) = None.
Proof. intros cfg s p n. simpl. destruct (tbl_get (table s) (p, n)); split; intros H; try reflexivity; discriminate. Qed.
Print Assumptions pop_keyerror_iff_free.

(* While an identity is taken, add of a cache with that identity returns None and changes nothing. *)
Theorem identity_exclusive : forall cfg s c c0,
  tbl_get (table s) (ckey cfg c) = Some c0 -> shut s = false -> 0 < c_delay (getc cfg c) ->
  step_b cfg s (BAdd c) = (s, [OAdd c ADup]).
Proof.
  intros cfg s c c0 Hg Hs Hd. simpl. rewrite (proj2 (Z.leb_gt _ _) Hd), Hs, Hg. reflexivity.
Qed.
Print Assumptions identity_exclusive.

(* The NumberCache constructor raises exactly for taken identities. *)
Theorem constructor_guard : forall cfg s p n,
  snd (step_b cfg s (BNew p n)) = [ONew p n true] <-> tbl_get (table s) (p, n) <> None.
Proof. intros cfg s p n. simpl. destruct (tbl_get (table s) (p, n)); split; intros H; try reflexivity; congruence. Qed.
Print Assumptions constructor_guard.

(* The random identifier search only returns free numbers, and only numbers it drew. *)
Theorem find_unclaimed_is_free : forall t p draws n,
  first_unclaimed t p draws = Ok n -> tbl_get t (p, n) = None /\ In n draws.
Proof.
  intros t p draws n. induction draws as [|d r IH]; simpl; [discriminate|].
  destruct (tbl_get t (p, d)) eqn:E.
  - intros H. destruct (IH H). auto.
  - intros [= <-]. auto.
Qed.
Print Assumptions find_unclaimed_is_free.

(* add never fails half-way with register_task's "Task already exists". *)
Theorem add_never_fails_halfway : forall cfg ops c,
  let s := fst (run cfg (init cfg) ops) in
  snd (step_b cfg s (BAdd c)) <> [OAdd c (ARaise RuntimeError)].
Proof. intros cfg ops c. apply add_never_task_exists, run_inv, inv_init. Qed.
Print Assumptions add_never_fails_halfway.

(* When a timeout runs, on return no managed future of the cache is pending, and each
   future that was still pending after the callback has exactly its configured result / exception. *)
Theorem futures_completed : forall cfg ops c,
  let s := fst (run cfg (init cfg) ops) in
  (c < length cfg)%nat -> tk_get (tasks s) c = Some TReady ->
  In (OTimeout c) (snd (fire cfg s c)) /\
  Forall not_pending (nth c (futs (fst (fire cfg s c))) []).
Proof. intros cfg ops c s _. apply fire_completes, run_inv, inv_init. Qed.
Print Assumptions futures_completed.

Theorem futures_get_configured_value : forall cfg ops c,
  let s := fst (run cfg (init cfg) ops) in
  (c < length cfg)%nat -> tk_get (tasks s) c = Some TReady ->
  exists s2 o2,
    run_b cfg (set_tasks (set_table s (tbl_del (table s) (ckey cfg c))) (tk_del (tasks s) c))
          (c_script (getc cfg c)) = (s2, o2) /\
    forall k sp f, nth_error (c_futs (getc cfg c)) k = Some sp -> nth_error (nth c (futs s2) []) k = Some f ->
      nth_error (nth c (futs (fst (fire cfg s c))) []) k
      = Some (match f with FPending => configured sp | x => x end).
Proof. intros cfg ops c s _. apply fire_configured. Qed.
Print Assumptions futures_get_configured_value.

(* The synchronous part of shutdown empties the table, removes every timer and leaves no
   managed future of a registered cache pending; and whatever happens afterwards (ops2), the cache stays shut
   and empty, no on_timeout runs and no add is accepted. *)
Theorem shutdown_final : forall cfg ops1 ops2,
  let s0 := fst (run cfg (init cfg) ops1) in
  let s1 := fst (step cfg s0 Shutdown) in
  shut s1 = true /\ table s1 = [] /\ tasks s1 = [] /\
  (forall c, In c (map snd (table s0)) -> Forall not_pending (nth c (futs s1) [])) /\
  let s2 := fst (run cfg s1 ops2) in
  shut s2 = true /\ table s2 = [] /\ tasks s2 = [] /\
  (forall c, ~ In (OTimeout c) (snd (run cfg s1 ops2)) /\ ~ In (OAdd c AAdded) (snd (run cfg s1 ops2))).
Proof.
  intros cfg ops1 ops2 s0 s1. destruct (shutdown_empties cfg s0) as [Hs [Ht [Hk Hf]]].
  repeat (split; [assumption|]). apply after_shutdown; [|exact Hs]. apply step_inv, run_inv, inv_init.
Qed.
Print Assumptions shutdown_final.

Theorem add_after_shutdown : forall cfg s c,
  shut s = true -> 0 < c_delay (getc cfg c) ->
  snd (step_b cfg s (BAdd c)) = [OAdd c ADropped] /\
  table (fst (step_b cfg s (BAdd c))) = table s /\ tasks (fst (step_b cfg s (BAdd c))) = tasks s /\
  Forall not_pending (nth c (futs (fst (step_b cfg s (BAdd c)))) []).
Proof.
  intros cfg s c Hs Hd. simpl. rewrite (proj2 (Z.leb_gt _ _) Hd), Hs. simpl. repeat split. apply cancel_futs_done_at.
Qed.
Print Assumptions add_after_shutdown.

(* Bounded liveness.  A cache registered with delay d > 0: after the iteration in which
   its task takes its first step, once the clock has advanced by d, two further iterations of a loop that
   leaves no runnable task behind (IterEnd reports nothing) contain its resolution - whatever else (A, B, D:
   any operations, any scheduler choices) happens in between.  Together with resolved_at_most_once: exactly once. *)
Theorem resolved_eventually : forall cfg ops0 c d A B D,
  let s := fst (run cfg (init cfg) ops0) in
  tk_get (tasks s) c = Some (TCreated d) -> 0 < d ->
  forallb not_iterbegin A = true -> forallb not_iterbegin B = true -> forallb not_iterbegin D = true ->
  now s + d <= now (fst (run cfg s (IterBegin :: A))) ->
  let ops := (IterBegin :: A) ++ IterBegin :: B ++ IterBegin :: D in
  snd (step cfg (fst (run cfg s ops)) IterEnd) = [OIterEnd []] ->
  resolved c (events (snd (run cfg s ops))).
Proof. intros cfg ops0 c d A B D. apply created_resolved, run_inv, inv_init. Qed.
Print Assumptions resolved_eventually.

(* a timer whose deadline has passed is resolved within two iterations *)
Theorem due_timer_resolved : forall cfg ops0 c dl A B,
  let s := fst (run cfg (init cfg) ops0) in
  tk_get (tasks s) c = Some (TSleep dl) -> dl <= now s ->
  forallb not_iterbegin A = true -> forallb not_iterbegin B = true ->
  let ops := IterBegin :: A ++ IterBegin :: B in
  snd (step cfg (fst (run cfg s ops)) IterEnd) = [OIterEnd []] ->
  resolved c (events (snd (run cfg s ops))).
Proof. intros cfg ops0 c dl A B. apply sleeping_due_resolved, run_inv, inv_init. Qed.
Print Assumptions due_timer_resolved.

(* passthrough() with timeout 0: the cache times out in the very next iteration *)
Theorem passthrough_zero_resolved_next_iteration : forall cfg ops0 c B,
  let s := fst (run cfg (init cfg) ops0) in
  tk_get (tasks s) c = Some (TCreated 0) -> forallb not_iterbegin B = true ->
  let ops := IterBegin :: B in
  snd (step cfg (fst (run cfg s ops)) IterEnd) = [OIterEnd []] ->
  resolved c (events (snd (run cfg s ops))).
Proof. intros cfg ops0 c B. apply created_zero_resolved, run_inv, inv_init. Qed.
Print Assumptions passthrough_zero_resolved_next_iteration.

(* Non-vacuity: concrete histories exercising the hypotheses. *)
Definition ex_cfg : list cache :=
  [ mkCache 0 1 2 [0] [SNone; SVal 7; SExc 3] [BPop 0 2; BAdd 1%nat];   (* callback pops cache 1's identity, re-adds it *)
    mkCache 0 2 2 [1] [SVal 5] [];
    mkCache 0 1 5 [2;1] [] [BAdd 2%nat] ].                              (* same identity as cache 0; re-adds itself *)

(* both timers woken in the same iteration; cache 0's callback pops cache 1 (whose wake-up is already
   scheduled: it never times out) and re-adds it; a duplicate identity is refused; a late pop raises KeyError *)
Example c10_nonvacuous_timeout_pop_in_callback :
  snd (run ex_cfg (init ex_cfg)
        [OpB (BAdd 0%nat); OpB (BAdd 1%nat); OpB (BAdd 2%nat); IterBegin; IterEnd; Advance 2; IterBegin; IterEnd;
         IterBegin; Fire 0%nat; Fire 1%nat; IterEnd; OpB (BPop 0 1); Snap])
  = [OAdd 0 AAdded; OAdd 1 AAdded; OAdd 2 ADup; ONop; OIterEnd []; ONop; ONop; OIterEnd []; ONop;
     OTimeout 0; OPop 0 2 (Ok 1%nat); OAdd 1 AAdded; OTimeoutEnd 0 [FNone; FVal 7; FExc 3]; ORefused 1; OIterEnd [];
     OPop 0 1 (Raise KeyError);
     OSnap [((0, 2), 1%nat)] [1%nat] [[FNone; FVal 7; FExc 3]; [FPending]; []] false].
Proof. vm_compute. reflexivity. Qed.

(* a cache that re-adds itself from its own on_timeout is registered again with a fresh timer *)
Example c10_nonvacuous_readd_self :
  snd (run ex_cfg (init ex_cfg)
        [OpB (BPassEnter 0 None); OpB (BAdd 2%nat); OpB BPassExit; IterBegin; Fire 2%nat; IterEnd; Snap;
         Shutdown; OpB (BAdd 1%nat); Snap])
  = [ONop; OAdd 2 AAdded; ONop; ONop; OTimeout 2; OAdd 2 AAdded; OTimeoutEnd 2 []; OIterEnd [];
     OSnap [((0, 1), 2%nat)] [2%nat] [[FPending; FPending; FPending]; [FPending]; []] false;
     OShutdown [2%nat]; OAdd 1 ADropped;
     OSnap [] [] [[FPending; FPending; FPending]; [FCancelled]; []] true].
Proof. vm_compute. reflexivity. Qed.

(* the hypotheses of resolved_eventually are satisfiable: registered with delay 2, clock advanced by 2 *)
Example c10_nonvacuous_liveness :
  let s := fst (run ex_cfg (init ex_cfg) [OpB (BAdd 1%nat)]) in
  tk_get (tasks s) 1%nat = Some (TCreated 2) /\
  now s + 2 <= now (fst (run ex_cfg s (IterBegin :: [IterEnd; Advance 2]))) /\
  let ops := (IterBegin :: [IterEnd; Advance 2]) ++ IterBegin :: [IterEnd] ++ IterBegin :: [Fire 1%nat] in
  snd (step ex_cfg (fst (run ex_cfg s ops)) IterEnd) = [OIterEnd []] /\
  events (snd (run ex_cfg s ops)) = [ETimeout 1%nat].
Proof. vm_compute. repeat split; discriminate. Qed.
