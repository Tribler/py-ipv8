(* C10 (extension) - the request cache as RUN FROM THE SOURCE.  The bodies of RequestCache.add / has / get / pop /
   passthrough / _on_timeout / clear / shutdown, NumberCache.__init__ (+ prefix / number properties) and
   RandomNumberCache.find_unclaimed_identifier are regenerated on every run by tools/tr/tr_reqcache.py as programs
   (gen/G10_reqcache.v) of the language of model/M10_lang.v; model/M10_reqcache_gen.v runs the model's operations
   through its interpreter.  The theorems below state that this computes exactly the hand model
   model/M10_reqcache.v, so every theorem of props/C10.v is a theorem about the translated source.
   Property theorems only. *)
From Coq Require Import ZArith List Bool Arith.
From IPV8V Require Import lib.PyErr model.M10_reqcache spec.S10_reqcache proofs.P10_reqcache
  model.M10_lang gen.G10_reqcache model.M10_reqcache_gen proofs.P10_reqcache_gen.
Import ListNotations.
Open Scope Z_scope.

(* For every population whose callbacks are expressible (cfg_ok) and every list of operations expressible through
   the Python signatures (op_ok: passthrough() cannot be handed an empty filter list; the random search draws
   between 1 and 1000 numbers): running the translated functions yields the same final state and the same
   observations as the hand model - including pops / adds / clear issued from inside on_timeout. *)
Theorem gen_refines_hand_model : forall cfg ops,
  cfg_ok cfg = true -> forallb op_ok ops = true ->
  grun cfg (init cfg) ops = run cfg (init cfg) ops.
Proof. intros cfg ops Hc Ho. apply grun_refines; [exact Hc | exact Ho | apply inv_init]. Qed.
Print Assumptions gen_refines_hand_model.

(* One step, from any reachable state. *)
Theorem gen_refines_step : forall cfg ops o,
  cfg_ok cfg = true -> op_ok o = true ->
  let s := fst (run cfg (init cfg) ops) in gstep cfg s o = step cfg s o.
Proof. intros cfg ops o Hc Ho s. apply gstep_refines; [exact Hc | exact Ho | apply run_inv, inv_init]. Qed.
Print Assumptions gen_refines_step.

(* The synchronous calls (add, pop, retrieve_cache, has, get, constructor, find_unclaimed_identifier, clear,
   passthrough enter / exit) agree in EVERY state, reachable or not. *)
Theorem gen_refines_sync_ops : forall cfg s b, bop_ok b = true -> gstep_b cfg s b = step_b cfg s b.
Proof. intros cfg s b. apply gstep_b_refines. Qed.
Print Assumptions gen_refines_sync_ops.

(* RequestCache._on_timeout as translated (release the identifier, release the task, call on_timeout, complete the
   futures - in the order of the source) is the model's `fire`. *)
Theorem gen_on_timeout_refines : forall cfg ops c,
  cfg_ok cfg = true ->
  let s := fst (run cfg (init cfg) ops) in gfire cfg s c = fire cfg s c.
Proof. intros cfg ops c Hc s. apply gfire_refines; [exact Hc | apply run_inv, inv_init]. Qed.
Print Assumptions gen_on_timeout_refines.

(* The delegation branch of pop / has / get: a cache class as prefix behaves as its `name`. *)
Theorem gen_pop_by_class : forall cfg s tag p n,
  let a := gcall cfg no_cb 2 g_pop s [VClass tag p; VInt n] [] in
  let b := gcall cfg no_cb 2 g_pop s [VStr p; VInt n] [] in
  x_st (fst a) = x_st (fst b) /\ snd a = snd b.
Proof. intros cfg [tb tk fs nw sh ov fl] tag p n. interp. destruct (tbl_get tb (p, n)); split; reflexivity. Qed.
Print Assumptions gen_pop_by_class.

Theorem gen_has_get_by_class : forall cfg s tag p n,
  snd (gcall cfg no_cb 2 g_has s [VClass tag p; VInt n] []) = snd (gcall cfg no_cb 2 g_has s [VStr p; VInt n] []) /\
  snd (gcall cfg no_cb 2 g_get s [VClass tag p; VInt n] []) = snd (gcall cfg no_cb 2 g_get s [VStr p; VInt n] []).
Proof. intros. split; reflexivity. Qed.
Print Assumptions gen_has_get_by_class.

(* NumberCache.__init__: raises RuntimeError exactly for a taken identity and changes nothing; otherwise the new
   object's prefix / number properties are the arguments, i.e. the identifier add() computes from them is (p, n). *)
Theorem gen_numbercache_identity : forall cfg s p n,
  let r := gcall cfg no_cb 1 g_numbercache_init s [VNone; VStr p; VInt n] [] in
  x_st (fst r) = s /\
  match tbl_get (table s) (p, n) with
  | Some _ => snd r = ORaise RuntimeError
  | None => snd r = ONormal /\
            eval cfg (ghas_val cfg) s (x_env (fst r)) g_prop_prefix = Ok (VStr p) /\
            eval cfg (ghas_val cfg) s (x_env (fst r)) g_prop_number = Ok (VInt n) /\
            eval cfg (ghas_val cfg) s (x_env (fst r))
                 (XIdent g_prop_number g_prop_prefix) = Ok (VKey (p, n))
  end.
Proof.
  intros cfg [tb tk fs nw sh ov fl] p n. interp. destruct (tbl_get tb (p, n)); repeat split; reflexivity.
Qed.
Print Assumptions gen_numbercache_identity.

(* The main property, transferred: over the translated functions every history satisfies `holds`. *)
Theorem gen_resolved_at_most_once : forall cfg ops,
  cfg_ok cfg = true -> forallb op_ok ops = true ->
  holds cfg [] false (events (snd (grun cfg (init cfg) ops))) = true.
Proof. intros cfg ops Hc Ho. rewrite gen_refines_hand_model by assumption. apply holds_all_runs. Qed.
Print Assumptions gen_resolved_at_most_once.

(* Non-vacuity: a history through every translated function, run from the generated programs. *)
Definition exx_cfg : list cache :=
  [ mkCache 0 1 2 [0] [SNone; SVal 7; SExc 3] [BPop 0 2; BAdd 1%nat];
    mkCache 0 2 2 [1] [SVal 5] [];
    mkCache 0 1 5 [2;1] [] [BAdd 2%nat] ].
Definition exx_ops : list op :=
  [OpB (BAdd 0%nat); OpB (BAdd 1%nat); OpB (BAdd 2%nat); OpB (BNew 0 1); OpB (BNew 3 1); OpB (BFind 0 [1;2;5]);
   IterBegin; IterEnd; Advance 2; IterBegin; IterEnd; IterBegin; Fire 0%nat; Fire 1%nat; IterEnd;
   OpB (BPop 0 1); OpB (BHas 0 2); OpB (BGet 0 2); OpB (BRetr 0 2); Snap;
   OpB (BPassEnter 0 (Some [1;5])); OpB (BAdd 2%nat); OpB (BAdd 0%nat); OpB BPassExit; IterBegin; Fire 2%nat; IterEnd;
   Snap; Shutdown; OpB (BAdd 1%nat); OpB BClear; Snap].

Example c10x_nonvacuous_hypotheses : cfg_ok exx_cfg = true /\ forallb op_ok exx_ops = true.
Proof. vm_compute. split; reflexivity. Qed.

Example c10x_nonvacuous_run :
  snd (grun exx_cfg (init exx_cfg) exx_ops)
  = [OAdd 0 AAdded; OAdd 1 AAdded; OAdd 2 ADup; ONew 0 1 true; ONew 3 1 false; OFind 0 (Ok 5); ONop; OIterEnd [];
     ONop; ONop; OIterEnd []; ONop; OTimeout 0; OPop 0 2 (Ok 1%nat); OAdd 1 AAdded;
     OTimeoutEnd 0 [FNone; FVal 7; FExc 3]; ORefused 1; OIterEnd []; OPop 0 1 (Raise KeyError); OHas 0 2 true;
     OGet 0 2 (Some 1%nat); ORetr 0 2 (Some 1%nat);
     OSnap [] [] [[FNone; FVal 7; FExc 3]; [FPending]; []] false; ONop; OAdd 2 AAdded; OAdd 0 ADup; ONop; ONop;
     OTimeout 2; OAdd 2 AAdded; OTimeoutEnd 2 []; OIterEnd [];
     OSnap [((0, 1), 2%nat)] [2%nat] [[FNone; FVal 7; FExc 3]; [FPending]; []] false;
     OShutdown [2%nat]; OAdd 1 ADropped; OClear [];
     OSnap [] [] [[FNone; FVal 7; FExc 3]; [FCancelled]; []] true].
Proof. vm_compute. reflexivity. Qed.
