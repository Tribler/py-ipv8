(* C02 - every shipped wire message survives encode/decode unchanged. *)
From Coq Require Import ZArith List.
From IPV8V Require Import lib.PyErr lib.Bytes lib.BE model.M02_wire gen.G02_registry spec.S02_documented
  proofs.P02_roundtrip proofs.P02_shipped.
Import ListNotations.

(* Any well-formed format, any legal value, any start offset, any surrounding bytes: decoding the
   encoding returns the value and the exact end position.  (A greedy format - raw - must be last.) *)
Theorem pack_unpack_fmt : forall key_ok f v bs (pre suf : bytes),
  wf_fmt f = true -> val_ok key_ok f v = true -> pack key_ok f v = Ok bs ->
  (greedy f = false \/ suf = []) ->
  unpack key_ok f (pre ++ bs ++ suf) (length pre) = Ok (v, (length pre + length bs)%nat).
Proof. exact pack_unpack_fmt_l. Qed.
Print Assumptions pack_unpack_fmt.

(* The same for whole messages (format lists), nested to any depth, listed to any length. *)
Theorem msg_roundtrip : forall key_ok m vs bs (pre suf : bytes),
  wf_msg m = true -> msg_ok key_ok m vs = true -> pack_msg key_ok m vs = Ok bs ->
  (msg_greedy m = false \/ suf = []) ->
  unpack_msg key_ok m (pre ++ bs ++ suf) (length pre) = Ok (vs, (length pre + length bs)%nat).
Proof. exact msg_roundtrip_l. Qed.
Print Assumptions msg_roundtrip.

(* Re-encoding what was decoded from an encoding gives the same bytes, and the decode consumed exactly them. *)
Theorem reencode_identical : forall key_ok m vs bs (pre suf : bytes) vs' o,
  wf_msg m = true -> msg_ok key_ok m vs = true -> pack_msg key_ok m vs = Ok bs ->
  (msg_greedy m = false \/ suf = []) ->
  unpack_msg key_ok m (pre ++ bs ++ suf) (length pre) = Ok (vs', o) ->
  pack_msg key_ok m vs' = Ok bs /\ o = (length pre + length bs)%nat.
Proof.
  intros key_ok m vs bs pre suf vs' o Hwf Hok Hp Hg Hu.
  rewrite (msg_roundtrip_l key_ok m vs bs pre suf Hwf Hok Hp Hg) in Hu. inversion Hu; subst. split; [exact Hp|reflexivity].
Qed.
Print Assumptions reencode_identical.

(* The registry the code builds is the documented wire table. *)
Theorem registry_is_documented :
  registry_default = documented /\ registry_overlay = documented_overlay.
Proof. split; reflexivity. Qed.
Print Assumptions registry_is_documented.

(* Every definition shipped in the ipv8 package is well-formed ... *)
Theorem shipped_wf : forall name fs, In (name, fs) msgdefs -> wf_msg (msg_of_list fs) = true.
Proof. exact shipped_wf_l. Qed.
Print Assumptions shipped_wf.

(* ... hence round-trips. *)
Theorem shipped_roundtrip : forall key_ok name fs vs bs (pre suf : bytes),
  In (name, fs) msgdefs ->
  msg_ok key_ok (msg_of_list fs) vs = true -> pack_msg key_ok (msg_of_list fs) vs = Ok bs ->
  (msg_greedy (msg_of_list fs) = false \/ suf = []) ->
  unpack_msg key_ok (msg_of_list fs) (pre ++ bs ++ suf) (length pre) = Ok (vs, (length pre + length bs)%nat).
Proof.
  intros key_ok name fs vs bs pre suf Hin. apply msg_roundtrip_l. exact (shipped_wf_l name fs Hin).
Qed.
Print Assumptions shipped_roundtrip.

(* Open finding: the documentation prescribes big-endian length prefixes and values throughout; as built the
   array formats are in machine (little-endian) order.  Witness: one boolean. *)
Theorem array_formats_big_endian_refuted :
  exists v bs, pack (fun _ => true) (FArray PBool 2) v = Ok bs /\ bs <> be_encode 2 1 ++ [1%Z] /\
  pack (fun _ => true) (FArray (PS 8) 2) (VList [VInt 1]) <> Ok (be_encode 2 1 ++ be_encode 8 1).
Proof. exists (VList [VBool true]), [1; 0; 1]%Z. vm_compute. repeat split; congruence. Qed.
Print Assumptions array_formats_big_endian_refuted.

(* non-vacuity: a nested, listed message with a domain address actually round-trips at offset 3 *)
Example c02_nonvacuous :
  let k := fun _ : bytes => true in
  let inner := [FAddr false; FVarLen 2 1 false; FBits] in
  let m := msg_of_list [FStruct [PU 4]; FListOf 1 (FNested (msg_of_list inner)); FRaw] in
  let vs := [VInt 77; VList [VMsg [VAddr (ADom [104; 105] 80); VBytes [1; 2; 3];
                                   VTuple [VInt 1; VInt 0; VInt 1; VInt 0; VInt 0; VInt 0; VInt 0; VInt 1]]];
             VBytes [9; 9]] in
  msg_ok k m vs = true /\ wf_msg m = true /\
  match pack_msg k m vs with
  | Ok bs => unpack_msg k m ([0; 0; 0] ++ bs) 3 = Ok (vs, (3 + length bs)%nat) /\ length bs = 22%nat
  | Raise _ => False
  end.
Proof. vm_compute. repeat split; reflexivity. Qed.
