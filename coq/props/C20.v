(* C20 - compiled and dataclass payloads behave like their plain definition.  Property theorems and two worked examples. *)
From Coq Require Import ZArith List Bool.
From IPV8V Require Import lib.PyErr model.M20_vp proofs.P20_vp.
Import ListNotations.

(* For every well-formed definition (any formats incl. bits / nested / lists, any hooks) and every
   instance: the generated to_pack_list returns exactly the interpreted pack list (hence, by C02,
   the same bytes). *)
Theorem compiled_pack_equals_interpreted : forall V hook_pack d fs,
  wf_defn d = true ->
  eval_to_pack V hook_pack (gen_pack d) fs = interp_to_pack V hook_pack d fs.
Proof.
  intros V hook_pack d fs Hwf. destruct (wf_defn_spec d Hwf) as [Hl _].
  unfold gen_pack, interp_to_pack. apply pack_from_equal. rewrite Hl. apply le_n.
Qed.
Print Assumptions compiled_pack_equals_interpreted.

(* The generated from_unpack_list builds the same instance from every decoded argument list
   (the None guard of the compiled form is the only difference; decoders never produce None) *)
Theorem compiled_unpack_equals_interpreted : forall V is_none hook_unpack L lit_val d defaults args,
  wf_defn d = true -> length args = length (d_names d) ->
  (forall n a, In (n, a) (combine (d_names d) args) -> mem n (d_fixunpack d) = true -> is_none a = false) ->
  eval_from_unpack V is_none hook_unpack L lit_val (gen_init (d_names d) defaults) (gen_unpack d) args
  = interp_from_unpack V hook_unpack d args.
Proof.
  intros V is_none hook_unpack L lit_val d defaults args Hwf Hl Hn.
  destruct (wf_defn_spec d Hwf) as [Ha _].
  unfold eval_from_unpack, interp_from_unpack, gen_unpack. rewrite (unpack_args_equal V is_none hook_unpack d _ _ Hl Hn).
  destruct (interp_fix_unpack V hook_unpack d (d_names d) args) as [a'|e] eqn:E; cbn [bind]; [|reflexivity].
  apply interp_fix_unpack_length in E. rewrite Hl in E. unfold eval_init, interp_init.
  rewrite (bind_params_positional V L lit_val defaults _ _ E), <- Ha, (interp_assign_positional V _ _ E). reflexivity.
Qed.
Print Assumptions compiled_unpack_equals_interpreted.

(* The generated __init__ assigns the same fields from the same positional arguments as the interpreted one, *)
Theorem compiled_init_equals_interpreted_positional : forall V L lit_val d defaults args,
  wf_defn d = true -> length args = length (d_names d) ->
  eval_init V L lit_val (gen_init (d_names d) defaults) args [] = Ok (combine (d_names d) args)
  /\ interp_init V d args [] = Ok (combine (d_names d) args).
Proof.
  intros V L lit_val d defaults args Hwf Hl. destruct (wf_defn_spec d Hwf) as [Ha _].
  unfold eval_init, interp_init.
  rewrite (bind_params_positional V L lit_val defaults _ _ Hl), <- Ha, (interp_assign_positional V _ _ Hl). split; reflexivity.
Qed.
Print Assumptions compiled_init_equals_interpreted_positional.

(* from keyword arguments in any order (the case args = [] of the next theorem), *)
Theorem compiled_init_equals_interpreted_keywords : forall V L lit_val d kwargs fs,
  wf_defn d = true ->
  interp_init V d [] kwargs = Ok fs -> eval_init V L lit_val (gen_init (d_names d) []) [] kwargs = Ok fs.
Proof. intros V L lit_val d kwargs fs. apply interp_init_eval_init. Qed.
Print Assumptions compiled_init_equals_interpreted_keywords.

(* and from any mixture of positional and keyword arguments: the generated signature accepts exactly the calls the
   interpreted constructor accepts and binds them to the same fields (calls rejected by one are rejected by the other;
   only the exception class differs: KeyError vs TypeError). *)
Theorem compiled_init_equals_interpreted_mixed : forall V L lit_val d args kwargs fs,
  wf_defn d = true ->
  (interp_init V d args kwargs = Ok fs <-> eval_init V L lit_val (gen_init (d_names d) []) args kwargs = Ok fs).
Proof.
  intros V L lit_val d args kwargs fs Hwf. split; [apply interp_init_eval_init; exact Hwf|].
  intros H. destruct (wf_defn_spec d Hwf) as [Ha _].
  unfold eval_init in H.
  destruct (bind_params V L lit_val (gen_init (d_names d) []) args kwargs) as [[fs' rk]|e] eqn:E; cbn [bind] in H; [|discriminate H].
  destruct rk; [|discriminate H]. injection H as ->.
  unfold interp_init. rewrite <- Ha, (bind_params_interp_assign V L lit_val _ _ _ _ _ E). reflexivity.
Qed.
Print Assumptions compiled_init_equals_interpreted_mixed.

(* Omitted trailing arguments take the definition's default value - provided evaluating the default as
   rendered into the generated signature gives back the default (checked on the implementation for every
   literal kind by the correspondence; a rendering through str() instead of repr() does not meet it). *)
Theorem defaults_render_faithfully : forall V L lit_val d defaults (dv : nat -> V) args,
  length args <= length (d_names d) ->
  (forall n, In n (skipn (length args) (d_names d)) ->
     exists l, assoc_nat n defaults = Some l /\ lit_val l = Ok (dv n)) ->
  eval_init V L lit_val (gen_init (d_names d) defaults) args [] =
  Ok (combine (firstn (length args) (d_names d)) args
      ++ map (fun n => (n, dv n)) (skipn (length args) (d_names d))).
Proof.
  intros V L lit_val d defaults dv args Hl H. unfold eval_init. rewrite (bind_params_prefix V L lit_val defaults dv _ _ Hl H). reflexivity.
Qed.
Print Assumptions defaults_render_faithfully.

Theorem type_map_total_on_supported : forall t f, type_map t = Ok f -> match t with TOther => False | _ => True end.
Proof. intros t f H. destruct t; try exact I. discriminate H. Qed.
Print Assumptions type_map_total_on_supported.

(* non-vacuity: a definition with bits in the middle, hooks and a nested payload *)
Example c20_nonvacuous :
  let d := mkDefn [KStr 0 false; KStr 1 true; KPayload 3; KPayloadList 3] [10;11;12;13;14;15;16;17;18;19;20] [11; 19] [10] in
  wf_defn d = true /\
  gen_pack d = [(PStr 0, [(10, false)]);
                (PStr 1, [(11, true); (12, false); (13, false); (14, false); (15, false); (16, false); (17, false); (18, false)]);
                (PPayload, [(19, true)]); (PPayloadList, [(20, false)])] /\
  eval_to_pack nat (fun n v => v + 100) (gen_pack d) (combine (d_names d) (seq 0 11)) =
  Ok [(PStr 0, [0]); (PStr 1, [101; 2; 3; 4; 5; 6; 7; 8]); (PPayload, [109]); (PPayloadList, [10])].
Proof. vm_compute. repeat split. Qed.

(* non-vacuity of the mixed theorem: two positional and two keyword arguments (given out of order) *)
Example c20_mixed_nonvacuous :
  let d := mkDefn [KStr 0 false; KStr 0 false; KStr 0 false; KStr 0 false] [10;11;12;13] [] [] in
  interp_init nat d [1; 2] [(13, 4); (12, 3)] = Ok [(10, 1); (11, 2); (12, 3); (13, 4)] /\
  eval_init nat unit (fun _ => Ok 0) (gen_init (d_names d) []) [1; 2] [(13, 4); (12, 3)] = Ok [(10, 1); (11, 2); (12, 3); (13, 4)] /\
  interp_init nat d [1; 2] [(11, 9); (12, 3); (13, 4)] = Raise KeyError /\
  eval_init nat unit (fun _ => Ok 0) (gen_init (d_names d) []) [1; 2] [(11, 9); (12, 3); (13, 4)] = Raise TypeError.
Proof. vm_compute. repeat split. Qed.
