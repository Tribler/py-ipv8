(* C03 - no datagram can make the receive path fail or over-read. *)
From Coq Require Import ZArith List.
From IPV8V Require Import lib.PyErr lib.Bytes lib.BE model.M02_wire model.M03_recv
  proofs.P03_decode proofs.P03_recv.
Import ListNotations.
Open Scope Z_scope.

(* An accepted decode of any format, from any bytes: the reported end lies inside the buffer and
   not before the start. *)
Theorem unpack_bounds : forall key_ok f data off v off',
  (off <= length data)%nat -> unpack key_ok f data off = Ok (v, off') -> (off <= off' <= length data)%nat.
Proof. exact unpack_bounds_l. Qed.
Print Assumptions unpack_bounds.

Theorem unpack_msg_bounds : forall key_ok m data off vs off',
  (off <= length data)%nat -> unpack_msg key_ok m data off = Ok (vs, off') -> (off <= off' <= length data)%nat.
Proof. exact unpack_msg_bounds_l. Qed.
Print Assumptions unpack_msg_bounds.

(* consume_all: acceptance means the message ended exactly at the end of the datagram *)
Theorem unpack_all_exact : forall key_ok m data off vs,
  (off <= length data)%nat -> unpack_all key_ok m data off = Ok vs ->
  unpack_msg key_ok m data off = Ok (vs, length data).
Proof. exact unpack_all_exact_l. Qed.
Print Assumptions unpack_all_exact.

(* length-prefixed parts have exactly their declared length: a truncated body is never accepted *)
Theorem varlen_declared : forall key_ok lw base data off b o,
  unpack key_ok (FVarLen lw base false) data off = Ok (VBytes b, o) ->
  exists l, take lw off data = Ok l /\ length b = (Z.to_nat (be_decode l) * base)%nat
            /\ o = (off + lw + length b)%nat /\ (o <= length data)%nat.
Proof. exact varlen_declared_l. Qed.
Print Assumptions varlen_declared.

Theorem nested_declared : forall key_ok m data off vs o,
  unpack key_ok (FNested m) data off = Ok (VMsg vs, o) ->
  exists l, take 2 off data = Ok l /\ o = (off + 2 + Z.to_nat (be_decode l))%nat /\ (o <= length data)%nat.
Proof. exact nested_declared_l. Qed.
Print Assumptions nested_declared.

(* For every byte string, every listener table, whatever the handlers and the cell cryptography do:
   notify_listeners returns normally, and every handler entry happened in an overlay selected for the
   datagram whose 22-byte prefix matches, on at least 23 bytes, with the message id at byte 22. *)
Theorem notify_total : forall handler incoming relay_crypto,
  (forall cid p m m', incoming cid p m = Some m' -> bytes_ok m') ->
  forall ep data, bytes_ok data -> ep_wf ep ->
  exists evs, notify handler incoming relay_crypto ep data = Ok evs /\ Forall (gate_ok (selected ep data)) evs.
Proof.
  intros handler incoming relay_crypto Hinc ep data Hd Hw.
  apply deliver_all_total; [exact Hinc|exact Hd|apply selected_wf, Hw].
Qed.
Print Assumptions notify_total.

(* every listener selected for the datagram gets it, whatever the earlier listeners did *)
Theorem notify_reaches_all : forall handler incoming relay_crypto ep data evs,
  ep_open ep = true -> notify handler incoming relay_crypto ep data = Ok evs ->
  forall il, In il (selected ep data) -> In (Delivered (fst il)) evs.
Proof.
  intros handler incoming relay_crypto ep data evs Ho E.
  apply (deliver_all_reaches handler incoming relay_crypto ep data (selected ep data) evs Ho); [|exact E].
  intros il Hin. unfold selected in Hin. destruct (pmap_get _ _) eqn:Ep; [reflexivity|]. cbn [orb].
  apply existsb_exists. exists il. split; [exact Hin|apply Nat.eqb_refl].
Qed.
Print Assumptions notify_reaches_all.

Theorem short_is_ignored : forall handler incoming relay_crypto i l data,
  blen data < 23 -> on_packet handler incoming relay_crypto i l data = Ok [].
Proof. intros handler incoming relay_crypto i l data Hs. apply gate_closed. left. exact Hs. Qed.
Print Assumptions short_is_ignored.

Theorem prefix_gate : forall handler incoming relay_crypto i l data,
  slice data None (Some 22) <> c_prefix (listener_comm l) -> length (c_prefix (listener_comm l)) = 22%nat ->
  on_packet handler incoming relay_crypto i l data = Ok [].
Proof. intros handler incoming relay_crypto i l data Hne Hlen. apply gate_closed. right. split; assumption. Qed.
Print Assumptions prefix_gate.

(* non-vacuity: a real delivery with two overlays and a raising handler *)
Example c03_nonvacuous :
  let p1 := repeat 1 22 in let p2 := repeat 2 22 in
  let c1 := mkComm p1 [5; 7] in let c2 := mkComm p2 [0; 5] in
  let ep := mkEp true [] [(p1, [(0%nat, LComm c1)]); (p2, [(1%nat, LCrypto c2 true 8 [])])] in
  notify (fun _ _ _ => Raise ValueError) (fun _ _ m => Some m) (fun _ m => Some m) ep (p1 ++ [7; 9])
  = Ok [Delivered 0; Entered 0 7 (p1 ++ [7; 9])]
  /\ notify (fun _ _ _ => Ok tt) (fun _ _ m => Some m) (fun _ m => Some m) ep p1 = Ok [Delivered 0]
  /\ notify (fun _ _ _ => Ok tt) (fun _ _ m => Some m) (fun _ m => Some m) ep (p2 ++ [0; 0; 0; 0; 9; 1; 1; 2; 3])
     = Ok [Delivered 1; Entered 1 0 (p2 ++ [0; 0; 0; 0; 9; 1; 1; 2; 3])].
Proof. vm_compute. repeat split. Qed.
