(* C11 - an unloaded overlay is silent and holds no resources.  The property theorems and the examples that show
   them not to be vacuous; the lemmas they are derived from are in proofs/P11_*.v.

   Four machines (model/M11_listeners.v, M11_tasks.v, M11_lifecycle.v, M11_service.v): the endpoint listener table
   with the TunnelEndpoint / StatisticsEndpoint wrappers, the task manager on asyncio's ready queue, their
   composition per overlay instance, and the overlay / strategy lists of the IPv8 service object.
   gen/G11_api.v and gen/G11_unload.v are regenerated from the source on every run: the methods the wrappers
   define, the steps of every shipped overlay class's unload(), the body of IPv8.unload_overlay, the public
   coroutines of the overlays and the places where their modules create futures. *)
From Coq Require Import ZArith List Bool String.
From IPV8V Require Import lib.PyErr lib.Bytes model.M11_listeners model.M11_tasks model.M11_lifecycle model.M11_service
  gen.G11_api gen.G11_unload proofs.P11_listeners proofs.P11_tasks proofs.P11_lifecycle proofs.P11_service proofs.P11_shipped.
Import ListNotations.
Open Scope Z_scope.

(* For every table history (e is arbitrary) and every wrapper that forwards the listener API: after
   remove_listener(l) through the endpoint object the overlay holds, no datagram - from the socket
   or from the tunnel - calls l, in any later history that does not register l again. *)
Theorem removed_listener_silent : forall e l ops o,
  forwards_all (wapi (wrap e)) = true ->
  Forall (fun x => mentions l x = false) ops ->
  ~ In l (called (run (fst (step e (RemL l))) ops) o).
Proof. intros e l ops o Hf Ha. exact (called_absent _ l o (removed_absent e l ops Hf Ha)). Qed.
Print Assumptions removed_listener_silent.

(* The wrappers shipped in the source do forward it (generated table; fails to compile otherwise). *)
Theorem shipped_wrappers_forward : forwards_all tunnel_api = true /\ forwards_all stats_api = true.
Proof. exact wrappers_forward. Qed.
Print Assumptions shipped_wrappers_forward.

(* Hence: behind a plain endpoint, a TunnelEndpoint or a StatisticsEndpoint as they are in the
   source, a removed listener is never called again. *)
Theorem removed_listener_silent_shipped : forall e l ops o,
  shipped_wrapper (wrap e) ->
  Forall (fun x => mentions l x = false) ops ->
  ~ In l (called (run (fst (step e (RemL l))) ops) o).
Proof. intros e l ops o H. exact (removed_listener_silent e l ops o (shipped_wrapper_forwards _ H)). Qed.
Print Assumptions removed_listener_silent_shipped.

(* ... and the wrapped endpoint keeps no reference to it (global list and every prefix entry). *)
Theorem removed_listener_unreferenced : forall e l ops,
  forwards_all (wapi (wrap e)) = true ->
  Forall (fun x => mentions l x = false) ops ->
  absent l (inner (run (fst (step e (RemL l))) ops)).
Proof. exact removed_absent. Qed.
Print Assumptions removed_listener_unreferenced.

(* Not vacuous: a listener registered for a prefix on an open endpoint IS called for a datagram
   with that prefix. *)
Theorem registered_listener_called : forall e l (p body : bytes) t',
  forwards_all (wapi (wrap e)) = true -> opened (inner e) = true ->
  List.length p = PREFIXLEN -> t_addp (inner e) l p = Ok t' ->
  In l (called (fst (step e (AddP l p))) (Socket (p ++ body))).
Proof.
  intros e l p body t' Hf Ho Hlen Hadd. apply forwards_split in Hf. destruct Hf as [_ [H2 _]].
  unfold called. simpl. rewrite H2, Hadd. exact (addp_notified _ l p body t' Ho Hadd).
Qed.
Print Assumptions registered_listener_called.

(* In every reachable state of a manager that is not shut down: register_task under a name whose
   task is still active (not done, nobody cancelled it) raises and changes nothing. *)
Theorem task_name_exclusive : forall s tid t k,
  reachable s -> shut s = false -> get s tid = Some t -> live t = true ->
  register s (t_name t) k = (s, RRaise).
Proof. intros s tid t k R. exact (name_exclusive s tid t k (reachable_inv s R)). Qed.
Print Assumptions task_name_exclusive.

(* Two active tasks never carry the same name. *)
Theorem active_names_unique : forall s i j ti tj,
  reachable s -> get s i = Some ti -> get s j = Some tj -> live ti = true -> live tj = true ->
  t_name ti = t_name tj -> i = j.
Proof.
  intros s i j ti tj R Gi Gj Li Lj E. pose proof (reachable_inv s R) as I.
  pose proof (inv_track s I _ _ Gi Li) as Hi. pose proof (inv_track s I _ _ Gj Lj) as Hj. congruence.
Qed.
Print Assumptions active_names_unique.

(* In every history: whenever the callback of replace_task registers the new task, the task it
   replaced is done (finished or cancelled and past its last step). *)
Theorem replace_order : forall ops old b r,
  In (ORepl (Some old) b r) (snd (trun init_tm ops)) -> b = true.
Proof.
  intros ops old b r H. destruct (trun_inv ops init_tm inv_init) as [_ O].
  rewrite Forall_forall in O. exact (O _ H).
Qed.
Print Assumptions replace_order.

(* replace_task itself starts nothing and creates no task: the new one only comes from the callback. *)
Theorem replace_is_deferred : forall s n,
  snd (tstep s (Replace n)) = [] /\ List.length (tasks (fst (tstep s (Replace n)))) = List.length (tasks s).
Proof. exact replace_deferred. Qed.
Print Assumptions replace_is_deferred.

(* shutdown_task_manager asks every task that could still act to stop. *)
Theorem shutdown_cancels_all : forall s,
  inv s -> shut s = false ->
  let s' := fst (tstep s Shutdown) in shut s' = true /\ no_live s' = true.
Proof. intros s I Hs. destruct (shutdown_no_live s I Hs) as [A B]. exact (conj A (proj2 (no_live_iff _) B)). Qed.
Print Assumptions shutdown_cancels_all.

(* After shutdown_task_manager, whatever is attempted and whatever the loop still runs: every
   register_* (direct, anonymous, from a replace callback) is answered with a completed future,
   no task is created, no task body starts, no task is live. *)
Theorem shutdown_refuses : forall s ops,
  reachable s ->
  let s1 := fst (tstep s Shutdown) in
  shut s1 = true /\ no_live s1 = true
  /\ Forall quiet_out (snd (trun s1 ops))
  /\ List.length (tasks (fst (trun s1 ops))) = List.length (tasks s1)
  /\ shut (fst (trun s1 ops)) = true
  /\ no_live (fst (trun s1 ops)) = true.
Proof. intros s ops R. exact (shutdown_final s ops (reachable_inv s R) (reachable_settled s R)). Qed.
Print Assumptions shutdown_refuses.

(* The unload() of every shipped overlay class (steps regenerated from the source, flattened
   through the MRO) is complete: it takes the overlay and its crypto endpoint off the endpoint,
   shuts down its task manager and its request cache, and closes its exit sockets after all that. *)
Theorem shipped_unloads_complete : forallb row_complete unload_table = true.
Proof. exact unloads_complete. Qed.
Print Assumptions shipped_unloads_complete.

(* Every class ipv8_service can load has a row. *)
Theorem shipped_classes_listed :
  map (fun r => fst (fst r)) unload_table =
  ["DiscoveryCommunity"; "DHTCommunity"; "DHTDiscoveryCommunity"; "TunnelCommunity"; "HiddenTunnelCommunity";
   "PexCommunity"; "AttestationCommunity"; "IdentityCommunity"]%string.
Proof. vm_compute. reflexivity. Qed.
Print Assumptions shipped_classes_listed.

(* From any loaded state (any tables, tasks, sockets), a complete unload() - its steps interleaved
   with arbitrary datagrams, loop iterations, task activity and socket traffic - ends unloaded. *)
Theorem unload_establishes : forall c n l,
  loaded c n -> Forall (fun i => item_routed i = true) l ->
  complete_unload c (steps_of l) = true -> unloaded (fst (irun c n l)).
Proof. exact complete_unload_unloaded. Qed.
Print Assumptions unload_establishes.

(* Once unload() has completed - at whatever moment it was requested - for every later datagram,
   loop iteration, task or cache deadline, socket datagram, API call, and every resumption of a public
   coroutine the application is still awaiting whose sending steps are tasks of the overlay's manager
   (item_routed): no handler entry, no send, no task start, no task body, no transport send; only
   refusals; every socket stays closed. *)
Theorem unloaded_is_silent : forall c n l later,
  loaded c n -> Forall (fun i => item_routed i = true) (l ++ later) ->
  complete_unload c (steps_of l) = true ->
  let n1 := fst (irun c n l) in
  Forall silent_out (snd (irun c n1 later))
  /\ Forall (fun s => s_open s = false) (n_socks (fst (irun c n1 later)))
  /\ unloaded (fst (irun c n1 later)).
Proof.
  intros c n l later L Hr Hc. apply Forall_app in Hr.
  destruct (unloaded_irun c later _ (proj2 Hr) (complete_unload_unloaded c n l L (proj1 Hr) Hc)) as [U O].
  exact (conj O (conj (unloaded_socks_closed _ U) U)).
Qed.
Print Assumptions unloaded_is_silent.

(* The same for the shipped classes, with the generated step lists. *)
Theorem shipped_unloaded_is_silent : forall nm c steps n l later,
  In (nm, c, steps) unload_table -> loaded c n -> Forall (fun i => item_routed i = true) (l ++ later) ->
  steps_of l = steps ->
  let n1 := fst (irun c n l) in
  Forall silent_out (snd (irun c n1 later))
  /\ Forall (fun s => s_open s = false) (n_socks (fst (irun c n1 later)))
  /\ unloaded (fst (irun c n1 later)).
Proof.
  intros nm c steps n l later Hin L Hr Hs. apply unloaded_is_silent; [exact L|exact Hr|].
  rewrite Hs. exact (shipped_complete nm c steps Hin).
Qed.
Print Assumptions shipped_unloaded_is_silent.

(* After unload neither the overlay nor the crypto endpoint it installed is called or referenced. *)
Theorem crypto_listener_removed : forall c n l later o,
  loaded c n -> Forall (fun i => item_routed i = true) (l ++ later) ->
  complete_unload c (steps_of l) = true ->
  let n2 := fst (irun c (fst (irun c n l)) later) in
  ~ In (n_me n2) (called (n_ep n2) o)
  /\ (forall cr, n_crypto n2 = Some cr -> ~ In cr (called (n_ep n2) o) /\ absent cr (inner (n_ep n2))).
Proof.
  intros c n l later o L Hr Hc. exact (unloaded_not_called _ o (proj2 (proj2 (unloaded_is_silent c n l later L Hr Hc)))).
Qed.
Print Assumptions crypto_listener_removed.

(* Which public coroutines meet that hypothesis (table regenerated from the source: a public coroutine is
   routed when every path from it to endpoint.send / send_cell / sendto after its first suspension passes
   through a @task method).  Every public coroutine of every shipped overlay class is routed, except exactly
   three of HiddenTunnelCommunity (two wait for circuit.ready, which unload() resolves to None by closing the circuit;
   do_peer_discovery is only ever run as a periodic task). *)
Theorem shipped_api_unrouted :
  unrouted_api = [("HiddenTunnelCommunity", "create_introduction_point"); ("HiddenTunnelCommunity", "create_rendezvous_point");
                  ("HiddenTunnelCommunity", "do_peer_discovery")]%string.
Proof. vm_compute. reflexivity. Qed.
Print Assumptions shipped_api_unrouted.

Theorem shipped_api_routed : forall c m r,
  In (c, m, r) public_coroutines -> c <> "HiddenTunnelCommunity"%string -> r = true.
Proof.
  intros c m r Hin Hc.
  assert (H : forallb (fun x => snd x || String.eqb (fst (fst x)) "HiddenTunnelCommunity") public_coroutines = true)
    by (vm_compute; reflexivity).
  rewrite forallb_forall in H. specialize (H _ Hin). destruct r; [reflexivity|]. apply String.eqb_eq in H. contradiction.
Qed.
Print Assumptions shipped_api_routed.

(* The lifecycle model lets an overlay act only through its listeners, its live tasks, its open transports and
   (routed) API steps.  That presupposes that the overlay's code starts no task outside its task manager's reach:
   every ensure_future / create_task in the overlays' modules (table regenerated from the source) is registered
   with the task manager, or plainly awaited / returned by the function that made it. *)
Theorem shipped_futures_owned : forallb (fun r => snd r) future_sites = true.
Proof. vm_compute. reflexivity. Qed.
Print Assumptions shipped_futures_owned.

(* From any state of the service: after unload_overlay(x) (steps regenerated from the source), in
   every later history that does not add a strategy for x again, the ticker never calls take_step on a
   strategy of x, no strategy of x is in the list, and x is not listed as an overlay. *)
Theorem unloaded_overlay_not_stepped : forall s x ops,
  Forall (fun o => adds x o = false) ops ->
  let s1 := fst (sop_apply service_unload_steps s (SUnloadOverlay x)) in
  Forall (fun e => snd e <> x) (snd (srun service_unload_steps s1 ops))
  /\ (forall e, In e (v_strategies (fst (srun service_unload_steps s1 ops))) -> snd e <> x)
  /\ ~ In x (v_overlays s1).
Proof.
  intros s x ops Ha. cbv zeta.
  destruct (srun_clean service_unload_steps x ops _ Ha (unload_clean _ s x service_unload_complete)) as [C O].
  exact (conj O (conj C (unload_unlisted _ s x service_unload_complete))).
Qed.
Print Assumptions unloaded_overlay_not_stepped.

(* The same for any unload_overlay body that rebuilds both lists and calls unload(). *)
Theorem unloaded_overlay_not_stepped_any : forall steps s x ops,
  complete_service_unload steps = true ->
  Forall (fun o => adds x o = false) ops ->
  let s1 := fst (sop_apply steps s (SUnloadOverlay x)) in
  Forall (fun e => snd e <> x) (snd (srun steps s1 ops))
  /\ (forall e, In e (v_strategies (fst (srun steps s1 ops))) -> snd e <> x).
Proof.
  intros steps s x ops Hc Ha. destruct (srun_clean steps x ops _ Ha (unload_clean steps s x Hc)) as [C O].
  exact (conj O C).
Qed.
Print Assumptions unloaded_overlay_not_stepped_any.

(* Unloading one overlay leaves the strategies of the others scheduled. *)
Theorem unload_keeps_other_strategies : forall steps s x e,
  snd e <> x -> In e (v_strategies s) -> In e (v_strategies (fst (sop_apply steps s (SUnloadOverlay x)))).
Proof.
  intros steps s x e Hn. simpl. revert s. induction steps as [|u r IH]; intros s Hi; [exact Hi|].
  apply IH, sstep_keeps_other; assumption.
Qed.
Print Assumptions unload_keeps_other_strategies.

(* service: strategies of overlay 1 are stepped before and never after unload_overlay(1), those of
   overlay 2 keep running; an unload_overlay that removes entries from the list while iterating over it
   leaves every second strategy of the unloaded overlay scheduled *)
Example c11_nonvacuous_service :
  snd (srun service_unload_steps init_svc
            [SAdd 1 10; SAdd 1 11; SAdd 1 12; SAdd 2 20; STick [10; 11; 12; 20]; SUnloadOverlay 1;
             STick [10; 11; 12; 20]; SStop; STick [20]])
  = [(10, 1); (11, 1); (12, 1); (20, 2); (20, 2)]
  /\ remove_while_iterating (fun e : Z * Z => snd e =? 1) [(10, 1); (11, 1); (12, 1); (20, 2)] = [(11, 1); (20, 2)].
Proof. vm_compute. split; reflexivity. Qed.


(* listeners: called while registered, silent after removal; behind a wrapper that does not forward
   remove_listener the listener is still called *)
Example c11_nonvacuous_listeners :
  let d := pT ++ [7] in
  let e := run (init_ep (WTunnel (mkApi true true true true))) [AddL 1; RemL 1; AddP 1 pT; SetAnonL 1 true] in
  called e (Socket d) = [1] /\ called e (Tunnel d true) = [1] /\ called e (Tunnel d false) = []
  /\ called (run e [RemL 1]) (Socket d) = [] /\ called (run e [RemL 1]) (Tunnel d true) = []
  /\ let old := run (init_ep (WTunnel (mkApi true true false false))) [AddL 1; RemL 1; AddP 1 pT; RemL 1] in
     called old (Socket d) = [1; 1].
Proof. vm_compute. repeat split; reflexivity. Qed.

(* tasks: a name is refused while active; replace registers only after the old task is done;
   after shutdown registrations are refused and nothing starts *)
Example c11_nonvacuous_tasks :
  snd (trun init_tm [Register (Named 1) KCoro; Register (Named 1) KCoro; Tick; Replace (Named 1);
                     Register (Named 2) KFut; Tick; Tick; Shutdown; Register (Named 3) KCoro; Replace (Named 2); Tick; Tick])
  = [OReg (RNew 0%nat); OReg RRaise; OStarted 0%nat; OReg (RNew 1%nat); ORepl (Some 0%nat) true (RNew 2%nat);
     OReg RRefused; ORepl None true RRefused].
Proof. vm_compute. reflexivity. Qed.

Example c11_nonvacuous_live :
  let s := fst (trun init_tm [Register (Named 1) KCoro; Tick]) in
  reachable s /\ shut s = false /\ exists t, get s 0%nat = Some t /\ live t = true.
Proof.
  split; [exists [Register (Named 1) KCoro; Tick]; reflexivity|].
  split; [reflexivity|]. eexists. split; reflexivity.
Qed.

(* lifecycle: a loaded tunnel overlay reacts; after the complete unload() (fixed_tunnel_steps) it is silent and
   its socket is closed; after an unload() that neither removes the crypto endpoint nor closes the exit sockets
   (old_tunnel_steps), the crypto endpoint still hands it datagrams, the exit socket still relays, and the
   socket's own manager still runs *)
Example c11_nonvacuous_loaded : loaded tunnel_cls tunnel_node.
Proof. exact tunnel_node_loaded. Qed.

Example c11_nonvacuous_lifecycle :
  let d := pT ++ [1; 2; 3] in
  snd (nstep tunnel_cls tunnel_node (EDatagram d None [ASend])) = [NHandler 2; NSend]
  /\ snd (nstep tunnel_cls tunnel_node (EOutside 0 [ASend])) = [NOutside 0; NSend]
  /\ complete_unload tunnel_cls fixed_tunnel_steps = true
  /\ (let n1 := fst (irun tunnel_cls tunnel_node (map IStep fixed_tunnel_steps)) in
      snd (irun tunnel_cls n1 [IEvent (EDatagram d None [ASend; ANewSock; AEnable 1]); IEvent (EOutside 0 [ASend]);
                               IEvent (ETm WOwn Tick); IEvent (EFire WOwn 1 [ASend]); IEvent (EFire (WSock 0) 0 [ASend]);
                               IEvent (ETm WOwn (Register (Named 8) KCoro)); IEvent (EApiStep true [ASend])])
      = [NTask WOwn (OReg RRefused); NTask WOwn (OReg RRefused)]
      /\ snd (nstep tunnel_cls n1 (EApiStep false [ASend])) = [NApi; NSend]
      /\ snd (nstep tunnel_cls tunnel_node (EApiStep true [ASend])) = [NTask WOwn (OReg (RNew 3%nat)); NSend]
      /\ map s_open (n_socks n1) = [false])
  /\ complete_unload tunnel_cls old_tunnel_steps = false
  /\ (let n0 := fst (irun tunnel_cls tunnel_node (map IStep old_tunnel_steps)) in
      snd (irun tunnel_cls n0 [IEvent (EDatagram d None [ASend]); IEvent (EOutside 0 [ASend]);
                               IEvent (EFire (WSock 0) 0 [ASend])])
      = [NHandler 2; NSend; NOutside 0; NSend; NFire (WSock 0) 0; NSend]
      /\ map s_open (n_socks n0) = [true]).
Proof. vm_compute. repeat split; reflexivity. Qed.
