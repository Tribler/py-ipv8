(* C02x - stand-alone entry of the C02 extension (old-style payload glue): re-exports the theorems of
   props/C02_oldstyle.v so that `./check C02x` builds and audits them on their own. *)
From Coq Require Import List.
From IPV8V Require Import lib.PyErr lib.Bytes model.M02_wire model.M02_oldstyle gen.G02_registry
  gen.G02_oldstyle spec.S02_oldstyle.
From IPV8V Require props.C02_oldstyle.
Import ListNotations.
Open Scope Z_scope.

Theorem oldstyle_all_specified : forall c, In c oldstyle_table ->
  (exists spec, spec_of (oc_name c) oldstyle_specs = Some spec) /\
  In (oc_name c, class_fmts c) msgdefs /\
  mapM (find_fmt REG) (oc_formats c) = Ok (class_fmts c).
Proof. exact C02_oldstyle.oldstyle_all_specified. Qed.
Print Assumptions oldstyle_all_specified.

Theorem oldstyle_glue_roundtrip : forall c spec x,
  In c oldstyle_table -> spec_of (oc_name c) oldstyle_specs = Some spec ->
  legal (oc_short c) spec x = true ->
  exists pl vs,
    oc_to_pack c x = Ok pl /\ map fst pl = oc_formats c /\ entry_vals (class_fmts c) pl = Ok vs /\
    (forall key_ok, msg_ok key_ok (msg_of_list (class_fmts c)) (wire_image (class_fmts c) vs) = true) /\
    oc_from_unpack c (unpack_args (class_fmts c) (wire_image (class_fmts c) vs)) = Ok (canon_obj spec x).
Proof. exact C02_oldstyle.oldstyle_glue_roundtrip. Qed.
Print Assumptions oldstyle_glue_roundtrip.

Theorem oldstyle_class_roundtrip : forall key_ok c spec x bs (pre suf : bytes),
  In c oldstyle_table -> spec_of (oc_name c) oldstyle_specs = Some spec ->
  legal (oc_short c) spec x = true ->
  encode_obj REG key_ok (oc_to_pack c) x = Ok bs ->
  (msg_greedy (msg_of_list (class_fmts c)) = false \/ suf = []) ->
  decode_obj REG key_ok (oc_formats c) (oc_from_unpack c) (pre ++ bs ++ suf) (length pre)
    = Ok (canon_obj spec x, (length pre + length bs)%nat).
Proof. exact C02_oldstyle.oldstyle_class_roundtrip. Qed.
Print Assumptions oldstyle_class_roundtrip.

Theorem oldstyle_encode_defined : forall key_ok c spec x,
  In c oldstyle_table -> spec_of (oc_name c) oldstyle_specs = Some spec ->
  legal (oc_short c) spec x = true -> exists bs, encode_obj REG key_ok (oc_to_pack c) x = Ok bs.
Proof. exact C02_oldstyle.oldstyle_encode_defined. Qed.
Print Assumptions oldstyle_encode_defined.

Theorem oldstyle_canon_equal : forall short spec x, legal short spec x = true ->
  obj_pyeq (canon_obj spec x) x = Ok true /\ legal short spec (canon_obj spec x) = true /\
  canon_obj spec (canon_obj spec x) = canon_obj spec x.
Proof. exact C02_oldstyle.oldstyle_canon_equal. Qed.
Print Assumptions oldstyle_canon_equal.

Theorem IntroductionRequestPayload_roundtrip : class_roundtrips IntroductionRequestPayload_class.
Proof. exact C02_oldstyle.IntroductionRequestPayload_roundtrip. Qed.
Print Assumptions IntroductionRequestPayload_roundtrip.
Theorem IntroductionResponsePayload_roundtrip : class_roundtrips IntroductionResponsePayload_class.
Proof. exact C02_oldstyle.IntroductionResponsePayload_roundtrip. Qed.
Print Assumptions IntroductionResponsePayload_roundtrip.
Theorem PunctureRequestPayload_roundtrip : class_roundtrips PunctureRequestPayload_class.
Proof. exact C02_oldstyle.PunctureRequestPayload_roundtrip. Qed.
Print Assumptions PunctureRequestPayload_roundtrip.
Theorem PuncturePayload_roundtrip : class_roundtrips PuncturePayload_class.
Proof. exact C02_oldstyle.PuncturePayload_roundtrip. Qed.
Print Assumptions PuncturePayload_roundtrip.
Theorem BinMemberAuthenticationPayload_roundtrip : class_roundtrips BinMemberAuthenticationPayload_class.
Proof. exact C02_oldstyle.BinMemberAuthenticationPayload_roundtrip. Qed.
Print Assumptions BinMemberAuthenticationPayload_roundtrip.
Theorem GlobalTimeDistributionPayload_roundtrip : class_roundtrips GlobalTimeDistributionPayload_class.
Proof. exact C02_oldstyle.GlobalTimeDistributionPayload_roundtrip. Qed.
Print Assumptions GlobalTimeDistributionPayload_roundtrip.
Theorem SimilarityRequestPayload_roundtrip : class_roundtrips SimilarityRequestPayload_class.
Proof. exact C02_oldstyle.SimilarityRequestPayload_roundtrip. Qed.
Print Assumptions SimilarityRequestPayload_roundtrip.
Theorem SimilarityResponsePayload_roundtrip : class_roundtrips SimilarityResponsePayload_class.
Proof. exact C02_oldstyle.SimilarityResponsePayload_roundtrip. Qed.
Print Assumptions SimilarityResponsePayload_roundtrip.
Theorem PingPayload_roundtrip : class_roundtrips PingPayload_class.
Proof. exact C02_oldstyle.PingPayload_roundtrip. Qed.
Print Assumptions PingPayload_roundtrip.
Theorem PongPayload_roundtrip : class_roundtrips PongPayload_class.
Proof. exact C02_oldstyle.PongPayload_roundtrip. Qed.
Print Assumptions PongPayload_roundtrip.
Theorem DiscoveryIntroductionRequestPayload_roundtrip : class_roundtrips DiscoveryIntroductionRequestPayload_class.
Proof. exact C02_oldstyle.DiscoveryIntroductionRequestPayload_roundtrip. Qed.
Print Assumptions DiscoveryIntroductionRequestPayload_roundtrip.
Theorem RequestAttestationPayload_roundtrip : class_roundtrips RequestAttestationPayload_class.
Proof. exact C02_oldstyle.RequestAttestationPayload_roundtrip. Qed.
Print Assumptions RequestAttestationPayload_roundtrip.
Theorem VerifyAttestationRequestPayload_roundtrip : class_roundtrips VerifyAttestationRequestPayload_class.
Proof. exact C02_oldstyle.VerifyAttestationRequestPayload_roundtrip. Qed.
Print Assumptions VerifyAttestationRequestPayload_roundtrip.
Theorem AttestationChunkPayload_roundtrip : class_roundtrips AttestationChunkPayload_class.
Proof. exact C02_oldstyle.AttestationChunkPayload_roundtrip. Qed.
Print Assumptions AttestationChunkPayload_roundtrip.
Theorem ChallengePayload_roundtrip : class_roundtrips ChallengePayload_class.
Proof. exact C02_oldstyle.ChallengePayload_roundtrip. Qed.
Print Assumptions ChallengePayload_roundtrip.
Theorem ChallengeResponsePayload_roundtrip : class_roundtrips ChallengeResponsePayload_class.
Proof. exact C02_oldstyle.ChallengeResponsePayload_roundtrip. Qed.
Print Assumptions ChallengeResponsePayload_roundtrip.
