(* C01 - signed handlers run only for authentic, untampered datagrams. *)
From Coq Require Import ZArith List.
From IPV8V Require Import lib.PyErr lib.Bytes model.M02_wire model.M01_auth gen.G01_handlers
  spec.S01_expected proofs.P01_auth proofs.P01_table.
Import ListNotations.
Open Scope Z_scope.

(* Whatever bytes arrive: if the decorator invokes the handler with key pk, then pk is the key field of
   that same datagram, the datagram splits exactly into a signed part and a signature of the length this key
   prescribes, the signature verifies under pk over the WHOLE signed part (prefix, message id, key and all
   payloads), and the payloads handed over were decoded from inside that signed part. *)
Theorem auth_only_if_valid : forall key_ok verify siglen m data pk args,
  wrapper_signed key_ok verify siglen m data = Ok (Invoke pk args) ->
  exists n o,
    unpack key_ok auth_fmt data 23 = Ok (VBytes pk, o)
    /\ siglen pk = Ok n
    /\ verify pk (slice data None (Some (- Z.of_nat n))) (slice data (Some (- Z.of_nat n)) None) = true
    /\ slice data None (Some (- Z.of_nat n)) ++ slice data (Some (- Z.of_nat n)) None = data
    /\ unpack_all key_ok m (slice data (Some (2 + blen pk)) (Some (- Z.of_nat n))) 23 = Ok args.
Proof. exact auth_only_if_valid_l. Qed.
Print Assumptions auth_only_if_valid.

(* The same for handlers that authenticate by hand through _ez_unpack_auth. *)
Theorem ez_unpack_auth_only_if_valid : forall key_ok verify siglen m data pk args,
  ez_unpack_auth key_ok verify siglen m data = Ok (Invoke pk args) ->
  exists n o,
    unpack key_ok auth_fmt data 23 = Ok (VBytes pk, o)
    /\ siglen pk = Ok n
    /\ verify pk (slice data None (Some (- Z.of_nat n))) (slice data (Some (- Z.of_nat n)) None) = true
    /\ slice data None (Some (- Z.of_nat n)) ++ slice data (Some (- Z.of_nat n)) None = data.
Proof.
  intros key_ok verify siglen m data pk args H. unfold ez_unpack_auth in H.
  destruct (auth_only_if_valid_l _ _ _ _ data pk args H) as (n & o & H1 & H2 & H3 & H4 & _).
  exists n, o. repeat split; assumption.
Qed.
Print Assumptions ez_unpack_auth_only_if_valid.

(* The peer handed to the handler carries exactly that key, whether it comes from the verified-peer index (whose
   entries are filed under their own key) or is created fresh. *)
Theorem auth_peer_is_key : forall index pk,
  (forall k p, In (k, p) index -> p = k) -> peer_for index pk = pk.
Proof.
  intros index pk Hidx. unfold peer_for. destruct (find _ index) as [[k p]|] eqn:E; [|reflexivity].
  apply find_some in E as [Hin Heq]. cbn in Heq. apply bytes_eqb_eq in Heq. subst.
  cbn. apply Hidx in Hin. exact Hin.
Qed.
Print Assumptions auth_peer_is_key.

(* Sender and receiver agree: what ezr_pack produces is accepted, with exactly its payloads (non-vacuity of
   the acceptance path, for every message definition and every correct signature scheme). *)
Theorem auth_sound_send : forall key_ok verify siglen sign sk pk prefix msg_id m vs data n,
  length prefix = 22%nat ->
  wf_msg m = true -> msg_ok key_ok m vs = true ->
  (Z.of_nat (length pk) <? 65536) = true -> bytes_okb pk = true ->
  siglen pk = Ok n -> (0 < n)%nat ->
  (forall msg, length (sign sk msg) = n /\ verify pk msg (sign sk msg) = true) ->
  ez_pack key_ok sign sk pk prefix msg_id m vs = Ok data ->
  wrapper_signed key_ok verify siglen m data = Ok (Invoke pk vs).
Proof. exact auth_sound_send_l. Qed.
Print Assumptions auth_sound_send.

(* Over the handler tables regenerated from the shipped overlays: a decorated handler takes a Peer iff its
   decorator verifies signatures, *)
Theorem handlers_consistent : forall e, In e handlers -> is_raw e = false -> e_peer e = e_signed e.
Proof. intros e Hin Hr. apply (handler_checked e Hin Hr). Qed.
Print Assumptions handlers_consistent.

(* and the only handlers behind a non-verifying decorator are the deliberately unauthenticated ids. *)
Theorem handlers_as_expected : forall e, In e handlers -> is_raw e = false -> e_signed e = false ->
  In (e_id e) (lookup (e_overlay e) expected_unsigned).
Proof. intros e Hin Hr Hs. destruct (handler_checked e Hin Hr) as [_ H]. rewrite Hs in H. exact H. Qed.
Print Assumptions handlers_as_expected.

(* non-vacuity with a toy signature scheme: signature = [sum of the message bytes mod 256; 7] *)
Example c01_nonvacuous :
  let verify := fun (pk msg sg : bytes) => bytes_eqb sg [fold_left Z.add msg 0 mod 256; 7] in
  let sign := fun (sk msg : bytes) => [fold_left Z.add msg 0 mod 256; 7] in
  let siglen := fun _ : bytes => Ok 2%nat in
  let m := msg_of_list [FStruct [PU 8]; FVarLen 2 1 false] in
  match ez_pack (fun _ => true) sign [1] [9; 9; 9] (repeat 5 22) 42 m [VInt 77; VBytes [1; 2]] with
  | Ok data => wrapper_signed (fun _ => true) verify siglen m data = Ok (Invoke [9; 9; 9] [VInt 77; VBytes [1; 2]])
               /\ wrapper_signed (fun _ => true) verify siglen m (firstn 30 data ++ [1] ++ skipn 31 data) = Raise DecodingError
  | Raise _ => False
  end.
Proof. vm_compute. split; reflexivity. Qed.
