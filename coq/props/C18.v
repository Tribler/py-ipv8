(* C18 - attribute proofs accept the true value and reject others: field arithmetic (value.py, translated), the
   homomorphic encryption (boneh.py), bit-pair attestation (bonehexact), the range proof (pengbaorange), serialisation.
   Property theorems, each closed by the lemma of proofs/ that carries the argument; examples of non-vacuity at the end. *)
From Coq Require Import ZArith List Bool Lia QArith Permutation Znumtheory.
From IPV8V Require Import lib.PyErr model.M18_base gen.G18_fp2 model.M18_fexpr model.M18_hom
  model.M18_bitpairs model.M18_range model.M18_ser spec.S18_field spec.S18_bgn
  proofs.P18_fp2 proofs.P18_hom proofs.P18_bitpairs proofs.P18_range proofs.P18_ser.
Import ListNotations.
Open Scope Z_scope.

(* For all operands and every modulus p <> 0 the translated __add__ returns a value whose numerator and
   denominator are, coefficient by coefficient modulo p, those of the textbook sum of fractions
   num1*den2 + num2*den1 / den1*den2 in Z_p[x]/(x^2+x+1).  Likewise - * // and inverse. *)
Theorem fp2_add_correct : forall p x y, p <> 0 -> fmod x = p -> fmod y = p ->
  exists r, fp2_add x y = Ok r /\ represents p r (fr_add (denote x) (denote y)).
Proof.
  intros p x y Hp Hx Hy.
  exact (fp2_add_represents p Hp x y _ _ (represents_denote p x Hx) (represents_denote p y Hy)).
Qed.
Print Assumptions fp2_add_correct.

Theorem fp2_sub_correct : forall p x y, p <> 0 -> fmod x = p -> fmod y = p ->
  exists r, fp2_sub x y = Ok r /\ represents p r (fr_sub (denote x) (denote y)).
Proof.
  intros p x y Hp Hx Hy.
  exact (fp2_sub_represents p Hp x y _ _ (represents_denote p x Hx) (represents_denote p y Hy)).
Qed.
Print Assumptions fp2_sub_correct.

Theorem fp2_mul_correct : forall p x y, p <> 0 -> fmod x = p -> fmod y = p ->
  exists r, fp2_mul x y = Ok r /\ represents p r (fr_mul (denote x) (denote y)).
Proof.
  intros p x y Hp Hx Hy.
  exact (fp2_mul_represents p Hp x y _ _ (represents_denote p x Hx) (represents_denote p y Hy)).
Qed.
Print Assumptions fp2_mul_correct.

Theorem fp2_div_correct : forall p x y, p <> 0 -> fmod x = p -> fmod y = p ->
  exists r, fp2_floordiv x y = Ok r /\ represents p r (fr_div (denote x) (denote y)).
Proof.
  intros p x y Hp Hx Hy.
  exact (fp2_div_represents p Hp x y _ _ (represents_denote p x Hx) (represents_denote p y Hy)).
Qed.
Print Assumptions fp2_div_correct.

Theorem fp2_inverse_correct : forall p x, p <> 0 -> fmod x = p ->
  exists r, fp2_inverse x = Ok r /\ represents p r (fr_inv (denote x)).
Proof. intros p x Hp Hx. exact (fp2_inverse_represents p Hp x _ (represents_denote p x Hx)). Qed.
Print Assumptions fp2_inverse_correct.

(* the operators raise exactly where Python does: operands of different moduli, modulus 0 *)
Theorem fp2_ops_raise_exactly : forall x y,
  (fmod x <> fmod y ->
     fp2_add x y = Raise AssertionError /\ fp2_sub x y = Raise AssertionError /\
     fp2_mul x y = Raise AssertionError /\ fp2_floordiv x y = Raise AssertionError) /\
  (fmod x = 0 -> fmod y = 0 ->
     fp2_add x y = Raise ZeroDivisionError /\ fp2_sub x y = Raise ZeroDivisionError /\
     fp2_mul x y = Raise ZeroDivisionError /\ fp2_floordiv x y = Raise ZeroDivisionError).
Proof. exact fp2_ops_raise. Qed.
Print Assumptions fp2_ops_raise_exactly.

(* _modinv: the fuelled Euclid loop never runs out of fuel and returns the inverse *)
Theorem modinv_correct : forall e m, 1 < m -> 0 <= e -> Z.gcd e m = 1 ->
  exists x, modinv e m = Ok x /\ 0 < x < m /\ (x * e) mod m = 1.
Proof. exact modinv_correct_l. Qed.
Print Assumptions modinv_correct.

(* normalize scales numerator and denominator by one unit: the fraction is unchanged, aC becomes 1 *)
Theorem normalize_equiv : forall p v, prime p -> fmod v = p ->
  exists r k, fp2_normalize v = Ok r /\ represents p r (rscale k (num v), rscale k (den v)) /\
              fr_eq p (denote r) (denote v) /\ (faC v mod p <> 0 -> faC r = 1).
Proof. exact normalize_equiv_l. Qed.
Print Assumptions normalize_equiv.

(* the code's == (// then normalize, compare coefficients) decides equality of fractions *)
Theorem fp2_eq_decides_fraction_equality : forall p x y, prime p -> fmod x = p -> fmod y = p ->
  fp2_eq x y = Ok (fr_eqb p (denote x) (denote y)).
Proof. exact fp2_eq_correct_l. Qed.
Print Assumptions fp2_eq_decides_fraction_equality.

(* any expression built from + - * // inverse and integer constants evaluates without raising to a
   representative of its textbook value, for all operands and every modulus p <> 0; any comparison of two such
   expressions is decided as the textbook fractions say, for all operands and all prime moduli *)
Theorem fp2_expressions_represent : forall p env e, p <> 0 -> Forall (fun v => fmod v = p) env ->
  fvars_ok (length env) e = true ->
  exists r, feval p env e = Ok r /\ represents p r (fsem (map denote env) e).
Proof. exact feval_represents_l. Qed.
Print Assumptions fp2_expressions_represent.

Theorem fp2_comparisons_sound : forall p env e1 e2, prime p -> Forall (fun v => fmod v = p) env ->
  fvars_ok (length env) e1 = true -> fvars_ok (length env) e2 = true ->
  feq p env e1 e2 = Ok (fr_eqb p (fsem (map denote env) e1) (fsem (map denote env) e2)).
Proof. exact feq_sound_l. Qed.
Print Assumptions fp2_comparisons_sound.

(* the laws of the quadratic extension field, up to the code's equality (law_list: + and * commutative
   and associative, distributivity, neutral elements, additive and multiplicative inverse, - and //) *)
Theorem fp2_laws : forall p x y z, prime p -> fmod x = p -> fmod y = p -> fmod z = p ->
  Forall (fun l => feq p [x; y; z] (fst l) (snd l) = Ok true) law_list.
Proof. exact fp2_laws_l. Qed.
Print Assumptions fp2_laws.

(* intpow: square-and-multiply never runs out of fuel; for k >= 0 numerator and denominator are exactly
   the k-th powers, for every k (negative included) the result is x^k as a fraction *)
Theorem intpow_nonneg_exact : forall p x k, p <> 0 -> fmod x = p -> 0 <= k ->
  exists r, fp2_intpow x k = Ok r /\ represents p r (fr_pow_nat (denote x) (Z.to_nat k)).
Proof. exact fp2_intpow_nonneg_l. Qed.
Print Assumptions intpow_nonneg_exact.

Theorem intpow_is_power : forall p x k, prime p -> fmod x = p ->
  exists r, fp2_intpow x k = Ok r /\ fmod r = p /\ fr_eq p (denote r) (fr_pow (denote x) k).
Proof. exact fp2_intpow_is_power_l. Qed.
Print Assumptions intpow_is_power.

Theorem decode_encode : forall G gmul gone ginv geqb g h t1 t2 P,
  bgn_keypair G gmul gone ginv geqb g h t1 t2 P ->
  forall ms m r, Forall (fun x => 0 <= x < t2) ms -> In m ms ->
  decode G gmul gone ginv geqb g t1 ms (encode G gmul gone ginv g h m r) = Some m.
Proof. exact decode_encode_w. Qed.
Print Assumptions decode_encode.

(* the product of two encodings decodes to the sum of the messages *)
Theorem decode_product : forall G gmul gone ginv geqb g h t1 t2 P,
  bgn_keypair G gmul gone ginv geqb g h t1 t2 P ->
  forall ms a r b s, Forall (fun x => 0 <= x < t2) ms -> In (a + b) ms ->
  decode G gmul gone ginv geqb g t1 ms
         (gmul (encode G gmul gone ginv g h a r) (encode G gmul gone ginv g h b s)) = Some (a + b).
Proof. exact decode_product_w. Qed.
Print Assumptions decode_product.

(* on any encoding decode returns the first candidate congruent to the message modulo t2 *)
Theorem decode_spec : forall G gmul gone ginv geqb g h t1 t2 P,
  bgn_keypair G gmul gone ginv geqb g h t1 t2 P ->
  forall ms m r, decode G gmul gone ginv geqb g t1 ms (encode G gmul gone ginv g h m r) =
                 find (fun m' => (m - m') mod t2 =? 0) ms.
Proof. exact decode_spec_w. Qed.
Print Assumptions decode_spec.

(* a challenge response is the message class modulo t2; anything outside {0,1,2} is answered 3 *)
Theorem challenge_response_classes : forall G gmul gone ginv geqb g h t1 t2 P,
  bgn_keypair G gmul gone ginv geqb g h t1 t2 P ->
  forall m r, challenge_response G gmul gone ginv geqb g t1 (encode G gmul gone ginv g h m r) =
    if m mod t2 =? 0 then 0 else if m mod t2 =? 1 then 1 else if m mod t2 =? 2 then 2 else 3.
Proof. exact challenge_response_spec_w. Qed.
Print Assumptions challenge_response_classes.

(* one honest round on one bit pair answers the number of set bits, whatever the masks and exponents *)
Theorem bitpair_response_is_class : forall G gmul gone ginv geqb g h t1 t2 P,
  bgn_keypair G gmul gone ginv geqb g h t1 t2 P ->
  forall bit_a bit_b r, is_bit bit_a -> is_bit bit_b ->
  pair_response G gmul gone ginv geqb g h t1 P bit_a bit_b r = bit_a + bit_b.
Proof. exact pair_response_class. Qed.
Print Assumptions bitpair_response_is_class.

(* for every value, every bit space, every randomness and every order of the challenges the verifier's
   aggregate after all answers is exactly binary_relativity(value) *)
Theorem profile_exact : forall G gmul gone ginv geqb g h t1 t2 P,
  bgn_keypair G gmul gone ginv geqb g h t1 t2 P ->
  forall v bitspace A rand order, bits v bitspace = Ok A ->
  Permutation order (seq 0 (npairs bitspace)) ->
  honest_run G gmul gone ginv geqb g h t1 P A rand order = binary_relativity v bitspace.
Proof. exact profile_exact_l. Qed.
Print Assumptions profile_exact.

(* every subset of the challenges in every order: the aggregate counts the answers, and never exceeds
   the true profile in any class *)
Theorem profile_partial : forall G gmul gone ginv geqb g h t1 t2 P,
  bgn_keypair G gmul gone ginv geqb g h t1 t2 P ->
  forall v bitspace A rand order rest e, bits v bitspace = Ok A ->
  Permutation (order ++ rest) (seq 0 (npairs bitspace)) ->
  binary_relativity v bitspace = Ok e ->
  exists o, honest_run G gmul gone ginv geqb g h t1 P A rand order = Ok o /\
    (forall k, 0 <= rget o k <= rget e k) /\ rm_total o = Z.of_nat (length order) /\ r3 o = 0 /\ r3 e = 0 /\
    rm_total e = Z.of_nat (npairs bitspace).
Proof. exact profile_partial_l. Qed.
Print Assumptions profile_partial.

(* the property: after the n answers the attested value scores 1 - 2^-n, every value whose profile
   differs scores 0 *)
Theorem honest_round_scores : forall G gmul gone ginv geqb g h t1 t2 P,
  bgn_keypair G gmul gone ginv geqb g h t1 t2 P ->
  forall v bs A rand order, bits v bs = Ok A ->
  Permutation order (seq 0 (npairs bs)) ->
  exists e, honest_run G gmul gone ginv geqb g h t1 P A rand order = Ok e /\
    binary_relativity v bs = Ok e /\
    (certainty e e == 1 - Qpower (1 # 2) (Z.of_nat (npairs bs)))%Q /\
    forall v' e', binary_relativity v' bs = Ok e' -> e' <> e -> (certainty e' e == 0)%Q.
Proof. exact honest_round_scores_l. Qed.
Print Assumptions honest_round_scores.

Theorem true_value_score : forall e, (certainty e e == 1 - Qpower (1 # 2) (rm_total e))%Q.
Proof. exact true_value_score_l. Qed.
Print Assumptions true_value_score.

Theorem other_profile_zero : forall e o, r3 e = 0 -> r3 o = 0 -> rm_total e = rm_total o -> e <> o ->
  (certainty e o == 0)%Q.
Proof. exact other_profile_zero_l. Qed.
Print Assumptions other_profile_zero.

(* partial rounds, characterised: a candidate is ruled out as soon as one observed count exceeds its
   expected count; while none does (always the case for the true value) the score is positive *)
Theorem exceeded_class_scores_zero : forall e o,
  (exists k, 0 <= k <= 3 /\ rget e k < rget o k) -> relativity_match e o = 0%Q.
Proof. exact relativity_match_exceeded. Qed.
Print Assumptions exceeded_class_scores_zero.

Theorem partial_round_positive : forall e o, (forall k, 0 <= rget o k <= rget e k) -> 0 < rm_total o ->
  (0 < certainty e o)%Q.
Proof. exact partial_round_positive_l. Qed.
Print Assumptions partial_round_positive.

Theorem el_check_complete : forall G gmul gone ginv Hsh, abelian_group G gmul gone ginv ->
  forall x r1 r2 g1 h1 g2 h2 rnd,
  el_check G gmul gone ginv Hsh (el_create G gmul gone ginv Hsh x r1 r2 g1 h1 g2 h2 rnd) g1 h1 g2 h2
           (commit G gmul gone ginv g1 h1 x r1) (commit G gmul gone ginv g2 h2 x r2) = true.
Proof. exact el_complete. Qed.
Print Assumptions el_check_complete.

Theorem sqr_check_complete : forall G gmul gone ginv Hsh, abelian_group G gmul gone ginv ->
  forall x r1 gg hh rnd,
  sqr_check G gmul gone ginv Hsh (sqr_create G gmul gone ginv Hsh x r1 gg hh rnd) gg hh
            (commit G gmul gone ginv gg hh (x * x) r1) = true.
Proof. exact sqr_complete. Qed.
Print Assumptions sqr_check_complete.

(* whenever create_attest_pair returns (which it does only for values inside the range, see below),
   the honest answer to any challenge s, t > 0 passes every test of PengBaoPublicData.check - provided
   the drawn m1 left m2 = mst - m1 - m4^2 non-negative (the code does not enforce this) *)
Theorem range_complete : forall G gmul gone ginv geqb g h Hsh,
  abelian_group G gmul gone ginv -> (forall a, geqb a a = true) ->
  forall v a b rd pub priv s t,
  create_attest_pair G gmul gone ginv g h Hsh v a b rd = Ok (pub, priv) ->
  0 <= p_m2 priv -> 0 < s -> 0 < t ->
  range_check G gmul gone ginv geqb g h Hsh pub a b s t (generate_response priv s t) = true.
Proof. exact range_complete_l. Qed.
Print Assumptions range_complete.

(* the range is inclusive at both ends: for a <= v <= b the builder never refuses the value (it raises
   ValueError exactly when the value is outside, next theorem); range_complete then applies to what it returns *)
Theorem range_inside_not_refused : forall G gmul gone ginv g h Hsh v a b rd, a <= v <= b ->
  create_attest_pair G gmul gone ginv g h Hsh v a b rd <> Raise ValueError.
Proof. exact range_inside_not_refused_l. Qed.
Print Assumptions range_inside_not_refused.

(* partial: for a value outside [a, b] the honest construction never returns a proof (math.sqrt raises,
   or - exactly at a-1 and b+1 - the loop drawing m4 cannot end).  Missing: soundness against a prover
   who does not follow create_attest_pair (a cryptographic reduction, not attempted). *)
Theorem range_outside_unbuildable_partial : forall G gmul gone ginv g h Hsh v a b rd,
  a <= b -> v < a \/ b < v ->
  create_attest_pair G gmul gone ginv g h Hsh v a b rd = Raise ValueError \/
  create_attest_pair G gmul gone ginv g h Hsh v a b rd = Raise OutOfFuel.
Proof. exact range_outside_unbuildable_l. Qed.
Print Assumptions range_outside_unbuildable_partial.

(* REFUTED (open finding range/forged-proof-accepted-by-key-owner): soundness against a prover who knows the order n of g - which the
   key owner does, n = t1*t2 is part of the secret key.  The intended statement "if range_check accepts a
   proof whose commitment c opens to v then a <= v <= b" is false of the faithful model: for every v,
   inside the range or not, there are public data committing to v and an answer (reduced modulo n, hence
   positive) that passes every test. *)
Theorem range_soundness_against_key_owner_refuted : forall G gmul gone ginv geqb g h Hsh,
  abelian_group G gmul gone ginv -> (forall a, geqb a a = true) ->
  forall n v a b s t r, 0 < n -> gpow G gmul gone ginv g n = gone ->
  exists pub resp, k_c G (pub_com G pub) = commit G gmul gone ginv g h v r /\
                   range_check G gmul gone ginv geqb g h Hsh pub a b s t resp = true.
Proof. exact range_soundness_refuted_l. Qed.
Print Assumptions range_soundness_against_key_owner_refuted.

Theorem iunpack_ipack : forall n s rest, ipack n = Ok s -> iunpack (s ++ rest) = Ok (n, rest).
Proof. exact iunpack_ipack_l. Qed.
Print Assumptions iunpack_ipack.

Theorem ipack_total : forall n, 0 <= n -> Z.of_nat (nbytes (Z.of_nat (nbytes n))) <= 255 -> exists s, ipack n = Ok s.
Proof. exact ipack_ok_l. Qed.
Print Assumptions ipack_total.

Theorem unpack_pair_pack_pair : forall a b s rest, pack_pair a b = Ok s -> unpack_pair (s ++ rest) = Ok (a, b, rest).
Proof. exact unpack_pair_pack_pair_l. Qed.
Print Assumptions unpack_pair_pack_pair.

(* keys (5 / 7 numbers), bit pairs (6 numbers), and the stream of bit pairs in an attestation *)
Theorem nums_roundtrip : forall ns s rest, pack_nums ns = Ok s -> unpack_nums (length ns) (s ++ rest) = Ok (ns, rest).
Proof. exact unpack_pack_nums_l. Qed.
Print Assumptions nums_roundtrip.

Theorem keys_roundtrip : forall ns s, pack_nums ns = Ok s -> key_unserialize (length ns) s = Ok (Some ns).
Proof. exact key_roundtrip_l. Qed.
Print Assumptions keys_roundtrip.

Theorem siunpack_sipack : forall ns s rest, sipack ns = Ok s -> siunpack (s ++ rest) (length ns) = Ok (ns, rest).
Proof. exact siunpack_sipack_l. Qed.
Print Assumptions siunpack_sipack.

(* a sum whose right operand has a non-constant denominator (bC <> 0) *)
Example c18_add_general_denominator :
  fp2_add (MkFP2 11 1 2 0 1 0 0) (MkFP2 11 3 0 0 2 5 0) = Ok (MkFP2 11 6 10 0 2 5 0).
Proof. vm_compute. reflexivity. Qed.

Example c18_prime_modulus : prime 11.
Proof.
  apply prime_intro; [lia|]. intros n Hn.
  assert (n = 1 \/ n = 2 \/ n = 3 \/ n = 4 \/ n = 5 \/ n = 6 \/ n = 7 \/ n = 8 \/ n = 9 \/ n = 10) as Hc by lia.
  apply Zgcd_1_rel_prime. destruct Hc as [->|[->|[->|[->|[->|[->|[->|[->|[->| ->]]]]]]]]]; reflexivity.
Qed.

Example c18_law_instance :
  feq 11 [MkFP2 11 1 2 0 1 0 0; MkFP2 11 3 0 0 2 5 0; MkFP2 11 4 7 0 3 1 0]
      (FMul V0 (FAdd V1 V2)) (FAdd (FMul V0 V1) (FMul V0 V2)) = Ok true.
Proof. vm_compute. reflexivity. Qed.

Example c18_intpow_negative :
  bind (fp2_intpow (MkFP2 11 3 4 0 1 0 0) (-5)) (fun a =>
  bind (fp2_intpow (MkFP2 11 3 4 0 1 0 0) 5) (fun b =>
  bind (fp2_mul a b) (fun c => fp2_eq c (MkFP2 11 1 0 0 1 0 0)))) = Ok true.
Proof. vm_compute. reflexivity. Qed.

(* the hypotheses on the group are satisfiable (Z_6, t1 = 2, t2 = 3), and the round runs *)
Example c18_keypair_exists : bgn_keypair z6 z6_mul A0 z6_inv z6_eqb A1 A3 2 3 5.
Proof. exact z6_is_keypair. Qed.

Example c18_round_runs :
  let rand := fun j => MkPR (Z.of_nat j + 3) 4 1 2 3 (Z.of_nat j) in
  honest_run z6 z6_mul A0 z6_inv z6_eqb A1 A3 2 5 [1; 0; 1; 1; 0; 0; 0; 1] rand [2%nat; 0%nat; 3%nat; 1%nat]
    = Ok (MkRM 1 2 1 0)
  /\ binary_relativity 177 8 = Ok (MkRM 1 2 1 0)
  /\ Qeq_bool (certainty (MkRM 1 2 1 0) (MkRM 1 2 1 0)) (15 # 16) = true
  /\ Qeq_bool (certainty (MkRM 2 1 1 0) (MkRM 1 2 1 0)) 0 = true.
Proof. vm_compute. repeat split. Qed.

(* a range proof for 30 in [18, 200] over the executable instance is accepted; checked against
   [31, 200] it is rejected; for 17 and 201 nothing is built *)
Example c18_range_runs :
  let c18_rd := MkRR 1234 77 9 100003 5000 123456789 4242 777 (5, 6, 7) (8, 9, 10, 11) (12, 13, 14, 15) in
  prove_and_check ev ev_mul ev_one ev_inv ev_eqb ev_g ev_h (ev_hash []) 30 18 200 18 200 40000 50000 c18_rd = Ok true
  /\ prove_and_check ev ev_mul ev_one ev_inv ev_eqb ev_g ev_h (ev_hash []) 18 18 200 18 200 40000 50000 c18_rd = Ok true
  /\ prove_and_check ev ev_mul ev_one ev_inv ev_eqb ev_g ev_h (ev_hash []) 200 18 200 18 200 40000 50000 c18_rd = Ok true
  /\ prove_and_check ev ev_mul ev_one ev_inv ev_eqb ev_g ev_h (ev_hash []) 30 18 200 31 200 40000 50000 c18_rd = Ok false
  /\ prove_and_check ev ev_mul ev_one ev_inv ev_eqb ev_g ev_h (ev_hash []) 17 18 200 18 200 40000 50000 c18_rd = Raise OutOfFuel
  /\ prove_and_check ev ev_mul ev_one ev_inv ev_eqb ev_g ev_h (ev_hash []) 201 18 200 18 200 40000 50000 c18_rd = Raise OutOfFuel
  /\ prove_and_check ev ev_mul ev_one ev_inv ev_eqb ev_g ev_h (ev_hash []) 5 18 200 18 200 40000 50000 c18_rd = Raise ValueError.
Proof. vm_compute. repeat split. Qed.

(* the refutation is not vacuous: in Z_6 (g of order 6) a proof "for" 17 is accepted against [18, 200] *)
Example c18_forged_range_proof_accepted :
  let rd := MkRR 2 0 0 1 0 0 0 0 (0, 0, 0) (0, 0, 0, 0) (0, 0, 0, 0) in
  let pp := build_pair z6 z6_mul A0 z6_inv A1 A3 (fun _ _ => 7) 17 18 200 rd 0 1 0 0 in
  let '(x, y, u, w) := generate_response (snd pp) 40000 50000 in
  ((x <? 0) || (y <? 0)) = true /\
  range_check z6 z6_mul A0 z6_inv z6_eqb A1 A3 (fun _ _ => 7) (fst pp) 18 200 40000 50000 (x, y, u, w) = false /\
  range_check z6 z6_mul A0 z6_inv z6_eqb A1 A3 (fun _ _ => 7) (fst pp) 18 200 40000 50000 (x mod 6 + 6, y mod 6 + 6, u, w) = true.
Proof. vm_compute. repeat split. Qed.

Example c18_group_exists : abelian_group ev ev_mul ev_one ev_inv.
Proof. exact ev_is_group. Qed.

Example c18_ipack :
  ipack 300 = Ok [1; 2; 1; 44] /\ iunpack [1; 2; 1; 44; 9; 9] = Ok (300, [9; 9])
  /\ sipack [5; -300; 0] = Ok [2; 1; 1; 0; 1; 2; 1; 44; 1; 1; 5]
  /\ siunpack [2; 1; 1; 0; 1; 2; 1; 44; 1; 1; 5; 7] 3 = Ok ([5; -300; 0], [7]).
Proof. vm_compute. repeat split. Qed.
