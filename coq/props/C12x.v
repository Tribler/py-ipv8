(* C12x - snapshots of the peer graph over the `address` packer of the C02 wire model (IPv4, IPv6 and
   host-name records).  Property theorems only; same `./check C12`.
   pack_address / unpack_address are model/M02_wire's pack / unpack of the format `FAddr false`, and the round
   trip below is derived from C02's theorem pack_unpack_fmt (proofs/P02_roundtrip.pack_unpack_fmt_l).  Host-name (DomainAddress) addresses are part of the
   modelled state: peers can have one (least preferred interface, fix 7095a0f), load_snapshot keeps
   whatever record unpacks, of any family. *)
From Coq Require Import ZArith List Bool.
From IPV8V Require Import lib.PyErr lib.Bytes model.M02_wire model.M12_network spec.S12_graph
  proofs.P12_queries proofs.P12_snapshot.
Import ListNotations.
Open Scope Z_scope.

(* A packed address record unpacks to exactly that address and ends exactly where it ends, at every
   record boundary of a buffer: whatever precedes it, whatever follows it - and with nothing after it
   (suf = []) the record that ends exactly at the end of the buffer is read, not skipped or over-read. *)
Theorem record_boundary_exact : forall a bs (pre suf : bytes),
  packable a -> pack_address a = Ok bs ->
  unpack_address (pre ++ bs ++ suf) (length pre) = Ok (a, (length pre + length bs)%nat).
Proof. exact record_roundtrip. Qed.
Print Assumptions record_boundary_exact.

(* snapshot() of a reachable graph never raises: every address a verified peer can have is packable. *)
Theorem snapshot_never_raises : forall ipc intc svcc bla blm ops,
  Forall op_ok ops -> exists bs, snapshot (run (init_net ipc intc svcc bla blm) ops) = Ok bs.
Proof.
  intros ipc intc svcc bla blm ops Ho. rewrite snapshot_is_packed. apply packed_ok, snapshot_addrs_packable, heap_ok_reachable, Ho.
Qed.
Print Assumptions snapshot_never_raises.

(* load_snapshot(snapshot(g)) into a fresh Network (any caps, any blacklists) recovers exactly the
   preferred non-null addresses of g's verified peers - of every family, in the order of the snapshot
   (first occurrences: _all_addresses is a dict) -, records nobody as their introducer, and makes exactly
   them walkable. *)
Theorem snapshot_roundtrip : forall ipc intc svcc bla blm ops ipc' intc' svcc' bla' blm' bs,
  Forall op_ok ops ->
  let n := run (init_net ipc intc svcc bla blm) ops in
  snapshot n = Ok bs ->
  let m := load_snapshot (init_net ipc' intc' svcc' bla' blm') bs in
  map fst (all_addrs m) = uniq (spec_snapshot_addrs (abs n)) /\
  (forall a w, In (a, w) (all_addrs m) -> w = blank) /\
  (forall x, In x (snd (get_walkable_addresses m None false)) <-> In x (spec_snapshot_addrs (abs n))).
Proof.
  intros ipc intc svcc bla blm ops ipc' intc' svcc' bla' blm' bs Ho n Hs. rewrite <- snapshot_addrs_agree.
  apply load_into_empty; [apply snapshot_addrs_packable, heap_ok_reachable, Ho|exact Hs].
Qed.
Print Assumptions snapshot_roundtrip.

(* The same for the records in ANY order and multiplicity (the implementation iterates a set), loaded
   into ANY graph: the known addresses afterwards are the ones known before followed by the new ones in
   order of first occurrence, and every entry is either blank or was there before. *)
Theorem packed_loads_in_order : forall l n0 bs,
  Forall packable l -> packed l = Ok bs ->
  map fst (all_addrs (load_snapshot n0 bs)) = fold_left add_key l (map fst (all_addrs n0)) /\
  forall a w, In (a, w) (all_addrs (load_snapshot n0 bs)) -> w = blank \/ In (a, w) (all_addrs n0).
Proof.
  intros l n0 bs Hok Hp. destruct (load_packed_stop l bs [] n0 Hok Hp) as [E _]; [congruence|].
  rewrite app_nil_r in E. rewrite E. split; [apply keys_loaded_exact|apply loaded_entries].
Qed.
Print Assumptions packed_loads_in_order.

(* A snapshot cut anywhere inside a record (IPv4, IPv6 or host name; also inside the length prefix or
   the host name itself) loads exactly the complete records before the cut: nothing of the cut record,
   no exception. *)
Theorem truncated_snapshot_loads_complete_records : forall l a bs ba j n,
  Forall packable l -> packed l = Ok bs -> packable a -> pack_address a = Ok ba -> (j < length ba)%nat ->
  all_addrs (load_snapshot n (bs ++ firstn j ba)) = all_addrs (load_snapshot n bs) /\
  intro_cache (load_snapshot n (bs ++ firstn j ba)) = intro_cache (load_snapshot n bs).
Proof.
  intros l a bs ba j n Hok Hp Ha Hpa Hj.
  destruct (load_packed_stop l bs (firstn j ba) n Hok Hp) as [E1 E2]; [intros _; exact (record_cut_raises a ba bs j Ha Hpa Hj)|].
  destruct (load_packed_stop l bs [] n Hok Hp) as [F1 F2]; [congruence|].
  rewrite app_nil_r in F1, F2. rewrite E1, E2, F1, F2. split; reflexivity.
Qed.
Print Assumptions truncated_snapshot_loads_complete_records.

(* ---- non-vacuity: a graph with a host-name-only peer (whose host name was replaced by an address
   update), a peer with IPv4 + host name and a peer with IPv4 + IPv6 *)
Definition x_a0 := A4 [1; 1; 1; 1] 1.
Definition x_a1 := A4 [2; 2; 2; 2] 2.
Definition x_a6 := A6 (repeat 0 15 ++ [3]) 3.
Definition x_g := run (init_net 500 500 500 [] [])
  [AddVerified 1 (mkAm None None (Some (ADom [104; 46; 120] 80)));
   AddVerified 2 (mkAm (Some x_a0) None (Some (ADom [105] 81)));
   AddVerified 3 (mkAm (Some x_a1) (Some x_a6) None);
   AddVerified 1 (mkAm None None (Some (ADom [106] 82)))].

Example c12x_snapshot_all_families :
  snapshot_addrs x_g = [ADom [106] 82; x_a0; x_a6] /\
  snapshot x_g = Ok ([2; 0; 1; 106; 0; 82] ++ [1; 1; 1; 1; 1; 0; 1] ++ 3 :: repeat 0 15 ++ [3; 0; 3]).
Proof. vm_compute. split; reflexivity. Qed.

Example c12x_reload_cut_and_garbage :
  match snapshot x_g with
  | Ok d =>
      let fresh := init_net 1 1 1 [] [] in
      map fst (all_addrs (load_snapshot fresh d)) = [ADom [106] 82; x_a0; x_a6] /\
      map fst (all_addrs (load_snapshot fresh (firstn 20 d))) = [ADom [106] 82; x_a0] /\
      map fst (all_addrs (load_snapshot fresh (d ++ [2; 0; 9; 104]))) = [ADom [106] 82; x_a0; x_a6] /\
      map fst (all_addrs (load_snapshot fresh ([2; 0; 2; 195; 40; 0; 1] ++ d))) = []
  | Raise _ => False
  end.
Proof. vm_compute. repeat split; reflexivity. Qed.
