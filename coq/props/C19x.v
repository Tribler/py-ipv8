(* C19x - opening a file written by an older release is kill-safe: the upgrade inside check_database, statement by
   statement.  Property theorems, and the example programs and files of the refutations and non-vacuity checks; no
   helper lemmas.
   Model: model/M19_sqltx.v - the SQL statements check_database issues (gen/G19x_upgrade.v: recorded call by call
   from the real method for a file of every older version, each call split into its statements) run on a
   connection that follows the transaction rules of SQLite and of Python's sqlite3 module:
     S1 autocommit statement = its own atomic transaction;  S2 BEGIN / COMMIT;  S3 statements inside a
     transaction are not published;  S4 a failing statement has no effect, an executescript stops there;
     P1 Cursor.execute: implicit BEGIN before INSERT/UPDATE/DELETE/REPLACE only;  P2 Cursor.executescript: commits
     an open transaction first, then passes the statements as they are;  P3 Connection.commit;
     K a kill keeps exactly the published content.
   Kill instants: after every completed SQL statement (implicit BEGIN/COMMIT included).
   Old files (spec/S19x_legacy.v): identity version 1 (Attestations keyed on (public_key, metadata_pointer)), wallet
   version 1 (no id_format column); their rows are arbitrary (`env`), of the right width and pairwise distinct on
   the old key (`wf_env`).  `identity_history env ks` / `wallet_history env ks`: the file is opened again and again,
   the i-th open killed at its ks[i]-th instant (beyond its end: it ran to its end). *)
From Coq Require Import ZArith List Bool.
From IPV8V Require Import lib.PyErr lib.Bytes model.M19_sqltx gen.G19x_upgrade spec.S19x_legacy
  proofs.P19x_sound proofs.P19x_gen.
Import ListNotations.
Open Scope Z_scope.

(* Whatever the kill instants, what is published is - table by table - the intact version-1 file, or the complete
   version-2 file (every old row; Attestations under the new key), the latter possibly without its version row for
   the instant between the DELETE and INSERT of the schema script; nothing is pending; and the next open succeeds
   and ends in the complete version-2 file with its version row, published.  (Hence restartable: `ks` is any list.) *)
Theorem identity_upgrade_all_or_nothing : forall env ks,
  wf_env identity_sources env ->
  let c := identity_history env ks in
  c_intx c = false /\ c_view c = c_dur c /\
  (exists t, In t [identity_v1; identity_v2 (version_is 2); identity_v2 []] /\
             forall id, find_tab (c_dur c) id = find_tab (conc env t) id) /\
  exists tr cf, xopen apply_c version_c identity_ucfg c = (tr, cf, ODone) /\ c_intx cf = false /\
                forall id, find_tab (c_dur cf) id = find_tab (conc env (identity_v2 (version_is 2))) id.
Proof.
  intros env ks WF.
  exact (upgrade_check_safe _ _ _ _ _ identity_checked env WF ks).
Qed.
Print Assumptions identity_upgrade_all_or_nothing.

(* The same, read off table by table: Tokens and Metadata are always there, untouched; there is never a renamed
   Attestations_v1; Attestations always exists and always holds exactly the old attestations; a file that says
   version 2 has them under the new key (never "version 2 with an empty Attestations"), one that says version 1
   under the old key. *)
Theorem identity_upgrade_never_half_done : forall env ks,
  wf_env identity_sources env ->
  let d := c_dur (identity_history env ks) in
  find_tab d TID_Tokens = Some (mkXT TID_Tokens [0; 1; 3]%nat 5 (env TID_Tokens)) /\
  find_tab d TID_Metadata = Some (mkXT TID_Metadata [0; 1]%nat 4 (env TID_Metadata)) /\
  find_tab d TID_Attestations_v1 = None /\
  (exists pk, find_tab d TID_Attestations = Some (mkXT TID_Attestations pk 4 (env TID_Attestations))) /\
  (version_c d = Some 2 ->
   find_tab d TID_Attestations = Some (mkXT TID_Attestations [0; 1; 2]%nat 4 (env TID_Attestations))) /\
  (version_c d = Some 1 ->
   find_tab d TID_Attestations = Some (mkXT TID_Attestations [0; 2]%nat 4 (env TID_Attestations))) /\
  (version_c d = Some 0 \/ version_c d = Some 1 \/ version_c d = Some 2).
Proof.
  intros env ks WF d. destruct (identity_upgrade_all_or_nothing env ks WF) as [_ [_ [[t [Ht F]] _]]].
  fold d in F. pose proof (version_of_find _ _ (F X_OPTION)) as V.
  rewrite !F, V. cbn in Ht.
  destruct Ht as [E|[E|[E|[]]]]; subst t; cbn; rewrite ?map_app_nil_id;
    repeat split; eauto; try discriminate.
Qed.
Print Assumptions identity_upgrade_never_half_done.

(* The attestation wallet: intact version-1 file (three columns), or every old row with id_format = 'id_metadata'
   (never a NULL id_format, never four columns under version 1). *)
Theorem wallet_upgrade_all_or_nothing : forall env ks,
  wf_env wallet_sources env ->
  let c := wallet_history env ks in
  c_intx c = false /\ c_view c = c_dur c /\
  (exists t, In t [wallet_v1; wallet_v2 (version_is 2); wallet_v2 []] /\
             forall id, find_tab (c_dur c) id = find_tab (conc env t) id) /\
  exists tr cf, xopen apply_c version_c wallet_ucfg c = (tr, cf, ODone) /\ c_intx cf = false /\
                forall id, find_tab (c_dur cf) id = find_tab (conc env (wallet_v2 (version_is 2))) id.
Proof.
  intros env ks WF.
  exact (upgrade_check_safe _ _ _ _ _ wallet_checked env WF ks).
Qed.
Print Assumptions wallet_upgrade_all_or_nothing.

Theorem wallet_upgrade_never_half_done : forall env ks,
  wf_env wallet_sources env ->
  let d := c_dur (wallet_history env ks) in
  (version_c d = Some 1 -> find_tab d TID_wallet = Some (mkXT TID_wallet [O] 3 (env TID_wallet))) /\
  (version_c d <> Some 1 ->
   find_tab d TID_wallet = Some (mkXT TID_wallet [O] 4 (map (fun r => r ++ [LIT_id_metadata]) (env TID_wallet)))) /\
  (version_c d = Some 0 \/ version_c d = Some 1 \/ version_c d = Some 2).
Proof.
  intros env ks WF d. destruct (wallet_upgrade_all_or_nothing env ks WF) as [_ [_ [[t [Ht F]] _]]].
  fold d in F. pose proof (version_of_find _ _ (F X_OPTION)) as V.
  rewrite !F, V. cbn in Ht.
  destruct Ht as [E|[E|[E|[]]]]; subst t; cbn; rewrite ?map_app_nil_id;
    repeat split; eauto; try discriminate; intros H; try reflexivity; try (exfalso; apply H; reflexivity).
Qed.
Print Assumptions wallet_upgrade_never_half_done.

(* First open of a brand-new file (creation), for both databases: whatever instants the first open and any
   number of later opens are killed at, the next open succeeds and ends - table by table - in the complete latest
   schema with its version row, published.  Creation is restartable; in particular no kill can leave a file that
   claims the current version and lacks a table for good. *)
Theorem identity_creation_restartable : forall ks,
  let c := identity_creation ks in
  c_intx c = false /\ c_view c = c_dur c /\
  exists tr cf, xopen apply_c version_c identity_ucfg c = (tr, cf, ODone) /\ c_intx cf = false /\
                forall id, find_tab (c_dur cf) id = find_tab (conc no_rows identity_new) id.
Proof.
  intros ks.
  destruct (upgrade_check_safe _ _ _ _ _ identity_fresh_checked no_rows (Forall_nil _) ks) as [A [B [_ C]]].
  exact (conj A (conj B C)).
Qed.
Print Assumptions identity_creation_restartable.

Theorem wallet_creation_restartable : forall ks,
  let c := wallet_creation ks in
  c_intx c = false /\ c_view c = c_dur c /\
  exists tr cf, xopen apply_c version_c wallet_ucfg c = (tr, cf, ODone) /\ c_intx cf = false /\
                forall id, find_tab (c_dur cf) id = find_tab (conc no_rows wallet_new) id.
Proof.
  intros ks.
  destruct (upgrade_check_safe _ _ _ _ _ wallet_fresh_checked no_rows (Forall_nil _) ks) as [A [B [_ C]]].
  exact (conj A (conj B C)).
Qed.
Print Assumptions wallet_creation_restartable.

(* The generic theorem behind them: for any check_database program, any description of the old file and any set R of
   symbolic contents that contains the start and is closed under "open, killed anywhere" (computed: closed_check,
   class_check), every kill history of every concrete file publishes the concretisation of a member of R. *)
Theorem symbolic_exploration_sound :
  forall srcs cfg start targets final R,
  closed_check srcs cfg start R = true -> class_check srcs cfg targets final R = true ->
  forall env, wf_env srcs env -> forall ks,
  let c := xhistory apply_c version_c cfg (fresh_conn (conc env start)) (kills ks) in
  c_intx c = false /\ c_view c = c_dur c /\
  (exists t, In t targets /\ forall id, find_tab (c_dur c) id = find_tab (conc env t) id) /\
  exists tr cf, xopen apply_c version_c cfg c = (tr, cf, ODone) /\ c_intx cf = false /\
                forall id, find_tab (c_dur cf) id = find_tab (conc env final) id.
Proof.
  intros srcs cfg start targets final R Hc Hk. apply (upgrade_kill_safe srcs cfg start targets final R).
  rewrite Hc. exact Hk.
Qed.
Print Assumptions symbolic_exploration_sound.

(* a symbolic statement step inside the modelled fragment is the concrete step, on every concretisation *)
Theorem symbolic_step_sound : forall srcs env d q r d',
  wf_env srcs env -> apply_s srcs d q = (r, d') -> r <> XUnknown -> apply_c (conc env d) q = (r, conc env d').
Proof. intros srcs env d q r d' WF. exact (apply_sound srcs env WF d q r d'). Qed.
Print Assumptions symbolic_step_sound.

(* ------------------------------------------------------------------------------------------------
   What is false, kept visible: the identity upgrade written as separate calls
       execute("BEGIN"); execute("ALTER TABLE .. RENAME .."); executescript(<schema>); execute("INSERT .. SELECT ..");
       execute("DROP TABLE ..");  commit()
   (trial change C19d of DESIGN.md).  It reads as one transaction, but executescript commits the open transaction (P2) and runs the
   schema - version row included - in autocommit mode (S1).  On a file with one attestation [7;8;9;6]:
   killed at instant 4 the renamed table is published without its successor and every later open raises;
   killed at instant 12 the file says version 2 with an empty Attestations table, and stays that way. *)
Definition ex_schema : list sql :=
  [QStmt (XCreate 1 [0; 1; 3]%nat 5); QStmt (XCreate 2 [0; 1]%nat 4); QStmt (XCreate 3 [0; 1; 2]%nat 4);
   QStmt (XCreate 0 [O] 2); QStmt (XDeleteEq 0 0 0); QStmt (XInsert false 0 [0; 2])].
Definition split_ucfg : ucfg :=
  mkU 2 [PScript ex_schema; PCommit]
        [(1, [PExecute QBegin; PExecute (QStmt (XRename 3 5)); PScript ex_schema;
              PExecute (QStmt (XInsertSelect true 3 5)); PExecute (QStmt (XDrop 5)); PCommit])]
        [PScript ex_schema; PCommit] [(true, 1); (true, 2); (true, 3)].
Definition ex_env (s : Z) : list xrow := if s =? 3 then [[7; 8; 9; 6]] else [].

Theorem split_upgrade_refuted :
  wf_env identity_sources ex_env /\
  (let c := xhistory apply_c version_c split_ucfg (fresh_conn (conc ex_env identity_v1)) (kills [4%nat]) in
   find_tab (c_dur c) 3 = None /\ find_tab (c_dur c) 5 = Some (mkXT 5 [0; 2]%nat 4 [[7; 8; 9; 6]]) /\
   snd (xopen apply_c version_c split_ucfg c) = ORaised) /\
  (let c := xhistory apply_c version_c split_ucfg (fresh_conn (conc ex_env identity_v1)) (kills [12%nat; 100%nat]) in
   version_c (c_dur c) = Some 2 /\ find_tab (c_dur c) 3 = Some (mkXT 3 [0; 1; 2]%nat 4 []) /\
   find_tab (c_dur c) 5 = Some (mkXT 5 [0; 2]%nat 4 [[7; 8; 9; 6]])) /\
  closed_check identity_sources split_ucfg identity_v1 (reach identity_sources split_ucfg identity_v1) = false.
Proof.
  split; [|vm_compute; repeat split; reflexivity].
  repeat constructor; cbn; auto; intros [].
Qed.
Print Assumptions split_upgrade_refuted.

(* A creation that is NOT restartable (trial change C19f of DESIGN.md): the version row is written before the data table is created
   (separate autocommit statements, S1) and a current file is not checked again.  Killed at instant 3 of the first
   open, the file says version 2, has no data table, and every later open leaves it that way. *)
Definition early_version_ucfg : ucfg :=
  mkU 2 [PScript [QStmt (XCreate 0 [O] 2); QStmt (XDeleteEq 0 0 0); QStmt (XInsert false 0 [0; 2]);
                  QStmt (XCreate 4 [O] 4)]; PCommit]
        [] [] [(false, 4)].

Theorem early_version_creation_refuted :
  let c := xhistory apply_c version_c early_version_ucfg (fresh_conn []) (kills [3%nat; 100%nat; 100%nat]) in
  version_c (c_dur c) = Some 2 /\ find_tab (c_dur c) 4 = None /\
  snd (xopen apply_c version_c early_version_ucfg c) = ODone /\
  class_check [] early_version_ucfg (reach [] early_version_ucfg []) wallet_new (reach [] early_version_ucfg []) = false.
Proof. vm_compute. repeat split; reflexivity. Qed.
Print Assumptions early_version_creation_refuted.

(* ------------------------------------------------------------------------------------------------
   Non-vacuity and the rules at work. *)
(* P1, P2, P3 *)
Example c19x_python_rules :
  expand false (PExecute (QStmt (XInsert true 1 [1]))) = [QBegin; QStmt (XInsert true 1 [1])] /\
  expand false (PExecute (QStmt (XRename 3 5))) = [QStmt (XRename 3 5)] /\
  expand true (PScript [QBegin]) = [QCommit; QBegin] /\
  expand true PCommit = [QCommit] /\ expand false PCommit = [].
Proof. repeat split; reflexivity. Qed.

(* the shipped upgrade on a concrete file with two attestations (distinct on the old key): kill instants 0..10 of
   the first open publish the old file (BEGIN .. DROP are pending), the COMMIT at 11 the new one; at 16 the schema
   script has deleted the version row, at 17 it is back; an upgrade killed twice still completes *)
Definition ex_env2 (s : Z) : list xrow :=
  if s =? 1 then [[1; 2; 3; 4; 5]] else if s =? 2 then [[1; 6; 7; 8]]
  else if s =? 3 then [[1; 20; 30; 40]; [1; 21; 31; 41]] else [].

Example c19x_hypotheses_met : wf_env identity_sources ex_env2.
Proof.
  unfold wf_env, identity_sources. repeat (constructor; [split|]); cbn;
    repeat constructor; cbn; try (intros H; repeat (destruct H as [H|H]; try discriminate); exact H).
Qed.

Example c19x_shipped_upgrade_concrete :
  map (fun k => version_c (c_dur (identity_history ex_env2 [k])))
      [0; 5; 10; 11; 15; 16; 17; 100]%nat
  = [Some 1; Some 1; Some 1; Some 2; Some 2; Some 0; Some 2; Some 2] /\
  find_tab (c_dur (identity_history ex_env2 [10%nat; 3%nat; 100%nat])) 3
  = Some (mkXT 3 [0; 1; 2]%nat 4 [[1; 20; 30; 40]; [1; 21; 31; 41]]).
Proof. vm_compute. split; reflexivity. Qed.
