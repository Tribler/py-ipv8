(* C13 (extension) - the introducer need not be a public host. *)
From Coq Require Import ZArith List Bool Lia ZifyBool.
From IPV8V Require Import lib.PyErr gen.G13_lan model.M13_nat model.M13_scenario
  proofs.P13_proto proofs.P13_nat proofs.P13x_nat proofs.P13_sweeplib proofs.P13x_defs proofs.P13x_scenario.
Import ListNotations.
Open Scope Z_scope.

(* ---------------------------------------------------------------------------------- NAT state, all networks *)

(* A filter entry is only ever added by outbound traffic of a host of that very site; it names that host's
   external port and the packet's destination.  Inbound packets, LAN traffic and other sites' traffic never
   open anything. *)
Theorem filter_only_by_outbound : forall n hid dst n' oc t' e,
  net_wf n -> route n hid dst = (n', oc) -> In t' (sites n') -> In e (s_filt t') ->
  (exists t, In t (sites n) /\ s_id t = s_id t' /\ In e (s_filt t))
  \/ (exists h, find_host n hid = Some h /\ h_site h = s_id t' /\ is_open (s_type t') = false /\
                snd e = dst /\ external n' hid = Some (s_pub t', fst e)).
Proof.
  intros n hid dst n' oc t' e W R Ht He.
  destruct (site_after_send n hid dst n' oc t' R Ht) as [Hin|(h & s & Hh & Hs & Ho & -> & ->)].
  - left. exists t'. auto.
  - pose proof (find_some _ _ Hs) as [Hsin Hsid].
    assert (Hf : s_filt (site_after s (h_lan h) dst) = filt_add (ext_after s (h_lan h), dst) (s_filt s)).
    { unfold site_after, ext_after. destruct (map_lookup (h_lan h) (s_maps s)); reflexivity. }
    rewrite Hf in He. destruct (filt_add_inv _ _ _ He) as [->|Hold].
    + right. exists h. pose proof (site_after_extends s (h_lan h) dst) as E.
      rewrite (ex_id _ _ E), (ex_type _ _ E), (ex_pub _ _ E). cbn [fst snd].
      split; [exact Hh|]. split; [lia|]. split; [exact Ho|]. split; [reflexivity|].
      apply external_after_outbound; assumption.
    + left. exists s. split; [exact Hsin|]. split; [|exact Hold].
      symmetry. apply (ex_id _ _ (site_after_extends s (h_lan h) dst)).
Qed.
Print Assumptions filter_only_by_outbound.

(* A mapping is only ever created by an outbound packet of the host it belongs to (and then is that host's
   external address; external_address_stable in C13.v: it never changes afterwards). *)
Theorem mapping_only_by_own_outbound : forall n hid dst n' oc t' a p,
  net_wf n -> route n hid dst = (n', oc) -> In t' (sites n') -> In (a, p) (s_maps t') ->
  (exists t, In t (sites n) /\ s_id t = s_id t' /\ In (a, p) (s_maps t))
  \/ (exists h, find_host n hid = Some h /\ h_site h = s_id t' /\ a = h_lan h /\
                external n' hid = Some (s_pub t', p)).
Proof.
  intros n hid dst n' oc t' a p W R Ht Hm.
  destruct (site_after_send n hid dst n' oc t' R Ht) as [Hin|(h & s & Hh & Hs & Ho & -> & ->)].
  - left. exists t'. auto.
  - pose proof (find_some _ _ Hs) as [Hsin Hsid].
    pose proof (site_after_extends s (h_lan h) dst) as E.
    unfold site_after in Hm. destruct (map_lookup (h_lan h) (s_maps s)) as [q|] eqn:L; cbn [s_maps] in Hm.
    + left. exists s. split; [exact Hsin|]. split; [symmetry; apply (ex_id _ _ E) | exact Hm].
    + apply in_app_or in Hm. destruct Hm as [Hm|[Hm|[]]].
      * left. exists s. split; [exact Hsin|]. split; [symmetry; apply (ex_id _ _ E) | exact Hm].
      * inversion Hm; subst a p. right. exists h. rewrite (ex_id _ _ E), (ex_pub _ _ E).
        split; [exact Hh|]. split; [lia|]. split; [reflexivity|].
        rewrite (external_after_outbound n hid h s dst W Hh Hs Ho). unfold ext_after. rewrite L. reflexivity.
Qed.
Print Assumptions mapping_only_by_own_outbound.

(* a send never touches the tables of another site *)
Theorem other_sites_untouched : forall n hid h dst n' oc t',
  net_wf n -> find_host n hid = Some h -> route n hid dst = (n', oc) -> In t' (sites n') ->
  s_id t' <> h_site h -> In t' (sites n).
Proof.
  intros n hid h dst n' oc t' W Hh R Ht Hne.
  destruct (site_after_send n hid dst n' oc t' R Ht) as [Hin|(h2 & s & Hh2 & Hs & Ho & _ & ->)]; [exact Hin|].
  exfalso. rewrite Hh in Hh2. inversion Hh2; subst h2.
  pose proof (find_some _ _ Hs) as [_ Hsid].
  rewrite (ex_id _ _ (site_after_extends s (h_lan h) dst)) in Hne. lia.
Qed.
Print Assumptions other_sites_untouched.

(* whatever is delivered over the internet went to a public host or passed the filter of the NAT box it was
   addressed to, unaltered in its source (converse of punctured_pair_passes; any network) *)
Theorem delivered_was_solicited : forall n src dst hid src',
  internet n src dst = Deliver hid src' ->
  src' = src /\
  ((exists h, In h (hosts n) /\ h_id h = hid /\ h_lan h = dst /\ is_open (site_type n (h_site h)) = true)
   \/ (exists s lan, In s (sites n) /\ is_open (s_type s) = false /\ s_pub s = fst dst /\
                     map_rev (snd dst) (s_maps s) = Some lan /\
                     filter_ok (s_type s) (s_filt s) (snd dst) src = true)).
Proof.
  intros n src dst hid src' H. unfold internet in H.
  destruct (find (fun h => is_open (site_type n (h_site h)) && addr_eqb (h_lan h) dst) (hosts n)) as [h|] eqn:Fh.
  - inversion H; subst. split; [reflexivity|]. left. pose proof (find_some _ _ Fh) as [Hin Hp].
    apply andb_true_iff in Hp. destruct Hp as [Ho Ha]. apply addr_eqb_eq in Ha. exists h. auto.
  - destruct (find (fun s => negb (is_open (s_type s)) && (s_pub s =? fst dst)) (sites n)) as [s|] eqn:Fs; [|discriminate].
    destruct (fst src =? s_pub s); [discriminate|].
    destruct (map_rev (snd dst) (s_maps s)) as [lan|] eqn:Mr; [|discriminate].
    destruct (filter_ok (s_type s) (s_filt s) (snd dst) src) eqn:Fo; [|discriminate].
    match type of H with match ?X with _ => _ end = _ => destruct X; [|discriminate] end.
    inversion H; subst. split; [reflexivity|]. right.
    pose proof (find_some _ _ Fs) as [Hin Hp]. apply andb_true_iff in Hp. destruct Hp as [Ho Hpub].
    exists s, lan. apply negb_true_iff in Ho. repeat (split; [assumption || lia|]). exact Fo.
Qed.
Print Assumptions delivered_was_solicited.

(* ---------------------------------------------------------------------------------- the enlarged scenario space *)

(* The introducer B is no longer a public host everybody walks to.  It sits
     - at a site of its own of any of the four types (BOwn t), or
     - at the requester's site (BWithA), or
     - at the introduced peer's site (BWithC pos)           [placed]
   and is known to the others only through a public rendezvous tracker R: B registers at R; whoever asks R
   is introduced to B, R asks B to puncture, and the asker walks to the addresses R handed out.  So the
   mapping of B at its NAT and the filter entries for requester and candidates exist because of B's own
   earlier outbound traffic (filter_only_by_outbound) - they are produced by the scripted history, not assumed.
   Candidates reach B that way (B learns them from their request) or are introduced to B by the tracker T
   (B learns them from their response).  The requester asks R, walks to what R handed out - B's answer is the
   response under test - and then to what B handed out.  Covered: 4 x 4 NAT types of requester and introduced
   peer, same/own site, acquisition, both styles of the candidate's and of the requester's request (the
   latter is the style R passes on for B), k in {1, 3} candidates and every position, 6 placements of B:
   6144 configurations (the styles influence no run: P13_sweeplib.scn_check_styles).

   blind_simple: B shares a NAT box (not merely a public machine) with exactly one of requester and
   introduced peer.  Outside that case everything C13.cone_reachability states holds again. *)
Theorem nat_introducer_reachability : forall bp tA tC same resp newC styleA k pos,
  placed bp pos -> (k = 1 \/ k = 3)%nat -> (pos < k)%nat ->
  blind_simple bp tA tC same = false ->
  let g := cfg_forx bp tA (mkCand tC same resp newC false false) styleA k pos in
  let o := run_scn g in
  introduced_peer o = Some (cand_id pos) /\
  verdict_of g o = all_true /\
  In (cand_id pos) (peers_of o ID_A) /\ In ID_A (peers_of o (cand_id pos)) /\
  (same = true -> contacts o = [(host_lan g (cand_id pos), Deliver (cand_id pos) (host_lan g ID_A))]).
Proof.
  intros bp tA tC same resp newC styleA k pos Hb Hk Hp Hbl g o.
  pose proof (judge_spec g o same pos _ (scnx_check_true bp tA tC same resp newC styleA k pos Hb Hk Hp)) as H.
  rewrite Hbl in H. destruct H as (H1 & _ & _ & H2 & H3 & H4 & H5). auto.
Qed.
Print Assumptions nat_introducer_reachability.

(* The boundary, exactly: when B shares a NAT box with exactly one of the two parties it has seen that party
   only under its LAN address (it arrived over the LAN) and the protocol gives B no other source for its
   external address (source_wan_address of a request is not used).  B's response still introduces the
   candidate and the puncture-request still leaves in the same step and arrives - but
     * B at the introduced peer's box: B hands out the peer's LAN address as its WAN address; a requester
       elsewhere never reaches it;
     * B at the requester's box: the puncture-request names the requester's LAN address as WAN walker; an
       introduced peer elsewhere punctures a private address, and behind a restricted NAT stays unreachable.
   `holds` is false for every such configuration of the swept space (kept visible; open finding). *)
Theorem blind_introducer_refuted : forall bp tA tC same resp newC styleA k pos,
  placed bp pos -> (k = 1 \/ k = 3)%nat -> (pos < k)%nat ->
  blind_simple bp tA tC same = true ->
  let g := cfg_forx bp tA (mkCand tC same resp newC false false) styleA k pos in
  let o := run_scn g in
  introduced_peer o = Some (cand_id pos) /\
  holds g o = false /\
  v_puncture_req (verdict_of g o) = true /\
  (v_puncture (verdict_of g o) = false \/ v_request (verdict_of g o) = false \/ v_mutual (verdict_of g o) = false).
Proof.
  intros bp tA tC same resp newC styleA k pos Hb Hk Hp Hbl g o.
  pose proof (judge_spec g o same pos _ (scnx_check_true bp tA tC same resp newC styleA k pos Hb Hk Hp)) as H.
  rewrite Hbl in H. destruct H as (H1 & _ & _ & H2 & H3 & H4). auto.
Qed.
Print Assumptions blind_introducer_refuted.

(* blind_simple is the closed form, on the swept configurations, of the site comparison b_blind that the
   harness evaluates on the layout *)
Theorem b_blind_closed_form : forall bp tA tC same resp newC styleA k pos,
  placed bp pos -> (k = 1 \/ k = 3)%nat -> (pos < k)%nat ->
  b_blind (cfg_forx bp tA (mkCand tC same resp newC false false) styleA k pos) (cand_id pos)
  = blind_simple bp tA tC same.
Proof.
  intros bp tA tC same resp newC styleA k pos Hb Hk Hp.
  apply (judge_spec _ _ same pos _ (scnx_check_true bp tA tC same resp newC styleA k pos Hb Hk Hp)).
Qed.
Print Assumptions b_blind_closed_form.

(* the enlarged scenario networks are well formed and stay so: the general NAT theorems apply throughout *)
Theorem scenario_nets_wfx : forall bp tA tC same resp newC styleA k pos ops,
  placed bp pos -> (k = 1 \/ k = 3)%nat -> (pos < k)%nat ->
  net_wf (w_net (run_ops (mk_world (cfg_forx bp tA (mkCand tC same resp newC false false) styleA k pos)) ops)).
Proof.
  intros bp tA tC same resp newC styleA k pos ops Hb Hk Hp. apply run_ops_wf, net_wfb_sound.
  apply (judge_spec _ _ same pos _ (scnx_check_true bp tA tC same resp newC styleA k pos Hb Hk Hp)).
Qed.
Print Assumptions scenario_nets_wfx.

(* ---------------------------------------------------------------------------------- non-vacuity *)
(* everybody behind a port-restricted NAT of its own, introducer included *)
Definition gx_pr : cfg := cfg_forx (BOwn PortRestricted) PortRestricted (mkCand PortRestricted false false false false false) false 1 0.

Example c13x_all_port_restricted :
  verdict_of gx_pr (run_scn gx_pr) = all_true
  /\ external (w_net (run_scenario gx_pr)) ID_B = Some (ip4 5 0 0 2, 20200)
  /\ existsb (fun e => match e with Ev 1 _ (Punct _ _ _ _ _) (Drop Filtered) => true | _ => false end)
             (o_events (run_scn gx_pr)) = true.
Proof. vm_compute. repeat split; reflexivity. Qed.

(* all three behind one NAT box: everything goes LAN address to LAN address *)
Example c13x_one_lan :
  let g := cfg_forx BWithA AddrRestricted (mkCand Open true false false false false) false 1 0 in
  blind_simple BWithA AddrRestricted Open true = false
  /\ contacts (run_scn g) = [((ip4 192 168 1 13, 8003), Deliver 3 (ip4 192 168 1 12, 8002))].
Proof. vm_compute. split; reflexivity. Qed.

(* the blind case: B behind the introduced peer's NAT hands out 192.168.1.13:8003 as WAN address *)
Example c13x_blind_witness :
  let g := cfg_forx (BWithC 0) Open (mkCand FullCone false false false false false) false 1 0 in
  blind_simple (BWithC 0) Open FullCone false = true
  /\ contacts (run_scn g) = [((ip4 192 168 1 13, 8003), Drop NoRoute)]
  /\ holds g (run_scn g) = false.
Proof. vm_compute. repeat split; reflexivity. Qed.
