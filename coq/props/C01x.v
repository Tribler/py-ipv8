(* C01 over the decorators as translated from ipv8/lazy_community.py on every run (gen/G01_auth.v, by
   tools/tr/tr_auth.py), and over every sequence of incoming datagrams: the verified-peer table changes only for keys
   that signed one of them.  Lemmas are in proofs/P01_auth_gen.v, the runtime and the receiver model in
   model/M01_auth_gen.v.  `signed_by data pk`: pk is the key field of data, and data = signed part ++ signature of the
   length pk prescribes, valid under pk over the whole signed part.  `accepts payloads data pk objs`: signed_by, and the
   bytes between key field and signature decode completely (consume-all) as the payload classes, giving objs.
   `accepted d pk`: delivery d goes through a signed decorator and its datagram is accepted for pk (hence authentic). *)
From Coq Require Import ZArith List.
From Coq Require String.
Import String.StringSyntax.
Delimit Scope string_scope with string.
From IPV8V Require Import lib.PyErr lib.Bytes model.M02_wire model.M01_auth gen.G01_auth model.M01_auth_gen
  proofs.P01_auth proofs.P01_auth_gen.
Import ListNotations.
Open Scope Z_scope.

(* lazy_wrapper, as translated: for ANY decorated function func and any receiver state, the wrapper either raises with
   the state untouched, or the signature oracle accepts (key field, data without signature, signature) and the whole
   effect and result of the wrapper is ONE call of func - with the Peer for exactly that key (the verified peer after
   add_address(source), else a new Peer of that key at the source address) and exactly the decoded payloads. *)
Theorem gen_lazy_wrapper_only_if_valid :
  forall key_ok verify siglen sign prefix sk pk0 payloads
         (func : callee (RT key_ok verify siglen sign prefix sk pk0)) src data (s s' : state) (r : res unit),
  lazy_wrapper__wrapper (RT key_ok verify siglen sign prefix sk pk0) payloads func src data s = (s', r) ->
  (s' = s /\ exists e, r = Raise e) \/
  exists pk objs, accepts key_ok verify siglen payloads data pk objs /\
     (s', r) = func (@HPeer (RT key_ok verify siglen sign prefix sk pk0) (snd (peer_handed s pk src))) (map APayload objs) (fst (peer_handed s pk src)).
Proof. exact lazy_wrapper_shape. Qed.
Print Assumptions gen_lazy_wrapper_only_if_valid.

(* lazy_wrapper_wd: the same, with the raw datagram as a further argument. *)
Theorem gen_lazy_wrapper_wd_only_if_valid :
  forall key_ok verify siglen sign prefix sk pk0 payloads
         (func : callee (RT key_ok verify siglen sign prefix sk pk0)) src data (s s' : state) (r : res unit),
  lazy_wrapper_wd__wrapper (RT key_ok verify siglen sign prefix sk pk0) payloads func src data s = (s', r) ->
  (s' = s /\ exists e, r = Raise e) \/
  exists pk objs, accepts key_ok verify siglen payloads data pk objs /\
     (s', r) = func (@HPeer (RT key_ok verify siglen sign prefix sk pk0) (snd (peer_handed s pk src))) (map APayload objs ++ [AData data]) (fst (peer_handed s pk src)).
Proof. exact lazy_wrapper_wd_shape. Qed.
Print Assumptions gen_lazy_wrapper_wd_only_if_valid.

(* The Peer handed to the handler carries exactly the key field of the datagram (the Network files peers under their
   own key: net_wf, an invariant of every history by gen_histories_keep_wf). *)
Theorem gen_peer_is_key : forall s pk src,
  net_wf (net s) -> pref_key (fst (peer_handed s pk src)) (snd (peer_handed s pk src)) = pk.
Proof.
  intros s pk src Hwf. unfold peer_handed. destruct (net_find (net s) pk) as [q|] eqn:E; cbn [fst snd pref_key]; [|reflexivity].
  cbn [with_net net]. rewrite net_find_update_same, E. rewrite add_addr_key. apply Hwf. apply net_find_in. exact E.
Qed.
Print Assumptions gen_peer_is_key.

(* The unsigned decorators hand over the source address only and never touch the Network. *)
Theorem gen_unsigned_wrappers_pass_address_only :
  forall key_ok verify siglen sign prefix sk pk0 payloads
         (func : callee (RT key_ok verify siglen sign prefix sk pk0)) src data (s s' : state) (r : res unit),
  (lazy_wrapper_unsigned__wrapper (RT key_ok verify siglen sign prefix sk pk0) payloads func src data s = (s', r) ->
   (s' = s /\ exists e, r = Raise e) \/
   exists objs, rtm_unpack_list key_ok payloads data 23 = Ok objs /\ (s', r) = func (@HAddr (RT key_ok verify siglen sign prefix sk pk0) src) (map APayload objs) s)
  /\
  (lazy_wrapper_unsigned_wd__wrapper (RT key_ok verify siglen sign prefix sk pk0) payloads func src data s = (s', r) ->
   (s' = s /\ exists e, r = Raise e) \/
   exists objs, rtm_unpack_list key_ok payloads data 23 = Ok objs
     /\ (s', r) = func (@HAddr (RT key_ok verify siglen sign prefix sk pk0) src) (map APayload objs ++ [AKw "data"%string data]) s).
Proof. intros. split; [apply lazy_wrapper_unsigned_shape|apply lazy_wrapper_unsigned_wd_shape]. Qed.
Print Assumptions gen_unsigned_wrappers_pass_address_only.

(* _ez_unpack_auth (handlers that authenticate by hand, DiscoveryCommunity 246): returns only for an accepted datagram,
   with the key field, and never touches the receiver's state. *)
Theorem gen_ez_unpack_auth_only_if_valid :
  forall key_ok verify siglen sign prefix sk pk0 pc data (s s' : state) r,
  EZ_ez_unpack_auth (RT key_ok verify siglen sign prefix sk pk0) pc data s = (s', r) ->
  s' = s /\
  forall a g p, r = Ok (a, g, p) ->
    accepts key_ok verify siglen [GlobalTimeDistributionPayload_cls; pc] data (public_key_bin a) [g; p].
Proof. exact ez_unpack_auth_sound. Qed.
Print Assumptions gen_ez_unpack_auth_only_if_valid.

(* One delivery through any of the four decorators, whatever the bytes, the source address and whatever the handler
   does with the Peer it is handed: either the Network is untouched and no Peer-taking handler was entered, or the
   datagram is authentic for the key pk it carries, the handler was entered once with the Peer of pk, and no entry
   of the Network other than pk's differs afterwards. *)
Theorem gen_delivery_step :
  forall key_ok verify siglen sign prefix sk pk0 s d,
  (net (deliver key_ok verify siglen sign prefix sk pk0 s d) = net s /\
   (calls (deliver key_ok verify siglen sign prefix sk pk0 s d) = calls s \/
    exists args, signed_kind (d_kind d) = false /\
      calls (deliver key_ok verify siglen sign prefix sk pk0 s d) = calls s ++ [(CAddr (d_src d), args)]))
  \/
  (exists pk args, accepted key_ok verify siglen d pk
     /\ calls (deliver key_ok verify siglen sign prefix sk pk0 s d)
        = calls s ++ [(snap_of key_ok verify siglen sign prefix sk pk0 s pk (d_src d), args)]
     /\ (forall k, k <> pk -> net_find (net (deliver key_ok verify siglen sign prefix sk pk0 s d)) k = net_find (net s) k)
     /\ (net_wf (net s) -> net_wf (net (deliver key_ok verify siglen sign prefix sk pk0 s d)))).
Proof. exact deliver_step. Qed.
Print Assumptions gen_delivery_step.

(* an accepted delivery is an authentic datagram: signed by the key it carries, over every byte before the signature *)
Theorem accepted_is_authentic :
  forall key_ok verify siglen d pk, accepted key_ok verify siglen d pk -> authentic key_ok verify siglen d pk.
Proof. intros key_ok verify siglen d pk [Hk (objs & [Hsb _])]. split; assumption. Qed.
Print Assumptions accepted_is_authentic.

(* For EVERY sequence of incoming datagrams (authentic or not, any source address,
   any decorator kind, any handler behaviour), from any Network, and for every key k:
   the verified-peer set grows by k only if the sequence contains a datagram validly signed by k and accepted, and the
   address list recorded for k changes (including k's appearance) only if the sequence contains such a datagram. *)
Theorem auth_no_verified_entry_without_key :
  forall key_ok verify siglen sign prefix sk pk0 ds s k,
  let s' := run_deliveries key_ok verify siglen sign prefix sk pk0 ds s in
  (In k (net_keys (net s')) -> In k (net_keys (net s)) \/ exists d, In d ds /\ accepted key_ok verify siglen d k)
  /\ (net_addrs (net s') k <> net_addrs (net s) k -> exists d, In d ds /\ accepted key_ok verify siglen d k).
Proof.
  intros key_ok verify siglen sign prefix sk pk0 ds s k.
  destruct (run_find key_ok verify siglen sign prefix sk pk0 ds s k) as [E|H]; cbv zeta.
  - split.
    + intros Hin. left. apply net_find_keys. apply net_find_keys in Hin. congruence.
    + intros Hne. exfalso. apply Hne. unfold net_addrs. rewrite E. reflexivity.
  - split; intros _; [right|]; exact H.
Qed.
Print Assumptions auth_no_verified_entry_without_key.

(* the underlying invariant: the Network's entry for k (object and addresses) is unchanged by a history without a
   datagram authentic for k *)
Theorem gen_histories_touch_only_signed_keys :
  forall key_ok verify siglen sign prefix sk pk0 ds s k,
  net_find (net (run_deliveries key_ok verify siglen sign prefix sk pk0 ds s)) k = net_find (net s) k
  \/ exists d, In d ds /\ accepted key_ok verify siglen d k.
Proof. intros. apply run_find. Qed.
Print Assumptions gen_histories_touch_only_signed_keys.

Theorem gen_histories_keep_wf :
  forall key_ok verify siglen sign prefix sk pk0 ds s,
  net_wf (net s) -> net_wf (net (run_deliveries key_ok verify siglen sign prefix sk pk0 ds s)).
Proof. intros. apply run_wf. assumption. Qed.
Print Assumptions gen_histories_keep_wf.

(* Every handler entry recorded over a history: an entry with a Peer carries the key of a datagram of the history that
   is authentic for exactly that key; an entry with an Address came through an unsigned decorator. *)
Theorem gen_handler_entries_authentic :
  forall key_ok verify siglen sign prefix sk pk0 ds s c,
  net_wf (net s) ->
  In c (calls (run_deliveries key_ok verify siglen sign prefix sk pk0 ds s)) ->
  In c (calls s)
  \/ (exists a args d, c = (CAddr a, args) /\ In d ds /\ signed_kind (d_kind d) = false /\ a = d_src d)
  \/ (exists pk addrs b args d, c = (CPeer pk addrs b, args) /\ In d ds /\ accepted key_ok verify siglen d pk).
Proof. intros until c. apply run_calls. Qed.
Print Assumptions gen_handler_entries_authentic.

(* Completeness (the acceptance path is not vacuous, and nothing else decides): an accepted datagram DOES reach the
   decorated function, with that Peer and those payloads - so the translated lazy_wrapper calls func if and only if
   `accepts` holds. *)
Theorem gen_lazy_wrapper_accepts_valid :
  forall key_ok verify siglen sign prefix sk pk0 payloads
         (func : callee (RT key_ok verify siglen sign prefix sk pk0)) src data (s : state) pk objs,
  accepts key_ok verify siglen payloads data pk objs ->
  lazy_wrapper__wrapper (RT key_ok verify siglen sign prefix sk pk0) payloads func src data s =
  func (@HPeer (RT key_ok verify siglen sign prefix sk pk0) (snd (peer_handed s pk src))) (map APayload objs)
       (fst (peer_handed s pk src))
  /\
  lazy_wrapper_wd__wrapper (RT key_ok verify siglen sign prefix sk pk0) payloads func src data s =
  func (@HPeer (RT key_ok verify siglen sign prefix sk pk0) (snd (peer_handed s pk src))) (map APayload objs ++ [AData data])
       (fst (peer_handed s pk src)).
Proof. intros. apply lazy_wrappers_complete. assumption. Qed.
Print Assumptions gen_lazy_wrapper_accepts_valid.

(* The translated decorators accept exactly what the hand model M01_auth.wrapper_signed (theorems of props/C01.v)
   accepts, with the same key and the same values (payload classes one after the other = the concatenated format
   list): the hand model is a proved consequence of the translated code. *)
Theorem gen_refines_hand_model :
  forall key_ok verify siglen payloads data pk,
  (forall objs, accepts key_ok verify siglen payloads data pk objs ->
     wrapper_signed key_ok verify siglen (msg_of_list (concat payloads)) data = Ok (Invoke pk (concat objs)))
  /\
  (forall vs, wrapper_signed key_ok verify siglen (msg_of_list (concat payloads)) data = Ok (Invoke pk vs) ->
     exists objs, vs = concat objs /\ accepts key_ok verify siglen payloads data pk objs).
Proof. intros. split; intros; [apply accepts_hand|apply hand_accepts]; assumption. Qed.
Print Assumptions gen_refines_hand_model.

(* The sender as translated (ezr_pack / _ez_pack) produces what the hand model's ez_pack produces. *)
Theorem gen_ezr_pack_is_ez_pack :
  forall key_ok verify siglen sign prefix sk pk0 msg_num insts (s s' : state) data,
  EZ_ezr_pack (RT key_ok verify siglen sign prefix sk pk0) msg_num insts true s = (s', Ok data) ->
  s' = s /\
  ez_pack key_ok sign sk pk0 prefix msg_num (msg_of_list (concat (map fst insts))) (concat (map snd insts)) = Ok data.
Proof. exact ezr_pack_hand. Qed.
Print Assumptions gen_ezr_pack_is_ez_pack.

(* Sender and receiver agree on the translated code of both sides, for every message definition and every correct
   signature scheme: what the translated ezr_pack(sig=True) hands to the endpoint is accepted by the translated
   lazy_wrapper, attributed to the sender's key, with exactly the packed values. *)
Theorem gen_sound_send :
  forall key_ok verify siglen sign prefix sk pk0 msg_num insts (s0 s0' : state) data n,
  length prefix = 22%nat ->
  wf_msg (msg_of_list (concat (map fst insts))) = true ->
  msg_ok key_ok (msg_of_list (concat (map fst insts))) (concat (map snd insts)) = true ->
  (Z.of_nat (length pk0) <? 65536) = true -> bytes_okb pk0 = true ->
  siglen pk0 = Ok n -> (0 < n)%nat ->
  (forall msg, length (sign sk msg) = n /\ verify pk0 msg (sign sk msg) = true) ->
  EZ_ezr_pack (RT key_ok verify siglen sign prefix sk pk0) msg_num insts true s0 = (s0', Ok data) ->
  exists objs, concat objs = concat (map snd insts) /\
    forall (func : callee (RT key_ok verify siglen sign prefix sk pk0)) src (s : state),
      lazy_wrapper__wrapper (RT key_ok verify siglen sign prefix sk pk0) (map fst insts) func src data s =
      func (@HPeer (RT key_ok verify siglen sign prefix sk pk0) (snd (peer_handed s pk0 src))) (map APayload objs)
           (fst (peer_handed s pk0 src)).
Proof.
  intros key_ok verify siglen sign prefix sk pk0 msg_num insts s0 s0' data n Hp Hwf Hok Hlk Hbk Hn Hpos Hsig Hpack.
  apply ezr_pack_hand in Hpack as [_ Hpack].
  pose proof (auth_sound_send_l key_ok verify siglen sign sk pk0 prefix msg_num _ _ data n
                Hp Hwf Hok Hlk Hbk Hn Hpos Hsig Hpack) as Hhand.
  apply hand_accepts in Hhand as (objs & Hc & Hacc).
  exists objs. split; [symmetry; exact Hc|]. intros func src s.
  exact (proj1 (lazy_wrappers_complete key_ok verify siglen sign prefix sk pk0 _ func src data s pk0 objs Hacc)).
Qed.
Print Assumptions gen_sound_send.

(* non-vacuity, with a toy signature scheme: signature = [sum of the message bytes mod 256; 7] *)
Definition toy_verify (pk msg sg : bytes) : bool := bytes_eqb sg [fold_left Z.add msg 0 mod 256; 7].
Definition toy_sign (sk msg : bytes) : bytes := [fold_left Z.add msg 0 mod 256; 7].
Definition toy_siglen (pk : bytes) : res nat := if bytes_eqb pk [] then Raise ValueError else Ok 2%nat.
Definition toy_insts : list pinst := [([FStruct [PU 8]], [VInt 77]); ([FVarLen 2 1 false], [VBytes [1; 2]])].
Definition toy_deliver := deliver (fun _ => true) toy_verify toy_siglen toy_sign (repeat 5 22) [1] [9; 9; 9].
Definition toy_run := run_deliveries (fun _ => true) toy_verify toy_siglen toy_sign (repeat 5 22) [1] [9; 9; 9].
Definition toy_src : paddr := (1, [49; 48], 1000).
Definition toy_src2 : paddr := (1, [54; 54], 666).

(* the translated sender's datagram reaches the handler of the translated receiver (which files the Peer): key [9;9;9]
   becomes verified at the source address; the same datagram with one payload byte changed does nothing at all *)
Example c01x_nonvacuous_accept_reject :
  match ezr_pack_gen (fun _ => true) toy_verify toy_siglen toy_sign (repeat 5 22) [1] [9; 9; 9] 42 toy_insts true (mkState [] []) with
  | Ok data =>
      let d := mkD KSigned (map fst toy_insts) [HAddVerified] toy_src data in
      let bad := mkD KSigned (map fst toy_insts) [HAddVerified] toy_src (firstn 30 data ++ [1] ++ skipn 31 data) in
      toy_deliver (mkState [] []) d
        = mkState [([9; 9; 9], mkPeer [9; 9; 9] [toy_src] false)]
                  [(CPeer [9; 9; 9] [toy_src] false, [APayload [VInt 77]; APayload [VBytes [1; 2]]])]
      /\ toy_deliver (mkState [] []) bad = mkState [] []
  | Raise _ => False
  end.
Proof. vm_compute. split; reflexivity. Qed.

(* a history: forged datagram naming the key, the authentic one, a forged one from another address, the authentic one
   replayed from that other address through lazy_wrapper_wd: only the authentic deliveries enter the handler, the forged
   ones neither create the entry nor move the verified peer's address *)
Example c01x_nonvacuous_history :
  match ezr_pack_gen (fun _ => true) toy_verify toy_siglen toy_sign (repeat 5 22) [1] [9; 9; 9] 42 toy_insts true (mkState [] []) with
  | Ok data =>
      let forged := firstn 40 data ++ [200] ++ skipn 41 data in
      let cs := map fst toy_insts in
      let h1 := [mkD KSigned cs [HAddVerified] toy_src2 forged] in
      let h2 := h1 ++ [mkD KSigned cs [HAddVerified] toy_src data] in
      let h3 := h2 ++ [mkD KSignedWd cs [HSetAddress (2, [7], 7)] toy_src2 forged] in
      let h4 := h3 ++ [mkD KSignedWd cs [] toy_src2 data] in
      net (toy_run h1 (mkState [] [])) = []
      /\ net (toy_run h2 (mkState [] [])) = [([9; 9; 9], mkPeer [9; 9; 9] [toy_src] false)]
      /\ toy_run h3 (mkState [] []) = toy_run h2 (mkState [] [])
      /\ net (toy_run h4 (mkState [] [])) = [([9; 9; 9], mkPeer [9; 9; 9] [toy_src2] false)]
      /\ length (calls (toy_run h4 (mkState [] []))) = 2%nat
  | Raise _ => False
  end.
Proof. vm_compute. repeat split; reflexivity. Qed.

(* the unsigned decorators hand over the address, never a Peer, and leave the Network alone *)
Example c01x_nonvacuous_unsigned :
  let data := repeat 5 22 ++ [42] ++ [0; 0; 0; 0; 0; 0; 0; 77] in
  toy_deliver (mkState [([9; 9; 9], mkPeer [9; 9; 9] [toy_src] false)] [])
              (mkD KUnsignedWd [[FStruct [PU 8]]] [HAddVerified; HSetAddress toy_src2] toy_src2 data)
  = mkState [([9; 9; 9], mkPeer [9; 9; 9] [toy_src] false)] [(CAddr toy_src2, [APayload [VInt 77]; AKw "data"%string data])].
Proof. vm_compute. reflexivity. Qed.
