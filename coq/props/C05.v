(* C05 - circuits are isolated from each other and from third parties.  The property theorems, each over the lemmas
   of proofs/P05_*.v, and a worked state at the end that meets their hypotheses.
   Comments name the clause of the property in DESIGN.md a theorem stands for (unknown_or_keyless_is_noop,
   routing_by_header, exit_binding, ...).
   Data plane: model/M04_onion.v; routing tables under control traffic: model/M05_isolation.v (after the
   `fix:` commits that make on_create refuse an id in use and on_created refuse an already extended id).  AEAD, key agreement and payload parsing abstract. *)
From Coq Require Import ZArith List Lia.
From IPV8V Require Import lib.PyErr lib.Bytes lib.BE model.M02_wire model.M03_recv model.M04_onion
  model.M05_isolation model.M05_harness spec.S04_onion_spec spec.S05_isolation_spec
  proofs.P04_base proofs.P04_endpoint proofs.P04_props proofs.P05_tables proofs.P05_control proofs.P05_inv proofs.P05_binding.
Import ListNotations.
Open Scope Z_scope.

(* unknown_or_keyless_is_noop, general form: NO datagram whatsoever - any byte string, from any address,
   whether it names an unknown id, a known id without that circuit's keys, or is a perfectly valid cell -
   adds, removes, re-keys or re-routes an entry of the three routing tables through the data plane.  Only the
   relay_early counters and an exit socket's enabled flag move. *)
Theorem data_plane_preserves_tables :
  forall (key nonce : Type) (enc : key -> dir -> nonce -> bytes -> bytes) (dec : key -> dir -> bytes -> option bytes)
         (nd : node key) (src : addr) (pkt : bytes) (rnd : Z -> bytes) (ns : nat -> nonce)
         (nd' : node key) (acts : list action),
  on_packet enc dec nd src pkt rnd ns = Ok (nd', acts) -> same_tables nd nd'.
Proof. exact on_packet_same. Qed.
Print Assumptions data_plane_preserves_tables.

(* the same including the nested dispatch of datagrams re-injected from a data message (on_packet_rec) *)
Theorem data_plane_preserves_tables_nested :
  forall (key nonce : Type) (enc : key -> dir -> nonce -> bytes -> bytes) (dec : key -> dir -> bytes -> option bytes)
         (nd : node key) (src : addr) (pkt : bytes) (rnd : Z -> bytes) (ns : nat -> nonce)
         (nd' : node key) (acts : list action),
  on_packet_rec enc dec nd src pkt rnd ns = Ok (nd', acts) -> same_tables nd nd'.
Proof. exact on_packet_rec_same. Qed.
Print Assumptions data_plane_preserves_tables_nested.

(* whatever bytes the cell dispatcher is handed, from whatever source address - in particular a datagram re-injected
   from a data message, whose source is the OUTSIDE sender - the consumer is reached only through the data handler,
   for one of our own circuits whose first hop has exactly that source address (ip and port) *)
Theorem dispatcher_consumer_needs_first_hop_address :
  forall (key nonce : Type) (enc : key -> dir -> nonce -> bytes -> bytes)
         (nd : node key) (src : addr) (data : bytes) (cid : Z) (rnd : Z -> bytes) (ns : nat -> nonce)
         (nd' : node key) (acts : list action) (a : action),
  on_packet_from_circuit enc nd src data cid rnd ns = Ok (nd', acts) -> In a acts -> is_consumer a = true ->
  exists cid' ci h0, assoc cid' (n_circuits nd) = Some ci /\ circuit_hop ci = Ok h0 /\ addr_eqb src (h_addr h0) = true.
Proof.
  intros key nonce enc nd src data cid rnd ns nd' acts a H Hin Hk.
  destruct (pfc_delivery _ _ _ _ _ _ _ _ _ _ _ a H Hin (consumer_delivers a Hk)) as [_ Hd].
  destruct (on_data_acts _ _ _ _ _ _ Hd) as (_ & cid' & dest & origin & payload & o & _ & Hall).
  rewrite Forall_forall in Hall.
  destruct (data_delivery_consumer _ _ _ _ _ _ _ _ (Hall a Hin) Hk) as (ci & h0 & Hc & Hh & Hs & _).
  exists cid', ci, h0. auto.
Qed.
Print Assumptions dispatcher_consumer_needs_first_hop_address.

(* unknown id: nothing at all happens (state identical, no output) *)
Theorem unknown_id_is_noop :
  forall (key nonce : Type) (enc : key -> dir -> nonce -> bytes -> bytes) (dec : key -> dir -> bytes -> option bytes)
         (nd : node key) (src : addr) (cid : Z) (body : bytes) (early : bool) (rnd : Z -> bytes) (ns : nat -> nonce),
  length (n_prefix nd) = 22%nat -> cid_ok cid ->
  assoc cid (n_relays nd) = None -> assoc cid (n_exits nd) = None -> assoc cid (n_circuits nd) = None ->
  on_packet enc dec nd src (cell_to_bin (n_prefix nd) (mkCell cid body false early)) rnd ns = Ok (nd, []).
Proof. exact unknown_circuit_dropped. Qed.
Print Assumptions unknown_id_is_noop.

(* known id without the keys of that circuit, at a node that has to open a layer: nothing at all happens
   (the originator's case is C04.tamper_dropped_at_originator / foreign_key_dropped_at_originator) *)
Theorem keyless_is_noop_at_relay :
  forall (key nonce : Type) (enc : key -> dir -> nonce -> bytes -> bytes) (dec : key -> dir -> bytes -> option bytes)
         (nd : node key) (src : addr) (cid : Z) (r : relay_route key) (k : key) (body : bytes) (early : bool)
         (rnd : Z -> bytes) (ns : nat -> nonce),
  aead_authentic enc dec -> length (n_prefix nd) = 22%nat -> cid_ok cid ->
  assoc cid (n_relays nd) = Some r -> rr_rdv r = false -> rr_dir r = FORWARD -> h_keys (rr_hop r) = Some k ->
  (forall n m, body <> enc k FORWARD n m) ->
  on_packet enc dec nd src (cell_to_bin (n_prefix nd) (mkCell cid body false early)) rnd ns = Ok (nd, []).
Proof. exact tamper_relay_dropped_l. Qed.
Print Assumptions keyless_is_noop_at_relay.

Theorem keyless_is_noop_at_exit :
  forall (key nonce : Type) (enc : key -> dir -> nonce -> bytes -> bytes) (dec : key -> dir -> bytes -> option bytes)
         (nd : node key) (src : addr) (cid : Z) (es : exit_sock key) (k : key) (body : bytes) (early : bool)
         (rnd : Z -> bytes) (ns : nat -> nonce),
  aead_authentic enc dec -> length (n_prefix nd) = 22%nat -> cid_ok cid ->
  assoc cid (n_relays nd) = None -> assoc cid (n_exits nd) = Some es -> h_keys (es_hop es) = Some k ->
  (forall n m, body <> enc k FORWARD n m) ->
  on_packet enc dec nd src (cell_to_bin (n_prefix nd) (mkCell cid body false early)) rnd ns = Ok (nd, []).
Proof. exact tamper_exit_dropped_l. Qed.
Print Assumptions keyless_is_noop_at_exit.

(* routing_by_header: tables are consulted with the id of the cell header (process_cell / relay_cell /
   incoming_crypto take cl_cid of from_bin); the handlers receive the unwrapped cell, into which that same id
   has been re-injected ... *)
Theorem handlers_get_header_cid :
  forall (key nonce : Type) (enc : key -> dir -> nonce -> bytes -> bytes) (nd : node key) (src : addr)
         (cid m0 : Z) (rest : list Z) (early : bool) (rnd : Z -> bytes) (ns : nat -> nonce),
  length (n_prefix nd) = 22%nat -> cid_ok cid ->
  community_on_cell_packet enc nd src (cell_to_bin (n_prefix nd) (mkCell cid (m0 :: rest) false early)) rnd ns
  = try_catch (on_packet_from_circuit enc nd src (n_prefix nd ++ [m0] ++ be_encode 4 cid ++ rest) cid rnd ns)
              (fun _ => Ok (nd, [])).
Proof. exact community_cell. Qed.
Print Assumptions handlers_get_header_cid.

(* ... so the circuit id every cell handler decodes (first field of every cell payload) is the header's,
   whatever the encrypted body contains *)
Theorem decoded_cid_is_header_cid :
  forall (m : msgfmt) (pre rest : bytes) (cid : Z) (vs : list val) (o : nat),
  length pre = 23%nat -> cid_ok cid ->
  unpack_msg no_keys (MCons (FStruct [PU 4]) m) (pre ++ be_encode 4 cid ++ rest) 23 = Ok (vs, o) ->
  exists tl, vs = VInt cid :: tl.
Proof. exact decoded_cid_is_header_cid_l. Qed.
Print Assumptions decoded_cid_is_header_cid.

(* exit_binding: bytes leave through exit socket cid only because of a non-plaintext cell whose header names
   cid, which is not a relay id there, and whose body is an encryption under THAT socket's session key in the
   forward direction; and only from the previous hop's address unless that hop enabled the socket before. *)
Theorem exit_binding :
  forall (key nonce : Type) (enc : key -> dir -> nonce -> bytes -> bytes) (dec : key -> dir -> bytes -> option bytes)
         (nd : node key) (src : addr) (pkt : bytes) (rnd : Z -> bytes) (ns : nat -> nonce)
         (nd' : node key) (acts : list action) (cid : Z) (data : bytes) (dest : addr),
  aead_authentic enc dec -> length (n_prefix nd) = 22%nat -> bytes_ok pkt ->
  on_packet enc dec nd src pkt rnd ns = Ok (nd', acts) -> In (ExitSendto cid data dest) acts ->
  exists (c : cell) (es : exit_sock key) (k : key) (n : nonce) (m : bytes),
    from_bin pkt = Ok c /\ cl_cid c = cid /\ cl_plain c = false /\
    assoc cid (n_relays nd) = None /\ assoc cid (n_exits nd) = Some es /\ h_keys (es_hop es) = Some k /\
    cl_msg c = enc k FORWARD n m /\
    (es_enabled es = true \/ ip_eqb src (h_addr (es_hop es)) = true).
Proof. exact exit_binding_l. Qed.
Print Assumptions exit_binding.

(* origin_binding: the originator's consumer (on_raw_data / re-injection / other overlays) is only reached by
   a non-plaintext cell whose header id is one of our own circuits, that opened under the keys this node holds
   for that id, and that came from that circuit's first hop - and it is labelled with that id. *)
Theorem origin_binding :
  forall (key nonce : Type) (enc : key -> dir -> nonce -> bytes -> bytes) (dec : key -> dir -> bytes -> option bytes)
         (nd : node key) (src : addr) (pkt : bytes) (rnd : Z -> bytes) (ns : nat -> nonce)
         (nd' : node key) (acts : list action) (a : action),
  length (n_prefix nd) = 22%nat -> bytes_ok pkt ->
  on_packet enc dec nd src pkt rnd ns = Ok (nd', acts) -> In a acts -> is_consumer a = true ->
  exists (c c1 : cell) (ci : circuit key) (h0 : hop key) (origin : addr) (payload : bytes),
    from_bin pkt = Ok c /\ cl_plain c = false /\ assoc (cl_cid c) (n_relays nd) = None /\
    incoming_crypto dec nd c = Ok (Some c1) /\
    assoc (cl_cid c) (n_circuits nd) = Some ci /\ circuit_hop ci = Ok h0 /\ addr_eqb src (h_addr h0) = true /\
    (a = RawData (cl_cid c) origin payload \/ a = Reinject origin payload (cl_cid c) \/ a = NotifyOther origin payload).
Proof.
  intros key nonce enc dec nd src pkt rnd ns nd' acts a Hp Hb H Hin Hk.
  destruct (cell_delivery _ _ _ _ _ _ _ _ _ _ _ a Hp Hb H Hin (consumer_delivers a Hk))
    as (c & c1 & dest & origin & payload & Ef & Hpl & Hr & Ei & D).
  destruct (data_delivery_consumer _ _ _ _ _ _ _ _ D Hk) as (ci & h0 & Hc & Hh & Hs & Hor).
  exists c, c1, ci, h0, origin, payload. auto 9.
Qed.
Print Assumptions origin_binding.

(* not restated here - replies from outside enter only that circuit, with that id: what tunnel_data sends for socket es is one
   cell under es's own id, one BACKWARD layer of es's key, to es's previous hop (C04.backward_intact), and
   tables_ok.ok_exit_id below keeps es_cid equal to the id the socket is filed under. *)

(* create_in_use_refused: a create whose id is live in ANY table of the receiving node (or still has its
   CreatedRequestCache) changes nothing and is not answered. *)
Theorem create_in_use_refused :
  forall (key : Type) (c : cnode key) (src : addr) (cid ident : Z) (npk : option Z) (k : option key)
         (cands : list (Z * peer)),
  in_use (cn_tab c) cid = true \/ has cid (cn_created c) = true ->
  on_create c src cid ident npk k cands = (c, []).
Proof. exact create_in_use_refused_l. Qed.
Print Assumptions create_in_use_refused.

(* and an accepted create only adds one exit socket under an id unused so far *)
Theorem create_only_adds :
  forall (key : Type) (c : cnode key) (src : addr) (cid ident : Z) (npk : option Z) (k : option key)
         (cands : list (Z * peer)) (c' : cnode key) (acts : list cact),
  on_create c src cid ident npk k cands = (c', acts) -> c' <> c ->
  in_use (cn_tab c) cid = false /\ has cid (cn_created c) = false /\
  n_circuits (cn_tab c') = n_circuits (cn_tab c) /\ n_relays (cn_tab c') = n_relays (cn_tab c) /\
  exists pk k0, npk = Some pk /\ k = Some k0 /\
    n_exits (cn_tab c') = upd cid (mkES cid (mkHop pk src (Some k0)) false) (n_exits (cn_tab c)).
Proof.
  intros key c src cid ident npk k cands c' acts H Hne.
  destruct (on_create_cases key c src cid ident npk k cands) as [E | (pk & k0 & -> & -> & Hu & Hc & E)];
    rewrite E in H; injection H as <- <-; [destruct (Hne eq_refl)|].
  repeat split; auto. exists pk, k0. auto.
Qed.
Print Assumptions create_only_adds.

(* destroy_only_adjacent: a destroy whose signature does not verify does nothing; one that verifies for key pk
   touches no relay / exit entry and no cache itself, and schedules removals only for entries whose stored
   neighbour on that circuit has key pk. *)
Theorem destroy_unsigned_is_noop :
  forall (key nonce : Type) (enc : key -> dir -> nonce -> bytes -> bytes) (dec : key -> dir -> bytes -> option bytes)
         (c : cnode key) (pk : Z) (pa : addr) (cid reason : Z),
  cstep enc dec c (ODestroy false pk pa cid reason) = Ok (c, []).
Proof. reflexivity. Qed.
Print Assumptions destroy_unsigned_is_noop.

Theorem destroy_only_adjacent :
  forall (key : Type) (c : cnode key) (pk cid reason : Z) (c' : cnode key) (acts : list cact),
  on_destroy c pk cid reason = Ok (c', acts) -> destroy_post c pk c'.
Proof. exact destroy_only_adjacent_l. Qed.
Print Assumptions destroy_only_adjacent.

(* at a timer tick only entries scheduled for removal disappear *)
Theorem timer_pops_only_scheduled :
  forall (key nonce : Type) (enc : key -> dir -> nonce -> bytes -> bytes) (dec : key -> dir -> bytes -> option bytes)
         (c c' : cnode key) (acts : list cact),
  cstep enc dec c OTimer = Ok (c', acts) ->
  (forall x v, assoc x (n_relays (cn_tab c')) = Some v -> assoc x (n_relays (cn_tab c)) = Some v) /\
  (forall x v, assoc x (n_exits (cn_tab c')) = Some v -> assoc x (n_exits (cn_tab c)) = Some v) /\
  (forall x v, assoc x (n_relays (cn_tab c)) = Some v -> assoc x (n_relays (cn_tab c')) = Some v \/ In (PRelay x) (cn_pending c)) /\
  (forall x v, assoc x (n_exits (cn_tab c)) = Some v -> assoc x (n_exits (cn_tab c')) = Some v \/ In (PExit x) (cn_pending c)).
Proof.
  intros key nonce enc dec c c' acts H. injection H as <- <-. cbn [cn_tab].
  destruct (fold_pop_sub key (cn_pending c) (cn_tab c)) as (F1 & F2 & _).
  destruct (fold_pop_kept key (cn_pending c) (cn_tab c)) as (K1 & K2). auto.
Qed.
Print Assumptions timer_pops_only_scheduled.

(* tables_inv, creation of a relay: created turns the exit socket into a mutually inverse pair of relay
   routes keyed with the exit socket's session keys, towards the peer that created it and the peer extended
   to; the exit socket is scheduled for removal (hand-over window) *)
Theorem created_makes_inverse_pair :
  forall (key : Type) (c : cnode key) (src : addr) (cid ident : Z) (rq : create_cache) (es : exit_sock key),
  assoc ident (cn_create c) = Some rq -> assoc (cr_from rq) (n_exits (cn_tab c)) = Some es ->
  has (cr_from rq) (n_relays (cn_tab c)) = false -> cr_to rq <> cr_from rq ->
  let c' := fst (on_created c src cid ident) in
  exists fw bw,
    assoc (cr_from rq) (n_relays (cn_tab c')) = Some fw /\ assoc (cr_to rq) (n_relays (cn_tab c')) = Some bw /\
    rr_cid fw = cr_to rq /\ rr_cid bw = cr_from rq /\ rr_dir fw = FORWARD /\ rr_dir bw = BACKWARD /\
    h_keys (rr_hop fw) = h_keys (es_hop es) /\ h_keys (rr_hop bw) = h_keys (es_hop es) /\
    h_pk (rr_hop bw) = pr_pk (cr_peer rq) /\ h_pk (rr_hop fw) = pr_pk (cr_to_peer rq) /\
    n_exits (cn_tab c') = n_exits (cn_tab c) /\ n_circuits (cn_tab c') = n_circuits (cn_tab c) /\
    In (PExit (cr_from rq)) (cn_pending c').
Proof.
  intros key c src cid ident rq es Ha He Hnr Hne c'. unfold c', on_created. rewrite Ha, He, Hnr. cbn.
  eexists; eexists. rewrite assoc_upd_same. rewrite assoc_upd_other by exact Hne. rewrite assoc_upd_same.
  repeat split; try reflexivity. apply in_or_app. right. left. reflexivity.
Qed.
Print Assumptions created_makes_inverse_pair.

(* a created - genuine, stale, duplicated or forged - never changes an existing relay entry: the routes of an
   established circuit cannot be redirected by a late answer to an abandoned extend (after the `fix:` commit
   "a stale created rewrites the forward route of an already extended circuit") *)
Theorem created_never_overwrites_relay :
  forall (key : Type) (c : cnode key) (src : addr) (cid ident : Z),
  tables_ok c ->
  forall x r, assoc x (n_relays (cn_tab c)) = Some r ->
              assoc x (n_relays (cn_tab (fst (on_created c src cid ident)))) = Some r.
Proof. exact created_never_overwrites_relay_l. Qed.
Print Assumptions created_never_overwrites_relay.

(* one operation keeps the tables well formed, if the ids it draws are fresh (op_fresh) *)
Theorem tables_inv_step :
  forall (key nonce : Type) (enc : key -> dir -> nonce -> bytes -> bytes) (dec : key -> dir -> bytes -> option bytes)
         (c : cnode key) (o : cop key nonce) (c' : cnode key) (acts : list cact),
  tables_ok c -> op_fresh c o -> cstep enc dec c o = Ok (c', acts) -> tables_ok c'.
Proof. exact cstep_ok. Qed.
Print Assumptions tables_inv_step.

(* tables_inv: over every history of cells (any bytes), creates, createds, extends, destroys (signed or not,
   from anybody), local removals, timer ticks, cache expiries and the node's own circuit business, the tables
   stay well formed: own circuit ids are not relay / exit ids; an id is relay and exit at once only in the
   hand-over window, with the same keys; exit sockets answer under their own id; extends in progress point at
   unused, pairwise distinct ids.  (Random ids are assumed not to collide: run_fresh.) *)
Theorem tables_inv :
  forall (key nonce : Type) (enc : key -> dir -> nonce -> bytes -> bytes) (dec : key -> dir -> bytes -> option bytes)
         (ops : list (cop key nonce)) (c c' : cnode key) (acts : list cact),
  tables_ok c -> run_fresh enc dec c ops -> crun enc dec c ops = Ok (c', acts) -> tables_ok c'.
Proof. exact crun_ok. Qed.
Print Assumptions tables_inv.

(* every entry's keys are the ones agreed when it was created: whatever the operation, a relay entry that
   survives it keeps its session keys, an exit socket keeps its id, previous hop and keys *)
Theorem entries_never_rekeyed :
  forall (key nonce : Type) (enc : key -> dir -> nonce -> bytes -> bytes) (dec : key -> dir -> bytes -> option bytes)
         (c : cnode key) (o : cop key nonce) (c' : cnode key) (acts : list cact),
  tables_ok c -> op_fresh c o -> cstep enc dec c o = Ok (c', acts) -> keys_kept (cn_tab c) (cn_tab c').
Proof.
  intros key nonce enc dec c o c' acts O _ H. apply no_replacement_keys.
  apply (cstep_no_replacement key nonce enc dec c o c' acts O H).
Qed.
Print Assumptions entries_never_rekeyed.

(* Non-vacuity: a relay that is exit for one circuit, relay for another and has an extend in progress. *)
Definition zpfx : bytes := [0; 2] ++ repeat 7 20%nat.
Definition zA := A4 [10; 0; 0; 1] 1000.
Definition zB := A4 [10; 0; 0; 2] 1000.
Definition zC := A4 [10; 0; 0; 3] 1000.
Definition ztab : node Z :=
  mkNode zpfx 8 [1] [1; 2; 3; 4; 5; 6; 7; 19; 20] [] false []
         [(100, mkRR 200 (mkHop 2 zB (Some 11)) FORWARD false 1); (200, mkRR 100 (mkHop 1 zA (Some 11)) BACKWARD false 1)]
         [(300, mkES 300 (mkHop 3 zC (Some 12)) false)].
Definition zc : cnode Z :=
  mkCN ztab [(300, mkCreated (mkPeer 3 zC) [(2, mkPeer 2 zB)])]
       [(7, mkCreate 55 400 300 (mkPeer 3 zC) (mkPeer 2 zB))] [] 100.

Example c05_state_is_well_formed : tables_ok zc.
Proof.
  constructor; cbn.
  - intros x H. discriminate H.
  - intros x r es Hr He. destruct (x =? 300) eqn:E3; [|discriminate He].
    destruct (x =? 100) eqn:E1; [lia|]. destruct (x =? 200) eqn:E2; [lia|]. discriminate Hr.
  - intros x es He. destruct (x =? 300) eqn:E3; [|discriminate He]. injection He as <-. cbn. lia.
  - intros n rq H. destruct (n =? 7); [|discriminate H]. injection H as <-. reflexivity.
  - intros n1 n2 r1 r2 H1 H2 Hn. destruct (n1 =? 7) eqn:E1; [|discriminate H1]. destruct (n2 =? 7) eqn:E2; [|discriminate H2]. lia.
Qed.

(* a create under the live relay id 100, the live exit id 300: refused; under a fresh id: accepted.
   a destroy for relay id 100 signed by the far neighbour (key 2) instead of the near one (key 1): ignored;
   by key 1: both routes scheduled, destroy forwarded; created for the pending extend: inverse pair 300 <-> 400 *)
Example c05_behaviour :
  run_ccase (zc, OCreate zB 100 9 (Some 9) (Some 77) []) = Ok (zc, [])
  /\ run_ccase (zc, OCreate zB 300 9 (Some 9) (Some 77) []) = Ok (zc, [])
  /\ (exists c', run_ccase (zc, OCreate zB 500 9 (Some 9) (Some 77) []) = Ok (c', [CCell zB 500 3 true])
                 /\ has 500 (n_exits (cn_tab c')) = true)
  /\ run_ccase (zc, ODestroy true 2 zB 100 1) = Ok (zc, [])
  /\ run_ccase (zc, ODestroy false 1 zA 100 1) = Ok (zc, [])
  /\ (exists c', run_ccase (zc, ODestroy true 1 zA 100 1) = Ok (c', [CDestroy zB 200 1])
                 /\ cn_pending c' = [PRelay 100; PRelay 200] /\ cn_tab c' = cn_tab zc)
  /\ (exists c', run_ccase (zc, OCreated zB 400 7) = Ok (c', [CCell zC 300 5 false])
                 /\ option_map (@rr_cid Z) (assoc 300 (n_relays (cn_tab c'))) = Some 400
                 /\ option_map (@rr_cid Z) (assoc 400 (n_relays (cn_tab c'))) = Some 300
                 /\ cn_pending c' = [PExit 300]).
Proof.
  vm_compute. repeat split; try reflexivity; eexists; repeat split; reflexivity.
Qed.
