(* Python partiality made explicit: a computation either returns or raises. *)
From Coq Require Import ZArith List Bool.
Import ListNotations.

Inductive exn : Type :=
| IndexError | StructError | KeyError | ValueError | TypeError | UnicodeError
| PackError | OSError | CryptoError | DecodingError | AssertionError | OutOfFuel
| RuntimeError | ZeroDivisionError.

Definition exn_eqb (a b : exn) : bool :=
  match a, b with
  | IndexError, IndexError | StructError, StructError | KeyError, KeyError
  | ValueError, ValueError | TypeError, TypeError | UnicodeError, UnicodeError
  | PackError, PackError | OSError, OSError | CryptoError, CryptoError
  | DecodingError, DecodingError | AssertionError, AssertionError
  | OutOfFuel, OutOfFuel | RuntimeError, RuntimeError
  | ZeroDivisionError, ZeroDivisionError => true
  | _, _ => false
  end.

Lemma exn_eqb_eq a b : exn_eqb a b = true <-> a = b.
Proof. destruct a, b; simpl; split; intro H; try reflexivity; try discriminate. Qed.

Inductive res (A : Type) : Type :=
| Ok (a : A)
| Raise (e : exn).
Arguments Ok {A} a.
Arguments Raise {A} e.

Definition bind {A B} (m : res A) (f : A -> res B) : res B :=
  match m with Ok a => f a | Raise e => Raise e end.
Definition ret {A} (a : A) : res A := Ok a.

Declare Scope res_scope.
Delimit Scope res_scope with res.
Notation "'do' x <- m ; f" := (bind m (fun x => f))
  (at level 200, x pattern, m at level 100, f at level 200) : res_scope.
Open Scope res_scope.

Definition is_ok {A} (m : res A) : bool := match m with Ok _ => true | Raise _ => false end.

Definition res_eqb {A} (eqb : A -> A -> bool) (x y : res A) : bool :=
  match x, y with
  | Ok a, Ok b => eqb a b
  | Raise e, Raise f => exn_eqb e f
  | _, _ => false
  end.

(* Python's `a or b` / `a and b` on booleans, short-circuit, in the monad. *)
Definition por (a : res bool) (b : res bool) : res bool :=
  bind a (fun x => if x then Ok true else b).
Definition pand (a : res bool) (b : res bool) : res bool :=
  bind a (fun x => if x then b else Ok false).
Definition pnot (a : res bool) : res bool := bind a (fun x => Ok (negb x)).

Lemma bind_ok {A B} (m : res A) (f : A -> res B) b :
  bind m f = Ok b -> exists a, m = Ok a /\ f a = Ok b.
Proof. destruct m; simpl; intros H; [eauto | discriminate]. Qed.

Lemma bind_ext {A B} (m : res A) (f g : A -> res B) : (forall a, f a = g a) -> bind m f = bind m g.
Proof. intros H. destruct m; [apply H|reflexivity]. Qed.

Lemma Ok_inj {A} (a b : A) : Ok a = Ok b -> a = b.
Proof. intros H. injection H. auto. Qed.

Lemma Ok_pair_fst {A B} (x : A * B) a b : Ok x = Ok (a, b) -> a = fst x.
Proof. intros H. injection H as ->. reflexivity. Qed.

(* try: ... except <any Exception>: handler *)
Definition try_catch {A} (m : res A) (h : exn -> res A) : res A :=
  match m with Ok a => Ok a | Raise e => h e end.

(* harness plumbing: indices (0-based) of cases whose model result differs from the
   implementation's recorded result *)
Fixpoint mismatches_from {C R} (run : C -> R) (eqb : R -> R -> bool)
         (i : nat) (cs : list (C * R)) : list nat :=
  match cs with
  | [] => []
  | (c, r) :: tl =>
      if eqb (run c) r then mismatches_from run eqb (S i) tl
      else i :: mismatches_from run eqb (S i) tl
  end.
Definition mismatches {C R} (run : C -> R) (eqb : R -> R -> bool) (cs : list (C * R)) : list nat :=
  mismatches_from run eqb 0 cs.
