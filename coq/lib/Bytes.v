(* Byte strings as lists of Z, with Python's indexing and slicing semantics. *)
From Coq Require Import ZArith List Bool Lia.
From IPV8V Require Import lib.PyErr.
Import ListNotations.
Open Scope Z_scope.

Definition bytes := list Z.

Definition is_byte (b : Z) : bool := (0 <=? b) && (b <? 256).
Definition bytes_okb (l : bytes) : bool := forallb is_byte l.
Definition bytes_ok (l : bytes) : Prop := Forall (fun b => 0 <= b < 256) l.

Definition blen (l : bytes) : Z := Z.of_nat (length l).

Fixpoint bytes_eqb (a b : bytes) : bool :=
  match a, b with
  | [], [] => true
  | x :: a', y :: b' => (x =? y) && bytes_eqb a' b'
  | _, _ => false
  end.

Lemma bytes_eqb_eq a b : bytes_eqb a b = true <-> a = b.
Proof.
  revert b; induction a as [|x a IH]; intros [|y b]; simpl; split; intro H;
    try reflexivity; try discriminate.
  - apply andb_true_iff in H as [H1 H2]. apply Z.eqb_eq in H1. apply IH in H2. congruence.
  - inversion H; subst. rewrite Z.eqb_refl. simpl. apply IH. reflexivity.
Qed.

Lemma bytes_eqb_refl a : bytes_eqb a a = true.
Proof. apply bytes_eqb_eq; reflexivity. Qed.

Lemma bytes_eqb_spec a b : reflect (a = b) (bytes_eqb a b).
Proof. apply iff_reflect. symmetry. apply bytes_eqb_eq. Qed.

Lemma bytes_eqb_sym a b : bytes_eqb a b = bytes_eqb b a.
Proof. destruct (bytes_eqb_spec a b), (bytes_eqb_spec b a); congruence. Qed.

Lemma bytes_eqb_neq a b : a <> b -> bytes_eqb a b = false.
Proof. intros H. destruct (bytes_eqb_spec a b); [contradiction|reflexivity]. Qed.

Lemma bytes_okb_ok l : bytes_okb l = true -> bytes_ok l.
Proof.
  unfold bytes_okb, bytes_ok. induction l as [|x l IH]; simpl; intros H; constructor.
  - apply andb_true_iff in H as [H _]. unfold is_byte in H. apply andb_true_iff in H as [H1 H2].
    apply Z.leb_le in H1. apply Z.ltb_lt in H2. lia.
  - apply IH. apply andb_true_iff in H as [_ H]. exact H.
Qed.

Lemma bytes_ok_okb l : bytes_ok l -> bytes_okb l = true.
Proof.
  induction 1 as [|b l Hb _ IH]; [reflexivity|]. cbn [bytes_okb forallb]. fold (bytes_okb l). rewrite IH.
  unfold is_byte. destruct Hb as [H1 H2]. apply Z.leb_le in H1. apply Z.ltb_lt in H2. rewrite H1, H2. reflexivity.
Qed.

Lemma bytes_ok_firstn n l : bytes_ok l -> bytes_ok (firstn n l).
Proof. unfold bytes_ok. intros H. revert n. induction H; intros [|n]; cbn [firstn]; constructor; auto. Qed.

Lemma bytes_ok_skipn n l : bytes_ok l -> bytes_ok (skipn n l).
Proof. unfold bytes_ok. intros H. revert n. induction H; intros [|n]; cbn [skipn]; try constructor; auto. Qed.

(* Python index normalisation for slices: None -> default, negative -> +len, clamp to [0,len] *)
Definition clamp (len i : Z) : Z :=
  let j := if i <? 0 then i + len else i in
  if j <? 0 then 0 else if len <? j then len else j.

(* data[lo:hi]; None bounds are given as option *)
Definition slice (l : bytes) (lo hi : option Z) : bytes :=
  let n := blen l in
  let a := match lo with None => 0 | Some i => clamp n i end in
  let b := match hi with None => n | Some i => clamp n i end in
  firstn (Z.to_nat (b - a)) (skipn (Z.to_nat a) l).

(* data[i] : IndexError when out of range, negative indices count from the end *)
Definition idx (l : bytes) (i : Z) : res Z :=
  let n := blen l in
  let j := if i <? 0 then i + n else i in
  if (j <? 0) || (n <=? j) then Raise IndexError
  else match nth_error l (Z.to_nat j) with Some b => Ok b | None => Raise IndexError end.

Lemma blen_nonneg l : 0 <= blen l.
Proof. unfold blen; lia. Qed.

Lemma blen_app a b : blen (a ++ b) = blen a + blen b.
Proof. unfold blen; rewrite app_length; lia. Qed.

Lemma blen_cons x a : blen (x :: a) = 1 + blen a.
Proof. unfold blen; simpl length; lia. Qed.

Lemma slice_prefix l k : 0 <= k -> slice l None (Some k) = firstn (Z.to_nat k) l.
Proof.
  intros Hk. unfold slice, clamp. simpl skipn.
  destruct (k <? 0) eqn:E1; [lia|]. rewrite E1.
  destruct (blen l <? k) eqn:E2.
  - rewrite Z.sub_0_r. unfold blen in *. rewrite Nat2Z.id.
    rewrite firstn_all. rewrite firstn_all2; [reflexivity|]. lia.
  - rewrite Z.sub_0_r. reflexivity.
Qed.

Lemma clamp_range len i : 0 <= len -> 0 <= clamp len i <= len.
Proof.
  intros H. unfold clamp. cbv zeta.
  destruct (i <? 0); (destruct (_ <? 0) eqn:E1; [lia|]); destruct (len <? _) eqn:E2; lia.
Qed.

Lemma clamp_id len i : 0 <= i <= len -> clamp len i = i.
Proof.
  intros H. unfold clamp. destruct (i <? 0) eqn:E1; [lia|]. rewrite E1. destruct (len <? i) eqn:E2; [lia|]. reflexivity.
Qed.

Lemma clamp_nonneg len i : 0 <= i -> clamp len i = Z.min i len.
Proof.
  intros. unfold clamp. cbv zeta. destruct (i <? 0) eqn:E1; [lia|]. rewrite E1.
  destruct (len <? i) eqn:E2; lia.
Qed.

Lemma clamp_neg len n : 0 < n -> clamp len (- n) = Z.max 0 (len - n).
Proof.
  intros Hn. unfold clamp. cbv zeta.
  destruct (- n <? 0) eqn:E1; [|lia]. destruct (- n + len <? 0) eqn:E2; [lia|]. destruct (len <? - n + len) eqn:E3; lia.
Qed.

(* data[:-n] and data[-n:] for n > 0 *)
Lemma slice_upto_neg d n : 0 < n ->
  slice d None (Some (- n)) = firstn (Z.to_nat (Z.max 0 (blen d - n))) d.
Proof. intros Hn. unfold slice. rewrite clamp_neg by lia. rewrite Z.sub_0_r. reflexivity. Qed.

Lemma slice_from_neg d n : 0 < n ->
  slice d (Some (- n)) None = skipn (Z.to_nat (Z.max 0 (blen d - n))) d.
Proof.
  intros Hn. unfold slice. rewrite clamp_neg by lia.
  apply firstn_all2. rewrite skipn_length. unfold blen. lia.
Qed.

Lemma slice_skipn l k : 0 <= k -> slice l (Some k) None = skipn (Z.to_nat k) l.
Proof.
  intros Hk. unfold slice. rewrite clamp_nonneg by lia.
  rewrite firstn_all2 by (rewrite skipn_length; unfold blen; lia).
  destruct (Z.min_spec k (blen l)) as [[_ ->]|[H ->]]; [reflexivity|].
  unfold blen in *. rewrite !skipn_all2 by lia. reflexivity.
Qed.

(* a slice up to any bound and the slice from it make the whole (Python's data[:-0] is empty and data[-0:] is everything) *)
Lemma slice_partition d i : slice d None (Some i) ++ slice d (Some i) None = d.
Proof.
  unfold slice. pose proof (clamp_range (blen d) i (blen_nonneg d)) as H. set (c := clamp (blen d) i) in *.
  rewrite Z.sub_0_r. change (skipn (Z.to_nat 0) d) with d.
  rewrite (firstn_all2 (skipn _ d)) by (rewrite skipn_length; unfold blen in *; lia). apply firstn_skipn.
Qed.

Lemma bytes_ok_in d b : bytes_ok d -> In b d -> 0 <= b < 256.
Proof. unfold bytes_ok. rewrite Forall_forall. auto. Qed.

Lemma idx_in_range (d : bytes) k : 0 <= k < blen d -> exists b, idx d k = Ok b /\ In b d.
Proof.
  intros H. unfold idx. destruct (k <? 0) eqn:E1; [lia|]. rewrite E1.
  destruct (blen d <=? k) eqn:E2; [lia|]. cbn [orb].
  destruct (nth_error d (Z.to_nat k)) as [b|] eqn:E.
  - exists b. split; [reflexivity|]. eapply nth_error_In; exact E.
  - apply nth_error_None in E. unfold blen in H. lia.
Qed.

Lemma idx_at_len (p : bytes) x rest : idx (p ++ x :: rest) (blen p) = Ok x.
Proof.
  unfold idx. cbv zeta. pose proof (blen_nonneg p). rewrite blen_app, blen_cons. pose proof (blen_nonneg rest).
  destruct (blen p <? 0) eqn:E1; [lia|]. rewrite E1. destruct (blen p + (1 + blen rest) <=? blen p) eqn:E2; [lia|]. cbn [orb].
  unfold blen. rewrite Nat2Z.id, nth_error_app2 by lia. rewrite Nat.sub_diag. reflexivity.
Qed.
