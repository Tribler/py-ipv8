(* Facts about plain lists (NoDup, find, filter, firstn/skipn) that several areas share. *)
From Coq Require Import ZArith List Bool Arith Lia.
Import ListNotations.

Lemma NoDup_snoc {A} (l : list A) x : NoDup l -> ~ In x l -> NoDup (l ++ [x]).
Proof. intros N H. apply (NoDup_Add (Add_app x l [])). rewrite app_nil_r. auto. Qed.

(* a function whose image of l has no repetition is injective on l *)
Lemma NoDup_map_inj {A B} (f : A -> B) l x y :
  NoDup (map f l) -> In x l -> In y l -> f x = f y -> x = y.
Proof.
  induction l as [|z l IH]; simpl; intros N Hx Hy E; [contradiction|].
  inversion N as [|? ? Hn N']; subst.
  destruct Hx as [Hx|Hx], Hy as [Hy|Hy]; subst; auto.
  - exfalso. apply Hn. rewrite E. apply in_map. assumption.
  - exfalso. apply Hn. rewrite <- E. apply in_map. assumption.
Qed.

Lemma NoDup_map_filter {A B} (f : A -> B) (p : A -> bool) l :
  NoDup (map f l) -> NoDup (map f (filter p l)).
Proof.
  induction l as [|x l IH]; simpl; intros N; [constructor|].
  inversion N as [|? ? Hn N']; subst.
  destruct (p x); simpl; auto.
  constructor; auto. intros H. apply Hn.
  apply in_map_iff in H as [y [E Hy]]. apply filter_In in Hy as [Hy _].
  rewrite <- E. apply in_map. assumption.
Qed.

Lemma filter_len_le {A} (p : A -> bool) l : (length (filter p l) <= length l)%nat.
Proof. induction l as [|x l IH]; simpl; [lia|]. destruct (p x); simpl; lia. Qed.

Lemma find_app {A} (p : A -> bool) a b :
  find p (a ++ b) = match find p a with Some x => Some x | None => find p b end.
Proof. induction a as [|x a IH]; cbn [app find]; [reflexivity|]. destruct (p x); auto. Qed.

Lemma find_ext {A} (p q : A -> bool) l : (forall x, p x = q x) -> find p l = find q l.
Proof. intros H. induction l as [|x l IH]; [reflexivity|]. cbn. rewrite H, IH. reflexivity. Qed.

Lemma find_map {A B} (f : B -> bool) (g : A -> B) l :
  find f (map g l) = option_map g (find (fun x => f (g x)) l).
Proof. induction l as [|x l IH]; simpl; [reflexivity|]. destruct (f (g x)); [reflexivity|exact IH]. Qed.

(* the converse of the standard library's find_none *)
Lemma find_none_intro {A} (p : A -> bool) l : (forall x, In x l -> p x = false) -> find p l = None.
Proof.
  induction l as [|x l IH]; cbn [find]; intros H; [reflexivity|].
  rewrite (H x (or_introl eq_refl)). apply IH. intros y Hy. apply H. right. exact Hy.
Qed.

Lemma existsb_map {A B} (p : B -> bool) (f : A -> B) l : existsb p (map f l) = existsb (fun x => p (f x)) l.
Proof. induction l as [|x l IH]; cbn; [reflexivity|]. rewrite IH. reflexivity. Qed.

Lemma existsb_ext {A} (p q : A -> bool) l : (forall x, p x = q x) -> existsb p l = existsb q l.
Proof. intros H. induction l as [|x l IH]; cbn; [reflexivity|]. rewrite H, IH. reflexivity. Qed.

Lemma existsb_eqb_In {A} (eqb : A -> A -> bool) (eqb_eq : forall a b, eqb a b = true <-> a = b) x l :
  existsb (eqb x) l = true <-> In x l.
Proof.
  rewrite existsb_exists. split.
  - intros (y & Hy & E). apply eqb_eq in E. subst. assumption.
  - intros H. exists x. split; [assumption|apply eqb_eq; reflexivity].
Qed.

Lemma existsb_eqb_in x l : existsb (Z.eqb x) l = true <-> In x l.
Proof. exact (existsb_eqb_In Z.eqb Z.eqb_eq x l). Qed.

Lemma skipn_app_exact {A} (a b : list A) : skipn (length a) (a ++ b) = b.
Proof. induction a as [|x a IH]; simpl; auto. Qed.

Lemma firstn_app_exact {A} (a b : list A) : firstn (length a) (a ++ b) = a.
Proof. induction a as [|x a IH]; simpl; [destruct b; reflexivity|]. rewrite IH. reflexivity. Qed.

Lemma skipn_add {A} a b (l : list A) : skipn a (skipn b l) = skipn (b + a) l.
Proof.
  revert l. induction b as [|b IH]; intros l; [reflexivity|].
  destruct l; simpl; [destruct a; reflexivity|apply IH].
Qed.

Lemma in_firstn {A} k (l : list A) y : In y (firstn k l) -> In y l.
Proof. intros H. rewrite <- (firstn_skipn k l). apply in_or_app. auto. Qed.

(* len(xs) compared through Z.of_nat *)
Lemma ltb_of_nat a b : (Z.of_nat a <? Z.of_nat b)%Z = (a <? b)%nat.
Proof.
  destruct (a <? b)%nat eqn:E.
  - apply Nat.ltb_lt in E. apply Z.ltb_lt. lia.
  - apply Nat.ltb_ge in E. apply Z.ltb_ge. lia.
Qed.

Lemma gtb_of_nat a b : (Z.of_nat a >? Z.of_nat b)%Z = (b <? a)%nat.
Proof. rewrite Z.gtb_ltb. apply ltb_of_nat. Qed.

Lemma geb_of_nat a b : (Z.of_nat a >=? Z.of_nat b)%Z = (b <=? a)%nat.
Proof.
  rewrite Z.geb_leb. destruct (b <=? a)%nat eqn:E.
  - apply Nat.leb_le in E. apply Z.leb_le. lia.
  - apply Nat.leb_gt in E. apply Z.leb_gt. lia.
Qed.
