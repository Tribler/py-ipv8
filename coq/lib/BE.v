(* Big-endian integer coding and struct.unpack_from / struct.pack for unsigned fields. *)
From Coq Require Import ZArith List Bool Lia.
From IPV8V Require Import lib.PyErr lib.Bytes.
Import ListNotations.
Open Scope Z_scope.

Fixpoint be_decode_acc (acc : Z) (l : bytes) : Z :=
  match l with [] => acc | b :: tl => be_decode_acc (acc * 256 + b) tl end.
Definition be_decode (l : bytes) : Z := be_decode_acc 0 l.

(* w bytes, most significant first *)
Fixpoint be_encode (w : nat) (v : Z) : bytes :=
  match w with
  | O => []
  | S w' => be_encode w' (v / 256) ++ [v mod 256]
  end.

Lemma be_encode_length w v : length (be_encode w v) = w.
Proof. revert v; induction w as [|w IH]; intros v; simpl; [reflexivity|].
  rewrite app_length, IH; simpl; lia. Qed.

Lemma be_decode_acc_app acc a b :
  be_decode_acc acc (a ++ b) = be_decode_acc (be_decode_acc acc a) b.
Proof. revert acc; induction a as [|x a IH]; intros acc; simpl; [reflexivity|]. apply IH. Qed.

Lemma be_decode_acc_encode w : forall v acc, 0 <= v < 256 ^ (Z.of_nat w) ->
  be_decode_acc acc (be_encode w v) = acc * 256 ^ (Z.of_nat w) + v.
Proof.
  induction w as [|w IH]; intros v acc Hv.
  - simpl in *. lia.
  - cbn [be_encode]. rewrite be_decode_acc_app. cbn [be_decode_acc].
    rewrite Nat2Z.inj_succ, Z.pow_succ_r in * by lia.
    rewrite IH.
    + pose proof (Z.div_mod v 256 ltac:(lia)). lia.
    + split; [apply Z.div_pos; lia|]. apply Z.div_lt_upper_bound; lia.
Qed.

Lemma be_decode_encode w v : 0 <= v < 256 ^ (Z.of_nat w) -> be_decode (be_encode w v) = v.
Proof. intros H. unfold be_decode. rewrite be_decode_acc_encode by assumption. lia. Qed.

Lemma be_encode_bytes_ok w : forall v, bytes_ok (be_encode w v).
Proof.
  induction w as [|w IH]; intros v; simpl; [constructor|].
  apply Forall_app; split; [apply IH|]. constructor; [|constructor].
  apply Z.mod_pos_bound; lia.
Qed.

Lemma blen_be_encode w v : blen (be_encode w v) = Z.of_nat w.
Proof. unfold blen. rewrite be_encode_length. reflexivity. Qed.

Lemma be_decode_acc_range : forall (l : bytes) acc, bytes_ok l -> 0 <= acc ->
  acc * 256 ^ Z.of_nat (length l) <= be_decode_acc acc l < (acc + 1) * 256 ^ Z.of_nat (length l).
Proof.
  induction l as [|b tl IH]; intros acc Hb Ha; cbn [be_decode_acc length].
  - simpl. lia.
  - inversion Hb as [|? ? Hb1 Hb2]; subst. specialize (IH (acc * 256 + b) Hb2 ltac:(lia)).
    rewrite Nat2Z.inj_succ, Z.pow_succ_r by lia. nia.
Qed.

Lemma be_decode_bound l : bytes_ok l -> 0 <= be_decode l < 256 ^ Z.of_nat (length l).
Proof. intros H. pose proof (be_decode_acc_range l 0 H ltac:(lia)). unfold be_decode. lia. Qed.

(* struct.unpack_from("!<w-byte unsigned>", data, off)[0] *)
Definition unpack_u (w : nat) (data : bytes) (off : Z) : res Z :=
  if (off <? 0) || (blen data <? off + Z.of_nat w) then Raise StructError
  else Ok (be_decode (firstn w (skipn (Z.to_nat off) data))).

Lemma unpack_u_range w d off v : bytes_ok d -> unpack_u w d off = Ok v -> 0 <= v < 256 ^ Z.of_nat w.
Proof.
  intros Hd. unfold unpack_u. destruct ((off <? 0) || (blen d <? off + Z.of_nat w)) eqn:E; [discriminate|].
  intros H. inversion H; subst. clear H.
  pose proof (be_decode_bound (firstn w (skipn (Z.to_nat off) d)) (bytes_ok_firstn _ _ (bytes_ok_skipn _ _ Hd))) as Hb.
  rewrite firstn_length_le in Hb; [exact Hb|]. rewrite skipn_length. unfold blen in E.
  apply orb_false_iff in E as [E0 E]. apply Z.ltb_ge in E0, E. lia.
Qed.

Lemma unpack_u_ok w d off : 0 <= off -> off + Z.of_nat w <= blen d -> exists v, unpack_u w d off = Ok v.
Proof.
  intros H1 H2. unfold unpack_u. destruct (off <? 0) eqn:E1; [lia|].
  destruct (blen d <? off + Z.of_nat w) eqn:E2; [lia|]. cbn [orb]. eauto.
Qed.

(* signed reading of a w-byte big-endian field *)
Definition to_signed (w : nat) (v : Z) : Z :=
  if v <? 256 ^ (Z.of_nat w) / 2 then v else v - 256 ^ (Z.of_nat w).
Definition of_signed (w : nat) (v : Z) : Z :=
  if v <? 0 then v + 256 ^ (Z.of_nat w) else v.

Lemma to_of_signed w v : (0 < w)%nat ->
  - (256 ^ Z.of_nat w / 2) <= v < 256 ^ Z.of_nat w / 2 -> to_signed w (of_signed w v) = v.
Proof.
  intros Hw Hv. unfold to_signed, of_signed.
  assert (Hp : 256 ^ Z.of_nat w = 2 * (256 ^ Z.of_nat w / 2)).
  { destruct w as [|w]; [lia|]. rewrite Nat2Z.inj_succ, Z.pow_succ_r by lia.
    replace (256 * 256 ^ Z.of_nat w) with ((128 * 256 ^ Z.of_nat w) * 2) by lia.
    rewrite Z.div_mul by lia. lia. }
  destruct (v <? 0) eqn:E1.
  - destruct (v + 256 ^ Z.of_nat w <? 256 ^ Z.of_nat w / 2) eqn:E2; lia.
  - destruct (v <? 256 ^ Z.of_nat w / 2) eqn:E2; lia.
Qed.
